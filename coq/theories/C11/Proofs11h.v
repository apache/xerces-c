(** Category escapes: the library's tokens for \p{..}, \w and \d are exactly the sets the Spec defines from the
    category map (Gen/GenC11Cat.v, regenerated on every run from the source and the built library). *)
From Coq Require Import Arith PeanoNat ZArith ZifyBool ZifyN ZifyNat Lia.
From XV Require Import C11.Spec11 C11.ModelRange11 C11.Proofs11b Gen.GenC11 Gen.GenC11Cat.
Local Open Scope N_scope.

(** the ranges a predicate on categories selects *)
Definition runs_of (p : N -> bool) (runs : list (N * N * N)) : list rng := map run_rng (filter (fun r => p (run_cat r)) runs).

Definition supp_planes : list rng := [(0x10000, 0x10FFFF)].

Fixpoint rng_list_eqb (a b : list rng) : bool :=
  match a, b with
  | [], [] => true
  | (x1, y1) :: a', (x2, y2) :: b' => (x1 =? x2) && (y1 =? y2) && rng_list_eqb a' b'
  | _, _ => false
  end.

Lemma rng_list_eqb_eq : forall a b, rng_list_eqb a b = true -> a = b.
Proof.
  induction a as [|[x1 y1] a IH]; intros [|[x2 y2] b] H; cbn in H; try discriminate; [reflexivity |].
  apply andb_true_iff in H. destruct H as [H H3]. apply andb_true_iff in H. destruct H as [H1 H2].
  apply N.eqb_eq in H1. apply N.eqb_eq in H2. subst. f_equal. apply IH. exact H3.
Qed.

(** the run-length map tiles 0..0xFFFF *)
Fixpoint rle_chain (next : N) (l : list (N * N * N)) : bool :=
  match l with
  | [] => next =? 0x10000
  | (a, b, _) :: r => (a =? next) && (a <=? b) && rle_chain (b + 1) r
  end.

(** one token: [extra] = true for the token that also receives the supplementary planes (Cn) *)
Definition tok_check (runs : list (N * N * N)) (p : N -> bool) (extra : bool) (tok : list rng) : bool :=
  rng_list_eqb tok (compact_list (runs_of p runs ++ (if extra then supp_planes else []))).

(** the runs of a chain, and so any selection of them, are sorted by start *)
Lemma chain_sel_sorted : forall p ext l next, lo_sorted 0x10000 ext = true -> rle_chain next l = true ->
  lo_sorted next (runs_of p l ++ ext) = true.
Proof.
  intros p ext. induction l as [|[[a b] k] r IH]; intros next He H.
  - cbn in H. apply N.eqb_eq in H. subst next. exact He.
  - cbn [rle_chain] in H. apply andb_true_iff in H. destruct H as [H H3]. specialize (IH (b + 1) He H3).
    unfold runs_of in *. cbn [filter run_cat snd]. destruct (p k); cbn [map app run_rng fst snd lo_sorted].
    + rewrite (lo_sorted_le _ (b + 1) a) by (exact IH || lia). clear - H. lia.
    + apply (lo_sorted_le _ (b + 1) next); [clear - H; lia | exact IH].
Qed.

Lemma rmem_runs_of : forall p runs c,
  rmem (runs_of p runs) c = existsb (fun r => in_pair c (run_rng r) && p (run_cat r)) runs.
Proof.
  intros p runs c. unfold runs_of. induction runs as [|r l IH]; [reflexivity |]. cbn [filter existsb].
  destruct (p (run_cat r)) eqn:E.
  - cbn [map]. rewrite rmem_cons, IH, andb_true_r. reflexivity.
  - rewrite IH, andb_false_r. reflexivity.
Qed.

Lemma rmem_supp_planes : forall c, c < 0x10000 -> rmem supp_planes c = false.
Proof. intros c Hc. unfold supp_planes, rmem, existsb, in_pair. cbn [fst snd]. lia. Qed.

Lemma tok_check_spec : forall runs p extra tok c, rle_chain 0 runs = true -> tok_check runs p extra tok = true -> c < 0x10000 ->
  rmem tok c = existsb (fun r => in_pair c (run_rng r) && p (run_cat r)) runs.
Proof.
  intros runs p extra tok c Hch H Hc. apply rng_list_eqb_eq in H. subst tok.
  assert (Hs : lo_sorted 0 (runs_of p runs ++ (if extra then supp_planes else [])) = true)
    by (apply chain_sel_sorted; [destruct extra; reflexivity | exact Hch]).
  destruct (compact_list_spec _ c Hs) as [Hm _]. rewrite Hm, rmem_app, rmem_runs_of.
  destruct extra.
  - rewrite (rmem_supp_planes c Hc), orb_false_r. reflexivity.
  - change (rmem [] c) with false. rewrite orb_false_r. reflexivity.
Qed.

(** a code unit lies in exactly one run, so "some run containing c has a category satisfying p" is "p (cat_of c)" *)
Lemma chain_cat_of : forall p l next c, rle_chain next l = true -> c < 0x10000 ->
  existsb (fun r => in_pair c (run_rng r) && p (run_cat r)) l = (next <=? c) && p (cat_of l c).
Proof.
  intros p. induction l as [|[[a b] k] r IH]; intros next c H Hc.
  - cbn in H. cbn [existsb]. lia.
  - cbn [rle_chain] in H. apply andb_true_iff in H. destruct H as [H H3]. unfold cat_of. cbn [existsb find].
    change ((fst (run_rng (a, b, k)) <=? c) && (c <=? snd (run_rng (a, b, k)))) with (in_pair c (run_rng (a, b, k))).
    rewrite (IH (b + 1) c H3 Hc).
    destruct (in_pair c (run_rng (a, b, k))) eqn:E; unfold in_pair, run_rng in E; cbn [fst snd run_cat andb orb] in *;
      fold (cat_of r c); lia.
Qed.

Lemma tok_check_cat : forall runs p extra tok c, rle_chain 0 runs = true -> tok_check runs p extra tok = true ->
  c < 0x10000 -> rmem tok c = p (cat_of runs c).
Proof.
  intros runs p extra tok c Hch H Hc. rewrite (tok_check_spec runs p extra tok c Hch H Hc).
  rewrite (chain_cat_of p runs 0 c Hch Hc). destruct c; reflexivity.   (* 0 <=? c computes once c is 0 or positive *)
Qed.

(** [spec_cat_pred idx], staged: what depends on the escape alone is evaluated once, before the runs are visited *)
Definition cat_pred (idx : N) : N -> bool :=
  if idx <? 30 then N.eqb idx else let m := nth (N.to_nat (idx - 30)) major_names 0 in fun k => major_of_cat k =? m.

Lemma cat_pred_spec : forall idx k, cat_pred idx k = spec_cat_pred idx k.
Proof. intros idx k. unfold cat_pred, spec_cat_pred. destruct (idx <? 30); [apply N.eqb_sym | reflexivity]. Qed.

Definition all_tok_checks (runs : list (N * N * N)) (toks : list (list rng)) : bool :=
  forallb (fun k => tok_check runs (cat_pred k) (k =? 0) (nth (N.to_nat k) toks [])) (nrange 37).

Lemma all_tok_checks_spec : forall runs toks, rle_chain 0 runs = true -> all_tok_checks runs toks = true ->
  forall k c, k < 37 -> c < 0x10000 -> rmem (nth (N.to_nat k) toks []) c = spec_cat_mem (cat_of runs) k c.
Proof.
  intros runs toks Hch Hall k c Hk Hc. unfold all_tok_checks in Hall. rewrite forallb_forall in Hall.
  rewrite (tok_check_cat runs (cat_pred k) _ _ c Hch (Hall k (nrange_in 37 k Hk)) Hc). apply cat_pred_spec.
Qed.

Lemma cat_rle_chain : rle_chain 0 cat_rle = true.
Proof. vm_compute. reflexivity. Qed.

Theorem category_tokens_spec : forall k c, k < 37 -> c < 0x10000 ->
  rmem (nth (N.to_nat k) cat_toks []) c = spec_cat_mem (cat_of cat_rle) k c.
Proof. apply (all_tok_checks_spec cat_rle cat_toks cat_rle_chain). vm_compute. reflexivity. Qed.

Theorem word_spec : forall c, c < 0x10000 -> rmem named_lc_w c = spec_word_pred (cat_of cat_rle c).
Proof. intros c. apply (tok_check_cat cat_rle spec_word_pred true named_lc_w c cat_rle_chain). vm_compute. reflexivity. Qed.

Theorem digit_spec : forall c, c < 0x10000 -> rmem named_lc_d c = spec_digit_pred (cat_of cat_rle c).
Proof. intros c. apply (tok_check_cat cat_rle spec_digit_pred false named_lc_d c cat_rle_chain). vm_compute. reflexivity. Qed.

(** names and the category -> one-letter class mapping read from the source are the ones of the Spec *)
Fixpoint names_eqb (a b : list (list N)) : bool :=
  match a, b with
  | [], [] => true
  | x :: a', y :: b' => (if list_eq_dec N.eq_dec x y then true else false) && names_eqb a' b'
  | _, _ => false
  end.
Definition names_check : bool := names_eqb cat_names (std_cat_names ++ map (fun c => [c]) major_names).
Definition letter_check : bool :=
  forallb (fun k => match nth (N.to_nat (nth (N.to_nat k) cat_unicategory 0)) cat_names [] with
                    | [c] => c =? major_of_cat k
                    | _ => false
                    end) (nrange 30).
