(** Range algebra of RangeToken, part 1: membership [rmem] under sortRanges, mergeRanges, compactRanges, the repaired addRange and
    RangeToken::match; fElemCount <= fMaxCount for addRange and mergeRanges. *)
From Coq Require Import Arith PeanoNat ZArith ZifyBool ZifyN ZifyNat Lia.
From XV Require Import C11.ModelRange11.
Local Open Scope N_scope.

Lemma rmem_cons : forall x l c, rmem (x :: l) c = in_pair c x || rmem l c.
Proof. reflexivity. Qed.

Lemma in_pair_eq : forall c lo hi, in_pair c (lo, hi) = (lo <=? c) && (c <=? hi).
Proof. reflexivity. Qed.

Lemma rmem_app : forall a b c, rmem (a ++ b) c = rmem a c || rmem b c.
Proof. intros a b c. unfold rmem. apply existsb_app. Qed.

Lemma rmem_filter_lo : forall n l c, c < n -> rmem (filter (fun p => fst p <? n) l) c = rmem l c.
Proof.
  intros n l c Hc. induction l as [|x l IH]; [reflexivity |]. cbn [filter]. rewrite rmem_cons, <- IH.
  destruct (fst x <? n) eqn:E; [reflexivity |]. unfold in_pair. assert (F : (fst x <=? c) = false) by lia. rewrite F. reflexivity.
Qed.

Lemma rmem_rinsert : forall x l c, rmem (rinsert x l) c = in_pair c x || rmem l c.
Proof.
  intros x l c. induction l as [|y l IH]; cbn [rinsert]; [reflexivity |].
  destruct (rlt y x); rewrite ?rmem_cons; [rewrite IH |]; destruct (in_pair c x), (in_pair c y), (rmem l c); reflexivity.
Qed.

Lemma rmem_rsort : forall l c, rmem (rsort l) c = rmem l c.
Proof.
  intros l c. induction l as [|x l IH]; [reflexivity |]. cbn [rsort]. rewrite rmem_rinsert, rmem_cons, IH. reflexivity.
Qed.

Lemma rle_total : forall a b, rle a b = false -> rle b a = true.
Proof.
  intros [a1 a2] [b1 b2]. unfold rle, rlt. cbn [fst snd]. lia.
Qed.

Lemma sorted_rinsert : forall x l, sorted_ok l = true -> sorted_ok (rinsert x l) = true.
Proof.
  intros x l. induction l as [|y l IH]; intros H; [reflexivity |]. cbn [rinsert].
  destruct (rlt y x) eqn:E.
  - destruct l as [|z l].
    + cbn. unfold rle. destruct x, y. unfold rlt in *. cbn [fst snd] in *. clear - E. lia.
    + cbn [sorted_ok] in H. apply andb_true_iff in H. destruct H as [H1 H2]. specialize (IH H2).
      cbn [rinsert] in *. destruct (rlt z x) eqn:E2.
      * cbn [sorted_ok]. rewrite H1. exact IH.
      * cbn [sorted_ok] in *. rewrite IH. rewrite andb_true_r. unfold rle. destruct x, y. unfold rlt in *. cbn [fst snd] in *. clear - E. lia.
  - change (sorted_ok (x :: y :: l)) with (rle x y && sorted_ok (y :: l)). rewrite H, andb_true_r. unfold rle. rewrite E. reflexivity.
Qed.

Lemma sorted_rsort : forall l, sorted_ok (rsort l) = true.
Proof. induction l as [|x l IH]; [reflexivity |]. cbn [rsort]. apply sorted_rinsert. exact IH. Qed.

Lemma length_rinsert : forall x l, length (rinsert x l) = S (length l).
Proof.
  intros x l. induction l as [|y l IH]; [reflexivity |]. cbn [rinsert]. destruct (rlt y x); cbn [length]; [rewrite IH |]; reflexivity.
Qed.

Lemma length_rsort : forall l, length (rsort l) = length l.
Proof. induction l as [|x l IH]; [reflexivity |]. cbn [rsort length]. rewrite length_rinsert, IH. reflexivity. Qed.

Lemma sortRanges_cases : forall t, ((srt t = true \/ alloc t = false) /\ sortRanges t = t) \/
  (srt t = false /\ alloc t = true /\ sortRanges t = mkR (rsort (rs t)) true (cmpd t) (maxc t) true).
Proof. intros t. unfold sortRanges. destruct (srt t); [left; auto |]. destruct (alloc t); [right | left]; auto. Qed.

Lemma sortRanges_id : forall t, (alloc t = true -> srt t = true) -> sortRanges t = t.
Proof. intros t H. unfold sortRanges. destruct (alloc t); [rewrite (H eq_refl) | rewrite orb_true_r]; reflexivity. Qed.

Lemma sortRanges_same : forall t, alloc (sortRanges t) = alloc t /\ maxc (sortRanges t) = maxc t /\
  cmpd (sortRanges t) = cmpd t /\ length (rs (sortRanges t)) = length (rs t).
Proof. intros t. destruct (sortRanges_cases t) as [[_ ->] | [_ [A ->]]]; cbn [alloc maxc cmpd rs]; rewrite ?length_rsort; auto. Qed.

Lemma rmem_sortRanges : forall t c, rmem (rs (sortRanges t)) c = rmem (rs t) c.
Proof. intros t c. destruct (sortRanges_cases t) as [[_ ->] | [_ [_ ->]]]; [reflexivity | apply rmem_rsort]. Qed.

Lemma rmem_merge : forall a b c, rmem (merge_go a b) c = rmem a c || rmem b c.
Proof.
  induction a as [|x a IHa]; intros b c.
  - reflexivity.
  - induction b as [|y b IHb].
    + cbn. rewrite orb_false_r. reflexivity.
    + cbn [merge_go]. destruct (rlt y x).
      * rewrite rmem_cons. cbn [merge_go] in IHb. rewrite IHb. rewrite !rmem_cons.
        destruct (in_pair c y), (in_pair c x), (rmem a c), (rmem b c); reflexivity.
      * rewrite rmem_cons, IHa, !rmem_cons.
        destruct (in_pair c y), (in_pair c x), (rmem a c), (rmem b c); reflexivity.
Qed.

Lemma length_merge : forall a b, length (merge_go a b) = (length a + length b)%nat.
Proof.
  induction a as [|x a IHa]; intros b; [reflexivity |].
  induction b as [|y b IHb]; [cbn; lia |].
  cbn [merge_go]. destruct (rlt y x).
  - cbn [length]. cbn [merge_go] in IHb. rewrite IHb. cbn. lia.
  - cbn [length]. rewrite IHa. cbn. lia.
Qed.

(** ** compactRanges: on a list sorted by start whose pairs are well-formed *)
Fixpoint lo_sorted (prev : N) (l : list rng) : bool :=
  match l with [] => true | (lo, hi) :: r => (prev <=? lo) && (lo <=? hi) && lo_sorted lo r end.

Lemma lo_sorted_cons : forall p lo hi r, lo_sorted p ((lo, hi) :: r) = true <-> p <= lo /\ lo <= hi /\ lo_sorted lo r = true.
Proof. intros p lo hi r. cbn [lo_sorted]. rewrite !andb_true_iff, !N.leb_le. tauto. Qed.

Lemma lo_sorted_le : forall l p q, q <= p -> lo_sorted p l = true -> lo_sorted q l = true.
Proof. intros [|[lo hi] r] p q Hq H; [reflexivity |]. cbn [lo_sorted] in *. lia. Qed.

Lemma lo_sorted_rinsert : forall x l p, lo_sorted p l = true -> p <= fst x -> fst x <= snd x -> lo_sorted p (rinsert x l) = true.
Proof.
  intros [xl xh] l. cbn [fst snd]. induction l as [|[yl yh] l IH]; intros p H Hp Hx; cbn [rinsert].
  - cbn. lia.
  - cbn [lo_sorted] in H. apply andb_true_iff in H. destruct H as [H1 H2]. unfold rlt. cbn [fst snd].
    destruct ((yl <? xl) || (yl =? xl) && (yh <? xh)) eqn:E; cbn [lo_sorted].
    + rewrite (IH yl H2) by lia. lia.
    + rewrite H2. lia.
Qed.

Lemma lo_sorted_rsort : forall l, pairs_ok l = true -> lo_sorted 0 (rsort l) = true.
Proof.
  induction l as [|x l IH]; intros H; [reflexivity |]. cbn [pairs_ok forallb] in H. apply andb_true_iff in H.
  destruct H as [Hx Hl]. cbn [rsort]. apply lo_sorted_rinsert; [exact (IH Hl) | apply N.le_0_l | lia].
Qed.

Lemma compact_go_spec : forall r blo bhi, blo <= bhi -> lo_sorted blo r = true ->
  (forall c, rmem (compact_go blo bhi r) c = in_pair c (blo, bhi) || rmem r c) /\
  compact_ok (compact_go blo bhi r) = true /\ exists hi' r', compact_go blo bhi r = (blo, hi') :: r'.
Proof.
  induction r as [|[s e] r IH]; intros blo bhi Hb Hs; cbn [compact_go].
  - split; [intros c; cbn; rewrite orb_false_r; reflexivity |]. split; [cbn; lia | eauto].
  - apply lo_sorted_cons in Hs. destruct Hs as [H1 [H2 Hr]]. pose proof (lo_sorted_le r s blo H1 Hr) as Hr'.
    destruct (bhi + 1 <? s) eqn:E1; [| destruct ((bhi + 1 =? s) || (bhi <? e)) eqn:E2].
    + destruct (IH s e H2 Hr) as [Im [Iok [hi' [r' Eh]]]].
      split; [intros c; rewrite !rmem_cons, Im; reflexivity |]. split; [| eauto].
      rewrite Eh in *. cbn [compact_ok] in *. clear - Hb E1 Iok. lia.
    + destruct (IH blo e (N.le_trans _ _ _ H1 H2) Hr') as [Im Iok]. split; [| exact Iok].
      intros c. rewrite Im, rmem_cons. rewrite ?in_pair_eq. clear - Hb H1 H2 E1 E2. lia.
    + destruct (IH blo bhi Hb Hr') as [Im Iok]. split; [| exact Iok].
      intros c. rewrite Im, rmem_cons. rewrite ?in_pair_eq. clear - Hb H1 H2 E1 E2. lia.
Qed.

Theorem compact_list_spec : forall l c, lo_sorted 0 l = true ->
  rmem (compact_list l) c = rmem l c /\ compact_ok (compact_list l) = true.
Proof.
  intros [|[lo hi] r] c H; [split; reflexivity |]. apply lo_sorted_cons in H. destruct H as [_ [H Hr]]. cbn [compact_list].
  destruct (compact_go_spec r lo hi H Hr) as [Im [Iok _]]. split; [apply Im | exact Iok].
Qed.

Lemma length_compact_go : forall r blo bhi, (length (compact_go blo bhi r) <= S (length r))%nat.
Proof.
  induction r as [|[s e] r IH]; intros blo bhi; cbn [compact_go length]; [lia |].
  destruct (bhi + 1 <? s); [cbn [length]; specialize (IH s e); lia |].
  destruct ((bhi + 1 =? s) || (bhi <? e)); [specialize (IH blo e) | specialize (IH blo bhi)]; lia.
Qed.

(** ** match = membership (on compacted ranges), with the 256-entry bitmap fast path *)
Lemma compact_ok_tail : forall lo hi r, compact_ok ((lo, hi) :: r) = true ->
  lo <= hi /\ compact_ok r = true /\ forall c, c <= hi + 1 -> rmem r c = false.
Proof.
  intros lo hi r. revert lo hi. induction r as [|[lo2 hi2] r IH]; intros lo hi H; cbn [compact_ok] in H.
  - split; [lia | split; reflexivity].
  - apply andb_true_iff in H. destruct H as [H0 H]. apply andb_true_iff in H. destruct H as [H1 H2].
    split; [lia |]. split; [exact H2 |]. intros c Hc. destruct (IH lo2 hi2 H2) as [Hl [_ IH2]].
    rewrite rmem_cons, IH2 by lia. rewrite ?in_pair_eq. lia.
Qed.

Lemma map_split_spec : forall l c, compact_ok l = true ->
  let (m, n) := map_split l in
  (c < 256 -> existsb (fun p => in_pair c p && (c <? 256)) m = rmem l c) /\
  (256 <= c -> existsb (in_pair c) n = rmem l c).
Proof.
  induction l as [|[b e] r IH]; intros c H.
  - cbn. split; reflexivity.
  - destruct (compact_ok_tail b e r H) as [Hbe [Hr Habove]]. specialize (IH c Hr). specialize (Habove c). clear H Hr.
    cbn [map_split]. destruct (b <? 256) eqn:Eb; [destruct (256 <=? e) eqn:Ee |].
    + (* the range reaches 256: the walk stops here, nothing of [r] lies below 256 *)
      split; intros Hc; [| reflexivity]. cbn [existsb]. rewrite rmem_cons. rewrite ?in_pair_eq. lia.
    + destruct (map_split r) as [m n]. destruct IH as [IH1 IH2]. split; intros Hc; cbn [existsb]; rewrite rmem_cons.
      * rewrite IH1 by exact Hc. rewrite ?in_pair_eq. lia.
      * rewrite IH2 by exact Hc. rewrite ?in_pair_eq. lia.
    + split; intros Hc; [| reflexivity]. cbn [existsb]. rewrite rmem_cons. rewrite ?in_pair_eq. lia.
Qed.

Theorem rt_match_spec : forall neg l c, compact_ok l = true -> rt_match neg l c = xorb neg (rmem l c).
Proof.
  intros neg l c H. unfold rt_match. pose proof (map_split_spec l c H) as M. destruct (map_split l) as [m n].
  destruct M as [M1 M2]. destruct (c <? 256) eqn:E.
  - rewrite M1 by (apply N.ltb_lt; exact E). destruct neg, (rmem l c); reflexivity.
  - rewrite M2 by (apply N.ltb_ge; exact E). destruct neg, (rmem l c); reflexivity.
Qed.

(** ** addRange (repaired): the token denotes the union with the new interval; its array stays within fMaxCount *)
Lemma rmem_set_last_hi : forall l v c, l <> [] -> pairs_ok l = true -> last_hi l + 1 <= v ->
  rmem (set_last_hi l v) c = rmem l c || ((last_hi l + 1 <=? c) && (c <=? v)).
Proof.
  induction l as [|[lo hi] r IH]; intros v c Hne Hp Hv; [congruence |].
  cbn [pairs_ok forallb fst snd] in Hp. apply andb_true_iff in Hp. destruct Hp as [Hp Hpr].
  destruct r as [|y r].
  - cbn. unfold in_pair, last_hi in *. cbn [fst snd last] in *. lia.
  - change (set_last_hi ((lo, hi) :: y :: r) v) with ((lo, hi) :: set_last_hi (y :: r) v).
    rewrite !rmem_cons with (x := (lo, hi)). change (last_hi ((lo, hi) :: y :: r)) with (last_hi (y :: r)) in *.
    rewrite IH; [| discriminate | exact Hpr | exact Hv]. destruct (in_pair c (lo, hi)); reflexivity.
Qed.

Lemma add_sorted_spec : forall l v1 v2 l' c, v1 <= v2 -> add_sorted l v1 v2 = Some l' ->
  rmem l' c = rmem l c || in_pair c (v1, v2).
Proof.
  induction l as [|[lo hi] r IH]; intros v1 v2 l' c Hv H; cbn [add_sorted] in H; [discriminate |].
  destruct ((lo <=? v1) && (v2 <=? hi)) eqn:E1.
  - inversion H; subst. rewrite rmem_cons. rewrite ?in_pair_eq.
    destruct (rmem r c); rewrite ?orb_true_r; [reflexivity |]. rewrite orb_false_r. lia.
  - destruct ((lo =? v1) && (hi <? v2)) eqn:E2.
    + inversion H; subst. rewrite !rmem_cons. rewrite ?in_pair_eq.
      destruct (rmem r c); rewrite ?orb_true_r; [reflexivity |]. rewrite !orb_false_r. lia.
    + destruct ((v1 <? lo) || ((lo =? v1) && (v2 <? hi))) eqn:E3.
      * inversion H; subst. rewrite !rmem_cons. destruct (in_pair c (v1, v2)), (in_pair c (lo, hi)), (rmem r c); reflexivity.
      * destruct (add_sorted r v1 v2) as [r'|] eqn:E4; [| discriminate]. inversion H; subst.
        rewrite !rmem_cons, (IH v1 v2 r' c Hv E4). destruct (in_pair c (lo, hi)), (rmem r c), (in_pair c (v1, v2)); reflexivity.
Qed.

Lemma length_add_sorted : forall l v1 v2 l', add_sorted l v1 v2 = Some l' -> (length l' <= S (length l))%nat.
Proof.
  induction l as [|[lo hi] r IH]; intros v1 v2 l' H; cbn [add_sorted] in H; [discriminate |].
  destruct ((lo <=? v1) && (v2 <=? hi)); [inversion H; subst; cbn; lia |].
  destruct ((lo =? v1) && (hi <? v2)); [inversion H; subst; cbn; lia |].
  destruct ((v1 <? lo) || ((lo =? v1) && (v2 <? hi))); [inversion H; subst; cbn; lia |].
  destruct (add_sorted r v1 v2) as [r'|] eqn:E; [| discriminate]. inversion H; subst. specialize (IH v1 v2 r' E). cbn. lia.
Qed.

Lemma length_set_last_hi : forall l v, length (set_last_hi l v) = length l.
Proof.
  induction l as [|[lo hi] r IH]; intros v; [reflexivity |]. destruct r as [|y r]; [reflexivity |].
  change (set_last_hi ((lo, hi) :: y :: r) v) with ((lo, hi) :: set_last_hi (y :: r) v). cbn [length]. rewrite IH. reflexivity.
Qed.

Lemma addRange_bounds_le : forall a b, (if a <=? b then a else b) <= (if a <=? b then b else a).
Proof. intros a b. destruct (a <=? b) eqn:E; lia. Qed.

Definition interval (a b c : N) : bool := (N.min a b <=? c) && (c <=? N.max a b).

(** an allocated token always holds at least one pair (the C++ reads fRanges[fElemCount-1]) *)
Definition rt_wf (t : rtok) : Prop :=
  (alloc t = true -> rs t <> []) /\ (alloc t = false -> rs t = []) /\ pairs_ok (rs t) = true.

Theorem addRange_fixed_spec : forall t a b c, rt_wf t ->
  rmem (rs (addRange true t a b)) c = rmem (rs t) c || interval a b c.
Proof.
  intros t a b c [W1 [W2 W3]]. unfold addRange, interval.
  set (v1 := if a <=? b then a else b). set (v2 := if a <=? b then b else a).
  pose proof (addRange_bounds_le a b : v1 <= v2) as Hv.
  assert (Hi : (N.min a b <=? c) && (c <=? N.max a b) = in_pair c (v1, v2)).
  { unfold in_pair, v1, v2. cbn [fst snd]. destruct (a <=? b) eqn:E; lia. }
  rewrite Hi. clearbody v1 v2. destruct (alloc t) eqn:Ea; cbn [negb].
  - specialize (W1 eq_refl). destruct (last_hi (rs t) + 1 =? v1) eqn:E1.
    + cbn [rs]. rewrite rmem_set_last_hi; [| exact W1 | exact W3 | clear - E1 Hv; lia]. rewrite ?in_pair_eq.
      destruct (rmem (rs t) c); [reflexivity |]. cbn [orb]. clear - E1 Hv. lia.
    + destruct (srt t && (v1 <=? last_hi (rs t))) eqn:E2.
      * destruct (add_sorted (rs t) v1 v2) as [l|] eqn:E3; cbn [rs].
        -- apply (add_sorted_spec _ _ _ _ c Hv E3).
        -- rewrite rmem_app. cbn. rewrite orb_false_r. reflexivity.
      * destruct (if v1 <=? last_hi (rs t) then false else srt t); cbn [rs]; rewrite ?rmem_rsort, rmem_app; cbn;
          rewrite orb_false_r; reflexivity.
  - cbn [rs]. rewrite (W2 eq_refl). cbn. rewrite orb_false_r. reflexivity.
Qed.

(** the faithful addRange loses an interval (F26) *)
Lemma addRange_drop_witness :
  let t := addRange false (addRange false rt_new 1 5) 3 9 in rs t = [(1, 5)] /\ rmem (rs t) 7 = false.
Proof. vm_compute. split; reflexivity. Qed.

(** index safety: the element count never exceeds the allocated size computed by the C++ *)
Definition cap_ok (t : rtok) : Prop := (elemc t <= maxc t)%nat.

Lemma expand_to_ge : forall ec len, (ec + len <= expand_to ec len)%nat.
Proof. intros. unfold expand_to. apply Nat.le_max_l. Qed.

(** INITIALSIZE is 16, so [2 <= maxc t] holds from the start *)
Theorem addRange_cap : forall fx t a b, cap_ok t -> (2 <= maxc t)%nat ->
  cap_ok (addRange fx t a b) /\ (2 <= maxc (addRange fx t a b))%nat.
Proof.
  intros fx t a b H H2. unfold cap_ok, addRange, elemc in *.
  set (v1 := if a <=? b then a else b). set (v2 := if a <=? b then b else a). clearbody v1 v2.
  destruct (alloc t); cbn [negb]; [| cbn [rs maxc length]; lia].
  destruct (last_hi (rs t) + 1 =? v1); [cbn [rs maxc]; rewrite length_set_last_hi; lia |].
  set (mx := if Nat.leb (maxc t) (2 * length (rs t) + 2) then expand_to (2 * length (rs t)) 2 else maxc t).
  assert (Hmx : (2 * length (rs t) + 2 <= mx)%nat).
  { unfold mx. destruct (Nat.leb_spec (maxc t) (2 * length (rs t) + 2)); [apply expand_to_ge | lia]. }
  destruct (srt t && (v1 <=? last_hi (rs t))).
  - destruct (add_sorted (rs t) v1 v2) as [l|] eqn:E3; cbn [rs maxc].
    + pose proof (length_add_sorted _ _ _ _ E3). lia.
    + destruct fx; rewrite ?app_length; cbn [length]; lia.
  - destruct (if v1 <=? last_hi (rs t) then false else srt t); cbn [rs maxc]; rewrite ?length_rsort, app_length; cbn [length]; lia.
Qed.

Theorem mergeRanges_cap : forall t o, cap_ok t -> cap_ok o -> cap_ok (mergeRanges t o).
Proof.
  intros t o Ht Ho. unfold mergeRanges. destruct (alloc o); cbn [negb]; [| exact Ht].
  destruct (sortRanges_same t) as [At [Mt [_ Lent]]]. destruct (sortRanges_same o) as [_ [Mo [_ Leno]]].
  unfold cap_ok, elemc in *. rewrite At. destruct (alloc t); cbn [negb rs maxc]; [| lia].
  rewrite length_merge, Lent, Leno, Mt, Mo. destruct (Nat.leb_spec (maxc t) (2 * length (rs t) + 2 * length (rs o))); lia.
Qed.

Theorem mergeRanges_spec : forall t o c, rt_wf t -> rt_wf o ->
  rmem (rs (mergeRanges t o)) c = rmem (rs t) c || rmem (rs o) c.
Proof.
  intros t o c [_ [T2 _]] [_ [O2 _]]. unfold mergeRanges.
  destruct (alloc o) eqn:Eo; cbn [negb]; [| rewrite (O2 eq_refl); cbn; rewrite orb_false_r; reflexivity].
  destruct (sortRanges_same t) as [-> _]. destruct (alloc t) eqn:Et; cbn [negb rs].
  - rewrite rmem_merge, !rmem_sortRanges. reflexivity.
  - rewrite rmem_sortRanges, (T2 eq_refl). reflexivity.
Qed.
