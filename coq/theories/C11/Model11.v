(** Executable model of the schema-dialect regular-expression engine (no proofs here):
    - ParserForXMLSchema / RegxParser   (src/xercesc/util/regx/RegxParser.cpp, ParserForXMLSchema.cpp, UnionToken.cpp)
    - RegularExpression::compile*, doTokenOverlap   (RegularExpression.hpp/.cpp)
    - RegularExpression::match, matchUnion, matches() in XMLSCHEMA_MODE   (RegularExpression.cpp)
    Patterns and subject strings are lists of code points (the C++ works on UTF-16 units and composes surrogate
    pairs in processNext / Context::nextCh; offsets are only ever compared, so the order-preserving renumbering is
    not observable for well-formed UTF-16).  Category escapes \p{L} \p{Lu} .. use the library's tokens of Gen/GenC11Cat.v;
    not modelled: block escapes \p{Is..} and other keywords ([PE_Unsupported]),
    options other than "X", the opStack variant of match used when the subject is longer than 256 units (same
    function, covered by the correspondence only), captures (there are none in schema mode).

    Repair switches ([sw]); all false = the code of the pinned tree:
      fx_add : addRange keeps a range that starts inside the last range and ends beyond it (F26)
      fx_ovl : doTokenOverlap treats a negated class op / supplementary first character correctly (F27)
      fx_dot : '.' excludes only \n and \r, compared as code points (F29) *)
From XV Require Export Base.XDefs C11.Spec11 C11.ModelRange11 Gen.GenC11 Gen.GenC11Cat.
Local Open Scope N_scope.

Record sw : Type := mkSw { fx_add : bool; fx_ovl : bool; fx_dot : bool }.
Definition sw_faithful : sw := mkSw false false false.
Definition sw_fixed : sw := mkSw true true true.

(* ------------------------------------------------------------------------------------------------ *)
(** * Token tree *)
Inductive tok : Type :=
| TEmpty
| TDot
| TChar (c : N)
| TString (s : list N)
| TRange (neg : bool) (r : list rng)         (* T_RANGE / T_NRANGE with its (sorted, compacted) ranges *)
| TConcat (l : list tok)                     (* T_CONCAT: UnionToken(T_CONCAT) or ConcatToken *)
| TUnion (l : list tok)
| TClosure (mn : nat) (mx : option nat) (t : tok)   (* T_CLOSURE; '*' is (0, None); fMax = -1 is None *)
| TParen (t : tok).                          (* T_PAREN with noParen = 0 *)

Inductive perr : Type := PE_Parse | PE_Runtime | PE_Unsupported | PE_Crash | PE_Fuel.

Inductive pstate : Type :=
| S_CHAR | S_EOF | S_OR | S_STAR | S_PLUS | S_QUESTION | S_LPAREN | S_RPAREN | S_DOT | S_LBRACKET
| S_BACKSOLIDUS | S_CARET | S_DOLLAR | S_CCSUB.

Definition pstate_eqb (a b : pstate) : bool :=
  match a, b with
  | S_CHAR, S_CHAR | S_EOF, S_EOF | S_OR, S_OR | S_STAR, S_STAR | S_PLUS, S_PLUS | S_QUESTION, S_QUESTION
  | S_LPAREN, S_LPAREN | S_RPAREN, S_RPAREN | S_DOT, S_DOT | S_LBRACKET, S_LBRACKET
  | S_BACKSOLIDUS, S_BACKSOLIDUS | S_CARET, S_CARET | S_DOLLAR, S_DOLLAR | S_CCSUB, S_CCSUB => true
  | _, _ => false
  end.

(** parser registers: the unread rest of fString, fState, fCharData, fParseContext == regexParserStateInBrackets *)
Record pst : Type := mkP { rest : list N; stt : pstate; chd : N; inbr : bool }.

Definition eofc : N := 0xFFFFFFFF.     (* fCharData = -1 *)

Definition bind {A B : Type} (x : res A perr) (f : A -> res B perr) : res B perr :=
  match x with Ok a => f a | Err e => Err e end.
Notation "'do' x <- a ; b" := (bind a (fun x => b)) (at level 200, x pattern, a at level 100, b at level 200).

Definition set_ctx (p : pst) (b : bool) : pst := mkP (rest p) (stt p) (chd p) b.

(** RegxParser::processNext *)
Definition processNext (p : pst) : res pst perr :=
  match rest p with
  | [] => Ok (mkP [] S_EOF eofc (inbr p))
  | ch :: r =>
      if inbr p then
        if ch =? 92 then
          match r with [] => Err PE_Parse | c2 :: r2 => Ok (mkP r2 S_BACKSOLIDUS c2 true) end
        else if ch =? 45 then
          match r with
          | c2 :: r2 => if c2 =? 91 then Ok (mkP r2 S_CCSUB ch true) else Ok (mkP r S_CHAR ch true)
          | [] => Ok (mkP r S_CHAR ch true)
          end
        else Ok (mkP r S_CHAR ch true)
      else
        let simple st := Ok (mkP r st ch false) in
        if ch =? 124 then simple S_OR
        else if ch =? 42 then simple S_STAR
        else if ch =? 43 then simple S_PLUS
        else if ch =? 63 then simple S_QUESTION
        else if ch =? 41 then simple S_RPAREN
        else if ch =? 46 then simple S_DOT
        else if ch =? 91 then simple S_LBRACKET
        else if ch =? 94 then simple S_CARET
        else if ch =? 36 then simple S_DOLLAR
        else if ch =? 40 then simple S_LPAREN
        else if ch =? 92 then
          match r with [] => Err PE_Parse | c2 :: r2 => Ok (mkP r2 S_BACKSOLIDUS c2 false) end
        else simple S_CHAR
  end.

Definition mem_n (c : N) (l : list N) : bool := existsb (N.eqb c) l.

(** RegxParser::processBacksolidus_pP: "{name}" is read straight from fString; RangeTokenMap::getRange(name, complement).
    Known names: the 37 general-category names (tokens from Gen/GenC11Cat.v; the complement token is the one
    UnicodeRangeFactory builds with complementRanges). *)
Fixpoint split_brace (l : list N) : option (list N * list N) :=
  match l with
  | [] => None
  | c :: r => if c =? 125 then Some ([], r)
              else match split_brace r with Some (n, r') => Some (c :: n, r') | None => None end
  end.

Fixpoint name_eqb (a b : list N) : bool :=
  match a, b with
  | [], [] => true
  | x :: a', y :: b' => (x =? y) && name_eqb a' b'
  | _, _ => false
  end.

Fixpoint cat_lookup (name : list N) (names : list (list N)) (toks : list (list rng)) : option (list rng) :=
  match names, toks with
  | n :: ns, t :: ts => if name_eqb name n then Some t else cat_lookup name ns ts
  | _, _ => None
  end.

Definition pcat_tok (name : list N) (compl : bool) : option rtok :=
  match cat_lookup name cat_names cat_toks with
  | Some r =>
      let t := mkR r true true (2 * length r + 16)%nat (match r with [] => false | _ => true end) in
      Some (if compl then (if alloc t then complementRanges true t else mkR [(0, 0x10FFFF)] true true 16 true) else t)
  | None => None
  end.

(** processBacksolidus_pP up to the lookup: returns the name and the registers after "}" (fState/fCharData stay those
    of the "{" token; the caller's processNext follows) *)
Definition parse_pP (p : pst) : res (list N * pst) perr :=
  match processNext p with
  | Err e => Err e
  | Ok p1 =>
      if negb (pstate_eqb (stt p1) S_CHAR) || negb (chd p1 =? 123) then Err PE_Parse else
      match split_brace (rest p1) with
      | None => Err PE_Parse
      | Some (name, r') => Ok (name, mkP r' (stt p1) (chd p1) (inbr p1))
      end
  end.

(** ParserForXMLSchema::decodeEscaped *)
Definition decodeEscaped (p : pst) : res N perr :=
  if negb (pstate_eqb (stt p) S_BACKSOLIDUS) then Err PE_Parse else
  let ch := chd p in
  if ch =? 110 then Ok 10
  else if ch =? 114 then Ok 13
  else if ch =? 116 then Ok 9
  else if mem_n ch [92; 124; 46; 94; 45; 63; 42; 43; 123; 125; 40; 41; 91; 93] then Ok ch
  else Err PE_Parse.

(** RegxParser::getTokenForShorthand: the shared tokens of RangeTokenMap (Gen/GenC11.v, regenerated on every run) *)
Definition named_tok (ch : N) : option rtok :=
  let mk l m := Some (mkR l true true m true) in
  if ch =? 100 then mk named_lc_d named_lc_d_max
  else if ch =? 68 then mk named_uc_d named_uc_d_max
  else if ch =? 119 then mk named_lc_w named_lc_w_max
  else if ch =? 87 then mk named_uc_w named_uc_w_max
  else if ch =? 115 then mk named_lc_s named_lc_s_max
  else if ch =? 83 then mk named_uc_s named_uc_s_max
  else if ch =? 99 then mk named_lc_c named_lc_c_max
  else if ch =? 67 then mk named_uc_c named_uc_c_max
  else if ch =? 105 then mk named_lc_i named_lc_i_max
  else if ch =? 73 then mk named_uc_i named_uc_i_max
  else None.

Definition is_digit (c : N) : bool := (48 <=? c) && (c <=? 57).

(** the digit loops of parseFactor: [while (fOffset < fStringLen && (ch = fString[fOffset++]) >= '0' && ch <= '9')] *)
Fixpoint digits_loop (acc : nat) (ch : N) (r : list N) : nat * N * list N :=
  match r with
  | [] => (acc, ch, [])
  | c :: r' => if is_digit c then digits_loop (acc * 10 + N.to_nat (c - 48)) c r' else (acc, c, r')
  end.

(** the quantifier text after '{' (fOffset < fStringLen is known): returns min, max, rest after '}' *)
Definition parse_quant (r : list N) : res (nat * option nat * list N) perr :=
  match r with
  | [] => Err PE_Parse
  | ch0 :: r0 =>
      if negb (is_digit ch0) then Err PE_Parse else
      let '(mn, ch, r1) := digits_loop (N.to_nat (ch0 - 48)) ch0 r0 in
      if ch =? 44 then
        match r1 with
        | [] => Err PE_Parse
        | c2 :: r2 =>
            if is_digit c2 then
              let '(mx, ch', r3) := digits_loop (N.to_nat (c2 - 48)) c2 r2 in
              if Nat.ltb mx mn then Err PE_Parse
              else if ch' =? 125 then Ok (mn, Some mx, r3) else Err PE_Parse
            else if c2 =? 125 then Ok (mn, None, r2) else Err PE_Parse
        end
      else if ch =? 125 then Ok (mn, Some mn, r1) else Err PE_Parse
  end.

(** UnionToken::addChild for a T_CONCAT parent; [acc] holds the children in reverse order *)
Definition tok_str (t : tok) : option (list N) :=
  match t with TChar c => Some [c] | TString s => Some s | _ => None end.

Definition cat_add1 (acc : list tok) (child : tok) : list tok :=
  match acc with
  | [] => [child]
  | prev :: acc' =>
      match tok_str prev, tok_str child with
      | Some a, Some b => TString (a ++ b) :: acc'
      | _, _ => child :: acc
      end
  end.

Definition cat_add (acc : list tok) (child : tok) : list tok :=
  match child with
  | TConcat l =>
      fold_left (fun a c => match c with TConcat l2 => fold_left cat_add1 l2 a | _ => cat_add1 a c end) l acc
  | _ => cat_add1 acc child
  end.

Definition is_term_end (st : pstate) (mrp : bool) : bool :=
  pstate_eqb st S_OR || pstate_eqb st S_EOF || (pstate_eqb st S_RPAREN && mrp).

(** character class result: ranges + "is T_NRANGE" *)
Section Parser.
Variable w : sw.

Definition addR := addRange (fx_add w).

(** RegxParser::parseCharacterClass; the while loop is [cc_loop] *)
Fixpoint cc_loop (fuel : nat) (useN : bool) (p : pst) (tk : rtok) (isN first : bool) {struct fuel}
  : res (rtok * bool * pst) perr :=
  match fuel with
  | O => Err PE_Fuel
  | S f =>
    let type := stt p in
    if pstate_eqb type S_EOF then Ok (tk, isN, p)
    else if pstate_eqb type S_CHAR && (chd p =? 93) && negb first then Ok (tk, isN, p)
    else
      let ch0 := chd p in
      (* first part: escapes and subtraction *)
      let step (p0 : pst) (ch : N) (end_ wasDecoded : bool) (tk : rtok) : res (rtok * bool * pst) perr :=
        do p1 <- processNext p0;
        if end_ then cc_loop f useN p1 tk isN false else
        if pstate_eqb type S_CHAR &&
           ((ch =? 91) || (ch =? 93) || ((ch =? 45) && (chd p1 =? 93) && first)) then Err PE_Parse
        else if (ch =? 45) && (chd p1 =? 45) && negb (pstate_eqb (stt p1) S_BACKSOLIDUS) && negb wasDecoded
        then Err PE_Parse
        else if negb (pstate_eqb (stt p1) S_CHAR) || negb (chd p1 =? 45) then
          cc_loop f useN p1 (addR tk ch ch) isN false
        else
          do p2 <- processNext p1;
          let type2 := stt p2 in
          if pstate_eqb type2 S_EOF then Err PE_Parse
          else if pstate_eqb type2 S_CHAR && (chd p2 =? 93) then
            cc_loop f useN p2 (addR (addR tk ch ch) 45 45) isN false
          else if pstate_eqb type2 S_CCSUB then Err PE_Parse
          else
            do rangeEnd <- (if pstate_eqb type2 S_CHAR then
                              (if mem_n (chd p2) [91; 93; 45] then Err PE_Parse else Ok (chd p2))
                            else if pstate_eqb type2 S_BACKSOLIDUS then decodeEscaped p2
                            else Ok (chd p2));
            do p3 <- processNext p2;
            if rangeEnd <? ch then Err PE_Parse
            else cc_loop f useN p3 (addR tk ch rangeEnd) isN false in
      if pstate_eqb type S_BACKSOLIDUS then
        match named_tok ch0 with
        | Some nt => step p ch0 true false (mergeRanges tk nt)
        | None =>
            if (ch0 =? 112) || (ch0 =? 80) then
              do (name, p') <- parse_pP p;
              match pcat_tok name (ch0 =? 80) with
              | Some nt => step p' ch0 true false (mergeRanges tk nt)
              | None => Err PE_Unsupported
              end
            else do ch <- decodeEscaped p; step p ch false (ch0 =? 45) tk
        end
      else if pstate_eqb type S_CCSUB && negb first then
        (* subtraction: [tok-[...]] *)
        do tk1 <- (if isN then (if alloc tk then Ok (complementRanges (fx_add w) tk) else Err PE_Crash) else Ok tk);
        do p1 <- processNext (set_ctx p true);
        (* nested parseCharacterClass(false) *)
        let isN2 := pstate_eqb (stt p1) S_CHAR && (chd p1 =? 94) in
        do p2 <- (if isN2 then processNext p1 else Ok p1);
        do (tk2, isN2', p3) <- cc_loop f false p2 rt_new isN2 true;
        if pstate_eqb (stt p3) S_EOF then Err PE_Parse else
        do tk2' <- (if isN2' then (if alloc tk2 then Ok (complementRanges (fx_add w) tk2) else Err PE_Crash)
                    else Ok tk2);
        let tk2c := compactRanges (sortRanges tk2') in
        do p4 <- processNext (set_ctx p3 false);
        let tk3 := subtractRanges tk1 tk2c false in
        if negb (pstate_eqb (stt p4) S_CHAR) || negb (chd p4 =? 93) then Err PE_Parse
        else Ok (tk3, false, p4)
      else step p ch0 false false tk
  end.

Definition parseCharacterClass (fuel : nat) (useN : bool) (p : pst) : res (tok * pst) perr :=
  do p1 <- processNext (set_ctx p true);
  let isN := pstate_eqb (stt p1) S_CHAR && (chd p1 =? 94) in
  do p2 <- (if isN then processNext p1 else Ok p1);
  do (tk, isN', p3) <- cc_loop fuel useN p2 rt_new isN true;
  if pstate_eqb (stt p3) S_EOF then Err PE_Parse else
  do (tk', neg) <- (if isN' then
                       (if useN then Ok (tk, true)
                        else if alloc tk then Ok (complementRanges (fx_add w) tk, false) else Err PE_Crash)
                     else Ok (tk, false));
  let tkc := compactRanges (sortRanges tk') in
  do p4 <- processNext (set_ctx p3 false);
  Ok (TRange neg (rs tkc), p4).

(** parseRegx / parseTerm / parseFactor / parseAtom: one fuel unit per nesting step *)
Fixpoint parseRegx (fuel : nat) (mrp : bool) (p : pst) {struct fuel} : res (tok * pst) perr :=
  match fuel with
  | O => Err PE_Fuel
  | S f =>
      do (t, p1) <- parseTerm f mrp p;
      if pstate_eqb (stt p1) S_OR then regx_loop f mrp p1 [t] else Ok (t, p1)
  end
with regx_loop (fuel : nat) (mrp : bool) (p : pst) (acc : list tok) {struct fuel} : res (tok * pst) perr :=
  match fuel with
  | O => Err PE_Fuel
  | S f =>
      if pstate_eqb (stt p) S_OR then
        do p1 <- processNext p;
        do (t, p2) <- parseTerm f mrp p1;
        regx_loop f mrp p2 (t :: acc)
      else Ok (TUnion (rev acc), p)
  end
with parseTerm (fuel : nat) (mrp : bool) (p : pst) {struct fuel} : res (tok * pst) perr :=
  match fuel with
  | O => Err PE_Fuel
  | S f =>
      if is_term_end (stt p) mrp then Ok (TEmpty, p)
      else
        do (t, p1) <- parseFactor f p;
        if is_term_end (stt p1) mrp then Ok (t, p1)
        else term_loop f mrp p1 (cat_add [] t)
  end
with term_loop (fuel : nat) (mrp : bool) (p : pst) (acc : list tok) {struct fuel} : res (tok * pst) perr :=
  match fuel with
  | O => Err PE_Fuel
  | S f =>
      if is_term_end (stt p) mrp then Ok (TConcat (rev acc), p)
      else
        do (t, p1) <- parseFactor f p;
        term_loop f mrp p1 (cat_add acc t)
  end
with parseFactor (fuel : nat) (p : pst) {struct fuel} : res (tok * pst) perr :=
  match fuel with
  | O => Err PE_Fuel
  | S f =>
      do (t, p1) <- parseAtom f p;
      match stt p1 with
      | S_STAR => do p2 <- processNext p1; Ok (TClosure 0 None t, p2)
      | S_PLUS => do p2 <- processNext p1; Ok (TConcat [t; TClosure 0 None t], p2)
      | S_QUESTION => do p2 <- processNext p1; Ok (TUnion [t; TEmpty], p2)
      | S_CHAR =>
          if (chd p1 =? 123) && negb (match rest p1 with [] => true | _ => false end) then
            do (mn, mx, r) <- parse_quant (rest p1);
            do p2 <- processNext (mkP r (stt p1) (chd p1) (inbr p1));
            Ok (TClosure mn mx t, p2)
          else Ok (t, p1)
      | _ => Ok (t, p1)
      end
  end
with parseAtom (fuel : nat) (p : pst) {struct fuel} : res (tok * pst) perr :=
  match fuel with
  | O => Err PE_Fuel
  | S f =>
      match stt p with
      | S_LPAREN =>
          do p1 <- processNext p;
          do (t, p2) <- parseRegx f true p1;
          if negb (pstate_eqb (stt p2) S_RPAREN) then Err PE_Parse
          else do p3 <- processNext p2; Ok (TParen t, p3)
      | S_DOT => do p1 <- processNext p; Ok (TDot, p1)
      | S_CARET => do p1 <- processNext p; Ok (TChar 94, p1)
      | S_DOLLAR => do p1 <- processNext p; Ok (TChar 36, p1)
      | S_LBRACKET => parseCharacterClass f true p
      | S_BACKSOLIDUS =>
          let ch := chd p in
          match named_tok ch with
          | Some nt => do p1 <- processNext p; Ok (TRange false (rs nt), p1)
          | None =>
              if is_digit ch then Err PE_Runtime
              else if (ch =? 112) || (ch =? 80) then
                do (name, p') <- parse_pP p;
                match pcat_tok name (ch =? 80) with
                | Some nt => do p1 <- processNext p'; Ok (TRange false (rs nt), p1)
                | None => Err PE_Unsupported
                end
              else do c <- decodeEscaped p; do p1 <- processNext p; Ok (TChar c, p1)
          end
      | S_CHAR =>
          if mem_n (chd p) [123; 125; 93] then Err PE_Parse
          else do p1 <- processNext p; Ok (TChar (chd p), p1)
      | _ => Err PE_Parse
      end
  end.

(** RegxParser::parse *)
Definition parse (pat : list N) : res tok perr :=
  let fuel := (4 * length pat + 16)%nat in
  do p0 <- processNext (mkP pat S_EOF eofc false);
  do (t, p1) <- parseRegx fuel false p0;
  match rest p1 with [] => Ok t | _ => Err PE_Parse end.

End Parser.

(* ------------------------------------------------------------------------------------------------ *)
(** * Compilation to the Op graph *)
(** The graph is kept as a tree in continuation form: every node is followed by "next"; the child chain of an
    [OClosure] ends at the closure op itself, that of an [OFinClosure] at NULL; the child chain of an [OQuestion]
    continues with the question's own next. *)
Inductive op : Type :=
| OEmpty
| OChar (c : N)
| ODot
| ORange (neg : bool) (r : list rng)
| OString (s : list N)
| OCat (a b : op)
| OUnion (l : list op)
| OClosure (id : option nat) (c : op)
| OFinClosure (id : option nat) (c : op)
| OQuestion (c : op)
| OMark.            (* O_CAPTURE (non-schema dialect): no effect on the offset; what follows a closure is "some other op" *)

(** what doTokenOverlap looks at in the op that follows a closure *)
Inductive hd : Type := HNull | HChar (c : N) | HString (s : list N) | HRange (neg : bool) (r : list rng) | HOther.

Definition first_unit (c : N) : N := if c <? 0x10000 then c else 0xD800 + N.shiftr (c - 0x10000) 10.
Definition str_first_unit (s : list N) : N := match s with [] => 0 | c :: _ => first_unit c end.
Definition str_first_cp (s : list N) : N := match s with [] => 0 | c :: _ => c end.

Fixpoint head_of (o : op) (nh : hd) : hd :=
  match o with
  | OEmpty => nh
  | OChar c => HChar c
  | ODot => HOther
  | ORange n r => HRange n r
  | OString s => HString s
  | OCat a b => head_of a (head_of b nh)
  | _ => HOther
  end.     (* OMark: an O_CAPTURE op, neither range nor char nor string: HOther *)

(** Token::getMinLength (a T_STRING counts its characters; only "== 0" is ever used) *)
Fixpoint minlen (t : tok) : nat :=
  match t with
  | TEmpty => 0
  | TDot | TChar _ | TRange _ _ => 1
  | TString s => length s
  | TConcat l => (fix go (l : list tok) : nat := match l with [] => 0 | x :: r => minlen x + go r end) l
  | TUnion l =>
      match l with
      | [] => 0
      | x :: r => (fix go (m : nat) (l : list tok) : nat :=
                     match l with [] => m | y :: r' => go (Nat.min m (minlen y)) r' end) (minlen x) r
      end
  | TClosure mn _ t => mn * minlen t
  | TParen t => minlen t
  end%nat.

(** RegularExpression::doTokenOverlap(next, childTok) *)
Definition overlap (fx : bool) (h : hd) (t : tok) : bool :=
  match h with
  | HRange neg r =>
      match t with
      | TChar c => rt_match neg r c
      | TString s => rt_match neg r (if fx then str_first_cp s else str_first_unit s)
      | TRange false r2 =>
          if fx && neg then true
          else negb (match int_go (compact_list r) (compact_list r2) with [] => true | _ => false end)
      | _ => true
      end
  | HChar _ | HString _ =>
      let ch := match h with
                | HChar c => c
                | HString s => if fx then str_first_cp s else str_first_unit s
                | _ => 0 end in
      if ch =? 0 then true else
      match t with
      | TChar c2 => c2 =? ch
      | TString s => (if fx then str_first_cp s else str_first_unit s) =? ch
      | TRange neg r => rt_match neg r ch
      | _ => true
      end
  | _ => true
  end.

(** the loops of compileClosure over [comp] = compile of the closure's child:
    [copies_f]: [for (i < n) ret = compile(childTok, ret)];
    [quest_f]:  [for (i < max) { q = createQuestionOp; q->setChild(compile(childTok, ret)); ret = q; }] *)
Fixpoint copies_f (comp : hd -> nat -> op * nat) (nh : hd) (n : nat) (ret : op) (id : nat) : op * nat :=
  match n with
  | O => (ret, id)
  | S n' => let (o1, id1) := comp (head_of ret nh) id in copies_f comp nh n' (OCat o1 ret) id1
  end.
Fixpoint quest_f (comp : hd -> nat -> op * nat) (nh : hd) (k : nat) (ret : op) (id : nat) : op * nat :=
  match k with
  | O => (ret, id)
  | S k' => let (o1, id1) := comp (head_of ret nh) id in quest_f comp nh k' (OQuestion (OCat o1 ret)) id1
  end.

Section Compile.
Variable w : sw.
Variable cap : bool.     (* groups capture (RegxParser numbers them; ParserForXMLSchema uses group number 0 = transparent) *)

Fixpoint compile (t : tok) (nh : hd) (id : nat) {struct t} : op * nat :=
  match t with
  | TEmpty => (OEmpty, id)
  | TDot => (ODot, id)
  | TChar c => (OChar c, id)
  | TString s => (OString s, id)
  | TRange n r => (ORange n r, id)
  | TParen t1 =>
      (* compileParenthesis: capture(n) -> child -> capture(-n) -> next *)
      if cap then let (o1, id1) := compile t1 HOther id in (OCat OMark (OCat o1 OMark), id1)
      else compile t1 nh id
  | TConcat l =>
      (fix go (l : list tok) : op * nat :=
         match l with
         | [] => (OEmpty, id)
         | x :: r => let (ob, id1) := go r in
                     let (oa, id2) := compile x (head_of ob nh) id1 in (OCat oa ob, id2)
         end) l
  | TUnion l =>
      let (ol, id') :=
        (fix go (l : list tok) (id : nat) : list op * nat :=
           match l with
           | [] => ([], id)
           | x :: r => let (o1, id1) := compile x nh id in
                       let (or_, id2) := go r id1 in (o1 :: or_, id2)
           end) l id in
      (OUnion ol, id')
  | TClosure mn mx c =>
      let exact := match mx with Some m => Nat.eqb m mn | None => false end in
      if exact then copies_f (compile c) nh mn OEmpty id
      else
        let mx' := match mx with
                   | Some m => if (Nat.ltb 0 mn && Nat.ltb 0 m)%bool then Some (m - mn)%nat else Some m
                   | None => None end in
        let bounded := match mx' with Some k => Nat.ltb 0 k | None => false end in
        let (body, id1) :=
          if bounded then quest_f (compile c) nh (match mx' with Some k => k | None => O end) OEmpty id
          else
            let cid := if Nat.eqb (minlen c) 0 then Some id else None in
            let id0 := if Nat.eqb (minlen c) 0 then S id else id in
            let finite := match nh with HNull => true | _ => negb (overlap (fx_ovl w) nh c) end in
            if finite then let (oc, id1) := compile c HNull id0 in (OFinClosure cid oc, id1)
            else let (oc, id1) := compile c HOther id0 in (OClosure cid oc, id1) in
        copies_f (compile c) nh mn body id1
  end.

End Compile.

(* ------------------------------------------------------------------------------------------------ *)
(** * The backtracking matcher *)
Definition offs : Type := list (option nat).            (* Context::fOffsets; None = -1 *)

Fixpoint set_nth {A} (l : list A) (i : nat) (v : A) : list A :=
  match l, i with
  | [], _ => []
  | _ :: r, O => v :: r
  | x :: r, S i' => x :: set_nth r i' v
  end.

Inductive mres : Type := MFuel | MR (r : option nat) (st : offs).
Definition kont : Type := nat -> offs -> mres.

Definition is_surrogate (c : N) : bool := (0xD800 <=? c) && (c <=? 0xDFFF).

(** RegxUtil::isEOLChar takes an XMLCh: the code point is truncated to 16 bits *)
Definition eol16 (c : N) : bool := let u := c mod 65536 in (u =? 10) || (u =? 13) || (u =? 0x2028) || (u =? 0x2029).
Definition dot_ok (fx : bool) (c : N) : bool := if fx then negb ((c =? 10) || (c =? 13)) else negb (eol16 c).

Fixpoint prefix_at (s : list N) (off : nat) (lit : list N) : bool :=
  match lit with
  | [] => true
  | c :: lit' => match nth_error s off with Some x => (x =? c) && prefix_at s (S off) lit' | None => false end
  end.

Definition slot_is (st : offs) (i off : nat) : bool :=
  match nth_error st i with Some (Some v) => Nat.eqb v off | _ => false end.

(** matchDot outside schema mode: any character with option s; otherwise not an end-of-line character
    (LF CR U+2028 U+2029; before the repair 5dcc74f the code point was truncated to 16 bits first) *)
Definition xp_dot (fx sl : bool) (c : N) : bool :=
  if sl then true
  else if fx then negb ((c =? 10) || (c =? 13) || (c =? 0x2028) || (c =? 0x2029)) else negb (eol16 c).

(** matchUnion: every branch runs on a copy of the context ([run b] = match of branch b with the continuation);
    the best (largest) end wins, the first wins ties, a branch reaching the limit ends the search *)
Fixpoint union_go (limit : nat) (st : offs) (run : op -> mres) (l : list op) (best : option nat) (bst : offs) : mres :=
  match l with
  | [] => match best with Some b => MR (Some b) bst | None => MR None st end
  | b1 :: r =>
      match run b1 with
      | MFuel => MFuel
      | MR (Some e) st1 =>
          let better := match best with Some b => Nat.ltb b e | None => true end in
          if (Nat.leb e limit && better)%bool then
            if Nat.eqb e limit then MR (Some e) st1 else union_go limit st run r (Some e) st1
          else union_go limit st run r best bst
      | MR None _ => union_go limit st run r best bst
      end
  end.

(** the loop of O_FINITE_CLOSURE: [while ((ret = match(child, offset)) != -1) { if (offset == ret) break; offset = ret; }];
    [run] = match of the child chain (which ends at NULL), [fin] = what follows the loop *)
Fixpoint fin_loop (run : nat -> offs -> mres) (fin : nat -> offs -> mres) (n : nat) (off : nat) (st : offs) : mres :=
  match n with
  | O => MFuel
  | S n' =>
      match run off st with
      | MFuel => MFuel
      | MR (Some e) st1 => if Nat.eqb e off then fin off st1 else fin_loop run fin n' e st1
      | MR None st1 => fin off st1
      end
  end.

Section Match.
Variable w : sw.
Variable xp : bool.      (* the XPath-flavoured dialect (no XMLSCHEMA_MODE) *)
Variable sl : bool.      (* option s (SINGLE_LINE) *)
Variable s : list N.

Definition limit : nat := length s.

(** one character class of ops: matchChar / matchDot / matchRange (Context::nextCh fails on an unpaired surrogate) *)
Definition one_char (f : N -> bool) (k : kont) (off : nat) (st : offs) : mres :=
  match nth_error s off with
  | Some x => if negb (is_surrogate x) && f x then k (S off) st else MR None st
  | None => MR None st
  end.

Fixpoint omatch (fuel : nat) (o : op) (k : kont) (off : nat) (st : offs) {struct fuel} : mres :=
  match fuel with
  | O => MFuel
  | S f =>
    match o with
    | OEmpty => k off st
    | OChar c => one_char (N.eqb c) k off st
    | ODot => one_char (if xp then xp_dot (fx_dot w) sl else dot_ok (fx_dot w)) k off st
    | OMark => k off st
    | ORange neg r => one_char (rt_match neg r) k off st
    | OString lit => if prefix_at s off lit then k (off + length lit)%nat st else MR None st
    | OCat a b => omatch f a (fun o' st' => omatch f b k o' st') off st
    | OUnion l => union_go limit st (fun b1 => omatch f b1 k off st) l None st
    | OQuestion c =>
        match omatch f c k off st with
        | MFuel => MFuel
        | MR (Some e) st1 => MR (Some e) st1
        | MR None st1 => k off st1
        end
    | OClosure id c =>
        let enter (st0 : offs) :=
          match omatch f c (fun o' st' => omatch f (OClosure id c) k o' st') off st0 with
          | MFuel => MFuel
          | MR r st1 =>
              let st2 := match id with Some i => set_nth st1 i None | None => st1 end in
              match r with Some e => MR (Some e) st2 | None => k off st2 end
          end in
        match id with
        | Some i => if slot_is st i off then k off (set_nth st i None) else enter (set_nth st i (Some off))
        | None => enter st
        end
    | OFinClosure id c =>
        let fin (off : nat) (st : offs) : mres :=
          k off (match id with Some i => set_nth st i None | None => st end) in
        let run (st0 : offs) := fin_loop (omatch f c (fun o' st' => MR (Some o') st')) fin f off st0 in
        match id with
        | Some i => if slot_is st i off then k off (set_nth st i None) else run (set_nth st i (Some off))
        | None => run st
        end
    end
  end.

End Match.

(** RegularExpression::matches in XMLSCHEMA_MODE: [match(context, fOperations, fStart) == fLimit] *)
Inductive xres : Type := XTrue | XFalse | XDiverge.

Definition xmatch_tok (w : sw) (fuel : nat) (t : tok) (s : list N) : xres :=
  let (o, nclos) := compile w false t HNull 0 in
  match omatch w false false s fuel o (fun o' st' => MR (Some o') st') 0 (repeat None nclos) with
  | MFuel => XDiverge
  | MR (Some e) _ => if Nat.eqb e (length s) then XTrue else XFalse
  | MR None _ => XFalse
  end.

(** RegularExpression::matches outside schema mode, without the pre-filters (options F and H): the leftmost start at
    which match() completes, and the end of that first completion.  (The C++ stops at fLimit - fMinLength; the starts
    beyond cannot complete, so trying them changes nothing.) *)
Inductive sres : Type := SNone | SFound (a b : nat) | SDiverge.

(** lengths in UTF-16 units, as Token::getMinLength and fLimit count them *)
Definition units_of (s : list N) : nat := fold_right (fun c n => ((if c <? 0x10000 then 1 else 2) + n)%nat) O s.
Fixpoint minlen_u (t : tok) : nat :=
  match t with
  | TEmpty => 0
  | TDot | TChar _ | TRange _ _ => 1
  | TString s => units_of s
  | TConcat l => (fix go (l : list tok) : nat := match l with [] => 0 | x :: r => minlen_u x + go r end) l
  | TUnion l =>
      match l with
      | [] => 0
      | x :: r => (fix go (m : nat) (l : list tok) : nat :=
                     match l with [] => m | y :: r' => go (Nat.min m (minlen_u y)) r' end) (minlen_u x) r
      end
  | TClosure mn _ t => mn * minlen_u t
  | TParen t => minlen_u t
  end%nat.

(** the scan loop [for (matchStart = fStart; matchStart <= fLimit - fMinLength; matchStart++)]: [run start] = match() from
    [start]; [ok start] = the start lies within the bound (in UTF-16 units) *)
Fixpoint search_go (run : nat -> mres) (ok : nat -> bool) (n : nat) (start : nat) : sres :=
  if negb (ok start) then SNone else
  match run start with
  | MFuel => SDiverge
  | MR (Some e) _ => SFound start e
  | MR None _ => match n with O => SNone | S n' => search_go run ok n' (S start) end
  end.

Definition xsearch_tok (w : sw) (fuel : nat) (sl : bool) (t : tok) (s : list N) : sres :=
  (* if (context.fLimit < fMinLength) return false; *)
  if Nat.ltb (units_of s) (minlen_u t) then SNone else
  let (o, nclos) := compile w true t HNull 0 in
  search_go (fun start => omatch w true sl s fuel o (fun o' st' => MR (Some o') st') start (repeat None nclos))
            (fun start => Nat.leb (units_of (firstn start s)) (units_of s - minlen_u t))
            (length s) 0%nat.

(** pattern text -> answer *)
Inductive answer : Type := AParseError | ARuntime | AUnsupported | ACrash | AMatch (r : list xres).

Definition run_re (w : sw) (fuel : nat) (pat : list N) (strs : list (list N)) : answer :=
  match parse w pat with
  | Ok t => AMatch (map (xmatch_tok w fuel t) strs)
  | Err PE_Parse => AParseError
  | Err PE_Runtime => ARuntime
  | Err PE_Unsupported => AUnsupported
  | Err PE_Crash => ACrash
  | Err PE_Fuel => ACrash
  end.

(* ------------------------------------------------------------------------------------------------ *)
(** * The repaired matcher (defect switch of F15/F27/F28)
    Same token tree, same continuation-passing structure, but: the continuation of the whole expression succeeds
    only at the limit (so a completion that stops short makes the matcher backtrack instead of being returned),
    every closure backtracks over its number of iterations (no possessive O_FINITE_CLOSURE), a closure iteration
    must consume at least one character (instead of the fOffsets bookkeeping), and a union succeeds as soon as one
    branch does.  Structurally recursive, hence total.  Proved sound and complete w.r.t. [Lre] in Proofs11f.v. *)
Section Fixed.
Variable fxd : bool.       (* fx_dot *)
Variable s : list N.

Definition fchar (f : N -> bool) (k : nat -> bool) (off : nat) : bool :=
  match nth_error s off with Some x => f x && k (S off) | None => false end.

Definition range_set (neg : bool) (r : list rng) (c : N) : bool := xorb neg (rmem r c).

(** loops over a body matcher [m] (= fmatch of the closure's child) *)
Fixpoint star_f (m : (nat -> bool) -> nat -> bool) (k : nat -> bool) (n : nat) (off : nat) : bool :=
  k off || match n with
           | O => false
           | S n' => m (fun o' => Nat.ltb off o' && star_f m k n' o') off
           end.
Fixpoint opt_f (m : (nat -> bool) -> nat -> bool) (k : nat -> bool) (j : nat) (off : nat) : bool :=
  k off || match j with O => false | S j' => m (opt_f m k j') off end.
Fixpoint pow_f (m : (nat -> bool) -> nat -> bool) (tail : nat -> bool) (i : nat) : nat -> bool :=
  match i with O => tail | S i' => m (pow_f m tail i') end.

Fixpoint fmatch (t : tok) (k : nat -> bool) (off : nat) {struct t} : bool :=
  match t with
  | TEmpty => k off
  | TDot => fchar (dot_ok fxd) k off
  | TChar c => fchar (N.eqb c) k off
  | TString l => prefix_at s off l && k (off + length l)%nat
  | TRange neg r => fchar (range_set neg r) k off
  | TParen t1 => fmatch t1 k off
  | TConcat l =>
      (fix go (l : list tok) (k : nat -> bool) : nat -> bool :=
         match l with [] => k | x :: r => fmatch x (go r k) end) l k off
  | TUnion l =>
      (fix go (l : list tok) : bool := match l with [] => false | x :: r => fmatch x k off || go r end) l
  | TClosure mn mx c =>
      let tail := match mx with
                  | None => star_f (fmatch c) k (length s)
                  | Some m => if Nat.ltb m mn then (fun _ => false) else opt_f (fmatch c) k (m - mn)%nat
                  end in
      pow_f (fmatch c) tail mn off
  end.

Definition xmatch_fixed_tok (t : tok) : bool := fmatch t (fun e => Nat.eqb e (length s)) 0.

End Fixed.

(** the language a token tree stands for *)
Fixpoint re_of_tok (fxd : bool) (t : tok) : re :=
  match t with
  | TEmpty => REps
  | TDot => RSet (dot_ok fxd)
  | TChar c => RChar c
  | TString l => fold_right (fun c r => RCat (RChar c) r) REps l
  | TRange neg r => RSet (range_set neg r)
  | TParen t1 => re_of_tok fxd t1
  | TConcat l => (fix go (l : list tok) : re := match l with [] => REps | x :: r => RCat (re_of_tok fxd x) (go r) end) l
  | TUnion l => (fix go (l : list tok) : re := match l with [] => REmp | x :: r => RAlt (re_of_tok fxd x) (go r) end) l
  | TClosure mn mx c => RRep mn mx (re_of_tok fxd c)
  end.

Definition run_fixed (w : sw) (pat : list N) (strs : list (list N)) : answer :=
  match parse w pat with
  | Ok t => AMatch (map (fun s => if xmatch_fixed_tok (fx_dot w) s t then XTrue else XFalse) strs)
  | Err PE_Parse => AParseError
  | Err PE_Runtime => ARuntime
  | Err PE_Unsupported => AUnsupported
  | Err _ => ACrash
  end.
