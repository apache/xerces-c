(** The op tree built by [compile] denotes a subset of the language of the token tree, and the soundness theorem of
    the matcher as it stands: [xmatch_tok w fuel t s = XTrue -> Lre (re_of_tok (fx_dot w) t) s]. *)
From Coq Require Import Arith PeanoNat Lia.
From XV Require Import C11.Spec11 C11.ModelRange11 C11.Model11 C11.Proofs11a C11.Proofs11b C11.Proofs11f.
Local Open Scope N_scope.

(** well-formed token trees: every class is sorted/compacted, every bounded quantifier has min <= max
    (what the parser produces; decidable) *)
Fixpoint tok_wfb (t : tok) : bool :=
  match t with
  | TRange _ r => compact_ok r
  | TConcat l => (fix all (l : list tok) : bool := match l with [] => true | x :: r => tok_wfb x && all r end) l
  | TUnion l => (fix all (l : list tok) : bool := match l with [] => true | x :: r => tok_wfb x && all r end) l
  | TClosure mn mx c => (match mx with Some m => Nat.leb mn m | None => true end) && tok_wfb c
  | TParen c => tok_wfb c
  | _ => true
  end.

(** [re_of_tok] with the dot predicate as a parameter *)
Fixpoint re_of_tok_d (dotf : N -> bool) (t : tok) : re :=
  match t with
  | TEmpty => REps
  | TDot => RSet dotf
  | TChar c => RChar c
  | TString l => fold_right (fun c r => RCat (RChar c) r) REps l
  | TRange neg r => RSet (range_set neg r)
  | TParen t1 => re_of_tok_d dotf t1
  | TConcat l => (fix go (l : list tok) : re := match l with [] => REps | x :: r => RCat (re_of_tok_d dotf x) (go r) end) l
  | TUnion l => (fix go (l : list tok) : re := match l with [] => REmp | x :: r => RAlt (re_of_tok_d dotf x) (go r) end) l
  | TClosure mn mx c => RRep mn mx (re_of_tok_d dotf c)
  end.

Lemma re_of_tok_d_eq : forall fxd t, re_of_tok_d (dot_ok fxd) t = re_of_tok fxd t.
Proof.
  intros fxd. induction t as [| |c|l|neg r|l IHl|l IHl|mn mx c IH|t IH] using tok_ind'; cbn [re_of_tok_d re_of_tok]; try reflexivity.
  - induction IHl as [|x l Hx Hl IHl']; [reflexivity |]. rewrite Hx, IHl'. reflexivity.
  - induction IHl as [|x l Hx Hl IHl']; [reflexivity |]. rewrite Hx, IHl'. reflexivity.
  - rewrite IH. reflexivity.
  - exact IH.
Qed.

Section CompileSound.
Variable w : sw.
Variable cap xp sl : bool.

Notation dotf := (dotf w xp sl).
Notation Lop := (Lop w xp sl).

Section Loops.
Variable comp : hd -> nat -> op * nat.
Variable Lbody : list N -> Prop.
Hypothesis Hcomp : forall nh id v, Lop (fst (comp nh id)) v -> Lbody v.

Lemma copies_f_sound : forall nh n ret id v, Lop (fst (copies_f comp nh n ret id)) v -> Lcat (Lpow Lbody n) (Lop ret) v.
Proof.
  intros nh. induction n as [|n IH]; intros ret id v H; cbn [copies_f] in H.
  - exists [], v. split; [reflexivity |]. split; [apply Lpow_0; reflexivity | exact H].
  - destruct (comp (head_of ret nh) id) as [o1 id1] eqn:E.
    destruct (IH _ _ _ H) as [v1 [v2 [-> [[ss [-> [F Hl]]] [a [b [-> [Ha Hb]]]]]]]].
    assert (La : Lbody a). { apply (Hcomp (head_of ret nh) id). rewrite E. exact Ha. }
    exists (concat (ss ++ [a])), b. rewrite concat_app. cbn [concat]. rewrite app_nil_r, <- app_assoc.
    split; [reflexivity |]. split; [| exact Hb]. exists (ss ++ [a]). rewrite concat_app. cbn [concat]. rewrite app_nil_r.
    split; [reflexivity |]. split; [apply Forall_app; auto | rewrite app_length; cbn; lia].
Qed.

Lemma quest_f_sound : forall nh k ret id j0, (forall v, Lop ret v -> Lmax Lbody j0 v) ->
  forall v, Lop (fst (quest_f comp nh k ret id)) v -> Lmax Lbody (j0 + k) v.
Proof.
  intros nh. induction k as [|k IH]; intros ret id j0 Hret v H; cbn [quest_f] in H.
  - rewrite Nat.add_0_r. apply Hret. exact H.
  - destruct (comp (head_of ret nh) id) as [o1 id1] eqn:E.
    replace (j0 + S k)%nat with (S j0 + k)%nat by lia. apply (IH _ _ (S j0)) in H; [exact H |].
    intros v' Hv'. apply Lmax_S. cbn [Proofs11f.Lop] in Hv'. destruct Hv' as [-> | [a [b [-> [Ha Hb]]]]]; [left; reflexivity | right].
    exists a, b. split; [reflexivity |]. split; [| exact (Hret _ Hb)]. apply (Hcomp (head_of ret nh) id). rewrite E. exact Ha.
Qed.
End Loops.

(** the loops of [compile] over the children of a T_CONCAT / a T_UNION, with the compilation of one child as a parameter *)
Definition compile_cat_go (comp : tok -> hd -> nat -> op * nat) (nh : hd) (id : nat) := fix go (l : list tok) : op * nat :=
  match l with
  | [] => (OEmpty, id)
  | x :: r => let (ob, id1) := go r in
              let (oa, id2) := comp x (head_of ob nh) id1 in (OCat oa ob, id2)
  end.

Definition compile_alt_go (comp : tok -> hd -> nat -> op * nat) (nh : hd) := fix go (l : list tok) (id : nat) : list op * nat :=
  match l with
  | [] => ([], id)
  | x :: r => let (o1, id1) := comp x nh id in
              let (or_, id2) := go r id1 in (o1 :: or_, id2)
  end.

Section ListLoops.
Variable comp : tok -> hd -> nat -> op * nat.

Lemma compile_cat_go_sound : forall l,
  Forall (fun x => forall nh id v, Lop (fst (comp x nh id)) v -> Lre (re_of_tok_d dotf x) v) l ->
  forall nh id v, Lop (fst (compile_cat_go comp nh id l)) v -> Lre (re_of_tok_d dotf (TConcat l)) v.
Proof.
  induction 1 as [|x l Hx Hl IH]; intros nh id v H; [exact H |].
  change (compile_cat_go comp nh id (x :: l)) with
    (let (ob, id1) := compile_cat_go comp nh id l in let (oa, id2) := comp x (head_of ob nh) id1 in (OCat oa ob, id2)) in H.
  destruct (compile_cat_go comp nh id l) as [ob id1] eqn:Eb. destruct (comp x (head_of ob nh) id1) as [oa id2] eqn:Ea.
  destruct H as [v1 [v2 [-> [H1 H2]]]]. exists v1, v2. split; [reflexivity |]. split.
  - apply (Hx (head_of ob nh) id1). rewrite Ea. exact H1.
  - apply (IH nh id). rewrite Eb. exact H2.
Qed.

Lemma compile_alt_go_sound : forall l,
  Forall (fun x => forall nh id v, Lop (fst (comp x nh id)) v -> Lre (re_of_tok_d dotf x) v) l ->
  forall nh id v, Lop (OUnion (fst (compile_alt_go comp nh l id))) v -> Lre (re_of_tok_d dotf (TUnion l)) v.
Proof.
  induction 1 as [|x l Hx Hl IH]; intros nh id v H; [destruct H |].
  change (compile_alt_go comp nh (x :: l) id) with
    (let (o1, id1) := comp x nh id in let (or_, id2) := compile_alt_go comp nh l id1 in (o1 :: or_, id2)) in H.
  destruct (comp x nh id) as [o1 id1] eqn:E1. destruct (compile_alt_go comp nh l id1) as [or_ id2] eqn:Er.
  destruct H as [H | H]; [left | right].
  - apply (Hx nh id). rewrite E1. exact H.
  - apply (IH nh id1). rewrite Er. exact H.
Qed.
End ListLoops.

Lemma Forall_wf : forall (P : tok -> Prop) l, Forall (fun x => tok_wfb x = true -> P x) l -> tok_wfb (TConcat l) = true -> Forall P l.
Proof.
  induction 1 as [|x l Hx Hl IH]; intros Hw; constructor; cbn [tok_wfb] in Hw; apply andb_true_iff in Hw; destruct Hw; auto.
Qed.

(** compileClosure for {mn,m} with mn < m: the number of nested options it builds is positive and at most m - mn *)
Lemma closure_options : forall mn m, (mn <= m)%nat -> m <> mn ->
  exists k, (if (Nat.ltb 0 mn && Nat.ltb 0 m)%bool then Some (m - mn)%nat else Some m) = Some k /\
            Nat.ltb 0 k = true /\ (k <= m - mn)%nat.
Proof.
  intros mn m Hm Hne. destruct (Nat.ltb_spec 0 mn); destruct (Nat.ltb_spec 0 m); cbn [andb]; eexists; (split; [reflexivity |]);
    (split; [apply Nat.ltb_lt |]); lia.
Qed.

Theorem compile_sound : forall t, tok_wfb t = true ->
  forall nh id v, Lop (fst (compile w cap t nh id)) v -> Lre (re_of_tok_d dotf t) v.
Proof.
  induction t as [| |c|l|neg r|l IHl|l IHl|mn mx c IH|t IH] using tok_ind'; intros Hwf nh id v H.
  - cbn in *. exact H.
  - cbn in *. exact H.
  - cbn in *. exact H.
  - cbn [compile fst Proofs11f.Lop] in H. apply (Lre_string false). exact H.
  - cbn [compile fst Proofs11f.Lop] in H. cbn [re_of_tok_d Lre tok_wfb] in *. destruct H as [x [-> Hx]].
    exists x. split; [reflexivity |]. unfold range_set. rewrite <- (rt_match_spec neg r x Hwf). exact Hx.
  - (* concatenation *) exact (compile_cat_go_sound (compile w cap) l (Forall_wf _ l IHl Hwf) nh id v H).
  - (* union *)
    change (Lop (fst (let (ol, id') := compile_alt_go (compile w cap) nh l id in (OUnion ol, id'))) v) in H.
    apply (compile_alt_go_sound (compile w cap) l (Forall_wf _ l IHl Hwf) nh id v).
    destruct (compile_alt_go (compile w cap) nh l id) as [ol id']. exact H.
  - (* closure *)
    cbn [tok_wfb] in Hwf. apply andb_true_iff in Hwf. destruct Hwf as [Wm Wc]. specialize (IH Wc).
    set (Lbody := Lre (re_of_tok_d dotf c)).
    assert (Hcomp : forall nh id v, Lop (fst (compile w cap c nh id)) v -> Lbody v) by (intros; eapply IH; eassumption).
    cbn [compile] in H. cbn [re_of_tok_d Lre]. fold Lbody.
    apply (Lrep_split Lbody mn mx v); [destruct mx; [apply Nat.leb_le; exact Wm | exact I] |].
    assert (Hcopies : forall body id1, Lop (fst (copies_f (compile w cap c) nh mn body id1)) v ->
                (forall v2, Lop body v2 -> Ltail Lbody mn mx v2) -> Lcat (Lpow Lbody mn) (Ltail Lbody mn mx) v).
    { intros body id1 Hb Ht. exact (Lcat_impl _ _ _ _ v (fun _ h => h) Ht (copies_f_sound _ Lbody Hcomp _ _ _ _ _ Hb)). }
    destruct mx as [m|]; cbn [Ltail].
    + apply Nat.leb_le in Wm. destruct (Nat.eqb_spec m mn) as [-> | Eex].
      * apply (Hcopies _ _ H). intros v2 ->. cbn [Ltail]. rewrite Nat.sub_diag. apply Lmax_0. reflexivity.
      * destruct (closure_options mn m Wm Eex) as [k [Hb [Hlt Hk]]]. rewrite Hb, Hlt in H.
        destruct (quest_f (compile w cap c) nh k OEmpty id) as [body id1] eqn:Eb.
        apply (Hcopies _ _ H). intros v2 H2. cbn [Ltail]. apply (Lmax_le Lbody (0 + k)); [exact Hk |].
        apply (quest_f_sound _ Lbody Hcomp nh k OEmpty id 0%nat); [| rewrite Eb; exact H2].
        intros v' ->. apply Lmax_0. reflexivity.
    + set (id0 := if Nat.eqb (minlen c) 0 then S id else id) in *.
      assert (Hstar : forall h ss2, Forall (Lop (fst (compile w cap c h id0))) ss2 -> Lstar Lbody (concat ss2)).
      { intros h ss2 F2. exists ss2. split; [reflexivity | exact (Forall_impl Lbody (Hcomp h id0) F2)]. }
      destruct (match nh with HNull => true | _ => negb (overlap (fx_ovl w) nh c) end).
      * destruct (compile w cap c HNull id0) as [oc id2] eqn:Ec. apply (Hcopies _ _ H). intros v2 [ss2 [-> F2]].
        apply (Hstar HNull). rewrite Ec. exact F2.
      * destruct (compile w cap c HOther id0) as [oc id2] eqn:Ec. apply (Hcopies _ _ H). intros v2 [ss2 [-> F2]].
        apply (Hstar HOther). rewrite Ec. exact F2.
  - (* group *)
    cbn [tok_wfb re_of_tok_d] in *. cbn [compile] in H. destruct cap.
    + destruct (compile w true t HOther id) as [o1 id1] eqn:E. cbn [fst Proofs11f.Lop] in H.
      destruct H as [v1 [v2 [-> [-> [v3 [v4 [-> [H3 ->]]]]]]]]. cbn. rewrite app_nil_r.
      apply (IH Hwf HOther id). rewrite E. exact H3.
    + exact (IH Hwf nh id v H).
Qed.

End CompileSound.

(** match() on a compiled token tree: a completion at [e] from [start] spells a word of the language *)
Lemma compiled_match_sound : forall w xp sl fuel t s o n start st e st', tok_wfb t = true ->
  compile w xp t HNull 0 = (o, n) ->
  omatch w xp sl s fuel o (fun o' st' => MR (Some o') st') start st = MR (Some e) st' ->
  Reach s (Lre (re_of_tok_d (dotf w xp sl) t)) start e.
Proof.
  intros w xp sl fuel t s o n start st e st' Hwf Ec H.
  destruct (omatch_sound w xp sl s _ _ _ _ _ _ _ H) as [m [stm [st'' [R Hk]]]]. inversion Hk; subst m.
  apply (Reach_weaken s (Lop w xp sl o)); [| exact R]. intros v Hv.
  apply (compile_sound w xp xp sl t Hwf HNull 0%nat). rewrite Ec. exact Hv.
Qed.

Theorem xmatch_tok_sound : forall w fuel t s, tok_wfb t = true ->
  xmatch_tok w fuel t s = XTrue -> Lre (re_of_tok (fx_dot w) t) s.
Proof.
  intros w fuel t s Hwf H. unfold xmatch_tok in H.
  destruct (compile w false t HNull 0) as [o nclos] eqn:Ec.
  destruct (omatch w false false s fuel o (fun o' st' => MR (Some o') st') 0 (repeat None nclos)) as [|[e|] st'] eqn:Em; try discriminate.
  destruct (Nat.eqb_spec e (length s)) as [Ee |]; [| discriminate].
  destruct (compiled_match_sound _ _ _ _ _ _ _ _ _ _ _ _ Hwf Ec Em) as [v [rest [E [Hv Hm]]]].
  cbn in E. subst s e. rewrite app_length in Hm.
  assert (rest = []) by (destruct rest; [reflexivity | cbn in Hm; lia]). subst rest. rewrite app_nil_r.
  rewrite <- re_of_tok_d_eq. exact Hv.
Qed.
