(** NECESSITY of the pre-filters of the non-schema matches():
    - [minlen_u_necessary]: every word of the language has at least Token::getMinLength UTF-16 units, hence the
      pre-check [fLimit < fMinLength] and the scan bound [fLimit - fMinLength] never exclude a start at which a word
      of the language begins ([search_bound_necessary]);
    - [fc_tok_spec] / [first_char_necessary]: when Token::analyzeFirstCharacter answers FC_TERMINAL, every word of the
      language is non-empty and starts with a member of the computed set;
    - [search_leftmost]: the window the search model reports starts at the LEFTMOST position at which match() completes,
      and when it reports none, match() completes nowhere (also not beyond the scan bound);
    - [prefilter_transparent]: the scan with the head-character test gives the same answer as the scan without. *)
From Coq Require Import Arith PeanoNat ZArith ZifyBool ZifyN ZifyNat Lia List.
From XV Require Import C11.Spec11 C11.ModelRange11 C11.Model11 C11.ModelPre11 C11.Proofs11a C11.Proofs11b C11.Proofs11d
                       C11.Proofs11f C11.Proofs11g C11.Proofs11i.
Local Open Scope N_scope.

Lemma units_app : forall a b, units_of (a ++ b) = (units_of a + units_of b)%nat.
Proof. induction a as [|x a IH]; intros b; [reflexivity |]. unfold units_of in *. cbn [app fold_right]. rewrite IH. lia. Qed.

Lemma units_one : forall c, (1 <= units_of [c])%nat.
Proof. intros c. unfold units_of. cbn [fold_right]. destruct (c <? 65536); lia. Qed.

Lemma units_concat : forall (L : list N -> Prop) m ss, (forall v, L v -> (m <= units_of v)%nat) -> Forall L ss ->
  (length ss * m <= units_of (concat ss))%nat.
Proof.
  intros L m ss H F. induction F as [|v ss Hv F IH]; [cbn; lia |].
  cbn [concat length]. rewrite units_app. specialize (H v Hv). lia.
Qed.

Fixpoint umin (m : nat) (l : list tok) : nat :=
  match l with [] => m | y :: r => umin (Nat.min m (minlen_u y)) r end.

Lemma minlen_u_union : forall x r, minlen_u (TUnion (x :: r)) = umin (minlen_u x) r.
Proof.
  intros x r. cbn [minlen_u]. generalize (minlen_u x). induction r as [|y r IH]; intros m; [reflexivity |].
  cbn [umin]. apply IH.
Qed.

Lemma umin_le : forall r m, (umin m r <= m)%nat.
Proof. induction r as [|y r IH]; intros m; [cbn; lia |]. cbn [umin]. specialize (IH (Nat.min m (minlen_u y))). lia. Qed.

Lemma umin_le_in : forall r m y, In y r -> (umin m r <= minlen_u y)%nat.
Proof.
  induction r as [|z r IH]; intros m y Hin; [destruct Hin |]. cbn [umin]. destruct Hin as [-> | Hin].
  - pose proof (umin_le r (Nat.min m (minlen_u y))). lia.
  - apply IH. exact Hin.
Qed.

Theorem minlen_u_necessary : forall dotf t v, Lre (re_of_tok_d dotf t) v -> (minlen_u t <= units_of v)%nat.
Proof.
  intros dotf. induction t as [| |c|l|neg r|l IHl|l IHl|mn mx c IH|t IH] using tok_ind'; intros v H.
  - cbn in H. subst v. cbn. lia.
  - cbn in H. destruct H as [c [-> _]]. apply units_one.
  - cbn in H. destruct H as [x [-> _]]. apply units_one.
  - apply (Lre_string false) in H. subst v. cbn [minlen_u]. lia.
  - cbn in H. destruct H as [x [-> _]]. apply units_one.
  - cbn [re_of_tok_d minlen_u] in *. revert v H. induction IHl as [|x l Hx Hl IHl']; intros v H.
    + cbn in H. subst v. cbn. lia.
    + cbn [Lre] in H. destruct H as [v1 [v2 [-> [H1 H2]]]]. rewrite units_app.
      specialize (Hx v1 H1). specialize (IHl' v2 H2). lia.
  - destruct l as [|x r]; [cbn in H; destruct H |]. rewrite minlen_u_union.
    cbn [re_of_tok_d] in H. inversion IHl as [|x' l' Hx Hr]; subst. clear IHl. cbn [Lre] in H. destruct H as [H | H].
    + specialize (Hx v H). pose proof (umin_le r (minlen_u x)). lia.
    + clear Hx. generalize (minlen_u x). revert v H. induction Hr as [|y r Hy Hr IHr]; intros v H m; [destruct H |].
      cbn [Lre] in H. destruct H as [H | H].
      * specialize (Hy v H). pose proof (umin_le_in (y :: r) m y (or_introl eq_refl)). lia.
      * cbn [umin]. apply IHr. exact H.
  - cbn [re_of_tok_d Lre minlen_u] in *. destruct H as [ss [-> [F [Hn _]]]].
    pose proof (units_concat _ (minlen_u c) ss IH F) as U. nia.
  - cbn [re_of_tok_d minlen_u] in *. exact (IH v H).
Qed.

Lemma units_firstn_skipn : forall (s : list N) a, units_of s = (units_of (firstn a s) + units_of (skipn a s))%nat.
Proof. intros s a. rewrite <- units_app, firstn_skipn. reflexivity. Qed.

Lemma units_firstn_le : forall (s : list N) x a, (x <= a)%nat -> (units_of (firstn x s) <= units_of (firstn a s))%nat.
Proof.
  induction s as [|c l IH]; intros x a Hx; [rewrite !firstn_nil; lia |].
  destruct x as [|x]; [cbn; lia |]. destruct a as [|a]; [lia |]. cbn [firstn].
  change (c :: firstn x l) with ([c] ++ firstn x l). change (c :: firstn a l) with ([c] ++ firstn a l).
  rewrite !units_app. specialize (IH x a ltac:(lia)). lia.
Qed.

Theorem search_bound_necessary : forall dotf t s a v rest, skipn a s = v ++ rest -> Lre (re_of_tok_d dotf t) v ->
  Nat.ltb (units_of s) (minlen_u t) = false /\ Nat.leb (units_of (firstn a s)) (units_of s - minlen_u t) = true.
Proof.
  intros dotf t s a v rest E H. pose proof (minlen_u_necessary dotf t v H) as M.
  pose proof (units_firstn_skipn s a) as U. rewrite E, units_app in U.
  split; [apply Nat.ltb_ge; lia | apply Nat.leb_le; lia].
Qed.

Definition hd_in (f : N -> bool) (v : list N) : Prop := exists c r, v = c :: r /\ f c = true.

Definition FCP (res : fcres) (f : N -> bool) (L : list N -> Prop) : Prop :=
  match res with
  | FC_ANY => True
  | FC_CONTINUE => forall v, L v -> v = [] \/ hd_in f v
  | FC_TERMINAL => forall v, L v -> hd_in f v
  end.

Definition sub_set (f g : N -> bool) : Prop := forall c, f c = true -> g c = true.

Lemma hd_in_mono : forall f g v, sub_set f g -> hd_in f v -> hd_in g v.
Proof. intros f g v Hfg [c [r [E H]]]. exists c, r. auto. Qed.

Lemma FCP_mono : forall res f g L, sub_set f g -> FCP res f L -> FCP res g L.
Proof.
  intros [] f g L Hfg H; cbn in *; [| | exact I].
  - intros v Hv. destruct (H v Hv) as [E | E]; [left; exact E | right; exact (hd_in_mono f g v Hfg E)].
  - intros v Hv. exact (hd_in_mono f g v Hfg (H v Hv)).
Qed.

Lemma hd_in_app : forall f v1 v2, hd_in f v1 -> hd_in f (v1 ++ v2).
Proof. intros f v1 v2 [c [r [-> H]]]. exists c, (r ++ v2). auto. Qed.

Lemma concat_hd : forall (L : list N -> Prop) f ss, (forall v, L v -> v = [] \/ hd_in f v) -> Forall L ss ->
  concat ss = [] \/ hd_in f (concat ss).
Proof.
  intros L f ss H F. induction F as [|v ss Hv F IH]; [left; reflexivity |].
  cbn [concat]. destruct (H v Hv) as [-> | Hh]; [exact IH | right; apply hd_in_app; exact Hh].
Qed.

Lemma FCP_terminal : forall r f (L : list N -> Prop), FCP FC_TERMINAL f L -> FCP r f L.
Proof. intros [] f L H; cbn in *; [intros v Hv; right; exact (H v Hv) | exact H | exact I]. Qed.

Lemma FCP_or : forall r f (L1 L2 : list N -> Prop), FCP r f L1 -> FCP r f L2 -> FCP r f (fun v => L1 v \/ L2 v).
Proof. intros [] f L1 L2 H1 H2; cbn in *; [| | exact I]; intros v [H | H]; auto. Qed.

Lemma FCP_cat : forall r f (L1 L2 : list N -> Prop), FCP FC_CONTINUE f L1 -> FCP r f L2 -> FCP r f (Lcat L1 L2).
Proof.
  intros r f L1 L2 H1 H2. destruct r; cbn [FCP] in *; [| | exact I]; intros v [v1 [v2 [-> [A B]]]];
    (destruct (H1 v1 A) as [-> | Hh]; [exact (H2 v2 B) |]); [right |]; apply hd_in_app; exact Hh.
Qed.

Lemma FCP_cat_terminal : forall f (L1 L2 : list N -> Prop), FCP FC_TERMINAL f L1 -> FCP FC_TERMINAL f (Lcat L1 L2).
Proof. intros f L1 L2 H v [v1 [v2 [-> [A _]]]]. apply hd_in_app. exact (H v1 A). Qed.

(** no empty string literal (UnionToken::addChild builds a T_STRING from at least two characters) *)
Fixpoint tok_nes (t : tok) : bool :=
  match t with
  | TString [] => false
  | TConcat l => (fix all (l : list tok) : bool := match l with [] => true | x :: r => tok_nes x && all r end) l
  | TUnion l => (fix all (l : list tok) : bool := match l with [] => true | x :: r => tok_nes x && all r end) l
  | TClosure _ _ c => tok_nes c
  | TParen c => tok_nes c
  | _ => true
  end.

Lemma tok_rt_opnd : forall r, compact_ok r = true -> rt_opnd (tok_rt r).
Proof.
  intros r H. unfold rt_opnd, tok_rt. cbn [rs alloc srt].
  split; [destruct r; [discriminate | discriminate] |]. split; [destruct r; [reflexivity | discriminate] |].
  split; [| reflexivity]. apply compact_lo_sorted; [exact H |]. destruct r as [|[lo hi] r]; [exact I | cbn; lia].
Qed.

Section FC.
Variable dotf : N -> bool.
Definition fc_ok (t : tok) (acc : rtok) (out : fcres * rtok) : Prop :=
  rt_acc (snd out) /\ sub_set (rmem (rs acc)) (rmem (rs (snd out))) /\
  FCP (fst out) (rmem (rs (snd out))) (Lre (re_of_tok_d dotf t)).

Lemma sub_set_refl : forall f, sub_set f f.
Proof. intros f c H. exact H. Qed.

Lemma sub_set_trans : forall f g h, sub_set f g -> sub_set g h -> sub_set f h.
Proof. intros f g h A B c H. auto. Qed.

Lemma fc_ok_same : forall t acc r, rt_acc acc -> FCP r (rmem (rs acc)) (Lre (re_of_tok_d dotf t)) -> fc_ok t acc (r, acc).
Proof. intros t acc r Ha H. split; [exact Ha |]. split; [apply sub_set_refl | exact H]. Qed.

Lemma fc_ok_char : forall t acc c, rt_acc acc -> (forall v, Lre (re_of_tok_d dotf t) v -> exists r, v = c :: r) ->
  fc_ok t acc (FC_TERMINAL, addRange true acc c c).
Proof.
  intros t acc c Ha Hc. split; [apply addRange_acc; exact Ha |]. cbn [fst snd].
  split; [intros x Hx; rewrite addRange_acc_mem by exact Ha; rewrite Hx; reflexivity |].
  intros v Hv. destruct (Hc v Hv) as [r ->]. exists c, r. split; [reflexivity |].
  rewrite addRange_acc_mem by exact Ha. unfold interval. rewrite N.min_id, N.max_id, N.leb_refl. apply orb_true_r.
Qed.

(** the loops of [fc_tok] over the children of a T_CONCAT / a T_UNION *)
Definition fc_cat_go (f : tok -> rtok -> fcres * rtok) := fix go (l : list tok) (acc : rtok) : fcres * rtok :=
  match l with
  | [] => (FC_CONTINUE, acc)
  | x :: r => match f x acc with
              | (FC_CONTINUE, a) => go r a
              | other => other
              end
  end.

Definition fc_alt_go (f : tok -> rtok -> fcres * rtok) := fix go (l : list tok) (acc : rtok) (hasEmpty : bool) : fcres * rtok :=
  match l with
  | [] => (if hasEmpty then FC_CONTINUE else FC_TERMINAL, acc)
  | x :: r => match f x acc with
              | (FC_ANY, a) => (FC_ANY, a)
              | (FC_CONTINUE, a) => go r a true
              | (FC_TERMINAL, a) => go r a hasEmpty
              end
  end.

Section Loops.
Variable f : tok -> rtok -> fcres * rtok.

Lemma fc_cat_go_ok : forall l, Forall (fun x => forall acc, rt_acc acc -> fc_ok x acc (f x acc)) l ->
  forall acc, rt_acc acc -> fc_ok (TConcat l) acc (fc_cat_go f l acc).
Proof.
  induction 1 as [|x l Hx Hl IH]; intros acc Ha.
  - apply fc_ok_same; [exact Ha |]. intros v ->. left. reflexivity.
  - change (fc_cat_go f (x :: l) acc) with (match f x acc with (FC_CONTINUE, a) => fc_cat_go f l a | other => other end).
    specialize (Hx acc Ha). destruct (f x acc) as [rx a]. destruct Hx as [Xa [Xs Xp]]. cbn [fst snd] in Xa, Xs, Xp.
    destruct rx.
    + destruct (IH a Xa) as [Ra [Rs Rp]]. split; [exact Ra |]. split; [exact (sub_set_trans _ _ _ Xs Rs) |].
      exact (FCP_cat _ _ _ _ (FCP_mono _ _ _ _ Rs Xp) Rp).
    + split; [exact Xa |]. split; [exact Xs | exact (FCP_cat_terminal _ _ _ Xp)].
    + split; [exact Xa |]. split; [exact Xs | exact I].
Qed.

(** once a child may be empty ([he]) the union no longer answers FC_TERMINAL *)
Lemma fc_alt_go_ok : forall l, Forall (fun x => forall acc, rt_acc acc -> fc_ok x acc (f x acc)) l ->
  forall he acc, rt_acc acc ->
  fc_ok (TUnion l) acc (fc_alt_go f l acc he) /\ (he = true -> fst (fc_alt_go f l acc he) <> FC_TERMINAL).
Proof.
  induction 1 as [|x l Hx Hl IH]; intros he acc Ha.
  - split; [| intros ->; discriminate]. apply fc_ok_same; [exact Ha |]. destruct he; intros v [].
  - change (fc_alt_go f (x :: l) acc he) with
      (match f x acc with (FC_ANY, a) => (FC_ANY, a) | (FC_CONTINUE, a) => fc_alt_go f l a true | (FC_TERMINAL, a) => fc_alt_go f l a he end).
    specialize (Hx acc Ha). destruct (f x acc) as [rx a]. destruct Hx as [Xa [Xs Xp]]. cbn [fst snd] in Xa, Xs, Xp.
    destruct rx.
    + destruct (IH true a Xa) as [[Ra [Rs Rp]] Rt]. specialize (Rt eq_refl). split; [| intros _; exact Rt].
      split; [exact Ra |]. split; [exact (sub_set_trans _ _ _ Xs Rs) |]. pose proof (FCP_mono _ _ _ _ Rs Xp) as X'.
      destruct (fst (fc_alt_go f l a true)); [exact (FCP_or _ _ _ _ X' Rp) | congruence | exact I].
    + destruct (IH he a Xa) as [[Ra [Rs Rp]] Rt]. split; [| exact Rt].
      split; [exact Ra |]. split; [exact (sub_set_trans _ _ _ Xs Rs) |].
      exact (FCP_or _ _ _ _ (FCP_terminal _ _ _ (FCP_mono _ _ _ _ Rs Xp)) Rp).
    + split; [| intros _; discriminate]. split; [exact Xa |]. split; [exact Xs | exact I].
Qed.
End Loops.

Lemma Forall_wf_nes : forall (P : tok -> Prop) l, Forall (fun x => tok_wfb x = true -> tok_nes x = true -> P x) l ->
  tok_wfb (TConcat l) = true -> tok_nes (TConcat l) = true -> Forall P l.
Proof.
  induction 1 as [|x l Hx Hl IH]; intros Hw Hn; constructor; cbn [tok_wfb tok_nes] in Hw, Hn;
    apply andb_true_iff in Hw; apply andb_true_iff in Hn; destruct Hw, Hn; auto.
Qed.

Theorem fc_tok_spec : forall t, tok_wfb t = true -> tok_nes t = true -> forall acc, rt_acc acc ->
  fc_ok t acc (fc_tok true t acc).
Proof.
  induction t as [| |c|l|neg r|l IHl|l IHl|mn mx c IH|t IH] using tok_ind'; intros Hwf Hne acc Ha.
  - (* TEmpty *) apply fc_ok_same; [exact Ha |]. intros v ->. left. reflexivity.
  - (* TDot *) apply fc_ok_same; [exact Ha | exact I].
  - (* TChar *)
    apply (fc_ok_char (TChar c)); [exact Ha |]. cbn. intros v [x [-> Hx]]. apply N.eqb_eq in Hx. subst x. eauto.
  - (* TString *)
    destruct l as [|c0 l0]; [discriminate |]. apply (fc_ok_char (TString (c0 :: l0))); [exact Ha |].
    intros v Hv. apply (Lre_string false) in Hv. subst v. eauto.
  - (* TRange *)
    cbn [tok_wfb] in Hwf. destruct neg; cbn [fc_tok].
    + apply fc_ok_same; [exact Ha | exact I].
    + pose proof (tok_rt_opnd r Hwf) as Ho. unfold fc_ok. cbn [fst snd]. split; [apply mergeRanges_acc; assumption |].
      split; [intros x Hx; rewrite mergeRanges_acc_mem by assumption; rewrite Hx; reflexivity |].
      cbn. intros v [x [-> Hx]]. exists x, []. split; [reflexivity |].
      assert (Er : rmem r x = true) by (revert Hx; unfold range_set; cbn; destruct (rmem r x); auto).
      rewrite mergeRanges_acc_mem by assumption. unfold tok_rt. cbn [rs]. rewrite Er. apply orb_true_r.
  - (* TConcat *) exact (fc_cat_go_ok (fc_tok true) l (Forall_wf_nes _ l IHl Hwf Hne) acc Ha).
  - (* TUnion *)
    destruct l as [|x l]; [apply fc_ok_same; [exact Ha | intros v []] |].
    exact (proj1 (fc_alt_go_ok (fc_tok true) (x :: l) (Forall_wf_nes _ _ IHl Hwf Hne) false acc Ha)).
  - (* TClosure *)
    cbn [tok_wfb] in Hwf. apply andb_true_iff in Hwf. destruct Hwf as [_ Hwf]. cbn [tok_nes] in Hne.
    specialize (IH Hwf Hne acc Ha). cbn [fc_tok]. destruct (fc_tok true c acc) as [rc a] eqn:Ec.
    destruct IH as [Xa [Xs Xp]]. cbn [fst snd] in Xa, Xs, Xp.
    assert (Hstar : (forall v, Lre (re_of_tok_d dotf c) v -> v = [] \/ hd_in (rmem (rs a)) v) ->
                fc_ok (TClosure mn mx c) acc (FC_CONTINUE, a)).
    { intros Hc. split; [exact Xa |]. split; [exact Xs |]. cbn [fst snd FCP re_of_tok_d Lre].
      intros v [ss [-> [F _]]]. exact (concat_hd _ _ ss Hc F). }
    destruct rc; cbn [FCP] in Xp.
    + apply Hstar. exact Xp.
    + apply Hstar. intros v Hv. right. exact (Xp v Hv).
    + split; [exact Xa |]. split; [exact Xs | exact I].
  - (* TParen *)
    cbn [tok_wfb] in Hwf. cbn [tok_nes] in Hne. cbn [fc_tok re_of_tok_d]. exact (IH Hwf Hne acc Ha).
Qed.

Theorem first_char_necessary : forall t fcs, tok_wfb t = true -> tok_nes t = true -> first_char true t = Some fcs ->
  compact_ok fcs = true /\
  forall v, Lre (re_of_tok_d dotf t) v -> exists c r, v = c :: r /\ rt_match false fcs c = true.
Proof.
  intros t fcs Hwf Hne H. unfold first_char in H. pose proof (fc_tok_spec t Hwf Hne rt_new rt_acc_new) as Hfc.
  destruct (fc_tok true t rt_new) as [res acc] eqn:E. destruct res; try discriminate. inversion H; subst fcs. clear H.
  destruct Hfc as [Sa [_ Sp]]. cbn [fst snd] in Sa, Sp.
  pose proof (rt_acc_normal acc Sa) as Nn. rewrite (sortRanges_id acc (rt_acc_srt acc Sa)) in Nn.
  split; [exact (n_compact _ _ Nn) |].
  intros v Hv. destruct (Sp v Hv) as [c [r [-> Hc]]]. exists c, r. split; [reflexivity |].
  rewrite rt_match_spec by exact (n_compact _ _ Nn). rewrite (n_set _ _ Nn), Hc. reflexivity.
Qed.

End FC.

Lemma search_go_found : forall run ok n start a b, search_go run ok n start = SFound a b ->
  (start <= a)%nat /\ (exists st', run a = MR (Some b) st') /\ ok a = true /\
  forall a', (start <= a')%nat -> (a' < a)%nat -> exists st', run a' = MR None st'.
Proof.
  intros run ok. induction n as [|n IH]; intros start a b H; cbn [search_go] in H;
    destruct (ok start) eqn:Eo; cbn [negb] in H; try discriminate;
    destruct (run start) as [|[e|] st'] eqn:Em; try discriminate.
  - inversion H; subst. split; [lia |]. split; [eauto |]. split; [exact Eo |]. intros a' H1 H2. lia.
  - inversion H; subst. split; [lia |]. split; [eauto |]. split; [exact Eo |]. intros a' H1 H2. lia.
  - destruct (IH _ _ _ H) as [I1 [I2 [I3 I4]]]. split; [lia |]. split; [exact I2 |]. split; [exact I3 |].
    intros a' H1 H2. destruct (Nat.eq_dec a' start) as [-> | Hd]; [eauto | apply I4; lia].
Qed.

Lemma search_go_none : forall run ok n start, search_go run ok n start = SNone ->
  forall a', (start <= a')%nat -> (a' <= start + n)%nat -> (forall x, (start <= x)%nat -> (x <= a')%nat -> ok x = true) ->
  exists st', run a' = MR None st'.
Proof.
  intros run ok. induction n as [|n IH]; intros start H a' H1 H2 Hok; cbn [search_go] in H;
    rewrite (Hok start ltac:(lia) H1) in H; cbn [negb] in H;
    destruct (run start) as [|[e|] st'] eqn:Em; try discriminate.
  - assert (a' = start) by lia. subst. eauto.
  - destruct (Nat.eq_dec a' start) as [-> | Hd]; [eauto |].
    apply (IH (S start) H a'); [lia | lia |]. intros x Hx1 Hx2. apply Hok; lia.
Qed.

Lemma search_fc_same : forall run ok pass, (forall start e st, run start = MR (Some e) st -> pass start = true) ->
  forall n start, search_go run ok n start <> SDiverge -> search_fc run ok pass n start = search_go run ok n start.
Proof.
  intros run ok pass Hp. induction n as [|n IH]; intros start; cbn [search_go search_fc];
    (destruct (ok start); cbn [negb]; [| reflexivity]); destruct (run start) as [|[e|] st'] eqn:Em; intros H;
    try congruence; try (rewrite (Hp _ _ _ Em); reflexivity).
  - destruct (pass start); reflexivity.
  - rewrite (IH _ H). destruct (pass start); reflexivity.
Qed.

Section Search.
Variable w : sw.
Variable fuel : nat.
Variable sl : bool.
Variable t : tok.
Variable s : list N.
Hypothesis Hwf : tok_wfb t = true.

Definition run_at (start : nat) : mres :=
  let (o, nclos) := compile w true t HNull 0 in
  omatch w true sl s fuel o (fun o' st' => MR (Some o') st') start (repeat None nclos).

Lemma run_at_word : forall start e st, run_at start = MR (Some e) st ->
  exists v rest, skipn start s = v ++ rest /\ e = (start + length v)%nat /\ Lre (re_of_tok_d (xp_dot (fx_dot w) sl) t) v.
Proof.
  intros start e st H. unfold run_at in H. destruct (compile w true t HNull 0) as [o nclos] eqn:Ec.
  destruct (compiled_match_sound _ _ _ _ _ _ _ _ _ _ _ _ Hwf Ec H) as [v [rest [E [Hv He]]]]. exists v, rest. auto.
Qed.

Lemma xsearch_unfold : xsearch_tok w fuel sl t s =
  if Nat.ltb (units_of s) (minlen_u t) then SNone else
  search_go run_at (fun start => Nat.leb (units_of (firstn start s)) (units_of s - minlen_u t)) (length s) 0%nat.
Proof. unfold xsearch_tok, run_at. destruct (compile w true t HNull 0) as [o nclos]. reflexivity. Qed.

Lemma ok_downward : forall a x, (x <= a)%nat ->
  Nat.leb (units_of (firstn a s)) (units_of s - minlen_u t) = true ->
  Nat.leb (units_of (firstn x s)) (units_of s - minlen_u t) = true.
Proof.
  intros a x Hx H. apply Nat.leb_le in H. apply Nat.leb_le. pose proof (units_firstn_le s x a Hx). lia.
Qed.

Theorem xsearch_tok_sound : forall a b, xsearch_tok w fuel sl t s = SFound a b ->
  exists v rest, skipn a s = v ++ rest /\ b = (a + length v)%nat /\ Lre (re_of_tok_d (xp_dot (fx_dot w) sl) t) v.
Proof.
  intros a b H. rewrite xsearch_unfold in H. destruct (Nat.ltb (units_of s) (minlen_u t)); [discriminate |].
  destruct (search_go_found _ _ _ _ _ _ H) as [_ [[st' R] _]]. exact (run_at_word a b st' R).
Qed.

Theorem search_leftmost :
  (forall a b, xsearch_tok w fuel sl t s = SFound a b ->
     (exists st', run_at a = MR (Some b) st') /\ forall a', (a' < a)%nat -> exists st', run_at a' = MR None st') /\
  (xsearch_tok w fuel sl t s = SNone -> forall a' e st, (a' <= length s)%nat -> run_at a' <> MR (Some e) st).
Proof.
  rewrite xsearch_unfold. split.
  - intros a b H. destruct (Nat.ltb (units_of s) (minlen_u t)); [discriminate |].
    destruct (search_go_found _ _ _ _ _ _ H) as [_ [R [_ Hl]]]. split; [exact R |]. intros a' Ha. apply Hl; lia.
  - intros H a' e st Ha R. destruct (run_at_word a' e st R) as [v [rest [E [_ Hv]]]].
    destruct (search_bound_necessary _ t s a' v rest E Hv) as [B1 B2]. rewrite B1 in H.
    destruct (search_go_none _ _ _ _ H a' ltac:(lia) ltac:(lia)) as [st' R'].
    + intros x _ Hx. exact (ok_downward a' x Hx B2).
    + rewrite R in R'. discriminate.
Qed.

(** with the repaired addRange, on subjects without surrogate code points *)
Hypothesis Hne : tok_nes t = true.
Hypothesis Hfx : fx_add w = true.
Hypothesis Hs : forallb (fun x => negb (is_surrogate x)) s = true.

Lemma xsearch_fc_unfold : xsearch_fc w fuel sl t s =
  if Nat.ltb (units_of s) (minlen_u t) then SNone else
  match first_char (fx_add w) t with
  | Some fcs => search_fc run_at (fun start => Nat.leb (units_of (firstn start s)) (units_of s - minlen_u t)) (fc_pass fcs s) (length s) 0%nat
  | None => search_go run_at (fun start => Nat.leb (units_of (firstn start s)) (units_of s - minlen_u t)) (length s) 0%nat
  end.
Proof. unfold xsearch_fc, run_at. destruct (compile w true t HNull 0) as [o nclos]. reflexivity. Qed.

Theorem prefilter_transparent :
  (forall a b, xsearch_tok w fuel sl t s = SFound a b -> xsearch_fc w fuel sl t s = SFound a b) /\
  (xsearch_tok w fuel sl t s = SNone -> xsearch_fc w fuel sl t s = SNone).
Proof.
  rewrite xsearch_unfold, xsearch_fc_unfold. destruct (Nat.ltb (units_of s) (minlen_u t)); [split; auto |].
  rewrite Hfx. destruct (first_char true t) as [fcs|] eqn:Ef; [| split; auto].
  assert (Hp : forall start e st, run_at start = MR (Some e) st -> fc_pass fcs s start = true).
  { intros start e st R. destruct (run_at_word start e st R) as [v [rest [E [_ Hv]]]].
    destruct (first_char_necessary (xp_dot (fx_dot w) sl) t fcs Hwf Hne Ef) as [_ Hn]. destruct (Hn v Hv) as [c [r [-> Hc]]].
    unfold fc_pass. assert (En : nth_error s start = Some c).
    { exact (proj1 (proj1 (skipn_cons_iff s start c _) E)). }
    rewrite En, Hc. rewrite forallb_forall in Hs. rewrite (Hs c (nth_error_In _ _ En)). reflexivity. }
  split; [intros a b H | intros H]; (rewrite search_fc_same; [exact H | exact Hp | rewrite H; discriminate]).
Qed.

End Search.
