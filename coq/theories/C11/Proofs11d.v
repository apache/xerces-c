(** Range algebra, part 2: subtractRanges, intersectRanges, complementRanges denote the set operations; array bounds. *)
From Coq Require Import Arith PeanoNat ZArith ZifyBool ZifyN ZifyNat Lia.
From XV Require Import C11.ModelRange11 C11.Proofs11b.
Local Open Scope N_scope.

(** "every range of [l] lies strictly above [v]" in the form the proofs use *)
Definition above (v : N) (l : list rng) : Prop := forall c, c <= v -> rmem l c = false.

Lemma above_true : forall v l c, above v l -> rmem l c = true -> v < c.
Proof.
  intros v l c A H. destruct (N.leb_spec c v) as [L | L]; [| exact L]. rewrite (A c L) in H. discriminate.
Qed.

Lemma above_nil : forall v, above v [].
Proof. intros v c _. reflexivity. Qed.

Lemma above_weaken : forall v w l, w <= v -> above v l -> above w l.
Proof. intros v w l L A c Hc. apply A. lia. Qed.

(** subtractRanges and intersectRanges: in every branch of the two merge loops the claim is a Boolean identity over
    interval tests; the members of the two tails lie beyond the current ranges ([Hs], [Hq]), so [lia] can take their
    membership tests as atoms *)
Section Sub.
Variable c : N.

Lemma sub_inner_spec : forall (rec : list rng -> list rng) se src',
  above (se + 1) src' ->
  (forall sub, compact_ok sub = true -> rmem (rec sub) c = rmem src' c && negb (rmem sub c)) ->
  forall sub sb, sb <= se -> compact_ok sub = true ->
  rmem (sub_inner rec se src' sb sub) c = (in_pair c (sb, se) || rmem src' c) && negb (rmem sub c).
Proof.
  intros rec se src' Asrc Hrec. pose proof (above_true _ _ c Asrc) as Hs.
  induction sub as [|[ub ue] sub' IH]; intros sb Hsb Hc; cbn [sub_inner].
  - rewrite rmem_cons. cbn. rewrite andb_true_r. reflexivity.
  - destruct (compact_ok_tail ub ue sub' Hc) as [Hu [Hc' Asub]]. pose proof (above_true (ue + 1) sub' c Asub) as Hq.
    pose proof (Hrec _ Hc) as R. rewrite rmem_cons in R.
    assert (P : forall sb', sb' <= se ->
              rmem (sub_inner rec se src' sb' sub') c = (in_pair c (sb', se) || rmem src' c) && negb (rmem sub' c))
      by (intros sb' H'; apply IH; assumption).
    clear IH Hrec Asrc Asub Hc Hc'. rewrite !rmem_cons with (x := (ub, ue)). rewrite ?in_pair_eq in *.
    destruct (se <? ub) eqn:E1; [rewrite rmem_cons, R; rewrite ?in_pair_eq; clear R P; lia |].
    destruct ((ub <=? se) && (sb <=? ue)) eqn:E2; [| rewrite (P sb Hsb), ?in_pair_eq; clear R P; lia].
    destruct ((ub <=? sb) && (se <=? ue)) eqn:E3; [rewrite R; clear R P; lia |].
    destruct (ub <=? sb) eqn:E4; [rewrite P, ?in_pair_eq by (clear - E3 E4; lia); clear R P; lia |].
    destruct (se <=? ue) eqn:E5; rewrite rmem_cons; [rewrite R | rewrite P by (clear - E5; lia)]; rewrite ?in_pair_eq; clear R P; lia.
Qed.

Lemma sub_go_spec : forall a b, compact_ok a = true -> compact_ok b = true ->
  rmem (sub_go a b) c = rmem a c && negb (rmem b c).
Proof.
  induction a as [|[sb0 se] src' IH]; intros b Ha Hb; [reflexivity |].
  destruct (compact_ok_tail sb0 se src' Ha) as [H0 [Ha' Asrc]]. cbn [sub_go].
  rewrite sub_inner_spec; try assumption; [rewrite rmem_cons; reflexivity |].
  intros sub Hs. apply IH; assumption.
Qed.

Lemma int_inner_spec : forall (rec : list rng -> list rng) se src',
  above (se + 1) src' ->
  (forall tk, compact_ok tk = true -> rmem (rec tk) c = rmem src' c && rmem tk c) ->
  forall tk sb, sb <= se -> compact_ok tk = true ->
  rmem (int_inner rec se sb tk) c = (in_pair c (sb, se) || rmem src' c) && rmem tk c.
Proof.
  intros rec se src' Asrc Hrec. pose proof (above_true _ _ c Asrc) as Hs.
  induction tk as [|[tb te] tk' IH]; intros sb Hsb Hc; cbn [int_inner].
  - cbn. rewrite andb_false_r. reflexivity.
  - destruct (compact_ok_tail tb te tk' Hc) as [Hu [Hc' Atk]]. pose proof (above_true (te + 1) tk' c Atk) as Hq.
    pose proof (Hrec _ Hc) as R. rewrite rmem_cons in R.
    assert (P : forall sb', sb' <= se ->
              rmem (int_inner rec se sb' tk') c = (in_pair c (sb', se) || rmem src' c) && rmem tk' c)
      by (intros sb' H'; apply IH; assumption).
    clear IH Hrec Asrc Atk Hc Hc'. rewrite !rmem_cons with (x := (tb, te)). rewrite ?in_pair_eq in *.
    destruct (se <? tb) eqn:E1; [rewrite R; clear R P; lia |].
    destruct ((tb <=? se) && (sb <=? te)) eqn:E2; [| rewrite (P sb Hsb), ?in_pair_eq; clear R P; lia].
    destruct ((tb <=? sb) && (se <=? te)) eqn:E3; [rewrite rmem_cons, R; rewrite ?in_pair_eq; clear R P; lia |].
    destruct (tb <=? sb) eqn:E4; [rewrite rmem_cons, P by (clear - E3 E4; lia); rewrite ?in_pair_eq; clear R P; lia |].
    destruct (se <=? te) eqn:E5; rewrite rmem_cons; [rewrite R | rewrite P by (clear - E5; lia)]; rewrite ?in_pair_eq; clear R P; lia.
Qed.

Lemma int_go_spec : forall a b, compact_ok a = true -> compact_ok b = true ->
  rmem (int_go a b) c = rmem a c && rmem b c.
Proof.
  induction a as [|[sb0 se] src' IH]; intros b Ha Hb; [reflexivity |].
  destruct (compact_ok_tail sb0 se src' Ha) as [H0 [Ha' Asrc]]. cbn [int_go].
  rewrite (int_inner_spec (int_go src') se src'); try assumption; [rewrite rmem_cons; reflexivity |].
  intros tk Hs. apply IH; assumption.
Qed.
End Sub.

(** lengths: at most one result pair per source pair plus one per pair of the other token *)
Lemma sub_inner_len : forall (rec : list rng -> list rng) se src',
  (forall sub, length (rec sub) <= length src' + length sub)%nat ->
  forall sub sb, (length (sub_inner rec se src' sb sub) <= 1 + length src' + length sub)%nat.
Proof.
  unfold rng in *.   (* so that lia sees the same [length] on both sides *)
  intros rec se src' Hrec. induction sub as [|[ub ue] sub' IH]; intros sb; cbn [sub_inner].
  - cbn. lia.
  - pose proof (Hrec ((ub, ue) :: sub')) as R. cbn [length] in R |- *.
    destruct (se <? ub); [cbn [length]; lia |].
    destruct ((ub <=? se) && (sb <=? ue)).
    + destruct ((ub <=? sb) && (se <=? ue)); [lia |].
      destruct (ub <=? sb); [specialize (IH (ue + 1)); lia |].
      destruct (se <=? ue); cbn [length]; [lia | specialize (IH (ue + 1)); lia].
    + specialize (IH sb). lia.
Qed.

Lemma sub_go_len : forall a b, (length (sub_go a b) <= length a + length b)%nat.
Proof.
  induction a as [|[sb0 se] src' IH]; intros b; [cbn; lia |]. cbn [sub_go length].
  pose proof (sub_inner_len (sub_go src') se src' IH b sb0). lia.
Qed.

Lemma int_inner_len : forall (rec : list rng -> list rng) se (n : nat),
  (forall tk, length (rec tk) <= n + length tk)%nat ->
  forall tk sb, (length (int_inner rec se sb tk) <= 1 + n + length tk)%nat.
Proof.
  unfold rng in *. intros rec se n Hrec. induction tk as [|[tb te] tk' IH]; intros sb; cbn [int_inner].
  - cbn. lia.
  - pose proof (Hrec ((tb, te) :: tk')) as R. cbn [length] in R |- *.
    destruct (se <? tb); [lia |].
    destruct ((tb <=? se) && (sb <=? te)).
    + destruct ((tb <=? sb) && (se <=? te)); [cbn [length]; lia |].
      destruct (tb <=? sb); [cbn [length]; specialize (IH (te + 1)); lia |].
      destruct (se <=? te); cbn [length]; [lia | specialize (IH (te + 1)); lia].
    + specialize (IH sb). lia.
Qed.

Lemma int_go_len : forall a b, (length (int_go a b) <= length a + length b)%nat.
Proof.
  induction a as [|[sb0 se] src' IH]; intros b; [cbn; lia |]. cbn [int_go length].
  pose proof (int_inner_len (int_go src') se (length src') IH b sb0). lia.
Qed.

(** * token level: the flags mean what they say *)
Definition rt_inv (t : rtok) : Prop :=
  rt_wf t /\ (srt t = true -> lo_sorted 0 (rs t) = true) /\ (cmpd t = true -> compact_ok (rs t) = true) /\
  (cmpd t = true -> srt t = false -> alloc t = false).

Lemma lo_sorted_pairs : forall l v, lo_sorted v l = true -> pairs_ok l = true.
Proof.
  induction l as [|[lo hi] r IH]; intros v H; [reflexivity |]. apply lo_sorted_cons in H. destruct H as [_ [H Hr]].
  change (pairs_ok ((lo, hi) :: r)) with ((lo <=? hi) && pairs_ok r). rewrite (IH lo Hr). lia.
Qed.

Record normal (t u : rtok) : Prop := mkNormal {
  n_compact : compact_ok (rs u) = true;
  n_set : forall c, rmem (rs u) c = rmem (rs t) c;
  n_alloc : alloc u = alloc t;
  n_len : (length (rs u) <= length (rs t))%nat;
  n_max : maxc u = maxc t;
  n_empty : alloc u = false -> rs u = [] }.

Lemma compact_list_len : forall l, (length (compact_list l) <= length l)%nat.
Proof. intros [|[lo hi] r]; [cbn; lia |]. cbn [compact_list length]. apply length_compact_go. Qed.

Lemma normal_refl : forall u, compact_ok (rs u) = true -> (alloc u = false -> rs u = []) -> normal u u.
Proof. intros u Hc He. constructor; auto. Qed.

Lemma compactRanges_normal : forall u, lo_sorted 0 (rs u) = true -> (cmpd u = true -> compact_ok (rs u) = true) ->
  (alloc u = false -> rs u = []) -> normal u (compactRanges u).
Proof.
  intros u Hs Hc He. unfold compactRanges.
  destruct (cmpd u); cbn [orb]; [apply normal_refl; auto |].
  destruct (alloc u) eqn:Ea; cbn [negb orb]; [| apply normal_refl; [rewrite (He eq_refl); reflexivity | intros _; exact (He eq_refl)]].
  destruct (Nat.leb_spec (elemc u) 2) as [E2 | E2].
  - apply normal_refl; [| congruence]. unfold elemc in E2.
    destruct (rs u) as [|[lo hi] [|y r]]; [reflexivity | cbn in Hs |- *; lia | cbn [length] in E2; lia].
  - constructor; cbn [rs alloc maxc]; [| | congruence | apply compact_list_len | reflexivity | discriminate].
    + apply (compact_list_spec (rs u) 0 Hs).
    + intros c. apply (compact_list_spec (rs u) c Hs).
Qed.

(** sortRanges followed by compactRanges (the preamble of subtract / intersect / complement) *)
Lemma norm_spec : forall t, rt_inv t -> normal t (compactRanges (sortRanges t)).
Proof.
  intros t [[W1 [W2 W3]] [Is [Ic Ics]]].
  destruct (sortRanges_same t) as [Sa [Sm [Sc Sl]]].
  assert (Hn : normal (sortRanges t) (compactRanges (sortRanges t))).
  { apply compactRanges_normal.
    - destruct (sortRanges_cases t) as [[[Es | Ea] ->] | [Es [Ea ->]]]; cbn [rs].
      + exact (Is Es).
      + rewrite (W2 Ea). reflexivity.
      + exact (lo_sorted_rsort (rs t) W3).
    - rewrite Sc. intros Hc. destruct (sortRanges_cases t) as [[_ ->] | [Es [Ea _]]]; [exact (Ic Hc) |].
      rewrite (Ics Hc Es) in Ea. discriminate.
    - rewrite Sa. intros Ha. destruct (sortRanges_cases t) as [[_ ->] | [_ [Ea _]]]; [exact (W2 Ha) | congruence]. }
  destruct Hn as [N1 N2 N3 N4 N5 N6].
  constructor; [exact N1 | intros c; rewrite N2; apply rmem_sortRanges | rewrite N3; exact Sa | rewrite <- Sl; exact N4 | rewrite N5; exact Sm | exact N6].
Qed.

Theorem subtractRanges_spec : forall t o c, rt_inv t -> rt_inv o ->
  rmem (rs (subtractRanges t o false)) c = rmem (rs t) c && negb (rmem (rs o) c).
Proof.
  intros t o c It Io. pose proof (norm_spec t It) as Nt. pose proof (norm_spec o Io) as No.
  destruct It as [[_ [Wt _]] _]. destruct Io as [[_ [Wo _]] _].
  unfold subtractRanges. destruct (alloc t) eqn:Et; cbn [negb orb].
  - destruct (alloc o) eqn:Eo; cbn [negb].
    + cbn [rs]. rewrite sub_go_spec; [| apply Nt | apply No]. rewrite (n_set _ _ Nt), (n_set _ _ No). reflexivity.
    + rewrite (Wo eq_refl). cbn. rewrite andb_true_r. reflexivity.
  - rewrite (Wt eq_refl). reflexivity.
Qed.

Theorem intersectRanges_spec : forall t o c, rt_inv t -> rt_inv o -> alloc o = true ->
  rmem (rs (intersectRanges t o)) c = rmem (rs t) c && rmem (rs o) c.
Proof.
  intros t o c It Io Eo. pose proof (norm_spec t It) as Nt. pose proof (norm_spec o Io) as No.
  unfold intersectRanges. rewrite Eo. destruct It as [[_ [Wt _]] _].
  destruct (alloc t) eqn:Et; cbn [negb orb rs]; [| rewrite (Wt eq_refl); reflexivity].
  rewrite int_go_spec; [| apply Nt | apply No]. rewrite (n_set _ _ Nt), (n_set _ _ No). reflexivity.
Qed.

Lemma subtractRanges_nrange : forall t o, subtractRanges t o true = intersectRanges t o.
Proof. intros t o. unfold subtractRanges, intersectRanges. destruct (negb (alloc t) || negb (alloc o)); reflexivity. Qed.

(** subtracting a T_NRANGE token (which stands for the complement of its ranges) is the intersection with its ranges *)
Theorem subtractRanges_neg_spec : forall t o c, rt_inv t -> rt_inv o -> alloc o = true ->
  rmem (rs (subtractRanges t o true)) c = rmem (rs t) c && negb (negb (rmem (rs o) c)).
Proof. intros t o c It Io Eo. rewrite negb_involutive, subtractRanges_nrange. exact (intersectRanges_spec t o c It Io Eo). Qed.

Lemma new_max_ge : forall t o, cap_ok t -> cap_ok o -> (elemc t + elemc o <= new_max t o)%nat.
Proof.
  intros t o Ht Ho. unfold new_max, cap_ok in *. destruct (Nat.leb (maxc t) (elemc t + elemc o)) eqn:E.
  - lia.
  - apply Nat.leb_gt in E. lia.
Qed.

Lemma norm_cap : forall t, cap_ok t -> cap_ok (compactRanges (sortRanges t)).
Proof.
  intros t H. destruct (sortRanges_same t) as [_ [Sm [_ Sl]]]. unfold cap_ok, compactRanges, elemc in *.
  destruct (cmpd (sortRanges t) || negb (alloc (sortRanges t)) || Nat.leb (2 * length (rs (sortRanges t))) 2); cbn [rs maxc].
  - lia.
  - pose proof (compact_list_len (rs (sortRanges t))). lia.
Qed.

Theorem subtractRanges_cap : forall t o oneg, cap_ok t -> cap_ok o -> cap_ok (subtractRanges t o oneg).
Proof.
  intros t o oneg Ht Ho. pose proof (new_max_ge _ _ (norm_cap t Ht) (norm_cap o Ho)) as G.
  unfold subtractRanges, intersectRanges. destruct (negb (alloc t) || negb (alloc o)); [exact Ht |].
  destruct oneg; unfold cap_ok in *; cbn [maxc]; unfold elemc at 1; cbn [rs].
  - pose proof (int_go_len (rs (compactRanges (sortRanges t))) (rs (compactRanges (sortRanges o)))). unfold elemc in G. lia.
  - pose proof (sub_go_len (rs (compactRanges (sortRanges t))) (rs (compactRanges (sortRanges o)))). unfold elemc in G. lia.
Qed.

Theorem intersectRanges_cap : forall t o, cap_ok t -> cap_ok o -> cap_ok (intersectRanges t o).
Proof. intros t o Ht Ho. rewrite <- subtractRanges_nrange. exact (subtractRanges_cap t o true Ht Ho). Qed.

Lemma last_hi_app : forall l a b, last_hi (l ++ [(a, b)]) = b.
Proof.
  intros l a b. unfold last_hi. rewrite last_last. reflexivity.
Qed.

(** the accumulator of complementRanges: nothing yet, or a sorted token whose last range ends below [prev] *)
Definition acc_ok (acc : rtok) (prev : N) : Prop :=
  (alloc acc = false /\ rs acc = []) \/ (alloc acc = true /\ srt acc = true /\ last_hi (rs acc) < prev).

Lemma addRange_beyond : forall fx acc prev a b q, acc_ok acc prev -> (alloc acc = true -> prev < a) -> a <= b -> b < q ->
  rs (addRange fx acc a b) = rs acc ++ [(a, b)] /\ acc_ok (addRange fx acc a b) q.
Proof.
  intros fx acc prev a b q A Hp Hab Hq. unfold addRange. rewrite (proj2 (N.leb_le a b) Hab). cbv zeta.
  destruct A as [[A1 A2] | [A1 [A2 A3]]]; rewrite A1; cbn [negb].
  - rewrite A2. split; [reflexivity |]. right. unfold last_hi. cbn. auto.
  - specialize (Hp A1). rewrite (proj2 (N.eqb_neq _ _)), (proj2 (N.leb_gt _ _)), A2 by (clear - Hp A3; lia). cbn [andb rs alloc srt].
    split; [reflexivity |]. right. cbn [rs alloc srt]. rewrite last_hi_app. auto.
Qed.

Fixpoint spaced (prev : N) (l : list rng) : Prop :=
  match l with [] => True | (lo, hi) :: r => prev + 1 < lo /\ lo <= hi /\ spaced hi r end.

Fixpoint gap_list (prev : N) (l : list rng) : list rng :=
  match l with [] => [] | (lo, hi) :: r => (prev + 1, lo - 1) :: gap_list hi r end.

Fixpoint last_end (prev : N) (l : list rng) : N := match l with [] => prev | (_, hi) :: r => last_end hi r end.

Lemma compact_spaced : forall lo hi r, compact_ok ((lo, hi) :: r) = true -> spaced hi r.
Proof.
  intros lo hi r. revert lo hi. induction r as [|[lo2 hi2] r IH]; intros lo hi H; [exact I |].
  cbn [compact_ok] in H. apply andb_true_iff in H. destruct H as [H0 H]. apply andb_true_iff in H. destruct H as [H1 H2].
  cbn [spaced]. split; [lia |]. split; [| exact (IH lo2 hi2 H2)].
  cbn [compact_ok] in H2. apply andb_true_iff in H2. destruct H2 as [H2 _]. lia.
Qed.

Lemma last_hi_cons : forall lo hi r, last_hi ((lo, hi) :: r) = last_end hi r.
Proof.
  intros lo hi r. revert lo hi. induction r as [|[lo2 hi2] r IH]; intros lo hi; [reflexivity |].
  change (last_hi ((lo, hi) :: (lo2, hi2) :: r)) with (last_hi ((lo2, hi2) :: r)). rewrite IH. reflexivity.
Qed.

Lemma gaps_spec : forall fx l acc prev, acc_ok acc prev -> spaced prev l ->
  let u := gaps fx acc prev l in
  rs u = rs acc ++ gap_list prev l /\ acc_ok u (last_end prev l) /\ (l <> [] -> alloc u = true).
Proof.
  intros fx. induction l as [|[lo hi] r IH]; intros acc prev A C; cbn [gaps gap_list last_end].
  - cbn zeta. rewrite app_nil_r. split; [reflexivity |]. split; [exact A | congruence].
  - cbn [spaced] in C. destruct C as [C1 [C2 C3]].
    destruct (addRange_beyond fx acc prev (prev + 1) (lo - 1) hi A) as [R A']; try lia.
    destruct (IH _ hi A' C3) as [R2 [A2 _]]. cbn zeta in *. rewrite R2, R, <- app_assoc. split; [reflexivity |].
    split; [exact A2 |]. intros _.
    destruct A2 as [[A2a A2b] | [A2a _]]; [| exact A2a].
    rewrite R2, R in A2b. destruct (rs acc); discriminate.
Qed.

Definition tailgap (v : N) : list rng := if v =? 0x10FFFF then [] else [(v + 1, 0x10FFFF)].

Definition headgap (lo0 : N) : list rng := if 0 <? lo0 then [(0, lo0 - 1)] else [].

Theorem complement_list : forall fx t lo0 hi0 r, rs (compactRanges (sortRanges t)) = (lo0, hi0) :: r ->
  compact_ok ((lo0, hi0) :: r) = true -> last_end hi0 r <= 0x10FFFF ->
  rs (complementRanges fx t) = headgap lo0 ++ gap_list hi0 r ++ tailgap (last_end hi0 r).
Proof.
  intros fx t lo0 hi0 r E Hc Hmax. unfold complementRanges. rewrite E. rewrite last_hi_cons.
  destruct (compact_ok_tail lo0 hi0 r Hc) as [H0 _]. pose proof (compact_spaced lo0 hi0 r Hc) as Ch.
  set (a := if 0 <? lo0 then addRange fx rt_new 0 (lo0 - 1) else rt_new).
  assert (Aa : rs a = headgap lo0 /\ acc_ok a hi0).
  { unfold a, headgap. destruct (0 <? lo0) eqn:E0; [| split; [reflexivity | left; split; reflexivity]].
    apply (addRange_beyond fx rt_new 0 0 (lo0 - 1) hi0); try lia; [left; split; reflexivity | discriminate]. }
  destruct Aa as [Ra Aa]. destruct (gaps_spec fx r a hi0 Aa Ch) as [Rb [Ab _]]. cbn zeta in *.
  set (b := gaps fx a hi0 r) in *. unfold tailgap.
  destruct (last_end hi0 r =? 0x10FFFF) eqn:El; cbn [negb rs].
  - rewrite Rb, Ra, app_nil_r. reflexivity.
  - (* 0x110000: any bound above the range added; the accumulator invariant of the result is not needed *)
    destruct (addRange_beyond fx b (last_end hi0 r) (last_end hi0 r + 1) 0x10FFFF 0x110000 Ab) as [R _]; try lia.
    rewrite R, Rb, Ra, <- app_assoc. reflexivity.
Qed.

Lemma spaced_above : forall l prev, spaced prev l -> above (prev + 1) l.
Proof.
  induction l as [|[lo hi] r IH]; intros prev C c Hc; [reflexivity |]. cbn [spaced] in C. destruct C as [C1 [C2 C3]].
  rewrite rmem_cons. rewrite (IH hi C3 c) by lia. rewrite ?in_pair_eq. lia.
Qed.

Lemma gap_list_spec : forall l prev c, spaced prev l -> last_end prev l <= 0x10FFFF -> c <= 0x10FFFF ->
  rmem (gap_list prev l ++ tailgap (last_end prev l)) c = (prev <? c) && negb (rmem l c).
Proof.
  induction l as [|[lo hi] r IH]; intros prev c C Hm Hc; cbn [gap_list last_end] in *.
  - unfold tailgap. destruct (prev =? 0x10FFFF) eqn:E; cbn; rewrite ?in_pair_eq; lia.
  - cbn [spaced] in C. destruct C as [C1 [C2 C3]]. cbn [app]. rewrite !rmem_cons, (IH hi c C3 Hm Hc).
    pose proof (spaced_above r hi C3 c) as Ab. rewrite ?in_pair_eq. clear - Ab C1 C2 Hc. lia.
Qed.

Lemma last_end_mem : forall r lo hi, compact_ok ((lo, hi) :: r) = true -> rmem ((lo, hi) :: r) (last_end hi r) = true.
Proof.
  induction r as [|[lo2 hi2] r IH]; intros lo hi H; destruct (compact_ok_tail _ _ _ H) as [Hl [H2 _]].
  - cbn. rewrite ?in_pair_eq. lia.
  - cbn [last_end]. rewrite rmem_cons with (x := (lo, hi)). apply orb_true_iff. right. exact (IH lo2 hi2 H2).
Qed.

Lemma rmem_bound : forall l m c, (forall p, In p l -> snd p <= m) -> rmem l c = true -> c <= m.
Proof.
  intros l m c Hb M. unfold rmem in M. apply existsb_exists in M. destruct M as [p [Hin Hp]].
  specialize (Hb p Hin). unfold in_pair in Hp. clear - Hb Hp. lia.
Qed.

Theorem complementRanges_spec : forall fx t c, rt_inv t -> alloc t = true ->
  (forall p, In p (rs t) -> snd p <= 0x10FFFF) -> c <= 0x10FFFF ->
  rmem (rs (complementRanges fx t)) c = negb (rmem (rs t) c).
Proof.
  intros fx t c It Ha Hb Hc. pose proof (norm_spec t It) as Nt.
  destruct It as [[W1 [_ W3]] _].
  destruct (rs (compactRanges (sortRanges t))) as [|[lo0 hi0] r] eqn:E.
  - (* impossible: the set is non-empty *)
    exfalso. specialize (W1 Ha). destruct (rs t) as [|[lo hi] l] eqn:Et; [congruence |].
    change (pairs_ok ((lo, hi) :: l)) with ((lo <=? hi) && pairs_ok l) in W3.
    pose proof (n_set _ _ Nt lo) as Hlo. rewrite E, Et, rmem_cons in Hlo. unfold in_pair in Hlo. cbn [fst snd rmem existsb] in Hlo. lia.
  - pose proof (n_compact _ _ Nt) as Hcp. rewrite E in Hcp.
    assert (Hlast : last_end hi0 r <= 0x10FFFF).
    { apply (rmem_bound (rs t) _ _ Hb). rewrite <- (n_set _ _ Nt), E. exact (last_end_mem r lo0 hi0 Hcp). }
    rewrite (complement_list fx t lo0 hi0 r E Hcp Hlast). rewrite <- (n_set _ _ Nt c), E.
    destruct (compact_ok_tail _ _ _ Hcp) as [H0 _]. pose proof (compact_spaced _ _ _ Hcp) as Ch.
    rewrite rmem_app, rmem_cons, (gap_list_spec r hi0 c Ch Hlast Hc). pose proof (spaced_above r hi0 Ch c) as Ab.
    unfold headgap. clear - Ab H0 Hc. destruct (0 <? lo0) eqn:E0; cbn; rewrite ?in_pair_eq; lia.
Qed.

Lemma gaps_cap : forall fx l acc prev, cap_ok acc -> (2 <= maxc acc)%nat ->
  cap_ok (gaps fx acc prev l) /\ (2 <= maxc (gaps fx acc prev l))%nat.
Proof.
  intros fx. induction l as [|[lo hi] r IH]; intros acc prev H H2; cbn [gaps]; [auto |].
  destruct (addRange_cap fx acc (prev + 1) (lo - 1) H H2) as [H' H2']. apply IH; assumption.
Qed.

Theorem complementRanges_cap : forall fx t, cap_ok (complementRanges fx t).
Proof.
  intros fx t. unfold complementRanges.
  assert (N0 : cap_ok rt_new /\ (2 <= maxc rt_new)%nat) by (unfold cap_ok, elemc; cbn; lia).
  destruct (rs (compactRanges (sortRanges t))) as [|[lo0 hi0] r]; [apply N0 |].
  set (a := if 0 <? lo0 then addRange fx rt_new 0 (lo0 - 1) else rt_new).
  assert (Aa : cap_ok a /\ (2 <= maxc a)%nat).
  { unfold a. destruct (0 <? lo0); [apply addRange_cap; apply N0 | exact N0]. }
  destruct (gaps_cap fx r a hi0 (proj1 Aa) (proj2 Aa)) as [Hb Hb2].
  set (b := gaps fx a hi0 r) in *.
  destruct (addRange_cap fx b (last_hi ((lo0, hi0) :: r) + 1) 0x10FFFF Hb Hb2) as [Hc _].
  unfold cap_ok, elemc in *. cbn [rs maxc].
  match goal with |- context [if ?bb then _ else _] => destruct bb end; [exact Hc | exact Hb].
Qed.
