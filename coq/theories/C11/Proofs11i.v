(** Range algebra, part 3: the flags of a RangeToken stay truthful along the call sequences the library actually
    performs on a token that starts as [rt_new] (RegxParser::parseCharacterClass, Token::analyzeFirstCharacter):
    addRange (with or without the repair) and mergeRanges preserve [rt_acc]: the ranges are sorted by start with lo <= hi,
    fSorted is set on every allocated token and fCompacted is clear -- hence [rt_inv], the hypothesis of the
    subtract / intersect / complement theorems, holds at every such point ([rt_acc_inv]), and
    compactRanges (sortRanges t) is compact with the same members ([rt_acc_normal]). *)
From Coq Require Import Arith PeanoNat ZArith ZifyBool ZifyN ZifyNat Lia List.
From XV Require Import C11.ModelRange11 C11.Proofs11b C11.Proofs11d.
Local Open Scope N_scope.

Definition rt_acc (t : rtok) : Prop :=
  (alloc t = true -> rs t <> []) /\ (alloc t = false -> rs t = []) /\ lo_sorted 0 (rs t) = true /\
  cmpd t = false /\ (alloc t = true -> srt t = true).

Lemma rt_acc_new : rt_acc rt_new.
Proof. unfold rt_acc, rt_new. cbn. repeat split; try reflexivity; try discriminate. Qed.

Lemma rt_acc_srt : forall t, rt_acc t -> alloc t = true -> srt t = true.
Proof. intros t [_ [_ [_ [_ E]]]]. exact E. Qed.

Lemma rt_acc_wf : forall t, rt_acc t -> rt_wf t.
Proof. intros t [A [B [C _]]]. split; [exact A |]. split; [exact B | exact (lo_sorted_pairs _ _ C)]. Qed.

Lemma rt_acc_inv : forall t, rt_acc t -> rt_inv t.
Proof.
  intros t H. pose proof (rt_acc_wf t H) as W. destruct H as [A [B [C [D E]]]].
  split; [exact W |]. split; [intros _; exact C |]. split; intros X; rewrite D in X; discriminate.
Qed.

Lemma rt_acc_normal : forall t, rt_acc t -> normal t (compactRanges (sortRanges t)).
Proof. intros t H. apply norm_spec. apply rt_acc_inv. exact H. Qed.

Lemma lo_sorted_weaken : forall l p q, q <= p -> lo_sorted p l = true -> lo_sorted q l = true.
Proof. exact lo_sorted_le. Qed.

(** a token that went through sort + compact may be used as a merge / first-character operand *)
Lemma compact_lo_sorted : forall l p, compact_ok l = true -> (match l with [] => True | x :: _ => p <= fst x end) ->
  lo_sorted p l = true.
Proof.
  induction l as [|[lo hi] r IH]; intros p H Hp; [reflexivity |]. cbn [fst] in Hp.
  cbn [compact_ok] in H. cbn [lo_sorted]. destruct r as [|[lo2 hi2] r2].
  - cbn. lia.
  - apply andb_true_iff in H. destruct H as [H1 H2]. apply andb_true_iff in H2. destruct H2 as [H2 H3].
    rewrite (IH lo H3); [lia | cbn [fst]; lia].
Qed.

Definition all_lo_le (v : N) (l : list rng) : bool := forallb (fun p => fst p <=? v) l.

Lemma lo_sorted_app : forall l p v1 v2, lo_sorted p l = true -> all_lo_le v1 l = true -> p <= v1 -> v1 <= v2 ->
  lo_sorted p (l ++ [(v1, v2)]) = true.
Proof.
  induction l as [|[lo hi] r IH]; intros p v1 v2 H Ha Hp Hv.
  - cbn. lia.
  - cbn [app lo_sorted] in *. unfold all_lo_le in Ha. cbn [forallb fst] in Ha.
    apply andb_true_iff in Ha. destruct Ha as [Ha1 Ha2].
    apply andb_true_iff in H. destruct H as [H1 H2]. rewrite H1. cbn [andb].
    apply IH; [exact H2 | exact Ha2 | apply N.leb_le; exact Ha1 | exact Hv].
Qed.

Lemma lo_sorted_last : forall l p, lo_sorted p l = true -> l <> [] -> all_lo_le (last_hi l) l = true /\ p <= last_hi l.
Proof.
  induction l as [|[lo hi] r IH]; intros p H Hne; [congruence |].
  cbn [lo_sorted] in H. apply andb_true_iff in H. destruct H as [H1 H2].
  destruct r as [|y r].
  - unfold all_lo_le, last_hi. cbn. split; lia.
  - change (last_hi ((lo, hi) :: y :: r)) with (last_hi (y :: r)).
    destruct (IH lo H2 ltac:(discriminate)) as [A B]. split; [| lia].
    unfold all_lo_le in *. cbn [forallb fst]. rewrite andb_true_iff. split; [lia | exact A].
Qed.

Lemma all_lo_le_mono : forall l a b, a <= b -> all_lo_le a l = true -> all_lo_le b l = true.
Proof.
  intros l a b Hab H. unfold all_lo_le in *. rewrite forallb_forall in *. intros x Hx. specialize (H x Hx). lia.
Qed.

Lemma lo_sorted_set_last : forall l p v, lo_sorted p l = true -> last_hi l <= v -> lo_sorted p (set_last_hi l v) = true.
Proof.
  induction l as [|[lo hi] r IH]; intros p v H Hv; [reflexivity |].
  cbn [lo_sorted] in H. apply andb_true_iff in H. destruct H as [H1 H2].
  destruct r as [|y r].
  - unfold last_hi in Hv. cbn in Hv. cbn. lia.
  - change (set_last_hi ((lo, hi) :: y :: r) v) with ((lo, hi) :: set_last_hi (y :: r) v).
    change (last_hi ((lo, hi) :: y :: r)) with (last_hi (y :: r)) in Hv.
    cbn [lo_sorted]. rewrite H1. cbn [andb]. apply IH; assumption.
Qed.

Lemma set_last_hi_nonnil : forall l v, l <> [] -> set_last_hi l v <> [].
Proof. intros [|[lo hi] [|y r]] v H; [congruence | discriminate | discriminate]. Qed.

(** the insertion loop: a found slot keeps the order; running off the end means every start is <= v1 *)
Lemma add_sorted_sorted : forall l p v1 v2, lo_sorted p l = true -> p <= v1 -> v1 <= v2 ->
  match add_sorted l v1 v2 with
  | Some l' => lo_sorted p l' = true /\ l' <> []
  | None => all_lo_le v1 l = true
  end.
Proof.
  induction l as [|[lo hi] r IH]; intros p v1 v2 H Hp Hv; [reflexivity |].
  cbn [lo_sorted] in H. apply andb_true_iff in H. destruct H as [H1 H2]. cbn [add_sorted].
  destruct ((lo <=? v1) && (v2 <=? hi)) eqn:E1.
  - split; [| discriminate]. cbn [lo_sorted]. rewrite H1, H2. reflexivity.
  - destruct ((lo =? v1) && (hi <? v2)) eqn:E2.
    + split; [| discriminate]. cbn [lo_sorted]. rewrite H2. lia.
    + destruct ((v1 <? lo) || ((lo =? v1) && (v2 <? hi))) eqn:E3.
      * split; [| discriminate]. cbn [lo_sorted]. rewrite H2. lia.
      * assert (Hl : lo <= v1) by lia. specialize (IH lo v1 v2 H2 Hl Hv).
        destruct (add_sorted r v1 v2) as [r'|].
        -- destruct IH as [IH _]. split; [| discriminate]. cbn [lo_sorted]. rewrite IH. lia.
        -- unfold all_lo_le in *. cbn [forallb fst]. rewrite IH. lia.
Qed.

Lemma pairs_ok_app : forall a b, pairs_ok (a ++ b) = pairs_ok a && pairs_ok b.
Proof. intros a b. unfold pairs_ok. apply forallb_app. Qed.

Lemma rsort_nonnil : forall l, l <> [] -> rsort l <> [].
Proof. intros l H E. apply H. apply length_zero_iff_nil. rewrite <- (length_rsort l), E. reflexivity. Qed.

Lemma rt_acc_alloc : forall l mx, l <> [] -> lo_sorted 0 l = true -> rt_acc (mkR l true false mx true).
Proof. intros l mx Hn Hs. unfold rt_acc. cbn [rs alloc srt cmpd]. repeat split; auto; discriminate. Qed.

Theorem addRange_acc : forall fx t a b, rt_acc t -> rt_acc (addRange fx t a b).
Proof.
  intros fx t a b [A [B [C [D E]]]]. unfold addRange. rewrite D.
  set (v1 := if a <=? b then a else b). set (v2 := if a <=? b then b else a).
  pose proof (addRange_bounds_le a b : v1 <= v2) as Hv. clearbody v1 v2.
  destruct (alloc t) eqn:Ea; cbn [negb]; [| apply rt_acc_alloc; [discriminate | cbn; clear - Hv; lia]].
  specialize (A eq_refl). rewrite (E eq_refl). cbn [andb]. destruct (lo_sorted_last (rs t) 0 C A) as [La Lb].
  destruct (last_hi (rs t) + 1 =? v1) eqn:E1.
  { apply rt_acc_alloc; [apply set_last_hi_nonnil; exact A | apply lo_sorted_set_last; [exact C | clear - E1 Hv; lia]]. }
  destruct (v1 <=? last_hi (rs t)) eqn:E2.
  - pose proof (add_sorted_sorted (rs t) 0 v1 v2 C (N.le_0_l v1) Hv) as Hins.
    destruct (add_sorted (rs t) v1 v2) as [l|]; [destruct Hins; apply rt_acc_alloc; assumption |].
    destruct fx; apply rt_acc_alloc; try assumption; [destruct (rs t); discriminate |].
    apply lo_sorted_app; [exact C | exact Hins | apply N.le_0_l | exact Hv].
  - apply rt_acc_alloc; [destruct (rs t); discriminate |].
    apply lo_sorted_app; [exact C | | apply N.le_0_l | exact Hv]. apply (all_lo_le_mono _ (last_hi (rs t))); [clear - E2; lia | exact La].
Qed.

Lemma lo_sorted_merge : forall a b p, lo_sorted p a = true -> lo_sorted p b = true -> lo_sorted p (merge_go a b) = true.
Proof.
  induction a as [|[xl xh] a IHa]; intros b p Ha Hb; [exact Hb |].
  revert p Ha Hb. induction b as [|[yl yh] b IHb]; intros p Ha Hb; [exact Ha |].
  cbn [merge_go]. destruct (rlt (yl, yh) (xl, xh)) eqn:E.
  - cbn [lo_sorted] in Hb |- *. apply andb_true_iff in Hb. destruct Hb as [Hb1 Hb2]. rewrite Hb1. cbn [andb].
    cbn [merge_go] in IHb. apply IHb; [| exact Hb2].
    cbn [lo_sorted] in Ha |- *. unfold rlt in E. cbn [fst snd] in E. lia.
  - cbn [lo_sorted] in Ha |- *. apply andb_true_iff in Ha. destruct Ha as [Ha1 Ha2]. rewrite Ha1. cbn [andb].
    apply IHa; [exact Ha2 |]. cbn [lo_sorted] in Hb |- *. unfold rlt in E. cbn [fst snd] in E. lia.
Qed.

(** the operand of a merge: a token whose array, if any, is sorted with well-formed pairs (any fCompacted) *)
Definition rt_opnd (o : rtok) : Prop :=
  (alloc o = true -> rs o <> []) /\ (alloc o = false -> rs o = []) /\ lo_sorted 0 (rs o) = true /\ (alloc o = true -> srt o = true).

Lemma rt_acc_opnd : forall t, rt_acc t -> rt_opnd t.
Proof. intros t [A [B [C [D E]]]]. repeat split; assumption. Qed.

Theorem mergeRanges_acc : forall t o, rt_acc t -> rt_opnd o -> rt_acc (mergeRanges t o).
Proof.
  intros t o [A [B [C [D E]]]] [OA [OB [OC OE]]]. unfold mergeRanges.
  rewrite (sortRanges_id o OE), (sortRanges_id t E).
  destruct (alloc o) eqn:Eo; cbn [negb]; [| repeat split; assumption]. rewrite D.
  destruct (alloc t) eqn:Et; cbn [negb]; [rewrite (E eq_refl) | exact (rt_acc_alloc _ _ (OA eq_refl) OC)].
  apply rt_acc_alloc; [| apply lo_sorted_merge; assumption].
  intros X. apply (f_equal (@length rng)) in X. rewrite length_merge in X.
  destruct (proj1 (Nat.eq_add_0 _ _) X) as [X1 _]. exact (A eq_refl (proj1 (length_zero_iff_nil _) X1)).
Qed.

(** membership: what the theorems T11_range_add / T11_range_merge give on accumulators *)
Lemma addRange_acc_mem : forall t a b c, rt_acc t -> rmem (rs (addRange true t a b)) c = rmem (rs t) c || interval a b c.
Proof. intros t a b c H. apply addRange_fixed_spec. apply rt_acc_wf. exact H. Qed.

Lemma mergeRanges_acc_mem : forall t o c, rt_acc t -> rt_opnd o ->
  rmem (rs (mergeRanges t o)) c = rmem (rs t) c || rmem (rs o) c.
Proof.
  intros t o c H [OA [OB [OC _]]]. apply mergeRanges_spec; [apply rt_acc_wf; exact H |].
  split; [exact OA |]. split; [exact OB | exact (lo_sorted_pairs _ _ OC)].
Qed.
