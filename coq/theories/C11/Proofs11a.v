(** The derivative matcher of the specification decides the denotational language: [dmatch_re r s = true <-> Lre r s]. *)
From Coq Require Import Arith PeanoNat.
From XV Require Import C11.Spec11.
Local Open Scope N_scope.

Fixpoint Lc (r : cre) (s : list N) : Prop :=
  match r with
  | KEmp => False
  | KEps => s = []
  | KSet f => exists c, s = [c] /\ f c = true
  | KCat a b => exists s1 s2, s = s1 ++ s2 /\ Lc a s1 /\ Lc b s2
  | KAlt a b => Lc a s \/ Lc b s
  | KStar a => exists ss, s = concat ss /\ Forall (Lc a) ss
  end.

Lemma nullable_spec : forall r, nullable r = true <-> Lc r [].
Proof.
  induction r; cbn [nullable Lc].
  - split; [discriminate | tauto].
  - split; auto.
  - split; [discriminate | intros [c [H _]]; discriminate].
  - rewrite andb_true_iff, IHr1, IHr2. split.
    + intros [H1 H2]. exists [], []. auto.
    + intros [s1 [s2 [E [H1 H2]]]]. symmetry in E. apply app_eq_nil in E. destruct E; subst. auto.
  - rewrite orb_true_iff, IHr1, IHr2. tauto.
  - split; auto. intros _. exists []. split; [reflexivity | constructor].
Qed.

(** the smart constructors only look at whether an argument is [KEmp] or [KEps] *)
Lemma kcat_cases : forall a b, ((a = KEmp \/ b = KEmp) /\ kcat a b = KEmp) \/ (a = KEps /\ kcat a b = b) \/
  (b = KEps /\ kcat a b = a) \/ kcat a b = KCat a b.
Proof. destruct a; destruct b; cbn; auto 6. Qed.

Lemma kcat_spec : forall a b s, Lc (kcat a b) s <-> Lc (KCat a b) s.
Proof.
  intros a b s. destruct (kcat_cases a b) as [[[-> | ->] ->] | [[-> ->] | [[-> ->] | ->]]]; cbn [Lc]; [| | | | tauto].
  - split; [intros [] | intros [? [? [_ [[] _]]]]].
  - split; [intros [] | intros [? [? [_ [_ []]]]]].
  - split; [intros H; exists [], s; auto | intros [s1 [s2 [E [E1 H]]]]; subst; exact H].
  - split; [intros H; exists s, []; rewrite app_nil_r; auto | intros [s1 [s2 [E [H E2]]]]; subst; rewrite app_nil_r; exact H].
Qed.

Lemma kalt_cases : forall a b, (a = KEmp /\ kalt a b = b) \/ (b = KEmp /\ kalt a b = a) \/ kalt a b = KAlt a b.
Proof. destruct a; destruct b; cbn; auto. Qed.

Lemma kalt_spec : forall a b s, Lc (kalt a b) s <-> Lc (KAlt a b) s.
Proof. intros a b s. destruct (kalt_cases a b) as [[-> ->] | [[-> ->] | ->]]; cbn [Lc]; tauto. Qed.

Lemma concat_cons_split : forall (P : list N -> Prop) ss c s,
  concat ss = c :: s -> Forall P ss ->
  exists s1 rest, P (c :: s1) /\ Forall P rest /\ s = s1 ++ concat rest.
Proof.
  induction ss as [|x ss IH]; intros c s E F.
  - discriminate.
  - inversion F as [|? ? Hx Hss]; subst. cbn [concat] in E. destruct x as [|d x'].
    + cbn in E. exact (IH c s E Hss).
    + cbn in E. inversion E; subst. exists x', ss. auto.
Qed.

Lemma deriv_spec : forall r c s, Lc (deriv c r) s <-> Lc r (c :: s).
Proof.
  induction r; intros c s; cbn [deriv].
  - cbn. tauto.
  - cbn. split; [tauto | discriminate].
  - cbn [Lc]. destruct (f c) eqn:E; cbn [Lc].
    + split.
      * intros ->. exists c. auto.
      * intros [d [H _]]. inversion H. reflexivity.
    + split; [tauto |]. intros [d [H Hd]]. inversion H; subst. congruence.
  - assert (Hcat : Lc (KCat (deriv c r1) r2) s \/ (Lc r1 [] /\ Lc r2 (c :: s)) <-> Lc (KCat r1 r2) (c :: s)).
    { cbn [Lc]. split.
      - intros [[s1 [s2 [E [H1 H2]]]] | [H1 H2]].
        + exists (c :: s1), s2. subst. split; [reflexivity |]. split; [apply IHr1; exact H1 | exact H2].
        + exists [], (c :: s). auto.
      - intros [s1 [s2 [E [H1 H2]]]]. destruct s1 as [|d s1'].
        + cbn in E. subst s2. right. auto.
        + cbn in E. inversion E; subst. left. exists s1', s2. split; [reflexivity |]. split; [apply IHr1; exact H1 | exact H2]. }
    destruct (nullable r1) eqn:En.
    + rewrite kalt_spec. cbn [Lc]. rewrite kcat_spec, IHr2. rewrite <- Hcat.
      apply nullable_spec in En. tauto.
    + rewrite kcat_spec. rewrite <- Hcat. split; [tauto |]. intros [H | [H _]]; [exact H |].
      apply nullable_spec in H. congruence.
  - rewrite kalt_spec. cbn [Lc]. rewrite IHr1, IHr2. tauto.
  - rewrite kcat_spec. cbn [Lc]. split.
    + intros [s1 [s2 [E [H1 [ss [E2 F]]]]]]. exists ((c :: s1) :: ss). split.
      * cbn. subst. reflexivity.
      * constructor; [apply IHr; exact H1 | exact F].
    + intros [ss [E F]]. symmetry in E.
      destruct (concat_cons_split (Lc r) ss c s E F) as [s1 [rest [H1 [F2 E2]]]].
      exists s1, (concat rest). split; [exact E2 |]. split; [apply IHr; exact H1 |]. exists rest. auto.
Qed.

Lemma dmatch_spec : forall s r, dmatch r s = true <-> Lc r s.
Proof.
  induction s as [|c s IH]; intros r; cbn [dmatch].
  - apply nullable_spec.
  - rewrite IH. apply deriv_spec.
Qed.

(** [Lre (RRep n m a)], the loops of the matchers and the closures of the op trees all speak of concatenations of
    pieces: the shapes they take, and the lemma that relates them ([Lrep_split]) *)
Definition Lcat (L1 L2 : list N -> Prop) (w : list N) : Prop := exists w1 w2, w = w1 ++ w2 /\ L1 w1 /\ L2 w2.
Definition Lstar (L : list N -> Prop) (w : list N) : Prop := exists ss, w = concat ss /\ Forall L ss.
Definition Lpow (L : list N -> Prop) (i : nat) (w : list N) : Prop :=
  exists ss, w = concat ss /\ Forall L ss /\ length ss = i.
Definition Lmax (L : list N -> Prop) (j : nat) (w : list N) : Prop :=
  exists ss, w = concat ss /\ Forall L ss /\ (length ss <= j)%nat.

Lemma Lcat_impl : forall (L1 L1' L2 L2' : list N -> Prop) w,
  (forall v, L1 v -> L1' v) -> (forall v, L2 v -> L2' v) -> Lcat L1 L2 w -> Lcat L1' L2' w.
Proof. intros L1 L1' L2 L2' w H1 H2 [w1 [w2 [E [A B]]]]. exists w1, w2. auto. Qed.

Lemma Lcat_ext : forall (L1 L1' L2 L2' : list N -> Prop) w,
  (forall v, L1 v <-> L1' v) -> (forall v, L2 v <-> L2' v) -> (Lcat L1 L2 w <-> Lcat L1' L2' w).
Proof. intros L1 L1' L2 L2' w H1 H2. split; apply Lcat_impl; intros v; try apply H1; apply H2. Qed.

Lemma Lcat_assoc : forall (L1 L2 L3 : list N -> Prop) w, Lcat L1 (Lcat L2 L3) w <-> Lcat (Lcat L1 L2) L3 w.
Proof.
  intros L1 L2 L3 w. split.
  - intros [w1 [w23 [-> [H1 [w2 [w3 [-> [H2 H3]]]]]]]]. exists (w1 ++ w2), w3. split; [apply app_assoc |].
    split; [exists w1, w2; auto | exact H3].
  - intros [w12 [w3 [-> [[w1 [w2 [-> [H1 H2]]]] H3]]]]. exists w1, (w2 ++ w3). split; [symmetry; apply app_assoc |].
    split; [exact H1 | exists w2, w3; auto].
Qed.

Lemma Lcat_nil_l : forall (L : list N -> Prop) w, Lcat (fun v => v = []) L w <-> L w.
Proof.
  intros L w. split; [intros [w1 [w2 [-> [-> H]]]]; exact H | intros H; exists [], w; auto].
Qed.

Lemma Lstar_nil : forall L, Lstar L [].
Proof. intros L. exists []. split; [reflexivity | constructor]. Qed.

Lemma Lstar_cons : forall (L : list N -> Prop) v1 v2, L v1 -> Lstar L v2 -> Lstar L (v1 ++ v2).
Proof. intros L v1 v2 H1 [ss [-> F]]. exists (v1 :: ss). split; [reflexivity | constructor; assumption]. Qed.

Lemma Lpow_0 : forall L w, Lpow L 0 w <-> w = [].
Proof.
  intros L w. split; [intros [[|x ss] [-> [_ Hl]]]; [reflexivity | discriminate] |].
  intros ->. exists []. split; [reflexivity |]. split; [constructor | reflexivity].
Qed.

Lemma Lpow_S : forall L i w, Lpow L (S i) w <-> Lcat L (Lpow L i) w.
Proof.
  intros L i w. split.
  - intros [[|x ss] [-> [F Hl]]]; [discriminate |]. inversion F; subst. exists x, (concat ss).
    split; [reflexivity |]. split; [assumption |]. exists ss. cbn in Hl. auto.
  - intros [w1 [w2 [-> [H1 [ss [-> [F Hl]]]]]]]. exists (w1 :: ss). cbn [length]. auto.
Qed.

Lemma Lmax_0 : forall L w, Lmax L 0 w <-> w = [].
Proof.
  intros L w. split; [intros [[|x ss] [-> [_ Hl]]]; [reflexivity | cbn in Hl; lia] |].
  intros ->. exists []. split; [reflexivity |]. split; [constructor | apply Nat.le_refl].
Qed.

Lemma Lmax_S : forall L j w, Lmax L (S j) w <-> w = [] \/ Lcat L (Lmax L j) w.
Proof.
  intros L j w. split.
  - intros [[|x ss] [-> [F Hl]]]; [left; reflexivity | right]. inversion F; subst. exists x, (concat ss).
    split; [reflexivity |]. split; [assumption |]. exists ss. cbn in Hl. split; [reflexivity |]. split; [assumption | lia].
  - intros [-> | [w1 [w2 [-> [H1 [ss [-> [F Hl]]]]]]]].
    + exists []. split; [reflexivity |]. split; [constructor | cbn; lia].
    + exists (w1 :: ss). cbn [length]. split; [reflexivity |]. split; [constructor; assumption | lia].
Qed.

Lemma Lmax_le : forall (L : list N -> Prop) j j' w, (j <= j')%nat -> Lmax L j w -> Lmax L j' w.
Proof. intros L j j' w Hj [ss [E [F Hl]]]. exists ss. split; [exact E |]. split; [exact F | lia]. Qed.

Lemma Forall_iff_pointwise : forall (P Q : list N -> Prop) ss, (forall s, P s <-> Q s) -> Forall P ss <-> Forall Q ss.
Proof.
  intros P Q ss H. split; intros F; induction F; constructor; try assumption; apply H; assumption.
Qed.

Definition Ltail (L : list N -> Prop) (n : nat) (m : option nat) : list N -> Prop :=
  match m with Some m => Lmax L (m - n) | None => Lstar L end.

Lemma Lrep_split : forall (L : list N -> Prop) n m w, le_opt n m ->
  ((exists ss, w = concat ss /\ Forall L ss /\ (n <= length ss)%nat /\ le_opt (length ss) m) <->
   Lcat (Lpow L n) (Ltail L n m) w).
Proof.
  intros L n m w Hnm. split.
  - intros [ss [-> [F [H1 H2]]]]. exists (concat (firstn n ss)), (concat (skipn n ss)).
    split; [rewrite <- concat_app, firstn_skipn; reflexivity |].
    rewrite <- (firstn_skipn n ss) in F. apply Forall_app in F. destruct F as [F1 F2]. split.
    + exists (firstn n ss). split; [reflexivity |]. split; [exact F1 | rewrite firstn_length; lia].
    + destruct m as [m|]; exists (skipn n ss); [| auto]. split; [reflexivity |]. split; [exact F2 |].
      rewrite skipn_length. cbn in H2. lia.
  - intros [w1 [w2 [-> [[ss1 [-> [F1 L1]]] T]]]].
    assert (T' : exists ss2, w2 = concat ss2 /\ Forall L ss2 /\ le_opt (n + length ss2) m).
    { destruct m as [m|]; cbn in T, Hnm |- *; [destruct T as [ss2 [E [F2 L2]]] | destruct T as [ss2 [E F2]]];
        exists ss2; (split; [exact E |]); split; try exact F2; [lia | exact I]. }
    destruct T' as [ss2 [-> [F2 L2]]]. exists (ss1 ++ ss2). rewrite concat_app, app_length, L1.
    split; [reflexivity |]. split; [apply Forall_app; auto |]. split; [lia | exact L2].
Qed.

Section Powers.
Variable a : cre.
Variable L : list N -> Prop.
Hypothesis Ha : forall s, Lc a s <-> L s.

Lemma kpow_spec : forall n s, Lc (kpow a n) s <-> Lpow L n s.
Proof.
  induction n as [|n IH]; intros s; cbn [kpow Lc]; [symmetry; apply Lpow_0 |].
  rewrite Lpow_S. exact (Lcat_ext _ _ _ _ s Ha IH).
Qed.

Lemma kopt_spec : forall k s, Lc (kopt a k) s <-> Lmax L k s.
Proof.
  induction k as [|k IH]; intros s; cbn [kopt Lc]; [symmetry; apply Lmax_0 |].
  rewrite Lmax_S. pose proof (Lcat_ext _ _ _ _ s Ha IH) as C. unfold Lcat in C at 1. tauto.
Qed.
End Powers.

Lemma core_spec : forall r s, Lc (core r) s <-> Lre r s.
Proof.
  induction r as [| |f|a IHa b IHb|a IHa b IHb|n m a IHa]; intros s; cbn [core Lre].
  - cbn. tauto.
  - cbn. tauto.
  - cbn. tauto.
  - exact (Lcat_ext _ _ _ _ s IHa IHb).
  - cbn [Lc]. rewrite IHa, IHb. tauto.
  - destruct m as [m|]; [destruct (Nat.ltb_spec m n) as [Emn | Emn] |].
    + cbn [Lc]. split; [tauto |]. intros [ss [_ [_ [H1 H2]]]]. cbn in H2. lia.
    + rewrite (Lrep_split (Lre a) n (Some m) s Emn). cbn [Ltail].
      exact (Lcat_ext _ _ _ _ s (kpow_spec _ _ IHa n) (kopt_spec _ _ IHa (m - n))).
    + rewrite (Lrep_split (Lre a) n None s I). cbn [Ltail].
      apply (Lcat_ext _ _ _ _ s (kpow_spec _ _ IHa n)). intros v. cbn [Lc].
      split; intros [ss [E F]]; exists ss; (split; [exact E |]); apply (Forall_iff_pointwise _ _ ss IHa); exact F.
Qed.

Theorem dmatch_re_spec : forall r s, dmatch_re r s = true <-> Lre r s.
Proof. intros r s. unfold dmatch_re. rewrite dmatch_spec. apply core_spec. Qed.
