(** Property C11 -- Regular expressions match exactly the language their syntax defines.
    The property theorems, each followed by [Print Assumptions]; most are closed by a lemma of Proofs11*.v, the facts
    about the generated tables and the witnesses by evaluation.  Spec: Spec11.v.  Models: ModelRange11.v (RangeToken), Model11.v
    (ParserForXMLSchema, compile, match; the \s \d \w \i \c sets come from Gen/GenC11.v, regenerated on every run).

    Not proved here (checked by the correspondence and the extracted oracle only): completeness on a deterministic
    class, the parser round trip (the parser model is tied by correspondence),
    the Boyer-Moore fixed-string filter, option i, tokenize/replace. *)
From Coq Require Import Arith PeanoNat.
From XV Require Import C11.Spec11 C11.ModelRange11 C11.Model11 C11.Proofs11a C11.Proofs11b C11.Proofs11d C11.Proofs11f C11.Proofs11g C11.Proofs11h C11.ModelPre11 C11.Proofs11i C11.Proofs11j Gen.GenC11Cat.
Local Open Scope N_scope.

(** * the specification's matcher (the oracle of the correspondence) decides the denotational language *)
Theorem T11_spec_matcher : forall r s, dmatch_re r s = true <-> Lre r s.
Proof. exact dmatch_re_spec. Qed.
Print Assumptions T11_spec_matcher.

(** * quantifiers: n copies followed by m-n nested options (resp. a star) denote the n..m-fold (resp. >= n-fold) power *)
Theorem T11_quantifier : forall a n m s, (n <= m)%nat ->
  (Lc (KCat (kpow (core a) n) (kopt (core a) (m - n))) s <->
   exists ss, s = concat ss /\ Forall (Lre a) ss /\ (n <= length ss)%nat /\ (length ss <= m)%nat).
Proof.
  intros a n m s H. pose proof (core_spec (RRep n (Some m) a) s) as C. cbn [core Lre le_opt] in C.
  assert (E : Nat.ltb m n = false) by (apply Nat.ltb_ge; exact H). rewrite E in C. exact C.
Qed.
Print Assumptions T11_quantifier.

Theorem T11_quantifier_unbounded : forall a n s,
  (Lc (KCat (kpow (core a) n) (KStar (core a))) s <-> exists ss, s = concat ss /\ Forall (Lre a) ss /\ (n <= length ss)%nat).
Proof.
  intros a n s. pose proof (core_spec (RRep n None a) s) as C. cbn [core Lre le_opt] in C. rewrite C.
  split; intros [ss [E [F L]]]; exists ss; tauto.
Qed.
Print Assumptions T11_quantifier_unbounded.

Example T11_quantifier_nonvacuous : dmatch_re (RRep 2 (Some 3%nat) (RChar 97)) [97; 97; 97] = true /\
                                    dmatch_re (RRep 2 (Some 3%nat) (RChar 97)) [97] = false /\
                                    dmatch_re (RRep 2 (Some 3%nat) (RChar 97)) [97; 97; 97; 97] = false.
Proof. vm_compute. repeat split. Qed.

(** * range algebra: sort, compact, merge, repaired addRange, subtract, intersect, complement, match, array bounds *)
Theorem T11_range_sort : forall l c, rmem (rsort l) c = rmem l c /\ sorted_ok (rsort l) = true.
Proof. intros l c. split; [apply rmem_rsort | apply sorted_rsort]. Qed.
Print Assumptions T11_range_sort.

(** compactRanges keeps the set and yields strictly increasing, disjoint, non-adjacent ranges *)
Theorem T11_range_compact : forall l c, lo_sorted 0 l = true ->
  rmem (compact_list l) c = rmem l c /\ compact_ok (compact_list l) = true.
Proof. exact compact_list_spec. Qed.
Print Assumptions T11_range_compact.

Example T11_range_compact_nonvacuous :
  lo_sorted 0 [(1, 3); (2, 5); (6, 6); (9, 12)] = true /\ compact_list [(1, 3); (2, 5); (6, 6); (9, 12)] = [(1, 6); (9, 12)].
Proof. vm_compute. split; reflexivity. Qed.

Theorem T11_range_merge : forall t o c, rt_wf t -> rt_wf o ->
  rmem (rs (mergeRanges t o)) c = rmem (rs t) c || rmem (rs o) c.
Proof. exact mergeRanges_spec. Qed.
Print Assumptions T11_range_merge.

(** addRange with fixes/C11-addrange-overlap.patch denotes the union with the (normalised) interval *)
Theorem T11_range_add : forall t a b c, rt_wf t ->
  rmem (rs (addRange true t a b)) c = rmem (rs t) c || interval a b c.
Proof. exact addRange_fixed_spec. Qed.
Print Assumptions T11_range_add.

Example T11_range_add_nonvacuous : rt_wf (addRange true rt_new 1 5) /\ rs (addRange true (addRange true rt_new 1 5) 3 9) = [(1, 5); (3, 9)].
Proof. split; [| vm_compute; reflexivity]. unfold rt_wf. vm_compute. repeat split; discriminate. Qed.

(** F26: addRange as it stands loses an interval *)
Theorem T11_addRange_drop_refuted :
  exists t a b c, rt_wf t /\ interval a b c = true /\ rmem (rs (addRange false t a b)) c = false.
Proof.
  exists (addRange false rt_new 1 5), 3, 9, 7. split; [| split; vm_compute; reflexivity].
  unfold rt_wf. vm_compute. repeat split; discriminate.
Qed.
Print Assumptions T11_addRange_drop_refuted.

(** RangeToken::match (bitmap below 256, scan above) is membership, negated for T_NRANGE *)
Theorem T11_range_match : forall neg l c, compact_ok l = true -> rt_match neg l c = xorb neg (rmem l c).
Proof. exact rt_match_spec. Qed.
Print Assumptions T11_range_match.

(** subtractRanges / intersectRanges / complementRanges denote difference, intersection and complement within
    0..0x10FFFF.  [rt_inv]: the token is well formed and its fSorted / fCompacted flags are truthful. *)
Theorem T11_range_subtract : forall t o c, rt_inv t -> rt_inv o ->
  rmem (rs (subtractRanges t o false)) c = rmem (rs t) c && negb (rmem (rs o) c).
Proof. exact subtractRanges_spec. Qed.
Print Assumptions T11_range_subtract.

Theorem T11_range_subtract_nrange : forall t o c, rt_inv t -> rt_inv o -> alloc t = true -> alloc o = true ->
  rmem (rs (subtractRanges t o true)) c = rmem (rs t) c && negb (negb (rmem (rs o) c)).
Proof. intros t o c It Io _. exact (subtractRanges_neg_spec t o c It Io). Qed.
Print Assumptions T11_range_subtract_nrange.

Theorem T11_range_intersect : forall t o c, rt_inv t -> rt_inv o -> alloc t = true -> alloc o = true ->
  rmem (rs (intersectRanges t o)) c = rmem (rs t) c && rmem (rs o) c.
Proof. intros t o c It Io _. exact (intersectRanges_spec t o c It Io). Qed.
Print Assumptions T11_range_intersect.

Theorem T11_range_complement : forall fx t c, rt_inv t -> alloc t = true ->
  (forall p, In p (rs t) -> snd p <= 0x10FFFF) -> c <= 0x10FFFF ->
  rmem (rs (complementRanges fx t)) c = negb (rmem (rs t) c).
Proof. exact complementRanges_spec. Qed.
Print Assumptions T11_range_complement.

Theorem T11_range_cap_subtract : forall t o oneg, rt_inv t -> rt_inv o -> cap_ok t -> cap_ok o -> cap_ok (subtractRanges t o oneg).
Proof. intros t o oneg _ _. apply subtractRanges_cap. Qed.
Print Assumptions T11_range_cap_subtract.

Theorem T11_range_cap_intersect : forall t o, rt_inv t -> rt_inv o -> cap_ok t -> cap_ok o -> cap_ok (intersectRanges t o).
Proof. intros t o _ _. apply intersectRanges_cap. Qed.
Print Assumptions T11_range_cap_intersect.

Theorem T11_range_cap_complement : forall fx t, cap_ok (complementRanges fx t).
Proof. exact complementRanges_cap. Qed.
Print Assumptions T11_range_cap_complement.

Definition ex_tok_a : rtok := addRange true (addRange true (addRange true rt_new 10 20) 1 3) 15 30.
Definition ex_tok_b : rtok := addRange true (addRange true rt_new 2 12) 25 26.
Example T11_range_inv_nonvacuous :
  rt_inv ex_tok_a /\ rt_inv ex_tok_b /\ cap_ok ex_tok_a /\
  rs (subtractRanges ex_tok_a ex_tok_b false) = [(1, 1); (13, 24); (27, 30)] /\
  rs (intersectRanges ex_tok_a ex_tok_b) = [(2, 3); (10, 12); (25, 26)] /\
  rs (complementRanges false ex_tok_b) = [(0, 1); (13, 24); (27, 0x10FFFF)].
Proof.
  unfold rt_inv, rt_wf, cap_ok. vm_compute. repeat split; try discriminate; try reflexivity; intros; try discriminate; try lia.
Qed.

(** the order "compactRanges, then createMap" in RegularExpression::prepare matters: a map built before the compaction
    keeps a stale fNonMapIndex, and the first-character set of  a?[a-c U+0436]  (ranges a-a, a-c, U+0436 before
    compaction) no longer contains U+0436; built after the compaction it does *)
Example T11_stale_map_refuted :
  let lb := [(97, 97); (97, 99); (1078, 1078)] in
  let l := compact_list lb in
  l = [(97, 99); (1078, 1078)] /\ rmem l 1078 = true /\
  rt_match_at (nonmap_index lb) l 1078 = false /\ rt_match_at (nonmap_index l) l 1078 = true /\
  rt_match false l 1078 = true.
Proof. vm_compute. repeat split. Qed.

(** index safety: fElemCount never exceeds the fMaxCount the C++ computes *)
Theorem T11_range_cap_add : forall fx t a b, cap_ok t -> (2 <= maxc t)%nat -> cap_ok (addRange fx t a b).
Proof. intros fx t a b H H2. exact (proj1 (addRange_cap fx t a b H H2)). Qed.
Print Assumptions T11_range_cap_add.

Theorem T11_range_cap_merge : forall t o, cap_ok t -> cap_ok o -> cap_ok (mergeRanges t o).
Proof. exact mergeRanges_cap. Qed.
Print Assumptions T11_range_cap_merge.

(** * the multi-character escapes read back from the library: ordering and ASCII part *)
Definition named_sets : list (N * list rng * list rng) :=
  [(115, named_lc_s, named_uc_s); (100, named_lc_d, named_uc_d); (119, named_lc_w, named_uc_w);
   (105, named_lc_i, named_uc_i); (99, named_lc_c, named_uc_c)].

Definition named_ok (x : N * list rng * list rng) : bool :=
  let '(k, lc, uc) := x in
  let la := filter (fun p => fst p <? 128) lc in
  let ua := filter (fun p => fst p <? 128) uc in
  compact_ok lc && compact_ok uc &&
  forallb (fun c => Bool.eqb (rmem la c) (named_ascii k c) && Bool.eqb (rmem ua c) (negb (named_ascii k c))) (nrange 128).

Theorem T11_named_ascii : forall k lc uc c, In (k, lc, uc) named_sets -> c < 128 ->
  compact_ok lc = true /\ compact_ok uc = true /\ rmem lc c = named_ascii k c /\ rmem uc c = negb (named_ascii k c).
Proof.
  intros k lc uc c Hin Hc.
  assert (A : forallb named_ok named_sets = true) by (vm_compute; reflexivity).
  rewrite forallb_forall in A. specialize (A _ Hin). unfold named_ok in A. cbn zeta in A.
  apply andb_true_iff in A. destruct A as [A Hsw]. apply andb_true_iff in A. destruct A as [A1 A2].
  rewrite forallb_forall in Hsw. specialize (Hsw c (nrange_in 128 c Hc)).
  apply andb_true_iff in Hsw. destruct Hsw as [S1 S2]. apply Bool.eqb_prop in S1. apply Bool.eqb_prop in S2.
  rewrite (rmem_filter_lo 128 _ c Hc) in S1. rewrite (rmem_filter_lo 128 _ c Hc) in S2. auto.
Qed.
Print Assumptions T11_named_ascii.

(** * category escapes \p{..} and the sets built from them
    Gen/GenC11Cat.v is regenerated on every run: [cat_names], [cat_unicategory] from the source of the tree under
    test (uniCategNames, getUniCategory), [cat_rle] = XMLUniCharacter::getType over all 65536 code units and
    [cat_toks] = the range tokens, both as the built library reports them. *)
Theorem T11_category_names : cat_names = std_cat_names ++ map (fun c => [c]) major_names.
Proof. vm_compute. reflexivity. Qed.
Print Assumptions T11_category_names.

(** getUniCategory maps every general category to the one-letter class its name starts with
    (in particular Co, private use, belongs to C) *)
Theorem T11_category_letter : forall k, k < 30 ->
  nth (N.to_nat (nth (N.to_nat k) cat_unicategory 0)) cat_names [] = [major_of_cat k].
Proof.
  intros k Hk. assert (A : letter_check = true) by (vm_compute; reflexivity).
  unfold letter_check in A. rewrite forallb_forall in A. specialize (A k (nrange_in 30 k Hk)).
  destruct (nth (N.to_nat (nth (N.to_nat k) cat_unicategory 0)) cat_names []) as [|c [|d r]]; try discriminate.
  apply N.eqb_eq in A. subst. reflexivity.
Qed.
Print Assumptions T11_category_letter.

(** the sweep over every BMP code unit and every escape: the token of \p{name k} contains c exactly when the category
    of c belongs to escape k in the sense of the Spec (two-letter: equal; one-letter: the name starts with it) *)
Theorem T11_category_tokens : forall k c, k < 37 -> c < 0x10000 ->
  rmem (nth (N.to_nat k) cat_toks []) c = spec_cat_mem (cat_of cat_rle) k c.
Proof. exact category_tokens_spec. Qed.
Print Assumptions T11_category_tokens.

(** \w = everything except P, Z, C and \d = Nd, on every BMP code unit *)
Theorem T11_word_def : forall c, c < 0x10000 -> rmem named_lc_w c = spec_word_pred (cat_of cat_rle c).
Proof. exact word_spec. Qed.
Print Assumptions T11_word_def.

Theorem T11_digit_def : forall c, c < 0x10000 -> rmem named_lc_d c = spec_digit_pred (cat_of cat_rle c).
Proof. exact digit_spec. Qed.
Print Assumptions T11_digit_def.

Example T11_category_nonvacuous :
  cat_of cat_rle 0xE000 = 17 /\ spec_cat_mem (cat_of cat_rle) 34 0xE000 = true /\ spec_cat_mem (cat_of cat_rle) 0 0xE000 = false /\
  spec_word_pred (cat_of cat_rle 0xE000) = false /\ spec_word_pred (cat_of cat_rle 97) = true /\ cat_of cat_rle 0xD800 = 18.
Proof.
  assert (E : cat_of cat_rle 0xE000 = 17) by (vm_compute; reflexivity).
  unfold spec_cat_mem. rewrite E. vm_compute. repeat split.
Qed.

(** * the matcher *)
(** the repaired matcher (defect switch of F15/F27/F28) accepts exactly the language of the token tree *)
Theorem T11_fixed_correct : forall fxd s t, xmatch_fixed_tok fxd s t = true <-> Lre (re_of_tok fxd t) s.
Proof. exact xmatch_fixed_correct. Qed.
Print Assumptions T11_fixed_correct.

Definition t_a_star_ab_opt : tok := TConcat [TClosure 0 None (TChar 97); TUnion [TParen (TConcat [TString [97; 98]]); TEmpty]].
Definition t_alt_star : tok := TClosure 0 None (TParen (TUnion [TConcat [TString [97; 98]]; TChar 97; TConcat [TString [98; 98]]])).

Example T11_parse_witness : parse sw_faithful [97; 42; 40; 97; 98; 41; 63] = Ok t_a_star_ab_opt.
Proof. vm_compute. reflexivity. Qed.

(** F15: completeness of the matcher as it stands is refuted: a*(ab)? rejects "ab" and "aab", (ab|a|bb)* rejects "abb" *)
Theorem T11_match_complete_refuted :
  exists t s, Lre (re_of_tok false t) s /\ xmatch_tok sw_faithful 200 t s = XFalse.
Proof.
  exists t_a_star_ab_opt, [97; 98]. split; [| vm_compute; reflexivity].
  apply T11_fixed_correct. vm_compute. reflexivity.
Qed.
Print Assumptions T11_match_complete_refuted.

Example T11_match_complete_refuted_2 :
  xmatch_tok sw_faithful 200 t_a_star_ab_opt [97; 97; 98] = XFalse /\ xmatch_fixed_tok false [97; 97; 98] t_a_star_ab_opt = true /\
  xmatch_tok sw_faithful 200 t_alt_star [97; 98; 98] = XFalse /\ xmatch_fixed_tok false [97; 98; 98] t_alt_star = true /\
  xmatch_tok sw_faithful 200 t_a_star_ab_opt [97; 97] = XTrue.
Proof. vm_compute. repeat split. Qed.

(** T11_match_sound: the matcher AS IT STANDS (any setting of the repair switches, in particular the faithful one;
    every fuel) never accepts a string outside the language of the token tree.  All op kinds of the model are
    covered (char, dot, range, string, union with context copies, closure with fOffsets, finite closure, question,
    capture marks).  [tok_wfb]: classes are compacted and bounded quantifiers have min <= max. *)
Theorem T11_match_sound : forall w fuel t s, tok_wfb t = true ->
  xmatch_tok w fuel t s = XTrue -> Lre (re_of_tok (fx_dot w) t) s.
Proof. exact xmatch_tok_sound. Qed.
Print Assumptions T11_match_sound.

Definition parse_wf_accepts (pat s : list N) : bool :=
  match parse sw_faithful pat with
  | Ok t => tok_wfb t && match xmatch_tok sw_faithful 200 t s with XTrue => true | _ => false end
  | Err _ => false
  end.

(** the hypotheses are satisfiable: parser output is well formed, e.g. for [a-c-[b]]{1,2}(x|y)* on "acxy" *)
Example T11_match_sound_nonvacuous :
  tok_wfb t_a_star_ab_opt = true /\ xmatch_tok sw_faithful 200 t_a_star_ab_opt [97; 97] = XTrue /\
  parse_wf_accepts [91; 97; 45; 99; 45; 91; 98; 93; 93; 123; 49; 44; 50; 125; 40; 120; 124; 121; 41; 42] [97; 99; 120; 121] = true.
Proof. vm_compute. repeat split. Qed.

(** soundness of the search model of the non-schema API: a reported window [a, b) spells a word of the language *)
Theorem T11_search_sound : forall w fuel sl t s a b, tok_wfb t = true ->
  xsearch_tok w fuel sl t s = SFound a b ->
  exists v rest, skipn a s = v ++ rest /\ b = (a + length v)%nat /\ Lre (re_of_tok_d (xp_dot (fx_dot w) sl) t) v.
Proof. intros w fuel sl t s a b Hwf. exact (xsearch_tok_sound w fuel sl t s Hwf a b). Qed.
Print Assumptions T11_search_sound.

Example T11_search_nonvacuous : xsearch_tok sw_fixed 200 false t_a_star_ab_opt [120; 97; 98] = SFound 0 0 /\
  xsearch_tok sw_fixed 200 false (TConcat [TString [97; 98]]) [120; 97; 98] = SFound 1 3.
Proof. vm_compute. split; reflexivity. Qed.

(** F27: [b]*[^a] rejects "bb" because doTokenOverlap intersects the negated class as if it were positive;
    with the repaired overlap test the same matcher accepts *)
Definition t_overlap : tok := TConcat [TClosure 0 None (TRange false [(98, 98)]); TRange true [(97, 97)]].
Example T11_overlap_refuted :
  xmatch_tok sw_faithful 200 t_overlap [98; 98] = XFalse /\ xmatch_tok (mkSw false true false) 200 t_overlap [98; 98] = XTrue /\
  xmatch_fixed_tok false [98; 98] t_overlap = true.
Proof. vm_compute. repeat split. Qed.

(** F28: the nested closure ( a* )* followed by b, on the subject "a": the recursion of match never ends (here: more than 3000 nested calls on a one-character
    subject; the implementation overflows its stack) *)
Definition t_nested : tok := TConcat [TClosure 0 None (TParen (TClosure 0 None (TChar 97))); TChar 98].
Example T11_match_diverges_witness :
  xmatch_tok sw_faithful 3000 t_nested [97] = XDiverge /\ xmatch_fixed_tok false [97] t_nested = false /\
  xmatch_tok sw_faithful 200 t_nested [97; 98] = XTrue.
Proof. vm_compute. repeat split. Qed.

(** F29: '.' rejects U+2028 and U+1000A *)
Example T11_dot_refuted :
  xmatch_tok sw_faithful 50 TDot [0x2028] = XFalse /\ xmatch_tok sw_faithful 50 TDot [0x1000A] = XFalse /\
  xmatch_tok (mkSw false false true) 50 TDot [0x1000A] = XTrue /\ xmatch_tok sw_faithful 50 TDot [10] = XFalse.
Proof. vm_compute. repeat split. Qed.

(** * the flags of a RangeToken stay truthful along the library's own call sequences
    [rt_acc]: ranges sorted by start with lo <= hi, fSorted set on every allocated token, fCompacted still clear --
    the state of a token that started as [rt_new] and only saw addRange / mergeRanges (parseCharacterClass,
    analyzeFirstCharacter).  It implies [rt_inv], the hypothesis of T11_range_subtract/_intersect/_complement. *)
Theorem T11_range_flags_add : forall fx t a b, rt_acc t -> rt_acc (addRange fx t a b).
Proof. exact addRange_acc. Qed.
Print Assumptions T11_range_flags_add.

Theorem T11_range_flags_merge : forall t o, rt_acc t -> rt_opnd o -> rt_acc (mergeRanges t o).
Proof. exact mergeRanges_acc. Qed.
Print Assumptions T11_range_flags_merge.

Theorem T11_range_flags_inv : forall t, rt_acc t -> rt_inv t /\ normal t (compactRanges (sortRanges t)).
Proof. intros t H. split; [exact (rt_acc_inv t H) | exact (rt_acc_normal t H)]. Qed.
Print Assumptions T11_range_flags_inv.

Example T11_range_flags_nonvacuous :
  rt_acc rt_new /\ rt_opnd (tok_rt [(48, 57); (97, 102)]) /\
  rs (mergeRanges (addRange false (addRange false rt_new 120 122) 65 70) (tok_rt [(48, 57); (97, 102)])) =
    [(48, 57); (65, 70); (97, 102); (120, 122)].
Proof. split; [exact rt_acc_new |]. split; [apply tok_rt_opnd; vm_compute; reflexivity | vm_compute; reflexivity]. Qed.

(** * pre-filters of the non-schema matches(): NECESSITY
    fMinLength = Token::getMinLength ([minlen_u], UTF-16 units): no word of the language is shorter, so neither
    [if (fLimit < fMinLength) return false] nor the scan bound [matchStart <= fLimit - fMinLength] can hide a match. *)
Theorem T11_minlen_necessary : forall dotf t v, Lre (re_of_tok_d dotf t) v -> (minlen_u t <= units_of v)%nat.
Proof. exact minlen_u_necessary. Qed.
Print Assumptions T11_minlen_necessary.

Theorem T11_search_bound_necessary : forall dotf t s a v rest, skipn a s = v ++ rest -> Lre (re_of_tok_d dotf t) v ->
  Nat.ltb (units_of s) (minlen_u t) = false /\ Nat.leb (units_of (firstn a s)) (units_of s - minlen_u t) = true.
Proof. exact search_bound_necessary. Qed.
Print Assumptions T11_search_bound_necessary.

Definition t_prefilter : tok :=
  TConcat [TUnion [TChar 97; TEmpty]; TClosure 2 (Some 3%nat) (TRange false [(98, 99); (0x10000, 0x10001)]); TString [0x10400; 33]].

Example T11_minlen_nonvacuous : minlen_u t_prefilter = 5%nat /\ units_of [98; 0x10000; 0x10400; 33] = 6%nat /\
  xmatch_fixed_tok true [98; 0x10000; 0x10400; 33] t_prefilter = true.
Proof. vm_compute. repeat split. Qed.

(** fFirstChar = the set Token::analyzeFirstCharacter collects when it answers FC_TERMINAL (with the repaired addRange,
    fixes/C11-addrange-overlap.patch): every word of the language is non-empty and starts with a member of it;
    the set handed to RangeToken::match is compact.  [tok_nes]: no empty T_STRING (they have >= 2 characters). *)
Theorem T11_firstchar_necessary : forall dotf t fcs, tok_wfb t = true -> tok_nes t = true -> first_char true t = Some fcs ->
  compact_ok fcs = true /\
  forall v, Lre (re_of_tok_d dotf t) v -> exists c r, v = c :: r /\ rt_match false fcs c = true.
Proof. exact first_char_necessary. Qed.
Print Assumptions T11_firstchar_necessary.

Definition t_firstchar : tok :=
  TConcat [TUnion [TChar 97; TEmpty]; TClosure 0 None (TString [0x10400; 33]); TRange false [(98, 99); (0x436, 0x436)]; TDot].

Example T11_firstchar_nonvacuous :
  tok_wfb t_firstchar = true /\ tok_nes t_firstchar = true /\
  first_char true t_firstchar = Some [(97, 99); (0x436, 0x436); (0x10400, 0x10400)] /\
  first_char true (TConcat [TUnion [TChar 97; TDot]; TChar 98]) = None /\
  first_char true (TClosure 0 None (TChar 97)) = None /\
  prepare_info sw_fixed t_prefilter = Prep 5 (Some [(97, 99); (0x10000, 0x10001); (0x10400, 0x10400)]).
Proof. vm_compute. repeat split. Qed.

(** the window reported by the search model starts at the LEFTMOST position at which match() completes (every earlier
    start failed), and when none is reported match() completes at no position of the subject -- in particular at none
    the minimum-length pre-check or the scan bound left out.  [run_at] = match() from a given start. *)
Theorem T11_search_leftmost : forall w fuel sl t s, tok_wfb t = true ->
  (forall a b, xsearch_tok w fuel sl t s = SFound a b ->
     (exists st', run_at w fuel sl t s a = MR (Some b) st') /\
     forall a', (a' < a)%nat -> exists st', run_at w fuel sl t s a' = MR None st') /\
  (xsearch_tok w fuel sl t s = SNone -> forall a' e st, (a' <= length s)%nat -> run_at w fuel sl t s a' <> MR (Some e) st).
Proof. exact search_leftmost. Qed.
Print Assumptions T11_search_leftmost.

(** the scan with the head-character test answers as the scan without it (subjects without surrogate code points;
    a start whose match() would exhaust the fuel may be skipped, so only definite answers are related) *)
Theorem T11_prefilter_transparent : forall w fuel sl t s, tok_wfb t = true -> tok_nes t = true -> fx_add w = true ->
  forallb (fun x => negb (is_surrogate x)) s = true ->
  (forall a b, xsearch_tok w fuel sl t s = SFound a b -> xsearch_fc w fuel sl t s = SFound a b) /\
  (xsearch_tok w fuel sl t s = SNone -> xsearch_fc w fuel sl t s = SNone).
Proof. exact prefilter_transparent. Qed.
Print Assumptions T11_prefilter_transparent.

Example T11_prefilter_nonvacuous :
  xsearch_fc sw_fixed 200 false t_firstchar [120; 0x10400; 33; 0x436; 121] = SFound 1 5 /\
  xsearch_tok sw_fixed 200 false t_firstchar [120; 0x10400; 33; 0x436; 121] = SFound 1 5 /\
  xsearch_fc sw_fixed 200 false t_prefilter [98; 99; 0x10400] = SNone.
Proof. vm_compute. repeat split. Qed.
