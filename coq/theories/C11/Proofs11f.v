(** The two matchers against the language of the expression.
    Soundness of the backtracking matcher AS IT STANDS (any setting of the repair switches, any fuel):
    whatever [omatch] returns was produced by the continuation at an offset reached through a word of the language of
    the op tree ([omatch_sound]); with [compile_sound] of Proofs11g.v, [xmatch_tok w fuel t s = XTrue -> Lre (re_of_tok (fx_dot w) t) s].
    All op kinds are covered: O_CHAR, O_DOT, O_RANGE/O_NRANGE, O_STRING, O_UNION (matchUnion with context copies),
    O_CLOSURE (with the fOffsets bookkeeping), O_FINITE_CLOSURE, O_QUESTION, O_CAPTURE marks, empty.
    The repaired matcher is sound and complete: [xmatch_fixed_tok fxd s t = true <-> Lre (re_of_tok fxd t) s]. *)
From Coq Require Import Arith PeanoNat Lia.
From XV Require Import C11.Spec11 C11.ModelRange11 C11.Model11 C11.Proofs11a.
Local Open Scope N_scope.

Lemma skipn_add : forall (l : list N) a b, skipn (a + b) l = skipn b (skipn a l).
Proof.
  intros l a. revert l. induction a as [|a IH]; intros l b; [reflexivity |].
  destruct l as [|x l]; cbn [plus skipn].
  - destruct b; reflexivity.
  - apply IH.
Qed.

Lemma skipn_len_app : forall (w r : list N), skipn (length w) (w ++ r) = r.
Proof. induction w; intros r; cbn; auto. Qed.

Lemma skipn_after : forall (s : list N) off w rest, skipn off s = w ++ rest -> skipn (off + length w) s = rest.
Proof. intros s off w rest E. rewrite skipn_add, E. apply skipn_len_app. Qed.

Lemma skipn_cons_iff : forall (l : list N) off x r, skipn off l = x :: r <-> nth_error l off = Some x /\ skipn (S off) l = r.
Proof.
  intros l off. revert l. induction off as [|off IH]; intros [|y l] x r; cbn [skipn nth_error]; try apply IH;
    try (split; [discriminate | intros [H _]; discriminate]).
  split; [intros H; inversion H; auto | intros [H1 H2]; inversion H1; subst; reflexivity].
Qed.

Lemma prefix_at_spec : forall (s : list N) l off, prefix_at s off l = true <-> exists rest, skipn off s = l ++ rest.
Proof.
  intros s. induction l as [|c l IH]; intros off; cbn [prefix_at app]; [split; eauto |]. split.
  - destruct (nth_error s off) as [x|] eqn:E; [| discriminate]. intros H. apply andb_true_iff in H. destruct H as [Hx Hp].
    apply N.eqb_eq in Hx. subst x. apply IH in Hp. destruct Hp as [rest Hp]. exists rest. apply skipn_cons_iff. auto.
  - intros [rest E]. apply skipn_cons_iff in E. destruct E as [En E2]. rewrite En, N.eqb_refl. apply IH. eauto.
Qed.

Section Sound.
Variable w : sw.
Variable xp sl : bool.
Variable s : list N.

Definition dotf : N -> bool := if xp then xp_dot (fx_dot w) sl else dot_ok (fx_dot w).

(** language of an op tree (the fragment itself, without its continuation) *)
Fixpoint Lop (o : op) (v : list N) : Prop :=
  match o with
  | OEmpty => v = []
  | OMark => v = []
  | OChar c => exists x, v = [x] /\ N.eqb c x = true
  | ODot => exists x, v = [x] /\ dotf x = true
  | ORange n r => exists x, v = [x] /\ rt_match n r x = true
  | OString l => v = l
  | OCat a b => exists v1 v2, v = v1 ++ v2 /\ Lop a v1 /\ Lop b v2
  | OUnion l => (fix any (l : list op) : Prop := match l with [] => False | x :: r => Lop x v \/ any r end) l
  | OClosure _ c => exists ss, v = concat ss /\ Forall (Lop c) ss
  | OFinClosure _ c => exists ss, v = concat ss /\ Forall (Lop c) ss
  | OQuestion c => v = [] \/ Lop c v
  end.

Lemma Lop_union_in : forall l b v, In b l -> Lop b v -> Lop (OUnion l) v.
Proof.
  induction l as [|x l IH]; intros b v Hin Hb; [destruct Hin |]. cbn [Lop]. destruct Hin as [-> | Hin].
  - left. exact Hb.
  - right. exact (IH b v Hin Hb).
Qed.

(** [Reach L off e]: a word of [L] leads from offset [off] to offset [e] in the subject *)
Definition Reach (L : list N -> Prop) (off e : nat) : Prop :=
  exists v rest, skipn off s = v ++ rest /\ L v /\ e = (off + length v)%nat.

Lemma Reach_nil : forall (L : list N -> Prop) off, L [] -> Reach L off off.
Proof. intros L off H. exists [], (skipn off s). split; [reflexivity |]. split; [exact H | cbn; lia]. Qed.

Lemma Reach_comp : forall (L1 L2 L : list N -> Prop) a b c,
  (forall v1 v2, L1 v1 -> L2 v2 -> L (v1 ++ v2)) -> Reach L1 a b -> Reach L2 b c -> Reach L a c.
Proof.
  intros L1 L2 L a b c HL [v1 [r1 [E1 [H1 Eb]]]] [v2 [r2 [E2 [H2 Ec]]]]. subst b.
  rewrite (skipn_after s a v1 r1 E1) in E2. exists (v1 ++ v2), r2. split; [rewrite E1, E2; apply app_assoc |].
  split; [apply HL; assumption |]. rewrite app_length. lia.
Qed.

Lemma Reach_split : forall (L1 L2 : list N -> Prop) a c, Reach (Lcat L1 L2) a c -> exists b, Reach L1 a b /\ Reach L2 b c.
Proof.
  intros L1 L2 a c [v [rest [E [[v1 [v2 [-> [H1 H2]]]] ->]]]]. rewrite <- app_assoc in E. exists (a + length v1)%nat. split.
  - exists v1, (v2 ++ rest). auto.
  - exists v2, rest. split; [exact (skipn_after s a v1 _ E) |]. split; [exact H2 | rewrite app_length; lia].
Qed.

Lemma Reach_one : forall (f : N -> bool) off x, nth_error s off = Some x -> f x = true ->
  Reach (fun v => exists x, v = [x] /\ f x = true) off (S off).
Proof.
  intros f off x En Ef. exists [x], (skipn (S off) s). split; [apply skipn_cons_iff; auto |]. split; [eauto | cbn; lia].
Qed.

Lemma Reach_weaken : forall (L1 L2 : list N -> Prop) a b, (forall v, L1 v -> L2 v) -> Reach L1 a b -> Reach L2 a b.
Proof. intros L1 L2 a b H [v [r [E [Hv Eb]]]]. exists v, r. auto. Qed.

(** "the answer came out of the continuation [k], called at an offset that [L] reaches from [off]" *)
Definition Via (L : list N -> Prop) (k : kont) (off e : nat) : Prop :=
  exists m stm st'', Reach L off m /\ k m stm = MR (Some e) st''.

Lemma Via_here : forall (L : list N -> Prop) (k : kont) off st e st', L [] -> k off st = MR (Some e) st' -> Via L k off e.
Proof. intros L k off st e st' HL H. exists off, st, st'. split; [apply Reach_nil; exact HL | exact H]. Qed.

Lemma Via_weaken : forall (L1 L2 : list N -> Prop) k off e, (forall v, L1 v -> L2 v) -> Via L1 k off e -> Via L2 k off e.
Proof. intros L1 L2 k off e HL [m [stm [st'' [R H]]]]. exists m, stm, st''. split; [exact (Reach_weaken L1 L2 off m HL R) | exact H]. Qed.

Lemma Via_bind : forall (L1 L2 L : list N -> Prop) (k1 k : kont) off e, (forall v1 v2, L1 v1 -> L2 v2 -> L (v1 ++ v2)) ->
  Via L1 k1 off e -> (forall m stm e' st', k1 m stm = MR (Some e') st' -> Via L2 k m e') -> Via L k off e.
Proof.
  intros L1 L2 L k1 k off e HL [m1 [stm1 [st1 [R1 H1]]]] Hk. destruct (Hk _ _ _ _ H1) as [m2 [stm2 [st2 [R2 H2]]]].
  exists m2, stm2, st2. split; [exact (Reach_comp L1 L2 L off m1 m2 HL R1 R2) | exact H2].
Qed.

Lemma one_char_sound : forall f k off st e st',
  one_char s f k off st = MR (Some e) st' ->
  Via (fun v => exists x, v = [x] /\ f x = true) k off e.
Proof.
  intros f k off st e st' H. unfold one_char in H. destruct (nth_error s off) as [x|] eqn:En; [| discriminate].
  destruct (negb (is_surrogate x) && f x) eqn:Ef; [| discriminate]. apply andb_true_iff in Ef. destruct Ef as [_ Ef].
  exists (S off), st, st'. split; [exact (Reach_one f off x En Ef) | exact H].
Qed.

Lemma union_go_sound : forall run st l best bst e st',
  union_go (length s) st run l best bst = MR (Some e) st' ->
  (best = Some e /\ bst = st') \/ exists b, In b l /\ run b = MR (Some e) st'.
Proof.
  intros run st. induction l as [|b1 r IH]; intros best bst e st' H; cbn [union_go] in H.
  - destruct best as [b|]; [| discriminate]. inversion H; subst. left. auto.
  - destruct (run b1) as [|[e1|] st1] eqn:Er; [discriminate | |].
    + destruct (Nat.leb e1 (length s) && match best with Some b => Nat.ltb b e1 | None => true end)%bool.
      * destruct (Nat.eqb e1 (length s)).
        -- inversion H; subst. right. exists b1. split; [left; reflexivity | exact Er].
        -- destruct (IH _ _ _ _ H) as [[E1 E2] | [b [Hin Hb]]].
           ++ inversion E1; subst. right. exists b1. split; [left; reflexivity | exact Er].
           ++ right. exists b. split; [right; exact Hin | exact Hb].
      * destruct (IH _ _ _ _ H) as [? | [b [Hin Hb]]]; [left; assumption |]. right. exists b. split; [right; exact Hin | exact Hb].
    + destruct (IH _ _ _ _ H) as [? | [b [Hin Hb]]]; [left; assumption |]. right. exists b. split; [right; exact Hin | exact Hb].
Qed.

Lemma fin_loop_sound : forall (L : list N -> Prop) (run fin : nat -> offs -> mres),
  (forall off st e1 st1, run off st = MR (Some e1) st1 -> Reach L off e1) ->
  forall n off st e st', fin_loop run fin n off st = MR (Some e) st' -> Via (Lstar L) fin off e.
Proof.
  intros L run fin Hrun. induction n as [|n IH]; intros off st e st' H; cbn [fin_loop] in H; [discriminate |].
  destruct (run off st) as [|[e1|] st1] eqn:Er; [discriminate | |].
  - destruct (Nat.eqb e1 off); [exact (Via_here _ _ _ _ _ _ (Lstar_nil L) H) |].
    destruct (IH _ _ _ _ H) as [m [stm [st'' [R Hk]]]]. exists m, stm, st''. split; [| exact Hk].
    exact (Reach_comp L (Lstar L) (Lstar L) off e1 m (Lstar_cons L) (Hrun _ _ _ _ Er) R).
  - exact (Via_here _ _ _ _ _ _ (Lstar_nil L) H).
Qed.

Theorem omatch_sound : forall fuel o k off st e st',
  omatch w xp sl s fuel o k off st = MR (Some e) st' -> Via (Lop o) k off e.
Proof.
  (* on the fuel, not on the op: the continuation of an OClosure re-enters the same op *)
  induction fuel as [|f IH]; intros o k off st e st' H; [discriminate |].
  destruct o as [| c | | neg r | lit | a b | l | id c | id c | c |]; cbn [omatch] in H.
  - (* OEmpty *) exact (Via_here _ _ _ _ _ _ eq_refl H).
  - (* OChar *) exact (one_char_sound _ _ _ _ _ _ H).
  - (* ODot *) exact (one_char_sound _ _ _ _ _ _ H).
  - (* ORange *) exact (one_char_sound _ _ _ _ _ _ H).
  - (* OString *)
    destruct (prefix_at s off lit) eqn:Ep; [| discriminate]. apply prefix_at_spec in Ep. destruct Ep as [rest Ep].
    exists (off + length lit)%nat, st, st'. split; [| exact H]. exists lit, rest. split; [exact Ep |]. split; reflexivity.
  - (* OCat *)
    apply (fun HL => Via_bind (Lop a) (Lop b) (Lop (OCat a b)) _ k off e HL (IH _ _ _ _ _ _ H)); [| intros; eapply IH; eassumption].
    intros v1 v2 Ha Hb. exists v1, v2. auto.
  - (* OUnion *)
    destruct (union_go_sound _ _ _ _ _ _ _ H) as [[E _] | [b [Hin Hb]]]; [discriminate |].
    apply (Via_weaken (Lop b)); [| exact (IH _ _ _ _ _ _ Hb)]. intros v Hv. exact (Lop_union_in l b v Hin Hv).
  - (* OClosure *)
    (* [enter] is local to [omatch]; this is its body, for either initial state of the slots *)
    assert (Enter : forall st0, match omatch w xp sl s f c (fun o' st' => omatch w xp sl s f (OClosure id c) k o' st') off st0 with
                                | MFuel => MFuel
                                | MR r st1 =>
                                    match r with
                                    | Some e => MR (Some e) (match id with Some i => set_nth st1 i None | None => st1 end)
                                    | None => k off (match id with Some i => set_nth st1 i None | None => st1 end)
                                    end
                                end = MR (Some e) st' -> Via (Lop (OClosure id c)) k off e).
    { intros st0 HE.
      destruct (omatch w xp sl s f c (fun o' st'0 => omatch w xp sl s f (OClosure id c) k o' st'0) off st0) as [|[e1|] st1] eqn:Ec;
        [discriminate | | exact (Via_here _ _ _ _ _ _ (Lstar_nil (Lop c)) HE)].
      assert (e1 = e) by (inversion HE; reflexivity). subst e1.
      apply (Via_bind (Lop c) (Lop (OClosure id c)) _ _ k off e (Lstar_cons (Lop c)) (IH _ _ _ _ _ _ Ec)).
      intros; eapply IH; eassumption. }
    destruct id as [i|]; [destruct (slot_is st i off) |].
    + exact (Via_here _ _ _ _ _ _ (Lstar_nil (Lop c)) H).
    + exact (Enter _ H).
    + exact (Enter _ H).
  - (* OFinClosure *)
    (* likewise the model's local [run] *)
    assert (Run : forall st0, fin_loop (omatch w xp sl s f c (fun o' st'0 => MR (Some o') st'0))
                                (fun off0 st1 => k off0 (match id with Some i => set_nth st1 i None | None => st1 end)) f off st0
                              = MR (Some e) st' -> Via (Lop (OFinClosure id c)) k off e).
    { intros st0 HE.
      assert (Hrun : forall off0 st1 e1 st2,
                omatch w xp sl s f c (fun o' st'0 => MR (Some o') st'0) off0 st1 = MR (Some e1) st2 -> Reach (Lop c) off0 e1).
      { intros off0 st1 e1 st2 Hr. destruct (IH _ _ _ _ _ _ Hr) as [m [stm [st'' [R Hk]]]]. inversion Hk; subst. exact R. }
      destruct (fin_loop_sound (Lop c) _ _ Hrun _ _ _ _ _ HE) as [m [stm [st'' [R Hk]]]].
      eexists m, _, st''. split; [exact R | exact Hk]. }
    destruct id as [i|]; [destruct (slot_is st i off) |].
    + exact (Via_here _ _ _ _ _ _ (Lstar_nil (Lop c)) H).
    + exact (Run _ H).
    + exact (Run _ H).
  - (* OQuestion *)
    destruct (omatch w xp sl s f c k off st) as [|[e1|] st1] eqn:Ec; [discriminate | |].
    + assert (e1 = e) by (inversion H; reflexivity). subst e1.
      apply (Via_weaken (Lop c)); [| exact (IH _ _ _ _ _ _ Ec)]. intros v Hv. right. exact Hv.
    + exact (Via_here (Lop (OQuestion c)) _ _ _ _ _ (or_introl eq_refl) H).
  - (* OMark *) exact (Via_here _ _ _ _ _ _ eq_refl H).
Qed.

End Sound.

(** induction principle for the nested token type *)
Section TokInd.
  Variable P : tok -> Prop.
  Hypothesis HE : P TEmpty.
  Hypothesis HD : P TDot.
  Hypothesis HC : forall c, P (TChar c).
  Hypothesis HS : forall l, P (TString l).
  Hypothesis HR : forall n r, P (TRange n r).
  Hypothesis HCat : forall l, Forall P l -> P (TConcat l).
  Hypothesis HU : forall l, Forall P l -> P (TUnion l).
  Hypothesis HCl : forall mn mx t, P t -> P (TClosure mn mx t).
  Hypothesis HP : forall t, P t -> P (TParen t).
  Fixpoint tok_ind' (t : tok) : P t :=
    match t with
    | TEmpty => HE | TDot => HD | TChar c => HC c | TString l => HS l | TRange n r => HR n r
    | TConcat l => HCat l ((fix go (l : list tok) : Forall P l :=
                              match l with [] => Forall_nil P | x :: r => Forall_cons x (tok_ind' x) (go r) end) l)
    | TUnion l => HU l ((fix go (l : list tok) : Forall P l :=
                           match l with [] => Forall_nil P | x :: r => Forall_cons x (tok_ind' x) (go r) end) l)
    | TClosure mn mx t1 => HCl mn mx t1 (tok_ind' t1)
    | TParen t1 => HP t1 (tok_ind' t1)
    end.
End TokInd.

Section Fix.
Variable fxd : bool.
Variable s : list N.

(** [Accepts L k off]: a word of [L] leads from [off] to an offset the continuation accepts *)
Definition Accepts (L : list N -> Prop) (k : nat -> bool) (off : nat) : Prop := exists e, Reach s L off e /\ k e = true.

Lemma Accepts_ext : forall (L1 L2 : list N -> Prop) k off, (forall w, L1 w <-> L2 w) -> Accepts L1 k off <-> Accepts L2 k off.
Proof.
  intros L1 L2 k off H. split; intros [e [R Hk]]; exists e; (split; [| exact Hk]); revert R; apply Reach_weaken; apply H.
Qed.

(** composition: if [kb] decides acceptance of [L2] followed by [k], then [L1] followed by [kb] is [L1 L2] followed by [k] *)
Lemma Accepts_comp : forall (L1 L2 : list N -> Prop) (kb k : nat -> bool) off,
  (forall o, kb o = true <-> Accepts L2 k o) ->
  (Accepts L1 kb off <-> Accepts (Lcat L1 L2) k off).
Proof.
  intros L1 L2 kb k off Hkb. split.
  - intros [b [R1 Hk]]. apply Hkb in Hk. destruct Hk as [e [R2 Hk]]. exists e. split; [| exact Hk].
    apply (Reach_comp s L1 L2 (Lcat L1 L2) off b e); [| exact R1 | exact R2]. intros v1 v2 H1 H2. exists v1, v2. auto.
  - intros [e [R Hk]]. destruct (Reach_split s L1 L2 off e R) as [b [R1 R2]]. exists b. split; [exact R1 |].
    apply Hkb. exists e. auto.
Qed.

Lemma Accepts_empty : forall (L : list N -> Prop) k off, (forall w, ~ L w) -> ~ Accepts L k off.
Proof. intros L k off H [e [[w [rest [_ [Hw _]]]] _]]. exact (H w Hw). Qed.

Lemma Accepts_eps : forall k off, k off = true <-> Accepts (fun w => w = []) k off.
Proof.
  intros k off. split.
  - intros H. exists off. split; [apply Reach_nil; reflexivity | exact H].
  - intros [e [[w [rest [_ [-> ->]]]] H]]. cbn in H. rewrite Nat.add_0_r in H. exact H.
Qed.

Lemma Accepts_or : forall (L1 L2 : list N -> Prop) k off, Accepts L1 k off \/ Accepts L2 k off <-> Accepts (fun w => L1 w \/ L2 w) k off.
Proof.
  intros L1 L2 k off. split.
  - intros [[e [R Hk]] | [e [R Hk]]]; exists e; (split; [| exact Hk]); revert R; apply Reach_weaken; auto.
  - intros [e [[w [rest [E [[Hw | Hw] He]]]] Hk]]; [left | right]; exists e; (split; [exists w, rest; auto | exact Hk]).
Qed.

Lemma fchar_spec : forall f k off,
  fchar s f k off = true <-> Accepts (fun w => exists c, w = [c] /\ f c = true) k off.
Proof.
  intros f k off. unfold fchar. split.
  - destruct (nth_error s off) as [x|] eqn:E; [| discriminate]. intros H. apply andb_true_iff in H. destruct H as [Hf Hk].
    exists (S off). split; [exact (Reach_one s f off x E Hf) | exact Hk].
  - intros [e [[w [rest [E [[c [-> Hf]] ->]]]] Hk]]. cbn in E, Hk. apply skipn_cons_iff in E. destruct E as [En _].
    rewrite En, Hf. rewrite Nat.add_1_r in Hk. exact Hk.
Qed.

Lemma Lre_string : forall d l w, Lre (re_of_tok d (TString l)) w <-> w = l.
Proof.
  intros d. induction l as [|c l IH]; intros w; cbn in *.
  - tauto.
  - split.
    + intros [s1 [s2 [E [[x [-> Hx]] H2]]]]. apply N.eqb_eq in Hx. subst. apply IH in H2. subst. reflexivity.
    + intros ->. exists [c], l. split; [reflexivity |]. split; [exists c; split; [reflexivity | apply N.eqb_refl] | apply IH; reflexivity].
Qed.

Section Loops.
Variable m : (nat -> bool) -> nat -> bool.
Variable L : list N -> Prop.
Hypothesis Hm : forall k off, m k off = true <-> Accepts L k off.

Lemma opt_f_spec : forall k j off, opt_f m k j off = true <-> Accepts (Lmax L j) k off.
Proof.
  intros k. induction j as [|j IH]; intros off; cbn [opt_f].
  - rewrite orb_false_r, Accepts_eps. apply Accepts_ext. intros w. symmetry. apply Lmax_0.
  - rewrite orb_true_iff, Hm, (Accepts_comp L (Lmax L j) (opt_f m k j) k off IH), Accepts_eps, Accepts_or.
    apply Accepts_ext. intros w. symmetry. apply Lmax_S.
Qed.

Lemma pow_f_spec : forall (tail k : nat -> bool) (L2 : list N -> Prop),
  (forall o, tail o = true <-> Accepts L2 k o) ->
  forall i off, pow_f m tail i off = true <-> Accepts (Lcat (Lpow L i) L2) k off.
Proof.
  intros tail k L2 Ht. induction i as [|i IH]; intros off; cbn [pow_f].
  - rewrite Ht. apply Accepts_ext. intros w. symmetry.
    rewrite (Lcat_ext _ (fun v => v = []) _ L2 w (Lpow_0 L) (fun v => iff_refl _)). apply Lcat_nil_l.
  - rewrite Hm, (Accepts_comp L (Lcat (Lpow L i) L2) (pow_f m tail i) k off IH). apply Accepts_ext. intros w.
    rewrite Lcat_assoc. apply Lcat_ext; [intros v; symmetry; apply Lpow_S | reflexivity].
Qed.

Lemma concat_nonempty_split : forall ss, Forall L ss ->
  concat ss = [] \/ exists x rest, x <> [] /\ L x /\ Forall L rest /\ concat ss = x ++ concat rest.
Proof.
  induction ss as [|x ss IH]; intros F.
  - left. reflexivity.
  - inversion F; subst. destruct x as [|c x].
    + cbn. apply IH. assumption.
    + right. exists (c :: x), ss. split; [discriminate |]. auto.
Qed.

Lemma star_f_sound : forall k n off, star_f m k n off = true -> Accepts (Lstar L) k off.
Proof.
  intros k. assert (Z : forall off, k off = true -> Accepts (Lstar L) k off).
  { intros off H. exists off. split; [apply Reach_nil, Lstar_nil | exact H]. }
  induction n as [|n IH]; intros off; cbn [star_f]; rewrite orb_true_iff; intros [H | H]; try discriminate; try (apply Z; exact H).
  apply Hm in H. destruct H as [b [R1 Hk]]. apply andb_true_iff in Hk. destruct Hk as [_ Hk].
  apply IH in Hk. destruct Hk as [e [R2 Hk]]. exists e. split; [| exact Hk].
  exact (Reach_comp s L (Lstar L) (Lstar L) off b e (Lstar_cons L) R1 R2).
Qed.

(** empty pieces of the word are dropped, so every iteration consumes something and the remaining length bounds them *)
Lemma star_f_complete : forall k n off, (length (skipn off s) <= n)%nat -> Accepts (Lstar L) k off -> star_f m k n off = true.
Proof.
  intros k. induction n as [|n IH]; intros off Hn [e [[w [rest [E [[ss [-> F]] ->]]]] Hk]]; cbn [star_f]; apply orb_true_iff.
  - left. rewrite E, app_length in Hn. assert (length (concat ss) = 0%nat) by lia. rewrite H, Nat.add_0_r in Hk. exact Hk.
  - destruct (concat_nonempty_split ss F) as [E0 | [x [ss' [Hx [Lx [F' E0]]]]]].
    + left. rewrite E0 in Hk. cbn in Hk. rewrite Nat.add_0_r in Hk. exact Hk.
    + right. apply Hm. rewrite E0 in E, Hk. rewrite <- app_assoc in E. rewrite app_length, Nat.add_assoc in Hk.
      assert (Lx' : (0 < length x)%nat) by (destruct x; [congruence | cbn; lia]).
      exists (off + length x)%nat. split; [exists x, (concat ss' ++ rest); auto |].
      apply andb_true_iff. split; [apply Nat.ltb_lt; lia |].
      pose proof (skipn_after s off x _ E) as E'. apply IH.
      * rewrite E'. rewrite E, app_length in Hn. lia.
      * exists (off + length x + length (concat ss'))%nat. split; [| exact Hk]. exists (concat ss'), rest.
        split; [exact E' |]. split; [exists ss'; auto | reflexivity].
Qed.

End Loops.

Lemma fmatch_spec : forall t k off, fmatch fxd s t k off = true <-> Accepts (Lre (re_of_tok fxd t)) k off.
Proof.
  induction t as [| |c|l|neg r|l IHl|l IHl|mn mx c IH|t IH] using tok_ind'; intros k off.
  - cbn [fmatch re_of_tok Lre]. apply Accepts_eps.
  - cbn [fmatch re_of_tok Lre]. apply fchar_spec.
  - cbn [fmatch re_of_tok Lre]. unfold RChar. cbn [Lre]. apply fchar_spec.
  - cbn [fmatch].
    rewrite andb_true_iff, prefix_at_spec. split.
    + intros [[rest E] Hk]. exists (off + length l)%nat. split; [| exact Hk]. exists l, rest.
      split; [exact E |]. split; [apply Lre_string; reflexivity | reflexivity].
    + intros [e [[w [rest [E [Hw ->]]]] Hk]]. apply Lre_string in Hw. subst w. split; [eauto | exact Hk].
  - cbn [fmatch re_of_tok Lre]. apply fchar_spec.
  - cbn [fmatch re_of_tok]. revert k off. induction IHl as [|x l Hx Hl IHl']; intros k off.
    + cbn [Lre]. apply Accepts_eps.
    + cbn [Lre]. rewrite Hx.
      apply (Accepts_comp (Lre (re_of_tok fxd x)) _ _ k off). intros o. apply IHl'.
  - cbn [fmatch re_of_tok]. induction IHl as [|x l Hx Hl IHl'].
    + cbn [Lre]. split; [discriminate | intros H; destruct (Accepts_empty _ k off (fun _ F => F) H)].
    + cbn [Lre]. rewrite orb_true_iff, Hx, IHl'. apply Accepts_or.
  - (* closure *)
    cbn [fmatch re_of_tok].
    set (L := Lre (re_of_tok fxd c)).
    assert (Hcopies : forall L2 tail, (forall o, tail o = true <-> Accepts L2 k o) ->
                pow_f (fmatch fxd s c) tail mn off = true <-> Accepts (Lcat (Lpow L mn) L2) k off).
    { intros L2 tail Ht. exact (pow_f_spec (fmatch fxd s c) L IH tail k L2 Ht mn off). }
    destruct mx as [mx|]; [destruct (Nat.ltb_spec mx mn) as [Emn | Emn] |].
    + rewrite (Hcopies (fun _ => False)) by (intros o; split; [discriminate | intros H; destruct (Accepts_empty _ k o (fun _ F => F) H)]).
      split; intros H; exfalso; revert H; apply Accepts_empty; intros w.
      * intros [w1 [w2 [_ [_ []]]]].
      * intros [ss [_ [_ [H1 H2]]]]. cbn in H2. lia.
    + rewrite (Hcopies (Lmax L (mx - mn))) by (intros o; apply (opt_f_spec (fmatch fxd s c) L IH)).
      apply Accepts_ext. intros w. symmetry. exact (Lrep_split L mn (Some mx) w Emn).
    + rewrite (Hcopies (Lstar L)).
      2:{ intros o. split; [apply (star_f_sound (fmatch fxd s c) L IH) |].
          apply (star_f_complete (fmatch fxd s c) L IH). rewrite skipn_length. lia. }
      apply Accepts_ext. intros w. symmetry. exact (Lrep_split L mn None w I).
  - cbn [fmatch re_of_tok]. apply IH.
Qed.

Theorem xmatch_fixed_correct : forall t, xmatch_fixed_tok fxd s t = true <-> Lre (re_of_tok fxd t) s.
Proof.
  intros t. unfold xmatch_fixed_tok. rewrite fmatch_spec. split.
  - intros [e [[w [rest [E [Hw ->]]]] Hk]]. cbn in E, Hk. apply Nat.eqb_eq in Hk.
    assert (rest = []).
    { subst s. rewrite app_length in Hk. destruct rest; [reflexivity | cbn in Hk; lia]. }
    subst rest. rewrite app_nil_r in E. subst w. exact Hw.
  - intros H. exists (length s). split; [| apply Nat.eqb_refl]. exists s, []. cbn. split; [symmetry; apply app_nil_r | auto].
Qed.

End Fix.
