(** C13 -- lemmas, part n: DOMAttrMapImpl.  The bisection [find_name_point] (AttrMap13.v, the C++ line by line) on a
    name-sorted vector returns the index of the name or -1 - (insertion point); getNamedItem / setNamedItem computed
    through it are the linear [amap_find] / [amap_put] of Model13.v; [amap_put] and [amap_del] keep the vector
    strictly sorted (hence names unique). *)
From Coq Require Import NArith ZArith List Bool Arith Lia.
From XV Require Import C13.Ops13 C13.Model13 C13.AttrMap13.
Import ListNotations.

Lemma str_cmp_antisym : forall a b, str_cmp a b = CompOpp (str_cmp b a).
Proof.
  induction a as [|x a IH]; intros [|y b]; cbn [str_cmp CompOpp]; try reflexivity.
  rewrite (N.compare_antisym y x). destruct (N.compare y x); cbn [CompOpp]; auto.
Qed.

Lemma str_cmp_eq : forall a b, str_cmp a b = Eq -> a = b.
Proof.
  induction a as [|x a IH]; intros [|y b]; cbn [str_cmp]; try discriminate; auto.
  destruct (N.compare_spec x y) as [E|E|E]; try discriminate. intros H. subst. f_equal. apply IH; assumption.
Qed.

Lemma str_cmp_lt_trans : forall a b c, str_cmp a b = Lt -> str_cmp b c = Lt -> str_cmp a c = Lt.
Proof.
  induction a as [|x a IH]; intros [|y b] [|z c]; cbn [str_cmp]; try discriminate; auto.
  destruct (N.compare_spec x y) as [E1|E1|E1]; try discriminate;
  destruct (N.compare_spec y z) as [E2|E2|E2]; try discriminate; intros H1 H2.
  - subst. rewrite N.compare_refl. eapply IH; eassumption.
  - subst. rewrite (proj2 (N.compare_lt_iff _ _) E2). reflexivity.
  - subst. rewrite (proj2 (N.compare_lt_iff _ _) E1). reflexivity.
  - rewrite (proj2 (N.compare_lt_iff _ _) (N.lt_trans _ _ _ E1 E2)). reflexivity.
Qed.

Lemma str_cmp_refl : forall a, str_cmp a a = Eq.
Proof. induction a as [|x a IH]; cbn [str_cmp]; [reflexivity|]. rewrite N.compare_refl. exact IH. Qed.

Lemma str_cmp_gt_of_lt : forall a b, str_cmp b a = Lt -> str_cmp a b = Gt.
Proof. intros a b H. rewrite str_cmp_antisym, H. reflexivity. Qed.

Section Bisect.
Variables (h : heap) (l : list id) (nm : str).
Let n := Z.of_nat (length l).
Hypothesis Hs : forall a b, (0 <= a < b)%Z -> (b < n)%Z -> str_cmp (name_at h l a) (name_at h l b) = Lt.

(** what findNamePoint promises: z >= 0 is an index holding the name; otherwise z = -1 - p where every entry before p
    is smaller and every entry from p on is greater than the name *)
Definition fnp_ok (z : Z) : Prop :=
  ((0 <= z < n)%Z /\ str_cmp nm (name_at h l z) = Eq) \/
  (exists p, z = (-1 - p)%Z /\ (0 <= p <= n)%Z /\ (forall j, (0 <= j < p)%Z -> str_cmp nm (name_at h l j) = Gt) /\
             (forall j, (p <= j < n)%Z -> str_cmp nm (name_at h l j) = Lt)).

(** the premise on [i], the last probe, is what makes the epilogue "if (first>i) i=first" answer [first] *)
Lemma fnp_loop_spec : forall fuel first last i,
  (0 <= first)%Z -> (last < n)%Z -> (first <= last + 1)%Z -> (i <= first \/ i = last + 1)%Z ->
  (forall j, (0 <= j < first)%Z -> str_cmp nm (name_at h l j) = Gt) ->
  (forall j, (last < j < n)%Z -> str_cmp nm (name_at h l j) = Lt) ->
  (Z.to_nat (last - first + 1) < fuel)%nat -> fnp_ok (fnp_loop fuel h l nm first last i).
Proof.
  induction fuel as [|fuel IH]; intros first last i H0 Hl Hfl Hi Hlo Hhi Hf; [lia|].
  cbn [fnp_loop]. destruct (Z.leb_spec first last) as [Hle|Hgt].
  - set (m := ((first + last) / 2)%Z).
    assert (Hm : (first <= m <= last)%Z) by (subst m; Z.div_mod_to_equations; lia).
    clearbody m.
    destruct (str_cmp nm (name_at h l m)) eqn:Ec.
    + left. split; [lia|exact Ec].
    + apply IH; try lia; try assumption.
      intros j Hj. destruct (Z.eq_dec j m) as [->|Hne]; [exact Ec|].
      eapply str_cmp_lt_trans; [exact Ec|]. apply Hs; lia.
    + apply IH; try lia; try assumption.
      intros j Hj. destruct (Z.eq_dec j m) as [->|Hne]; [exact Ec|].
      apply str_cmp_gt_of_lt. eapply str_cmp_lt_trans; [apply Hs with (b := m); lia|].
      rewrite str_cmp_antisym, Ec. reflexivity.
  - right. exists first.
    assert (Ei : (if (i <? first)%Z then first else i) = first) by (destruct (Z.ltb_spec i first); lia).
    rewrite Ei. split; [reflexivity|]. split; [lia|]. split; [exact Hlo|]. intros j Hj. apply Hhi. lia.
Qed.

Lemma find_name_point_ok : fnp_ok (find_name_point h l nm).
Proof.
  unfold find_name_point. apply fnp_loop_spec; unfold n in *; try lia; intros j Hj; lia.
Qed.
End Bisect.

Definition names (h : heap) (l : list id) : list str := map (fun a => n_name (nd h a)) l.
Fixpoint lsorted (ks : list str) : Prop :=
  match ks with [] => True | k :: r => (forall k', In k' r -> str_cmp k k' = Lt) /\ lsorted r end.

Lemma lsorted_nth : forall ks i j d, lsorted ks -> i < j -> j < length ks -> str_cmp (nth i ks d) (nth j ks d) = Lt.
Proof.
  induction ks as [|k r IH]; intros i j d Hs Hij Hj; cbn [length] in Hj; [lia|].
  destruct Hs as [Hk Hr]. destruct j as [|j]; [lia|]. destruct i as [|i]; cbn [nth].
  - apply Hk. apply nth_In. lia.
  - apply IH; [assumption|lia|lia].
Qed.

Lemma name_at_nat : forall h l j, name_at h l (Z.of_nat j) = n_name (nd h (nth j l 0)).
Proof. intros. unfold name_at. rewrite Nat2Z.id. reflexivity. Qed.

Lemma name_at_names : forall h l j, n_name (nd h (nth j l 0)) = nth j (names h l) (n_name (nd h 0)).
Proof. intros. unfold names. symmetry. apply (map_nth (fun a => n_name (nd h a)) l 0). Qed.

Lemma lsorted_name_at : forall h l, lsorted (names h l) -> forall a b, (0 <= a < b)%Z -> (b < Z.of_nat (length l))%Z ->
  str_cmp (name_at h l a) (name_at h l b) = Lt.
Proof.
  intros h l Hsort a b Hab Hb. rewrite <- (Z2Nat.id a), <- (Z2Nat.id b) by lia. rewrite !name_at_nat, !name_at_names.
  apply lsorted_nth; [exact Hsort|lia|]. unfold names. rewrite map_length. lia.
Qed.

(** the linear search / update of Model13 characterised by positions *)
Lemma amap_find_at : forall h nm l p, p < length l ->
  (forall j, j < p -> str_cmp nm (n_name (nd h (nth j l 0))) = Gt) -> str_cmp nm (n_name (nd h (nth p l 0))) = Eq ->
  amap_find h l nm = Some (nth p l 0).
Proof.
  intros h nm. induction l as [|b r IH]; intros p Hp Hlt Heq; cbn [length] in Hp; [lia|].
  cbn [amap_find]. unfold str_eqb. destruct p as [|p].
  - cbn [nth] in *. rewrite Heq. reflexivity.
  - assert (H0 : 0 < S p) by lia. apply Hlt in H0. cbn [nth] in H0. rewrite H0. cbn [nth]. apply IH; [lia| |exact Heq].
    intros j Hj. apply (Hlt (S j)). lia.
Qed.

Lemma amap_find_none : forall h nm l, (forall j, j < length l -> str_cmp nm (n_name (nd h (nth j l 0))) <> Eq) ->
  amap_find h l nm = None.
Proof.
  intros h nm. induction l as [|b r IH]; intros Hne; [reflexivity|]. cbn [amap_find]. unfold str_eqb.
  assert (H0 : 0 < length (b :: r)) by (cbn [length]; lia). apply Hne in H0. cbn [nth] in H0.
  destruct (str_cmp nm (n_name (nd h b))) eqn:E; [exfalso; apply H0; reflexivity| |];
    apply IH; intros j Hj; apply (Hne (S j)); cbn [length]; lia.
Qed.

Lemma amap_put_insert : forall h a l p, p <= length l ->
  (forall j, j < p -> str_cmp (n_name (nd h a)) (n_name (nd h (nth j l 0))) = Gt) ->
  (p < length l -> str_cmp (n_name (nd h a)) (n_name (nd h (nth p l 0))) = Lt) ->
  amap_put h l a = insert_at p a l.
Proof.
  intros h a. induction l as [|b r IH]; intros p Hp Hgt Hlt; cbn [length] in *.
  - assert (p = 0) by lia. subst. reflexivity.
  - unfold insert_at. destruct p as [|p]; cbn [amap_put firstn skipn app].
    + assert (H0 : 0 < S (length r)) by lia. apply Hlt in H0. cbn [nth] in H0. rewrite H0. reflexivity.
    + assert (H0 : 0 < S p) by lia. apply Hgt in H0. cbn [nth] in H0. rewrite H0. f_equal. apply IH; [lia| |].
      * intros j Hj. apply (Hgt (S j)). lia.
      * intros Hq. apply Hlt. lia.
Qed.

Lemma amap_put_set : forall h a l p, p < length l ->
  (forall j, j < p -> str_cmp (n_name (nd h a)) (n_name (nd h (nth j l 0))) = Gt) ->
  str_cmp (n_name (nd h a)) (n_name (nd h (nth p l 0))) = Eq ->
  amap_put h l a = set_at p a l.
Proof.
  intros h a. induction l as [|b r IH]; intros p Hp Hgt Heq; cbn [length] in *; [lia|].
  unfold set_at. destruct p as [|p]; cbn [amap_put firstn skipn app].
  - cbn [nth] in Heq. rewrite Heq. reflexivity.
  - assert (H0 : 0 < S p) by lia. apply Hgt in H0. cbn [nth] in H0. rewrite H0. f_equal. apply IH; [lia| |exact Heq].
    intros j Hj. apply (Hgt (S j)). lia.
Qed.

(** on a sorted vector everything before a found name is smaller *)
Lemma before_found : forall h l nm z, lsorted (names h l) -> (0 <= z < Z.of_nat (length l))%Z ->
  str_cmp nm (name_at h l z) = Eq -> forall j, j < Z.to_nat z -> str_cmp nm (n_name (nd h (nth j l 0))) = Gt.
Proof.
  intros h l nm z Hsort Hz He j Hj. apply str_cmp_eq in He. rewrite He. apply str_cmp_gt_of_lt.
  rewrite <- name_at_nat. apply lsorted_name_at; [exact Hsort|lia|lia].
Qed.

(** getNamedItem through the bisection = the linear search *)
Lemma find_bis_eq : forall h l nm, lsorted (names h l) -> amap_find_bis h l nm = amap_find h l nm.
Proof.
  intros h l nm Hsort. unfold amap_find_bis.
  destruct (find_name_point_ok h l nm (lsorted_name_at h l Hsort)) as [[Hz He]|[p [Ez [Hp [Hgt Hlt]]]]].
  - destruct (Z.ltb_spec (find_name_point h l nm) 0); [lia|]. symmetry. apply amap_find_at.
    + lia.
    + apply before_found; assumption.
    + unfold name_at in He. exact He.
  - rewrite Ez. destruct (Z.ltb_spec (-1 - p) 0); [|lia]. symmetry. apply amap_find_none.
    intros j Hj. rewrite <- name_at_nat. destruct (Z.lt_ge_cases (Z.of_nat j) p) as [Hc|Hc].
    + rewrite Hgt by lia. discriminate.
    + rewrite Hlt by lia. discriminate.
Qed.

(** the vector update of setNamedItem through the bisection = the linear insertion *)
Lemma put_bis_eq : forall h l a, lsorted (names h l) -> amap_put_bis h l a = amap_put h l a.
Proof.
  intros h l a Hsort. unfold amap_put_bis.
  destruct (find_name_point_ok h l (n_name (nd h a)) (lsorted_name_at h l Hsort)) as [[Hz He]|[p [Ez [Hp [Hgt Hlt]]]]].
  - destruct (Z.ltb_spec (find_name_point h l (n_name (nd h a))) 0); [lia|]. symmetry. apply amap_put_set.
    + lia.
    + apply before_found; assumption.
    + unfold name_at in He. exact He.
  - rewrite Ez. destruct (Z.ltb_spec (-1 - p) 0); [|lia]. replace (-1 - (-1 - p))%Z with p by lia.
    symmetry. apply amap_put_insert.
    + lia.
    + intros j Hj. rewrite <- name_at_nat. apply Hgt. lia.
    + intros Hq. rewrite <- name_at_nat. apply Hlt. lia.
Qed.

Lemma amap_put_in : forall h l a x, In x (amap_put h l a) -> x = a \/ In x l.
Proof.
  intros h. induction l as [|b r IH]; intros a x; cbn [amap_put].
  - intros [<-|[]]. left; reflexivity.
  - destruct (str_cmp _ _).
    + intros [<-|H]; [left; reflexivity|right; right; exact H].
    + intros [<-|H]; [left; reflexivity|right; exact H].
    + intros [<-|H]; [right; left; reflexivity|]. destruct (IH _ _ H); [left; assumption|right; right; assumption].
Qed.

Lemma amap_put_sorted : forall h l a, lsorted (names h l) -> lsorted (names h (amap_put h l a)).
Proof.
  intros h. induction l as [|b r IH]; intros a Hsort; unfold names in *; cbn [amap_put map lsorted] in *.
  - split; [intros k' []|exact I].
  - destruct Hsort as [Hk Hr]. destruct (str_cmp (n_name (nd h a)) (n_name (nd h b))) eqn:E; cbn [map lsorted].
    + apply str_cmp_eq in E. rewrite E. split; assumption.
    + split; [|split; assumption]. intros k' [<-|Hin]; [exact E|]. eapply str_cmp_lt_trans; [exact E|apply Hk; exact Hin].
    + split; [|apply IH; exact Hr]. intros k' Hin. apply in_map_iff in Hin. destruct Hin as [x [<- Hx]].
      destruct (amap_put_in _ _ _ _ Hx) as [->|Hx'].
      * rewrite str_cmp_antisym, E. reflexivity.
      * apply Hk. apply in_map_iff. exists x. split; [reflexivity|exact Hx'].
Qed.

Lemma amap_del_in : forall l a x, In x (amap_del l a) -> In x l.
Proof.
  induction l as [|b r IH]; intros a x; cbn [amap_del]; [intros []|].
  destruct (Nat.eqb b a); [intros H; right; exact H|]. intros [<-|H]; [left; reflexivity|right; eapply IH; exact H].
Qed.

Lemma amap_del_sorted : forall h l a, lsorted (names h l) -> lsorted (names h (amap_del l a)).
Proof.
  intros h. induction l as [|b r IH]; intros a Hsort; unfold names in *; cbn [amap_del map lsorted] in *; [exact I|].
  destruct Hsort as [Hk Hr]. destruct (Nat.eqb b a); [exact Hr|]. cbn [map lsorted]. split; [|apply IH; exact Hr].
  intros k' Hin. apply in_map_iff in Hin. destruct Hin as [x [<- Hx]]. apply Hk. apply in_map_iff. exists x.
  split; [reflexivity|eapply amap_del_in; exact Hx].
Qed.

(** strictly sorted = no two entries with the same name *)
Lemma lsorted_unique : forall h l i j, lsorted (names h l) -> i < length l -> j < length l ->
  n_name (nd h (nth i l 0)) = n_name (nd h (nth j l 0)) -> i = j.
Proof.
  intros h l i j Hsort Hi Hj E. rewrite !name_at_names in E.
  assert (L : length (names h l) = length l) by (unfold names; apply map_length).
  destruct (Nat.lt_trichotomy i j) as [H|[H|H]]; [|exact H|]; exfalso.
  - pose proof (lsorted_nth _ i j (n_name (nd h 0)) Hsort H ltac:(lia)) as C. rewrite E in C.
    rewrite str_cmp_refl in C. discriminate.
  - pose proof (lsorted_nth _ j i (n_name (nd h 0)) Hsort H ltac:(lia)) as C. rewrite E in C.
    rewrite str_cmp_refl in C. discriminate.
Qed.
