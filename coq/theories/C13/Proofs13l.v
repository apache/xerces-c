(** C13 -- lemmas, part l: the association lists behind user data and the ID map, the linear search of the attribute
    vector; removal from the ID map and deleteData without the bounds that Properties_C13 states them with. *)
From Coq Require Import NArith List Bool Arith Lia.
From XV Require Import C13.Ops13 C13.Model13 C13.Proofs13b.
Import ListNotations.

Lemma ud_get_del_other : forall l k k', (forall j, str_eqb j k = true -> str_eqb j k' = false) ->
  ud_get (ud_del l k) k' = ud_get l k'.
Proof.
  induction l as [|[j v] l IH]; intros k k' H; cbn; [reflexivity|].
  destruct (str_eqb j k) eqn:Ej; cbn.
  - rewrite (H j Ej). apply IH. exact H.
  - destruct (str_eqb j k'); [reflexivity|apply IH; exact H].
Qed.

Lemma tab_get_set : forall t k v j, tab_get (tab_set t k v) j = if Nat.eqb k j then Some v else tab_get t j.
Proof.
  intros t k v j. unfold tab_set. cbn [tab_get]. destruct (Nat.eqb_spec k j) as [->|Hn]; [reflexivity|].
  induction t as [|[i w] t IH]; cbn; [reflexivity|].
  destruct (Nat.eqb_spec i k) as [->|Hi]; cbn.
  - destruct (Nat.eqb_spec k j); [contradiction|exact IH].
  - destruct (Nat.eqb i j); [reflexivity|exact IH].
Qed.

Lemma id_probe_attr_sound : forall t h0 a fuel cur k, id_probe_attr t h0 a fuel cur = Some k -> tab_get t k = Some (Some a).
Proof.
  induction fuel as [|fuel IH]; intros cur k; cbn; [discriminate|].
  destruct (tab_get t cur) as [[b|]|] eqn:E; try discriminate.
  - destruct (Nat.eqb_spec b a) as [->|_]; [intros [= <-]; exact E|apply IH].
  - apply IH.
Qed.

Lemma amap_find_in : forall h l nm f, amap_find h l nm = Some f -> In f l.
Proof. induction l as [|a l IH]; cbn; [discriminate|]. intros nm f. destruct (str_eqb _ _); [intros [= <-]; left; reflexivity|intros H; right; eapply IH; exact H]. Qed.
Lemma amap_find_ns_in : forall h l ns loc f, amap_find_ns h l ns loc = Some f -> In f l.
Proof. induction l as [|a l IH]; cbn; [discriminate|]. intros ns loc f. destruct (_ && _); [intros [= <-]; left; reflexivity|intros H; right; eapply IH; exact H]. Qed.

Lemma id_remove_identity : forall h a k,
  let d := n_odoc (nd h a) in
  tab_get (n_idtab (nd (id_remove h a) d)) k = tab_get (n_idtab (nd h d)) k \/
  (tab_get (n_idtab (nd h d)) k = Some (Some a) /\ tab_get (n_idtab (nd (id_remove h a) d)) k = Some None).
Proof.
  intros h a k. cbv zeta. unfold id_remove.
  destruct (id_probe_attr _ _ _ _ _) as [k0|] eqn:E; [|left; reflexivity].
  destruct (Nat.lt_ge_cases (n_odoc (nd h a)) (length h)) as [Hd|Hd]; [|rewrite upd_oob by exact Hd; left; reflexivity].
  apply id_probe_attr_sound in E. rewrite nd_upd_eq by assumption.
  unfold set_idtab; cbn [n_idtab]. rewrite tab_get_set.
  destruct (Nat.eqb_spec k0 k) as [->|_]; [right; split; [exact E|reflexivity]|left; reflexivity].
Qed.

Lemma cd_delete_value : forall h n off cnt, n < length h -> n_ro (nd h n) = false ->
  (off <= dlen h n)%N -> (2 * dlen h n < w64)%N ->
  n_val (nd (fst (cd_delete h n off cnt)) n) =
  firstn (N.to_nat off) (n_val (nd h n)) ++ skipn (N.to_nat (off + N.min cnt (dlen h n - off))) (n_val (nd h n)).
Proof.
  intros h n off cnt Hn R L Hw. unfold cd_delete. rewrite R. cbv zeta.
  destruct (N.ltb_spec (dlen h n) off); [lia|]. cbn [fst].
  rewrite nd_upd_eq by assumption. cbn [n_val set_val]. f_equal. f_equal. f_equal. f_equal.
  (* neither the cap of the count nor off + count wraps while the data is shorter than 2^63 *)
  unfold wadd.
  destruct (N.ltb_spec (dlen h n) cnt).
  - rewrite N.mod_small by (unfold w64 in *; lia).
    destruct (N.leb_spec (dlen h n) (off + dlen h n)); lia.
  - rewrite N.mod_small by (unfold w64 in *; lia).
    destruct (N.leb_spec (dlen h n) (off + cnt)); lia.
Qed.
