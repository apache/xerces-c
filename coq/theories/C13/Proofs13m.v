(** C13 -- lemmas, part m: every operation of the repaired model preserves every invariant that is [closed] under the
    primitive mutations of the heap (updates that touch no link, allocation, unlinking a child, insertBefore, appending a
    fresh leaf).  The composite operations -- replaceChild, splitText, normalize, cloneNode, renameNode, the attribute
    operations, release -- are compositions of those primitives; the lemmas thread the invariant through the loops of the
    model (induction over the fuel / the child list).  Both the upward half [WFup] and the full invariant [WFheap] are
    closed, which gives the three preservation theorems of the property. *)
From Coq Require Import NArith List Bool Arith Lia.
From XV Require Import C13.Ops13 C13.Model13 C13.Proofs13b C13.Proofs13d C13.Proofs13f C13.Proofs13h C13.Proofs13j.
Import ListNotations.

Record closed (Inv : heap -> Prop) : Prop := {
  c_up : forall h, Inv h -> WFup h;
  c_upd : forall h i f, up_pres f -> sib_pres f -> Inv h -> Inv (upd h i f);
  c_alloc : forall h x, Inv h -> unlinked x -> n_ty x <> TDoc -> Inv (h ++ [x]);
  c_unlink : forall h this old, Inv h -> parent h old = Some this \/ n_first (nd h this) = Some old ->
             Inv (link_remove h this old);
  c_ins : forall n fuel h this new ref h' r, sized Inv n h -> this < n -> new < n ->
          ins fuel cfg_fixed h this new ref = (h', r) -> sized Inv n h';
  (* appendChildFast of a node just created *)
  c_append : forall h a x, Inv h -> a < length h -> unlinked x -> is_leaf (n_ty x) = true ->
             Inv (link_insert (h ++ [x]) a (length h) None)
}.

Definition grows (Inv : heap -> Prop) (h h' : heap) : Prop := Inv h' /\ length h <= length h'.

(** WFheap says nothing about the contents of attribute vectors; setAttribute looks its name up there, and the EMPTY
    name matches the name of [dummy], i.e. of an index outside the heap; createAttribute refuses that name anyway *)
Definition named_attr_op (o : op) : bool := match o with OSetAttr _ [] _ => false | _ => true end.

Lemma covered_named : forall h o, covered h o = true -> named_attr_op o = true.
Proof. intros h o H. destruct o; try reflexivity; discriminate H. Qed.
Lemma no_attr_value_named : forall o, no_attr_value_op o = true -> named_attr_op o = true.
Proof. intros o H. destruct o; try reflexivity; discriminate H. Qed.

Lemma unlinked_fresh : forall t d nm v ro, unlinked (fresh t d nm v ro).
Proof. intros. repeat split. Qed.

Lemma unlinked_clone_shallow : forall h n, n_ty (nd h n) <> TDoc ->
  unlinked (clone_shallow cfg_fixed h n) /\ n_ty (clone_shallow cfg_fixed h n) <> TDoc.
Proof. intros h n T. unfold clone_shallow. destruct (n_ty (nd h n)); cbn; repeat split; try discriminate; auto. Qed.

Lemma p_remove_ok : forall h this old h1 r1, p_remove h this old = (h1, r1) -> is_err r1 = false -> old < length h.
Proof.
  intros h this old h1 r1. unfold p_remove. destruct (n_ro _); [intros [= _ <-]; discriminate|].
  destruct (oid_eqb (parent h old) (Some this)) eqn:Ep; cbn [negb]; [|intros [= _ <-]; discriminate].
  intros _ _. apply oid_eqb_eq in Ep. exact (parent_in_heap _ _ _ Ep).
Qed.

Lemma amap_find_name : forall h l nm a, amap_find h l nm = Some a -> str_eqb nm (n_name (nd h a)) = true.
Proof.
  induction l as [|b l IH]; intros nm a; cbn [amap_find]; [discriminate|].
  destruct (str_eqb nm (n_name (nd h b))) eqn:E; [intros [= <-]; exact E|apply IH].
Qed.

Lemma forallb_imp : forall (A : Type) (f g : A -> bool) l, (forall x, f x = true -> g x = true) ->
  forallb f l = true -> forallb g l = true.
Proof.
  intros A f g l H. induction l as [|x l IH]; cbn; [reflexivity|]. intros E. apply andb_prop in E. destruct E as [E1 E2].
  rewrite (H x E1), (IH E2). reflexivity.
Qed.

Ltac unchanged := intros [= <- _]; assumption.

Section Closure.
Variable Inv : heap -> Prop.
Hypothesis C : closed Inv.

Lemma sized_self : forall h, Inv h -> sized Inv (length h) h.
Proof. intros; split; auto. Qed.
Lemma grows_refl : forall h, Inv h -> grows Inv h h.
Proof. intros; split; auto. Qed.
Lemma grows_of : forall h n h', sized Inv n h' -> length h <= n -> grows Inv h h'.
Proof. intros h n h' [P L] Hn. split; [exact P|lia]. Qed.
Lemma grows_trans : forall a b c, grows Inv a b -> grows Inv b c -> grows Inv a c.
Proof. intros a b c [_ L1] [P L2]. split; [assumption|lia]. Qed.

Ltac unchanged_grows := intros [= <- _]; apply grows_refl; assumption.

Lemma sized_upd : forall n h i f, up_pres f -> sib_pres f -> sized Inv n h -> sized Inv n (upd h i f).
Proof. intros n h i f Hu Hs [P L]. split; [apply (c_upd _ C); assumption|rewrite length_upd; exact L]. Qed.

Lemma sized_parent_lt : forall n h c p, sized Inv n h -> parent h c = Some p -> p < n.
Proof. intros n h c p [P <-] Hp. eapply WFup_parent_lt; [apply (c_up _ C); exact P|exact Hp]. Qed.

(** removeChild needs no bound on [this]: it only succeeds when [this] is the parent of a node of the heap *)
Lemma sized_p_remove : forall n h this old h' r, sized Inv n h -> p_remove h this old = (h', r) -> sized Inv n h'.
Proof. apply p_remove_keeps. intros. apply (c_unlink _ C); auto. Qed.

Lemma sized_v_remove : forall n h this old h' r, sized Inv n h -> v_remove h this old = (h', r) -> sized Inv n h'.
Proof. apply v_remove_keeps; intros; [apply (c_upd _ C); auto with upres|apply (c_unlink _ C); auto]. Qed.

(** a step taken only when there is a parent *)
Lemma sized_opt_remove : forall n h o x h' r, sized Inv n h ->
  (match o with Some p => v_remove h p x | None => (h, ROk) end) = (h', r) -> sized Inv n h'.
Proof. intros n h [p|] x h' r P; [apply sized_v_remove; exact P|intros [= <- _]; exact P]. Qed.

Lemma sized_opt_insert : forall n h o new ref h' r, sized Inv n h -> (forall p, o = Some p -> p < n) -> new < n ->
  (match o with Some p => ins ins_fuel cfg_fixed h p new ref | None => (h, ROk) end) = (h', r) -> sized Inv n h'.
Proof. intros n h [p|] new ref h' r P Hp Hn; [apply (c_ins _ C); auto|intros [= <- _]; exact P]. Qed.

Lemma sized_v_replace : forall n h this new old h' r, sized Inv n h -> this < n -> new < n ->
  v_replace cfg_fixed h this new old = (h', r) -> sized Inv n h'.
Proof.
  intros n h this new old h' r P Ht Hn. unfold v_replace, p_replace.
  assert (Par : forall h0, sized Inv n h0 ->
     (let (h1, r1) := ins ins_fuel cfg_fixed h0 this new (Some old) in if is_err r1 then (h1, r1) else p_remove h1 this old) = (h', r) ->
     sized Inv n h').
  { intros h0 P0. destruct (ins _ _ h0 this new (Some old)) as [h1 r1] eqn:E1.
    pose proof (c_ins _ C _ _ _ _ _ _ _ _ P0 Ht Hn E1) as P1.
    destruct (is_err r1); [unchanged|]. apply sized_p_remove; assumption. }
  destruct (n_ty (nd h this)); try unchanged; try (apply Par; assumption).
  (* a Document clears its cached fDocElement around the replacement *)
  set (h0 := if ntype_eqb (n_ty (nd h old)) TElem then upd h this (set_docel None) else h).
  assert (P0 : sized Inv n h0) by (subst h0; destruct (ntype_eqb _ _); [apply sized_upd; auto with upres|assumption]).
  destruct (ins _ _ h0 this new (Some old)) as [h1 r1] eqn:E1.
  pose proof (c_ins _ C _ _ _ _ _ _ _ _ P0 Ht Hn E1) as P1.
  destruct (is_err r1); [intros [= <- _]; apply sized_upd; auto with upres|].
  destruct (if ntype_eqb (n_ty (nd h old)) TElem then p_remove h1 this old else v_remove h1 this old) as [h2 r2] eqn:E2.
  assert (P2 : sized Inv n h2).
  { revert E2. destruct (ntype_eqb (n_ty (nd h old)) TElem); [apply sized_p_remove|apply sized_v_remove]; exact P1. }
  destruct (is_err r2); [intros [= <- _]; apply sized_upd; auto with upres|].
  destruct (_ && _ && _); intros [= <- _]; [apply sized_upd; auto with upres|assumption].
Qed.

Lemma sized_cd_set : forall n h x s h' r, sized Inv n h -> cd_set h x s = (h', r) -> sized Inv n h'.
Proof. intros n h x s h' r P. unfold cd_set. destruct (n_ro _); [unchanged|]. intros [= <- _]. apply sized_upd; auto with upres. Qed.
Lemma sized_cd_append : forall n h x s h' r, sized Inv n h -> cd_append h x s = (h', r) -> sized Inv n h'.
Proof. intros n h x s h' r P. unfold cd_append. destruct (n_ro _); [unchanged|]. intros [= <- _]. apply sized_upd; auto with upres. Qed.
Lemma sized_cd_delete : forall n h x a b h' r, sized Inv n h -> cd_delete h x a b = (h', r) -> sized Inv n h'.
Proof.
  intros n h x a b h' r P. unfold cd_delete. destruct (n_ro _); [unchanged|]. destruct (N.ltb _ _); [unchanged|].
  intros [= <- _]. apply sized_upd; auto with upres.
Qed.
Lemma sized_cd_insert : forall n h x a s h' r, sized Inv n h -> cd_insert h x a s = (h', r) -> sized Inv n h'.
Proof.
  intros n h x a s h' r P. unfold cd_insert. destruct (n_ro _); [unchanged|]. destruct (N.ltb _ _); [unchanged|].
  intros [= <- _]. apply sized_upd; auto with upres.
Qed.
Lemma sized_cd_replace : forall n h x a b s h' r, sized Inv n h -> cd_replace h x a b s = (h', r) -> sized Inv n h'.
Proof.
  intros n h x a b s h' r P. unfold cd_replace. destruct (n_ro _); [unchanged|].
  destruct (cd_delete h x a b) as [h1 r1] eqn:E. pose proof (sized_cd_delete _ _ _ _ _ _ _ P E) as P1.
  destruct (is_err r1); [unchanged|]. apply sized_cd_insert; assumption.
Qed.

Lemma sized_alloc : forall h x, Inv h -> unlinked x -> n_ty x <> TDoc -> sized Inv (S (length h)) (h ++ [x]).
Proof. intros h x P U T. split; [apply (c_alloc _ C); assumption|rewrite app_length; cbn; lia]. Qed.

Lemma grows_create : forall h d t nm v h' r, Inv h -> create h d t nm v = (h', r) -> grows Inv h h'.
Proof.
  intros h d t nm v h' r P. unfold create, alloc.
  destruct (n_ty (nd h d)); try unchanged_grows.
  destruct t; try unchanged_grows; try (destruct (valid_name nm); [|unchanged_grows]);
    intros [= <- _]; (eapply grows_of; [apply sized_alloc; [exact P|apply unlinked_fresh|discriminate]|lia]).
Qed.

Lemma grows_split : forall h x off h' r, Inv h -> x < length h -> n_ty (nd h x) <> TDoc ->
  split_text cfg_fixed h x off = (h', r) -> grows Inv h h'.
Proof.
  intros h x off h' r P Hx T. unfold split_text, alloc, v_insert.
  destruct (n_ro _); [unchanged_grows|]. destruct (N.ltb _ _); [unchanged_grows|].
  destruct (pub_odoc h x) as [doc|]; [|unchanged_grows].
  pose proof (sized_alloc h _ P (unlinked_fresh (n_ty (nd h x)) doc [] (skipn (N.to_nat off) (n_val (nd h x))) false) T) as P1.
  destruct (match parent _ x with Some p => ins _ _ _ p _ _ | None => _ end) as [h2 r2] eqn:E2.
  pose proof (sized_opt_insert _ _ _ _ _ _ _ P1 (fun p Ep => sized_parent_lt _ _ _ _ P1 Ep) (Nat.lt_succ_diag_r _) E2) as P2.
  destruct (is_err r2); [unchanged_grows|]. intros [= <- _].
  eapply grows_of; [apply sized_upd; [auto with upres|auto with upres|exact P2]|lia].
Qed.

Lemma sized_norm : forall n fuel cf h this kid h' r, sized Inv n h -> norm fuel cf h this kid = (h', r) -> sized Inv n h'.
Proof.
  induction fuel as [|fuel IH]; intros cf h this kid h' r P; cbn [norm]; [unchanged|].
  destruct kid as [k|]; [|unchanged].
  assert (Elem : forall nx, (if ntype_eqb (n_ty (nd h k)) TElem
            then let (h1, r1) := norm fuel cf h k (n_first (nd h k)) in if is_err r1 then (h1, r1) else norm fuel cf h1 this nx
            else norm fuel cf h this nx) = (h', r) -> sized Inv n h').
  { intros nx. destruct (ntype_eqb (n_ty (nd h k)) TElem); [|apply IH; assumption].
    destruct (norm fuel cf h k (n_first (nd h k))) as [h1 r1] eqn:E1. pose proof (IH _ _ _ _ _ _ P E1) as P1.
    destruct (is_err r1); [unchanged|]. apply IH; assumption. }
  assert (Empty : forall nx, (let (h1, r1) := p_remove h this k in if is_err r1 then (h1, r1) else norm fuel cf h1 this nx) = (h', r) -> sized Inv n h').
  { intros nx. destruct (p_remove h this k) as [h1 r1] eqn:E1. pose proof (sized_p_remove _ _ _ _ _ _ P E1) as P1.
    destruct (is_err r1); [unchanged|]. apply IH; assumption. }
  destruct (n_next (nd h k)) as [nx|].
  2:{ destruct (_ && _ && _); [apply Empty|apply Elem]. }
  destruct (ntype_eqb (n_ty (nd h k)) TText && ntype_eqb (n_ty (nd h nx)) TText).
  2:{ destruct (_ && _ && _); [apply Empty|apply Elem]. }
  destruct (cd_append h k (n_val (nd h nx))) as [h1 r1] eqn:E1. pose proof (sized_cd_append _ _ _ _ _ _ P E1) as P1.
  destruct (is_err r1); [unchanged|].
  destruct (p_remove h1 this nx) as [h2 r2] eqn:E2. pose proof (sized_p_remove _ _ _ _ _ _ P1 E2) as P2.
  destruct (is_err r2); [unchanged|]. apply IH; assumption.
Qed.

Lemma sized_id_add : forall n h a, sized Inv n h -> sized Inv n (id_add h a).
Proof. intros n h a P. unfold id_add. apply sized_upd; auto with upres. apply sized_upd; auto with upres. Qed.
Lemma sized_id_remove : forall n h a, sized Inv n h -> sized Inv n (id_remove h a).
Proof. intros n h a P. unfold id_remove. destruct (id_probe_attr _ _ _ _ _); [apply sized_upd; auto with upres|exact P]. Qed.
Lemma sized_attr_id_on : forall n h a, sized Inv n h -> sized Inv n (attr_id_on h a).
Proof. intros n h a P. unfold attr_id_on. destruct (n_isid _); [exact P|]. apply sized_id_add. apply sized_upd; auto with upres. Qed.
Lemma sized_attr_id_off : forall n h a, sized Inv n h -> sized Inv n (attr_id_off h a).
Proof. intros n h a P. unfold attr_id_off. destruct (n_isid _); [|exact P]. apply sized_upd; auto with upres. apply sized_id_remove; exact P. Qed.
Lemma sized_kill : forall n fuel h x, sized Inv n h -> sized Inv n (kill fuel h x).
Proof.
  induction fuel as [|fuel IH]; intros h x P; cbn [kill]; [exact P|].
  assert (P1 : sized Inv n (upd h x set_released)) by (apply sized_upd; auto with upres).
  revert P1. generalize (upd h x set_released). generalize (kids h x ++ n_attrs (nd h x)). intros l.
  induction l as [|k l IHl]; intros h0 P0; cbn [fold_left]; [exact P0|]. apply IHl. apply IH. exact P0.
Qed.
Lemma sized_fold_id_off : forall n l h, sized Inv n h -> sized Inv n (fold_left attr_id_off l h).
Proof. induction l as [|a l IH]; intros h P; cbn [fold_left]; [exact P|]. apply IH. apply sized_attr_id_off. exact P. Qed.

(** what a clone call guarantees: the invariant, a heap that only grew, and a result node inside the heap *)
Definition cloned (h h' : heap) (r : result) : Prop :=
  Inv h' /\ length h <= length h' /\ (forall i, r = RNode i -> i < length h').

Lemma grows_clone_kids : forall k clonef h c kid h' r,
  (forall h0 m h1 r1, Inv h0 -> clonef h0 m = (h1, r1) -> cloned h0 h1 r1) ->
  Inv h -> c < length h -> clone_kids k clonef cfg_fixed h c kid = (h', r) -> grows Inv h h'.
Proof.
  induction k as [|k IH]; intros clonef h c kid h' r Hc P Hl; cbn [clone_kids]; [unchanged_grows|].
  destruct kid as [m|]; [|unchanged_grows].
  destruct (clonef h m) as [h2 r2] eqn:E2. pose proof (Hc _ _ _ _ P E2) as [P2 [L2 I2]].
  destruct r2; try (intros [= <- _]; split; assumption).
  destruct (ins ins_fuel cfg_fixed h2 c i None) as [h3 r3] eqn:E3.
  assert (Hc2 : c < length h2) by lia.
  pose proof (c_ins _ C _ _ _ _ _ _ _ _ (sized_self _ P2) Hc2 (I2 i eq_refl) E3) as [P3 L3].
  destruct (is_err r3); [intros [= <- _]; split; [assumption|lia]|]. intros E4.
  assert (Hc3 : c < length h3) by lia.
  destruct (IH _ _ _ _ _ _ Hc P3 Hc3 E4). split; [assumption|lia].
Qed.

Lemma grows_clone_attrs : forall clonef l h c h' r,
  (forall h0 m h1 r1, Inv h0 -> clonef h0 m = (h1, r1) -> cloned h0 h1 r1) ->
  Inv h -> clone_attrs clonef h c l = (h', r) -> grows Inv h h'.
Proof.
  induction l as [|a l IH]; intros h c h' r Hc P; cbn [clone_attrs]; [unchanged_grows|].
  destruct (clonef h a) as [h2 r2] eqn:E2. pose proof (Hc _ _ _ _ P E2) as [P2 [L2 _]].
  destruct r2; try (intros [= <- _]; split; assumption).
  intros E.
  assert (P4 : sized Inv (length h2) (upd (upd h2 i (set_oelem (Some c))) c (set_attrs (n_attrs (nd h2 c) ++ [i])))).
  { apply sized_upd; auto with upres. apply sized_upd; auto with upres. apply sized_self; assumption. }
  destruct P4 as [P4 L4]. destruct (IH _ _ _ _ Hc P4 E). split; [assumption|lia].
Qed.

(** the children phase of cloneNode: nothing for a shallow clone or a leaf; otherwise the children are cloned and appended
    to the clone [c] (an EntityReference clone is writable while that happens).  It ends in an error, or with [RNode c]. *)
Lemma clone_children_phase : forall clonef (t : ntype) (b : bool) k hA c kid hr rr,
  (forall h0 m h1 r1, Inv h0 -> clonef h0 m = (h1, r1) -> cloned h0 h1 r1) ->
  Inv hA -> c < length hA ->
  (if b then
     let (h4, r4) := clone_kids k clonef cfg_fixed (match t with TERef => upd hA c (set_ro false) | _ => hA end) c kid in
     if is_err r4 then (h4, r4) else match t with TERef => (upd h4 c (set_ro true), RNode c) | _ => (h4, RNode c) end
   else (hA, RNode c)) = (hr, rr) ->
  Inv hr /\ length hA <= length hr /\ (is_err rr = false -> rr = RNode c).
Proof.
  intros clonef t b k hA c kid hr rr Hc PA Hl. destruct b; [|intros [= <- <-]; auto].
  assert (P1 : sized Inv (length hA) (match t with TERef => upd hA c (set_ro false) | _ => hA end)).
  { destruct t; try (apply sized_self; exact PA). apply sized_upd; auto with upres. apply sized_self; exact PA. }
  destruct P1 as [P1 L1]. rewrite <- L1 in Hl.
  destruct (clone_kids _ _ _ _ _ _) as [h4 r4] eqn:E4.
  destruct (grows_clone_kids _ _ _ _ _ _ _ Hc P1 Hl E4) as [P4 L4].
  destruct (is_err r4) eqn:Er4; [intros [= <- <-]; split; [exact P4|split; [lia|congruence]]|].
  destruct t; intros [= <- <-]; (split; [|split; [rewrite ?length_upd; lia|reflexivity]]); try exact P4.
  apply (c_upd _ C); auto with upres.
Qed.

(** the attribute phase (elements only): the attributes of the original are cloned into the clone [c] *)
Lemma clone_attrs_phase : forall clonef hr rr c l h' r,
  (forall h0 m h1 r1, Inv h0 -> clonef h0 m = (h1, r1) -> cloned h0 h1 r1) ->
  Inv hr -> c < length hr -> (is_err rr = false -> rr = RNode c) ->
  (if is_err rr then (hr, rr)
   else let (h5, r5) := clone_attrs clonef hr c l in if is_err r5 then (h5, r5) else (h5, RNode c)) = (h', r) ->
  cloned hr h' r.
Proof.
  intros clonef hr rr c l h' r Hc Pr Hl Rr.
  assert (Fin : forall i, rr = RNode i -> i < length hr).
  { intros i Hi. subst rr. specialize (Rr eq_refl). injection Rr as ->. exact Hl. }
  destruct (is_err rr); [intros [= <- <-]; split; [exact Pr|split; [lia|exact Fin]]|].
  destruct (clone_attrs clonef hr c l) as [h5 r5] eqn:E5.
  destruct (grows_clone_attrs _ _ _ _ _ _ Hc Pr E5) as [P5 L5].
  destruct (is_err r5) eqn:Er5; intros [= <- <-]; (split; [exact P5|split; [exact L5|]]).
  - intros i Hi. subst r5. discriminate.
  - intros i [= <-]. lia.
Qed.

(** induction on the fuel: the recursive call is the [clonef] of both phases *)
Lemma cloned_clone : forall fuel h x deep h' r, Inv h -> clone fuel cfg_fixed h x deep = (h', r) -> cloned h h' r.
Proof.
  induction fuel as [|fuel IH]; intros h x deep h' r P; cbn [clone].
  { intros [= <- <-]. split; [assumption|split; [lia|discriminate]]. }
  destruct (ntype_eqb (n_ty (nd h x)) TDoc) eqn:ET.
  { intros [= <- <-]. split; [assumption|split; [lia|discriminate]]. }
  assert (T : n_ty (nd h x) <> TDoc) by (intros E; rewrite E in ET; discriminate).
  assert (Hc : forall h0 m h1 r1, Inv h0 -> clone fuel cfg_fixed h0 m true = (h1, r1) -> cloned h0 h1 r1)
    by (intros; eapply IH; eassumption).
  unfold alloc. destruct (unlinked_clone_shallow h x T) as [U St].
  pose proof (sized_alloc h _ P U St) as P0.
  (* the clone is node [length h]; an ID attribute's clone enters the ID map at once *)
  set (hA := if ntype_eqb (n_ty (nd h x)) TAttr && n_isid (nd h x) then id_add (h ++ [clone_shallow cfg_fixed h x]) (length h)
             else h ++ [clone_shallow cfg_fixed h x]).
  assert (PA : sized Inv (S (length h)) hA).
  { subst hA. destruct (_ && _); [apply sized_id_add|]; exact P0. }
  clearbody hA. destruct PA as [PA LA].
  destruct (if (deep || ntype_eqb (n_ty (nd h x)) TAttr) && negb (is_leaf (n_ty (nd h x))) then _ else (hA, RNode (length h)))
    as [hr rr] eqn:Eres.
  assert (Hl : length h < length hA) by lia.
  destruct (clone_children_phase _ _ _ _ _ _ _ _ _ Hc PA Hl Eres) as [Pr [Lr Rr]]. cbn [fst snd].
  intros E. assert (Cl : cloned hr h' r).
  { revert E. destruct (n_ty (nd h x)); try (intros [= <- <-]; split; [exact Pr|split; [lia|]]; intros i Hi; subst rr;
      specialize (Rr eq_refl); injection Rr as ->; lia).
    apply clone_attrs_phase; [exact Hc|exact Pr|lia|exact Rr]. }
  destruct Cl as [P' [L' I']]. split; [exact P'|split; [lia|exact I']].
Qed.

Lemma sized_rename_move : forall n k h old new h' r, sized Inv n h -> new < n ->
  rename_move k cfg_fixed h old new = (h', r) -> sized Inv n h'.
Proof.
  induction k as [|k IH]; intros h old new h' r P Hn; cbn [rename_move]; [unchanged|].
  destruct (n_first (nd h old)) as [i|]; [|unchanged].
  destruct (p_remove h old i) as [h1 r1] eqn:E1. pose proof (sized_p_remove _ _ _ _ _ _ P E1) as P1.
  destruct (is_err r1) eqn:Er1; [unchanged|].
  assert (Hi : i < n) by (destruct P as [_ <-]; eapply p_remove_ok; eassumption).
  destruct (ins ins_fuel cfg_fixed h1 new i None) as [h2 r2] eqn:E2.
  pose proof (c_ins _ C _ _ _ _ _ _ _ _ P1 Hn Hi E2) as P2.
  destruct (is_err r2); [unchanged|]. apply IH; assumption.
Qed.

Lemma sized_fold_oelem : forall n v l h, sized Inv n h -> sized Inv n (fold_left (fun h0 a => upd h0 a (set_oelem v)) l h).
Proof. induction l as [|a l IH]; intros h P; cbn [fold_left]; [exact P|]. apply IH. apply sized_upd; auto with upres. Qed.

Lemma grows_rename_core : forall h d x ns nm h' r, Inv h -> rename_core cfg_fixed h d x ns nm = (h', r) -> grows Inv h h'.
Proof.
  intros h d x ns nm h' r P. unfold rename_core, alloc, v_insert.
  destruct (negb (oid_eqb _ _)); [unchanged_grows|].
  destruct (negb (_ || _)) eqn:ET; [unchanged_grows|].
  destruct (n_nsimpl (nd h x)).
  { assert (P1 : sized Inv (length h) (upd h x (set_name nm))) by (apply sized_upd; auto with upres; apply sized_self; assumption).
    destruct (ns_bind _ ns nm); intros [= <- _]; (eapply grows_of; [|apply le_n]); [|exact P1].
    apply sized_upd; auto with upres. }
  destruct ns as [|c ns]; [intros [= <- _]; (eapply grows_of; [|apply le_n]); apply sized_upd; auto with upres; apply sized_self; assumption|].
  destruct (negb (valid_name nm)); [unchanged_grows|].
  destruct (ns_bind _ _ nm) as [uri|]; [|unchanged_grows].
  (* a new node takes over user data, children, position and attributes of the old one *)
  set (y := mkNode _ nm _ _ _ _ _ _ _ _ _ _ _ _ _ _ _ _ _ _ _ _).
  assert (Tx : n_ty (nd h x) <> TDoc).
  { intros T. rewrite T in ET. discriminate. }
  assert (P0 : sized Inv (S (length h)) (h ++ [y])).
  { apply sized_alloc; [exact P|subst y; repeat split|exact Tx]. }
  (* the user data moves to the new node *)
  set (h1 := upd (upd (upd (upd (h ++ [y]) (length h) (set_udata (n_udata (nd (h ++ [y]) x)))) (length h) (set_hasud true))
                      x (set_udata [])) x (set_hasud false)).
  assert (P1 : sized Inv (S (length h)) h1).
  { subst h1. repeat (apply sized_upd; [auto with upres|auto with upres|]). exact P0. }
  set (par := if ntype_eqb (n_ty (nd h x)) TAttr then None else parent h1 x).
  assert (Hp : forall p, par = Some p -> p < S (length h)).
  { subst par. intros p. destruct (ntype_eqb _ TAttr); [discriminate|]. intros Ep. eapply sized_parent_lt; eassumption. }
  destruct (match par with Some p => v_remove h1 p x | None => _ end) as [h2 r2] eqn:E2.
  pose proof (sized_opt_remove _ _ _ _ _ _ P1 E2) as P2.
  destruct (is_err r2); [intros [= <- _]; eapply grows_of; [exact P2|lia]|].
  destruct (rename_move _ _ h2 x (length h)) as [h3 r3] eqn:E3.
  pose proof (sized_rename_move _ _ _ _ _ _ _ P2 (Nat.lt_succ_diag_r _) E3) as P3.
  destruct (is_err r3); [intros [= <- _]; eapply grows_of; [exact P3|lia]|].
  destruct (match par with Some p => ins _ _ h3 p _ _ | None => _ end) as [h4 r4] eqn:E4.
  pose proof (sized_opt_insert _ _ _ _ _ _ _ P3 Hp (Nat.lt_succ_diag_r _) E4) as P4.
  destruct (is_err r4); intros [= <- _]; (eapply grows_of; [|apply Nat.le_succ_diag_r]); [exact P4|].
  apply sized_upd; auto with upres. apply sized_upd; auto with upres. apply sized_fold_oelem. exact P4.
Qed.

Lemma sized_amap_set : forall n h e a h' r, sized Inv n h -> amap_set cfg_fixed h e a = (h', r) -> sized Inv n h'.
Proof.
  intros n h e a h' r P. unfold amap_set. change (fix_setattr_id cfg_fixed) with true. cbv iota.
  destruct (negb (oid_eqb _ _)); [unchanged|]. destruct (n_ro (nd h e)); [unchanged|].
  destruct (match n_oelem (nd h a) with Some o => _ | None => false end); [unchanged|].
  assert (P1 : sized Inv n (upd h a (set_oelem (Some e)))) by (apply sized_upd; auto with upres).
  match goal with |- context [upd ?H e (set_attrs ?L)] =>
    assert (P2 : sized Inv n (upd H e (set_attrs L))) by (apply sized_upd; auto with upres) end.
  destruct (amap_find _ _ _) as [p|]; [|intros [= <- _]; exact P2].
  destruct (Nat.eqb p a); intros [= <- _]; [exact P2|]. apply sized_attr_id_off. apply sized_upd; auto with upres.
Qed.

Lemma sized_set_attr_node : forall n h e a h' r, sized Inv n h -> set_attribute_node cfg_fixed h e a = (h', r) -> sized Inv n h'.
Proof. intros n h e a h' r P. unfold set_attribute_node. destruct (n_ro _); [unchanged|]. apply sized_amap_set. exact P. Qed.

Lemma sized_remove_attr_node : forall n h e a h' r, sized Inv n h -> remove_attribute_node h e a = (h', r) -> sized Inv n h'.
Proof.
  intros n h e a h' r P. unfold remove_attribute_node. destruct (n_ro _); [unchanged|].
  destruct (if n_nsimpl (nd h a) then _ else _) as [f|]; [|unchanged].
  destruct (Nat.eqb f a); [|unchanged]. intros [= <- _]. apply sized_attr_id_off.
  apply sized_upd; auto with upres. apply sized_upd; auto with upres.
Qed.

Lemma grows_rename : forall h d x ns nm h' r, Inv h -> rename_node cfg_fixed h d x ns nm = (h', r) -> grows Inv h h'.
Proof.
  intros h d x ns nm h' r P. unfold rename_node. destruct (negb (oid_eqb _ _)); [unchanged_grows|].
  destruct (_ && _ && _); [unchanged_grows|].
  destruct (if ntype_eqb _ TAttr then _ else None) as [el|]; [|apply grows_rename_core; assumption].
  destruct (remove_attribute_node h el x) as [h1 r1] eqn:E1.
  pose proof (sized_remove_attr_node _ _ _ _ _ _ (sized_self _ P) E1) as [P1 L1].
  destruct (is_err r1); [intros [= <- _]; split; [assumption|lia]|].
  destruct (rename_core cfg_fixed h1 d x ns nm) as [h2 r2] eqn:E2. pose proof (grows_rename_core _ _ _ _ _ _ _ P1 E2) as [P2 L2].
  destruct r2; try (intros [= <- _]; split; [assumption|lia]).
  destruct (set_attribute_node cfg_fixed h2 el i) as [h3 r3] eqn:E3.
  pose proof (sized_set_attr_node _ _ _ _ _ _ (sized_self _ P2) E3) as [P3 L3].
  cbn [fst]. intros [= <- _]. split; [assumption|lia].
Qed.

(** removing the first child through the link primitive (the loop of DOMAttrImpl::setValue) *)
Lemma sized_drop_kids : forall n k h a, sized Inv n h -> sized Inv n (drop_kids k h a).
Proof.
  induction k as [|k IH]; intros h a P; cbn [drop_kids]; [exact P|].
  destruct (n_first (nd h a)) as [c|] eqn:Ef; [|exact P].
  apply IH. apply sized_kill. destruct P as [P L].
  split; [apply (c_unlink _ C); auto|rewrite length_link_remove; exact L].
Qed.

Lemma grows_attr_set_value : forall h a v h' r, Inv h -> a < length h -> attr_set_value h a v = (h', r) -> grows Inv h h'.
Proof.
  intros h a v h' r P Ha. unfold attr_set_value, alloc.
  destruct (n_ro _); [unchanged_grows|].
  set (h0 := if n_isid (nd h a) then id_remove h a else h).
  assert (P0 : sized Inv (length h) h0) by (subst h0; destruct (n_isid _); [apply sized_id_remove|]; apply sized_self; assumption).
  assert (P1 : sized Inv (length h) (drop_kids (S (length h0)) h0 a)) by (apply sized_drop_kids; exact P0).
  revert P1. generalize (drop_kids (S (length h0)) h0 a). intros h1 [P1 L1].
  set (y := fresh _ _ _ _ _).
  assert (P3 : sized Inv (S (length h)) (link_insert (h1 ++ [y]) a (length h1) None)).
  { split; [apply (c_append _ C); [exact P1|lia|apply unlinked_fresh|reflexivity]|].
    rewrite (proj1 (link_insert_spec _ _ _ _)), app_length. cbn. lia. }
  intros [= <- _]. eapply grows_of; [|apply Nat.le_succ_diag_r]. destruct (n_isid (nd h a)); [apply sized_id_add|]; exact P3.
Qed.

(** setAttribute with a non-empty name (an empty name is refused by createAttribute; it could only "find" a node
    outside the heap) *)
Lemma grows_set_attribute : forall h e nm v h' r, Inv h -> nm <> [] -> set_attribute cfg_fixed h e nm v = (h', r) -> grows Inv h h'.
Proof.
  intros h e nm v h' r P Hnm. unfold set_attribute, alloc. destruct (n_ro _); [unchanged_grows|].
  destruct (amap_find h (n_attrs (nd h e)) nm) as [a|] eqn:Ef.
  - apply grows_attr_set_value; [assumption|].
    destruct (Nat.lt_ge_cases a (length h)) as [|Hge]; [assumption|]. exfalso.
    apply amap_find_name in Ef. unfold nd in Ef. rewrite nth_overflow in Ef by assumption.
    destruct nm; [congruence|cbn in Ef; discriminate Ef].
  - destruct (valid_name nm); [|unchanged_grows].
    pose proof (sized_alloc h _ P (unlinked_fresh TAttr (n_odoc (nd h e)) nm [] false) ltac:(discriminate)) as P1.
    destruct (amap_set cfg_fixed _ e (length h)) as [h2 r2] eqn:E2.
    pose proof (sized_amap_set _ _ _ _ _ _ P1 E2) as [P2 L2].
    destruct (is_err r2); [intros [= <- _]; split; [assumption|lia]|].
    intros E3. assert (Hl2 : length h < length h2) by lia.
    destruct (grows_attr_set_value _ _ _ _ _ P2 Hl2 E3) as [P3 L3]. split; [assumption|lia].
Qed.

Lemma step_grows : forall h o h' r, Inv h -> named_attr_op o = true -> step h o = (h', r) -> grows Inv h h'.
Proof.
  intros h o h' r P Hn. pose proof (sized_self _ P) as Sz. unfold step, step_cfg.
  assert (Keep : forall h1, sized Inv (length h) h1 -> grows Inv h h1) by (intros h1 S1; eapply grows_of; [exact S1|apply le_n]).
  (* every operation first asks whether its operands are live nodes of the right type, and is skipped otherwise;
     the conjunction is split and every [valid h i] turned into [i < length h] *)
  destruct o;
    match goal with |- (if ?b then _ else _) = _ -> _ => destruct b eqn:Ev; [|try unchanged_grows] end;
    repeat rewrite andb_true_iff in Ev;
    repeat match type of Ev with _ /\ _ => let Ev' := fresh "Ev" in destruct Ev as [Ev Ev'] end;
    repeat match goal with V : valid _ _ = true |- _ => apply valid_lt in V end.
  - (* OCreate *) apply grows_create; assumption.
  - (* OInsertBefore *) unfold v_insert. intros E. apply Keep. eapply (c_ins _ C); [exact Sz| | |exact E]; assumption.
  - (* OAppend *) unfold v_insert. intros E. apply Keep. eapply (c_ins _ C); [exact Sz| | |exact E]; assumption.
  - (* ORemove *) intros E. apply Keep. eapply sized_v_remove; eassumption.
  - (* OReplace *) intros E. apply Keep. eapply sized_v_replace; [exact Sz| | |exact E]; assumption.
  - (* OClone *) unfold clone_node. intros E. destruct (cloned_clone _ _ _ _ _ _ P E) as [P1 [L1 _]]. split; assumption.
  - (* ONormalize *) unfold normalize. destruct (is_leaf _); [unchanged_grows|]. intros E. apply Keep. eapply sized_norm; eassumption.
  - (* OSetData on character data *) intros E. apply Keep. eapply sized_cd_set; eassumption.
  - (* OSetData on an Attr *)
    match goal with |- (if ?b then _ else _) = _ -> _ => destruct b eqn:Ev2; [|unchanged_grows] end.
    apply andb_prop in Ev2. destruct Ev2 as [Ev2 _]. apply grows_attr_set_value; [assumption|apply valid_lt; assumption].
  - (* OAppendData *) intros E. apply Keep. eapply sized_cd_append; eassumption.
  - (* OInsertData *) intros E. apply Keep. eapply sized_cd_insert; eassumption.
  - (* ODeleteData *) intros E. apply Keep. eapply sized_cd_delete; eassumption.
  - (* OReplaceData *) intros E. apply Keep. eapply sized_cd_replace; eassumption.
  - (* OSubstring *) unfold cd_substring. destruct (N.ltb _ _); unchanged_grows.
  - (* OSplitText *) apply grows_split; try assumption. intros T. rewrite T in *. discriminate.
  - (* OSetAttr *) apply grows_set_attribute; [assumption|]. intros ->. discriminate Hn.
  - (* ORemoveAttr *) unfold remove_attribute. destruct (n_ro _); [unchanged_grows|].
    destruct (amap_find _ _ _) as [a|]; [|unchanged_grows]. intros [= <- _]. apply Keep. apply sized_kill. apply sized_attr_id_off.
    apply sized_upd; auto with upres. apply sized_upd; auto with upres.
  - (* OGetAttr *) unfold get_attribute. unchanged_grows.
  - (* OSetAttrNode *) intros E. apply Keep. eapply sized_set_attr_node; eassumption.
  - (* ORemoveAttrNode *) intros E. apply Keep. eapply sized_remove_attr_node; eassumption.
  - (* OGetAttrNode *) unfold get_attribute_node. unchanged_grows.
  - (* OSetUserData *) unfold set_user_data. destruct (_ && _); [unchanged_grows|]. destruct (N.eqb data 0); intros [= <- _]; apply Keep;
      (apply sized_upd; auto with upres; apply sized_upd; auto with upres).
  - (* OGetUserData *) unfold get_user_data. unchanged_grows.
  - (* ORelease *) unfold release_node. destruct (n_ty (nd h n)); try unchanged_grows;
      (destruct (_ || _); [unchanged_grows|]; destruct (_ && _); [unchanged_grows|]; intros [= <- _]; apply Keep; apply sized_kill; apply sized_fold_id_off; exact Sz).
  - (* OSetIdAttr *) unfold set_id_attribute. destruct (n_ro _); [unchanged_grows|]. destruct (amap_find _ _ _) as [a|]; [|unchanged_grows].
    destruct isid; intros [= <- _]; apply Keep; [apply sized_attr_id_on|apply sized_attr_id_off]; exact Sz.
  - (* OSetIdAttrNode *) unfold set_id_attribute_node. destruct (n_ro _); [unchanged_grows|].
    destruct (if n_nsimpl (nd h a) then _ else _) as [f|]; [|unchanged_grows].
    destruct (_ && negb _); [unchanged_grows|].
    destruct isid; intros [= <- _]; apply Keep; [apply sized_attr_id_on|apply sized_attr_id_off]; exact Sz.
  - (* OGetById *) unfold get_element_by_id. unchanged_grows.
  - (* ORename *) apply grows_rename; assumption.
Qed.

Lemma run_grows : forall l h h' rs, Inv h -> forallb named_attr_op l = true -> run_cfg cfg_fixed h l = (h', rs) -> grows Inv h h'.
Proof.
  induction l as [|o l IH]; intros h h' rs P Hl; cbn [run_cfg].
  - intros [= <- _]; apply grows_refl; assumption.
  - cbn [forallb] in Hl. apply andb_prop in Hl. destruct Hl as [Ho Hl].
    destruct (step_cfg cfg_fixed h o) as [h1 x] eqn:E. pose proof (step_grows _ _ _ _ P Ho E) as G1.
    destruct (run_cfg cfg_fixed h1 l) as [h2 xs] eqn:E2. intros [= <- _].
    eapply grows_trans; [exact G1|]. eapply IH; [exact (proj1 G1)|exact Hl|exact E2].
Qed.
End Closure.

(** the walk to the root from a node of [h] never meets a node allocated afterwards *)
Lemma srooted_fresh : forall h x k c, (forall c p, c < length h -> parent h c = Some p -> p < length h) -> c < length h ->
  rooted (uv h) c k = true -> srooted (uv (h ++ [x])) (length h) c k = true.
Proof.
  intros h x. induction k as [|k IH]; intros c V Hc; cbn [rooted srooted]; [discriminate|].
  assert (Ev : vparent (uv (h ++ [x])) c = vparent (uv h) c).
  { unfold vparent, uv, nd. rewrite app_nth1 by assumption. reflexivity. }
  rewrite Ev. destruct (Nat.eqb_spec c (length h)); [lia|]. cbn [negb andb].
  destruct (vparent (uv h) c) as [p|] eqn:Ep; [|reflexivity]. intros Hr. apply IH; [assumption| |assumption].
  apply (V c p Hc). rewrite <- vparent_uv. exact Ep.
Qed.

Lemma WFup_append : forall h a x, WFup h -> a < length h -> n_owned x = false -> is_leaf (n_ty x) = true ->
  WFup (link_insert (h ++ [x]) a (length h) None).
Proof.
  intros h a x W Ha Ho Hl.
  assert (Ht : n_ty x <> TDoc) by (intros E; rewrite E in Hl; discriminate).
  pose proof (WFup_alloc h x W Ho Ht) as W2. pose proof W as [V A _ _]. destruct (A a Ha) as [k Hk].
  eapply WFup_link_insert with (ks := k); [exact W2|rewrite app_length; lia| | |]; rewrite ?nd_alloc_new.
  - apply srooted_fresh; [|exact Ha|exact Hk]. intros c p Hc Hp. eapply WFup_parent_lt; eassumption.
  - rewrite Hl. discriminate.
  - exact Ht.
Qed.

Lemma WFup_closed : closed WFup.
Proof.
  split.
  - auto.
  - intros h i f Hu _. apply WFup_upd_pres. exact Hu.
  - intros h x W [Ho _]. apply WFup_alloc; assumption.
  - intros h this old W _. apply WFup_link_remove. exact W.
  - intros n fuel h this new ref h' r P Ht _. apply WFup_ins; assumption.
  - intros h a x W Ha [Ho _]. apply WFup_append; assumption.
Qed.

Lemma WFheap_closed : closed WFheap.
Proof.
  split.
  - intros h [W _]. exact W.
  - exact WFheap_upd_pres.
  - exact WFheap_alloc.
  - exact WFheap_link_remove.
  - exact WFheap_ins.
  - intros h a x W Ha U Hl. pose proof U as [Ho _].
    assert (Ht : n_ty x <> TDoc) by (intros E; rewrite E in Hl; discriminate).
    destruct (WFheap_alloc h x W U Ht) as [_ [ks2 Ws2]]. destruct W as [Wu _].
    assert (L2 : length (h ++ [x]) = S (length h)) by (rewrite app_length; cbn; lia).
    split; [apply WFup_append; assumption|]. eexists.
    apply WFsib_link_insert; [exact Ws2|lia|lia|lia|rewrite nd_alloc_new; exact Ho|intros r0 Hr0; discriminate Hr0].
Qed.
