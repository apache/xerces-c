(** C13 -- lemmas, part b: read-after-write facts about the heap, and the upward half of well-formedness (parent pointers:
    validity, acyclicity as a rank to the root, uniform ownerDocument) as an invariant [WFv] on the view of the heap that
    it reads; how giving a node a parent, detaching it, and allocating act on that invariant. *)
From Coq Require Import NArith List Bool Arith Lia.
From XV Require Import C13.Ops13 C13.Model13.
Import ListNotations.

Lemma length_upd : forall h i f, length (upd h i f) = length h.
Proof. induction h as [|x h IH]; intros [|i] f; cbn; auto. Qed.

Lemma nd_upd_ne : forall h i j f, i <> j -> nd (upd h i f) j = nd h j.
Proof.
  unfold nd. induction h as [|x h IH]; intros [|i] [|j] f H; cbn; auto; try congruence.
Qed.

Lemma nd_upd_eq : forall h i f, i < length h -> nd (upd h i f) i = f (nd h i).
Proof.
  unfold nd. induction h as [|x h IH]; intros [|i] f H; cbn in *; try lia; auto.
  apply IH. lia.
Qed.

Lemma upd_oob : forall h i f, length h <= i -> upd h i f = h.
Proof. induction h as [|x h IH]; intros [|i] f H; cbn in *; auto; try lia. f_equal. apply IH. lia. Qed.

(** the updated node occurs once on the right, so a chain of updates rewrites to a term of linear size *)
Lemma nd_upd_if : forall h i f j, i < length h -> nd (upd h i f) j = (if Nat.eqb i j then f else fun x => x) (nd h j).
Proof.
  intros h i f j H. destruct (Nat.eqb_spec i j) as [->|Hn]; [apply nd_upd_eq; assumption|apply nd_upd_ne; assumption].
Qed.

Lemma nd_alloc_old : forall h x j, j < length h -> nd (h ++ [x]) j = nd h j.
Proof. intros. unfold nd. apply app_nth1. assumption. Qed.
Lemma nd_alloc_new : forall h x, nd (h ++ [x]) (length h) = x.
Proof. intros. unfold nd. apply nth_middle. Qed.

Lemma oid_eqb_eq : forall a b, oid_eqb a b = true -> a = b.
Proof. intros [x|] [y|]; cbn; try discriminate; auto. intros H. apply Nat.eqb_eq in H. congruence. Qed.

(** a node outside the heap reads as [dummy], which is not OWNED *)
Lemma parent_owned : forall h c p, parent h c = Some p -> n_owned (nd h c) = true /\ n_owner (nd h c) = p /\ c < length h.
Proof.
  intros h c p. unfold parent. destruct (n_owned (nd h c)) eqn:E; [|discriminate]. intros [= <-]. repeat split.
  destruct (Nat.lt_ge_cases c (length h)) as [|Hge]; [assumption|]. unfold nd in E. rewrite nth_overflow in E by assumption. discriminate.
Qed.

Lemma parent_in_heap : forall h c p, parent h c = Some p -> c < length h.
Proof. intros h c p Hp. apply (parent_owned _ _ _ Hp). Qed.

Lemma first_some_lt : forall h p k, n_first (nd h p) = Some k -> p < length h.
Proof.
  intros h p k E. destruct (Nat.lt_ge_cases p (length h)) as [|Hge]; [assumption|].
  unfold nd in E. rewrite nth_overflow in E by assumption. discriminate.
Qed.

Lemma valid_lt : forall h i, valid h i = true -> i < length h.
Proof. intros h i H. unfold valid in H. apply andb_prop in H. destruct H as [H _]. apply Nat.ltb_lt. exact H. Qed.

(** the view of a node that the upward invariants read *)
Definition view := id -> (ntype * id * bool * id)%type.
Definition upf (x : node) := (n_ty x, n_owner x, n_owned x, n_odoc x).
Definition uv (h : heap) : view := fun j => upf (nd h j).
Definition up_pres (f : node -> node) := forall x, upf (f x) = upf x.

Lemma own_of_uv : forall h h' x, uv h' x = uv h x -> n_owner (nd h' x) = n_owner (nd h x) /\ n_owned (nd h' x) = n_owned (nd h x).
Proof. intros h h' x. unfold uv, upf. intros [= _ -> -> _]. auto. Qed.

(** an update that keeps what [g] reads of a node keeps what [g] reads of the heap, inside the heap or not *)
Lemma nd_upd_proj : forall (A : Type) (g : node -> A) h i f j, (forall x, g (f x) = g x) -> g (nd (upd h i f) j) = g (nd h j).
Proof.
  intros A g h i f j Hf. destruct (Nat.eq_dec i j) as [->|Hn].
  - destruct (Nat.lt_ge_cases j (length h)).
    + rewrite nd_upd_eq by assumption. apply Hf.
    + rewrite upd_oob by assumption. reflexivity.
  - rewrite nd_upd_ne by assumption. reflexivity.
Qed.

Lemma uv_upd_pres : forall h i f j, up_pres f -> uv (upd h i f) j = uv h j.
Proof. intros h i f j Hf. apply (nd_upd_proj _ upf). exact Hf. Qed.

Lemma up_pres_first v : up_pres (set_first v). Proof. intros []; reflexivity. Qed.
Lemma up_pres_prev v : up_pres (set_prev v). Proof. intros []; reflexivity. Qed.
Lemma up_pres_next v : up_pres (set_next v). Proof. intros []; reflexivity. Qed.
Lemma up_pres_isfirst v : up_pres (set_isfirst v). Proof. intros []; reflexivity. Qed.
Lemma up_pres_docel v : up_pres (set_docel v). Proof. intros []; reflexivity. Qed.
Lemma up_pres_val v : up_pres (set_val v). Proof. intros []; reflexivity. Qed.
Lemma up_pres_attrs v : up_pres (set_attrs v). Proof. intros []; reflexivity. Qed.
#[export] Hint Resolve up_pres_first up_pres_prev up_pres_next up_pres_isfirst up_pres_docel up_pres_val up_pres_attrs : upres.

Ltac uvs := repeat (rewrite uv_upd_pres by auto with upres).

Definition vty (v : view) c := fst (fst (fst (v c))).
Definition vodoc (v : view) c := snd (v c).
Definition vparent (v : view) (c : id) : option id :=
  let '(_, o, ow, _) := v c in if ow then Some o else None.
Fixpoint rooted (v : view) (c : id) (k : nat) : bool :=
  match k with
  | O => false
  | S k' => match vparent v c with None => true | Some p => rooted v p k' end
  end.
(** walk to the root that never meets [x] *)
Fixpoint srooted (v : view) (x c : id) (k : nat) : bool :=
  match k with
  | O => false
  | S k' => negb (Nat.eqb c x) && match vparent v c with None => true | Some p => srooted v x p k' end
  end.

Record WFv (n : nat) (v : view) : Prop := {
  u_valid : forall c p, c < n -> vparent v c = Some p -> p < n;
  u_acyclic : forall c, c < n -> exists k, rooted v c k = true;
  u_odoc : forall c p, c < n -> vparent v c = Some p -> is_leaf (vty v c) = false -> vodoc v c = vodoc v p;
  u_doc : forall d, d < n -> vty v d = TDoc -> vodoc v d = d /\ vparent v d = None
}.
Definition WFup (h : heap) : Prop := WFv (length h) (uv h).

Lemma vparent_uv : forall h c, vparent (uv h) c = parent h c.
Proof. intros. unfold vparent, uv, upf, parent. reflexivity. Qed.

Lemma rooted_ext : forall v v' k c, (forall j, v' j = v j) -> rooted v' c k = rooted v c k.
Proof.
  induction k as [|k IH]; intros c E; cbn; auto. unfold vparent. rewrite E.
  destruct (v c) as [[[t o] ow] d]. destruct ow; auto.
Qed.

Lemma WFv_ext : forall n v v', (forall j, v' j = v j) -> WFv n v -> WFv n v'.
Proof.
  intros n v v' E [H1 H2 H3 H4].
  assert (Ep : forall c, vparent v' c = vparent v c) by (intros; unfold vparent; rewrite E; reflexivity).
  assert (Et : forall c, vty v' c = vty v c) by (intros; unfold vty; rewrite E; reflexivity).
  assert (Eo : forall c, vodoc v' c = vodoc v c) by (intros; unfold vodoc; rewrite E; reflexivity).
  split.
  - intros c p Hc Hp. rewrite Ep in Hp. eauto.
  - intros c Hc. destruct (H2 c Hc) as [k Hk]. exists k. rewrite (rooted_ext v v'); auto.
  - intros c p Hc Hp Hl. rewrite Ep in Hp. rewrite Et in Hl. rewrite !Eo. eauto.
  - intros d Hd Ht. rewrite Et in Ht. rewrite Eo, Ep. eauto.
Qed.

Lemma rooted_mono : forall v k k' c, rooted v c k = true -> k <= k' -> rooted v c k' = true.
Proof.
  induction k as [|k IH]; intros k' c H L; cbn in H; try discriminate.
  destruct k' as [|k']; [lia|]. cbn. destruct (vparent v c); auto. apply (IH k'); auto. lia.
Qed.

(** giving [x] the parent [p] *)
Definition set_par (v : view) (x p : id) : view :=
  fun j => if Nat.eqb j x then (vty v x, p, true, vodoc v x) else v j.
(** detaching [x]; its fOwnerNode becomes [d] *)
Definition clr_par (v : view) (x d : id) : view :=
  fun j => if Nat.eqb j x then (vty v x, d, false, vodoc v x) else v j.

Lemma vparent_set_par : forall v x p j, vparent (set_par v x p) j = if Nat.eqb j x then Some p else vparent v j.
Proof. intros. unfold vparent, set_par. destruct (Nat.eqb j x); reflexivity. Qed.
Lemma vparent_clr_par : forall v x d j, vparent (clr_par v x d) j = if Nat.eqb j x then None else vparent v j.
Proof. intros. unfold vparent, clr_par. destruct (Nat.eqb j x); reflexivity. Qed.
Lemma vty_set_par : forall v x p j, vty (set_par v x p) j = vty v j.
Proof. intros. unfold vty, set_par. destruct (Nat.eqb_spec j x); subst; reflexivity. Qed.
Lemma vty_clr_par : forall v x p j, vty (clr_par v x p) j = vty v j.
Proof. intros. unfold vty, clr_par. destruct (Nat.eqb_spec j x); subst; reflexivity. Qed.
Lemma vodoc_set_par : forall v x p j, vodoc (set_par v x p) j = vodoc v j.
Proof. intros. unfold vodoc, set_par. destruct (Nat.eqb_spec j x); subst; reflexivity. Qed.
Lemma vodoc_clr_par : forall v x p j, vodoc (clr_par v x p) j = vodoc v j.
Proof. intros. unfold vodoc, clr_par. destruct (Nat.eqb_spec j x); subst; reflexivity. Qed.

Lemma srooted_set_par : forall v x p k c, srooted v x c k = true -> rooted (set_par v x p) c k = true.
Proof.
  induction k as [|k IH]; intros c H; cbn in *; try discriminate.
  apply andb_prop in H. destruct H as [Hne H]. rewrite vparent_set_par.
  destruct (Nat.eqb c x); [discriminate|]. destruct (vparent v c); auto.
Qed.

Lemma rooted_set_par : forall v x p ks, srooted v x p ks = true ->
  forall k c, rooted v c k = true -> rooted (set_par v x p) c (k + S ks) = true.
Proof.
  intros v x p ks Hs. induction k as [|k IH]; intros c H; cbn in H; try discriminate.
  cbn. rewrite vparent_set_par. destruct (Nat.eqb_spec c x) as [->|Hne].
  - apply rooted_mono with (k := ks); [|lia]. apply srooted_set_par; assumption.
  - destruct (vparent v c) as [q|]; auto.
Qed.

Lemma WFv_set_par : forall n v x p ks, WFv n v -> p < n -> srooted v x p ks = true ->
  (is_leaf (vty v x) = false -> vodoc v x = vodoc v p) -> vty v x <> TDoc -> WFv n (set_par v x p).
Proof.
  intros n v x p ks [H1 H2 H3 H4] Hp Hs Ho Ht. split.
  - intros c q Hc. rewrite vparent_set_par. destruct (Nat.eqb c x); [intros [= <-]; assumption|eauto].
  - intros c Hc. destruct (H2 c Hc) as [k Hk]. exists (k + S ks). apply rooted_set_par; assumption.
  - intros c q Hc. rewrite vparent_set_par, vty_set_par, !vodoc_set_par.
    destruct (Nat.eqb_spec c x) as [->|]; [intros [= <-]; assumption|eauto].
  - intros d Hd. rewrite vty_set_par, vodoc_set_par, vparent_set_par. intros Hd'.
    destruct (Nat.eqb_spec d x) as [->|]; [contradiction|eauto].
Qed.

Lemma rooted_clr_par : forall v x d k c, rooted v c k = true -> rooted (clr_par v x d) c k = true.
Proof.
  induction k as [|k IH]; intros c H; cbn in *; try discriminate.
  rewrite vparent_clr_par. destruct (Nat.eqb c x); auto. destruct (vparent v c); auto.
Qed.

Lemma WFv_clr_par : forall n v x d, WFv n v -> WFv n (clr_par v x d).
Proof.
  intros n v x d [H1 H2 H3 H4]. split.
  - intros c q Hc. rewrite vparent_clr_par. destruct (Nat.eqb c x); [discriminate|eauto].
  - intros c Hc. destruct (H2 c Hc) as [k Hk]. exists k. apply rooted_clr_par; assumption.
  - intros c q Hc. rewrite vparent_clr_par, vty_clr_par, !vodoc_clr_par. destruct (Nat.eqb c x); [discriminate|eauto].
  - intros c Hc. rewrite vty_clr_par, vodoc_clr_par, vparent_clr_par. intros Ht.
    destruct (H4 c Hc Ht). destruct (Nat.eqb c x); auto.
Qed.

(** a new, parentless node at index n *)
Definition ext_view (v : view) (n : nat) (e : ntype * id * bool * id) : view :=
  fun j => if Nat.eqb j n then e else v j.

Lemma rooted_ext_view : forall v n e k c, (forall c p, c < n -> vparent v c = Some p -> p < n) -> c < n ->
  rooted v c k = true -> rooted (ext_view v n e) c k = true.
Proof.
  induction k as [|k IH]; intros c Hv Hc H; cbn in *; try discriminate.
  assert (E : vparent (ext_view v n e) c = vparent v c).
  { unfold vparent, ext_view. destruct (Nat.eqb_spec c n); [lia|reflexivity]. }
  rewrite E. destruct (vparent v c) as [p|] eqn:Ep; auto. apply IH; eauto.
Qed.

Lemma WFv_alloc : forall n v t o d, WFv n v -> t <> TDoc -> WFv (S n) (ext_view v n (t, o, false, d)).
Proof.
  intros n v t o d [H1 H2 H3 H4] Ht.
  assert (P : forall c, vparent (ext_view v n (t, o, false, d)) c = if Nat.eqb c n then None else vparent v c).
  { intros. unfold vparent, ext_view. destruct (Nat.eqb c n); reflexivity. }
  split.
  - intros c p Hc. rewrite P. destruct (Nat.eqb_spec c n); [discriminate|]. intros Hp.
    assert (p < n) by (apply (H1 c); [lia|assumption]). lia.
  - intros c Hc. destruct (Nat.eqb_spec c n) as [->|Hne].
    + exists 1. cbn. rewrite P, Nat.eqb_refl. reflexivity.
    + destruct (H2 c ltac:(lia)) as [k Hk]. exists k. apply rooted_ext_view; auto. lia.
  - intros c p Hc. rewrite P. destruct (Nat.eqb_spec c n) as [->|Hne]; [discriminate|]. intros Hp Hl.
    assert (Hpn : p < n) by (apply (H1 c); [lia|assumption]).
    unfold vodoc, vty, ext_view in *. destruct (Nat.eqb_spec c n); [lia|]. destruct (Nat.eqb_spec p n); [lia|].
    apply H3; auto. lia.
  - intros c Hc. unfold vty, vodoc. rewrite P. unfold ext_view. destruct (Nat.eqb_spec c n) as [->|Hne]; cbn.
    + intros; contradiction.
    + apply H4. lia.
Qed.
