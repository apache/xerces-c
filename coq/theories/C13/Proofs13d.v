(** C13 -- lemmas, part d: the upward invariant [WFup] under the primitive mutations of the heap: updates that touch no
    link, removeChild, insertBefore, allocation; the initial heap.  The case analysis of [pins_body] and the notion
    [taken] (the new child after it left its old parent) are shared with the proofs about the full invariant. *)
From Coq Require Import NArith List Bool Arith Lia.
From XV Require Import C13.Ops13 C13.Model13 C13.Proofs13b.
Import ListNotations.

Definition G (h h' : heap) : Prop := WFup h' /\ length h <= length h'.

Lemma up_pres_ro v : up_pres (set_ro v). Proof. intros []; reflexivity. Qed.

Lemma up_pres_udata v : up_pres (set_udata v). Proof. intros []; reflexivity. Qed.
Lemma up_pres_hasud v : up_pres (set_hasud v). Proof. intros []; reflexivity. Qed.
Lemma up_pres_isid v : up_pres (set_isid v). Proof. intros []; reflexivity. Qed.
Lemma up_pres_idtab v : up_pres (set_idtab v). Proof. intros []; reflexivity. Qed.
Lemma up_pres_idnum v : up_pres (set_idnum v). Proof. intros []; reflexivity. Qed.
Lemma up_pres_released : up_pres set_released. Proof. intros []; reflexivity. Qed.
Lemma up_pres_oelem v : up_pres (set_oelem v). Proof. intros []; reflexivity. Qed.
Lemma up_pres_dead v : up_pres (set_dead v). Proof. intros []; reflexivity. Qed.
Lemma up_pres_name v : up_pres (set_name v). Proof. intros []; reflexivity. Qed.
Lemma up_pres_ns v : up_pres (set_ns v). Proof. intros []; reflexivity. Qed.

#[export] Hint Resolve up_pres_ro up_pres_udata up_pres_hasud up_pres_isid up_pres_idtab up_pres_idnum up_pres_released
  up_pres_oelem up_pres_dead up_pres_name up_pres_ns : upres.

Lemma uv_upd_gen : forall h i f j,
  uv (upd h i f) j = if Nat.eqb j i && (i <? length h) then upf (f (nd h i)) else uv h j.
Proof.
  intros. unfold uv. destruct (Nat.eqb_spec j i) as [->|Hn]; cbn [andb].
  - destruct (Nat.ltb_spec i (length h)).
    + rewrite nd_upd_eq by assumption. reflexivity.
    + rewrite upd_oob by assumption. reflexivity.
  - rewrite nd_upd_ne by congruence. reflexivity.
Qed.

(** an invariant together with the size of the heap: the operations that allocate nothing keep [n] *)
Definition sized (Inv : heap -> Prop) (n : nat) (h : heap) : Prop := Inv h /\ length h = n.

Lemma WFup_view : forall (h h' : heap) v, length h' = length h -> (forall j, uv h' j = v j) -> WFv (length h) v -> WFup h'.
Proof. intros h h' v L E W. unfold WFup. rewrite L. eapply WFv_ext; [|exact W]. exact E. Qed.

Lemma WFup_upd_pres : forall h i f, up_pres f -> WFup h -> WFup (upd h i f).
Proof.
  intros h i f Hf W. apply (WFup_view h _ (uv h)); [apply length_upd| |exact W]. intros j. apply uv_upd_pres; assumption.
Qed.

Lemma length_link_remove : forall h this old, length (link_remove h this old) = length h.
Proof.
  intros. unfold link_remove. rewrite !length_upd.
  destruct (oid_eqb _ _).
  - destruct (n_next (nd h old)); rewrite ?length_upd; reflexivity.
  - destruct (n_prev (nd h old)); [|reflexivity]. destruct (n_next (nd h old)); rewrite ?length_upd.
    + reflexivity.
    + destruct (n_first _); rewrite ?length_upd; reflexivity.
Qed.

Lemma uv_link_remove : forall h this old j,
  uv (link_remove h this old) j =
  if Nat.eqb j old && (old <? length h) then clr_par (uv h) old (n_odoc (nd h this)) j else uv h j.
Proof.
  intros. unfold link_remove.
  set (h1 := if oid_eqb (n_first (nd h this)) (Some old) then _ else _).
  assert (L1 : length h1 = length h).
  { rewrite <- (length_link_remove h this old). unfold link_remove. rewrite !length_upd. reflexivity. }
  assert (U1 : forall i, uv h1 i = uv h i).
  { intros i. subst h1. destruct (oid_eqb _ _).
    - destruct (n_next (nd h old)); uvs; reflexivity.
    - destruct (n_prev (nd h old)); [|reflexivity]. destruct (n_next (nd h old)); uvs.
      + reflexivity.
      + destruct (n_first _); uvs; reflexivity. }
  uvs. rewrite uv_upd_gen, length_upd, L1.
  destruct (Nat.eqb_spec j old) as [->|Hn]; cbn [andb].
  - destruct (Nat.ltb_spec old (length h)).
    + rewrite nd_upd_eq by lia. unfold clr_par. rewrite Nat.eqb_refl.
      generalize (U1 old). unfold uv, upf, vty, vodoc. destruct (nd h1 old), (nd h old); cbn. intros [= -> _ _ ->]. reflexivity.
    + rewrite uv_upd_gen. rewrite L1. destruct (Nat.ltb_spec old (length h)); [lia|]. rewrite andb_false_r. apply U1.
  - rewrite uv_upd_gen. destruct (Nat.eqb_spec j old); [contradiction|]. cbn [andb]. apply U1.
Qed.

Lemma WFup_link_remove : forall h this old, WFup h -> WFup (link_remove h this old).
Proof.
  intros h this old W.
  destruct (Nat.ltb_spec old (length h)) as [Ho|Ho].
  - eapply (WFup_view h _ (clr_par (uv h) old (n_odoc (nd h this)))); [apply length_link_remove| |apply WFv_clr_par; exact W].
    intros j. rewrite uv_link_remove. destruct (Nat.ltb_spec old (length h)); [|lia]. rewrite andb_true_r.
    unfold clr_par. destruct (Nat.eqb j old); reflexivity.
  - eapply (WFup_view h _ (uv h)); [apply length_link_remove| |exact W].
    intros j. rewrite uv_link_remove. destruct (Nat.ltb_spec old (length h)); [lia|]. rewrite andb_false_r. reflexivity.
Qed.

Lemma v_remove_error_unchanged : forall h p c h' e, v_remove h p c = (h', RErr e) -> h' = h.
Proof.
  intros h p c h' e. unfold v_remove, p_remove.
  destruct (n_ty (nd h p)); try (intros [= <- _]; reflexivity);
    destruct (n_ro _); try (intros [= <- _]; reflexivity);
    destruct (negb _); try (intros [= <- _]; reflexivity); cbn [is_err]; try discriminate.
  destruct (n_ty _); discriminate.
Qed.

(** when it succeeds, [old] was a child of [this] and was unlinked; a Document may also have reset its fDocElement *)
Lemma v_remove_ok : forall h this old h1 r1, v_remove h this old = (h1, r1) -> is_err r1 = false ->
  parent h old = Some this /\ length h1 = length h /\ forall j, uv h1 j = uv (link_remove h this old) j.
Proof.
  intros h this old h1 r1. unfold v_remove, p_remove.
  destruct (n_ty (nd h this)); try (intros [= <- <-]; discriminate);
    destruct (n_ro (nd h this)); try (intros [= <- <-]; discriminate);
    (destruct (oid_eqb (parent h old) (Some this)) eqn:Ep; cbn [negb]; [apply oid_eqb_eq in Ep|intros [= <- <-]; discriminate]);
    cbn [is_err]; try (intros [= <- _] _; split; [exact Ep|split; [apply length_link_remove|reflexivity]]).
  destruct (n_ty _); intros [= <- _] _; (split; [exact Ep|split; [rewrite ?length_upd; apply length_link_remove|intros j; uvs; reflexivity]]).
Qed.

(** removeChild for any invariant that survives unlinking a child and a change of the Document's fDocElement *)
Section RemoveChild.
Variable Inv : heap -> Prop.
Hypothesis Inv_docel : forall h i v, Inv h -> Inv (upd h i (set_docel v)).
Hypothesis Inv_unlink : forall h this old, Inv h -> parent h old = Some this -> Inv (link_remove h this old).

Lemma p_remove_keeps : forall n h this old h' r, sized Inv n h -> p_remove h this old = (h', r) -> sized Inv n h'.
Proof.
  intros n h this old h' r [P L]. unfold p_remove.
  destruct (n_ro _); [intros [= <- _]; split; assumption|].
  destruct (oid_eqb (parent h old) (Some this)) eqn:Ep; cbn [negb]; [|intros [= <- _]; split; assumption].
  intros [= <- _]. split; [apply Inv_unlink; [exact P|apply oid_eqb_eq; exact Ep]|rewrite length_link_remove; exact L].
Qed.

Lemma v_remove_keeps : forall n h this old h' r, sized Inv n h -> v_remove h this old = (h', r) -> sized Inv n h'.
Proof.
  intros n h this old h' r P. unfold v_remove.
  destruct (n_ty (nd h this)); try (intros [= <- _]; assumption); try (apply p_remove_keeps; assumption).
  destruct (p_remove h this old) as [h1 r1] eqn:E. pose proof (p_remove_keeps _ _ _ _ _ _ P E) as [P1 L1].
  destruct (is_err r1); [intros [= <- _]; split; assumption|].
  destruct (n_ty (nd h1 old)); intros [= <- _]; try (split; assumption).
  split; [apply Inv_docel; exact P1|rewrite length_upd; exact L1].
Qed.
End RemoveChild.

(** [taken h new h1]: [h1] is [h] after insertBefore took [new] out of its old parent, if it had one *)
Definition taken (h : heap) (new : id) (h1 : heap) : Prop :=
  (parent h new = None /\ h1 = h) \/
  (exists op r1, parent h new = Some op /\ v_remove h op new = (h1, r1) /\ is_err r1 = false).

Lemma sized_taken : forall Inv n h new h1,
  (forall h op r1, sized Inv n h -> v_remove h op new = (h1, r1) -> sized Inv n h1) ->
  sized Inv n h -> taken h new h1 -> sized Inv n h1.
Proof. intros Inv n h new h1 Hr P [[_ ->]|[op [r1 [_ [E _]]]]]; [exact P|eapply Hr; eassumption]. Qed.

Lemma taken_other : forall h new h1 j, taken h new h1 -> j <> new -> uv h1 j = uv h j.
Proof.
  intros h new h1 j [[_ ->]|[op [r1 [_ [E Ok]]]]] Hj; [reflexivity|].
  destruct (v_remove_ok _ _ _ _ _ E Ok) as [_ [_ U]]. rewrite U, uv_link_remove.
  destruct (Nat.eqb_spec j new); [contradiction|reflexivity].
Qed.

Lemma taken_new : forall h new h1, taken h new h1 ->
  n_owned (nd h1 new) = false /\ n_ty (nd h1 new) = n_ty (nd h new) /\ n_odoc (nd h1 new) = n_odoc (nd h new) /\
  length h1 = length h.
Proof.
  intros h new h1 [[Ep ->]|[op [r1 [Ep [E Ok]]]]].
  - unfold parent in Ep. destruct (n_owned (nd h new)); [discriminate|auto].
  - destruct (v_remove_ok _ _ _ _ _ E Ok) as [_ [L U]]. pose proof (parent_in_heap _ _ _ Ep) as Hl.
    generalize (U new). rewrite uv_link_remove, Nat.eqb_refl. destruct (Nat.ltb_spec new (length h)); [|lia]. cbn [andb].
    unfold clr_par, uv, upf, vty, vodoc. rewrite Nat.eqb_refl. intros [= -> _ -> ->]. auto.
Qed.

Lemma link_insert_spec : forall h this new ref,
  length (link_insert h this new ref) = length h /\
  forall j, uv (link_insert h this new ref) j =
            if Nat.eqb j new && (new <? length h) then set_par (uv h) new this j else uv h j.
Proof.
  intros. unfold link_insert.
  set (h1 := upd (upd h new (set_owner this)) new (set_owned true)).
  assert (L1 : length h1 = length h) by (subst h1; rewrite !length_upd; reflexivity).
  assert (U1 : forall j, uv h1 j = if Nat.eqb j new && (new <? length h) then set_par (uv h) new this j else uv h j).
  { intros j. subst h1. rewrite uv_upd_gen, length_upd.
    destruct (Nat.eqb_spec j new) as [->|Hn]; cbn [andb].
    - destruct (Nat.ltb_spec new (length h)).
      + rewrite nd_upd_eq by lia. unfold set_par. rewrite Nat.eqb_refl. unfold uv, upf, vty, vodoc.
        destruct (nd h new); reflexivity.
      + rewrite upd_oob by lia. reflexivity.
    - rewrite uv_upd_gen. destruct (Nat.eqb_spec j new); [contradiction|]. reflexivity. }
  destruct (n_first (nd h1 this)) as [f|].
  - destruct ref as [r|].
    + destruct (Nat.eqb r f).
      * rewrite !length_upd. split; [assumption|]. intros j. uvs. apply U1.
      * destruct (n_prev (nd h1 r)); rewrite ?length_upd; (split; [assumption|]); intros j; uvs; apply U1.
    + destruct (n_prev (nd h1 f)); rewrite ?length_upd; (split; [assumption|]); intros j; uvs; apply U1.
  - rewrite !length_upd. split; [assumption|]. intros j. uvs. apply U1.
Qed.

Lemma tree_safe_srooted : forall h x f c, tree_safe h x (Some c) f = true -> exists k, srooted (uv h) x c k = true.
Proof.
  induction f as [|f IH]; intros c H; cbn in H.
  - destruct (Nat.eqb c x); discriminate.
  - destruct (Nat.eqb c x) eqn:E; [discriminate|].
    destruct (parent h c) as [p|] eqn:Ep.
    + destruct (IH p H) as [k Hk]. exists (S k). cbn [srooted]. rewrite E, vparent_uv, Ep. exact Hk.
    + exists 1. cbn [srooted]. rewrite E, vparent_uv, Ep. reflexivity.
Qed.

Lemma srooted_ext : forall v v' x k c, (forall j, j <> x -> v' j = v j) -> srooted v x c k = true -> srooted v' x c k = true.
Proof.
  induction k as [|k IH]; intros c E H; cbn in *; try discriminate.
  apply andb_prop in H. destruct H as [Hne H]. rewrite Hne. cbn [andb].
  assert (c <> x) by (intros ->; rewrite Nat.eqb_refl in Hne; discriminate).
  unfold vparent in *. rewrite (E c) by assumption. destruct (v c) as [[[t o] ow] d]. destruct ow; auto.
Qed.

Lemma srooted_ne : forall v x c k, srooted v x c k = true -> c <> x.
Proof. intros v x c [|k] H; cbn in H; [discriminate|]. intros ->. rewrite Nat.eqb_refl in H. discriminate. Qed.
Lemma tree_safe_ne : forall h new this f, tree_safe h new (Some this) f = true -> new <> this.
Proof. intros h new this f H ->. destruct f; cbn in H; rewrite Nat.eqb_refl in H; discriminate. Qed.

Lemma WFup_link_insert : forall h this new ref ks, WFup h -> this < length h ->
  srooted (uv h) new this ks = true ->
  (is_leaf (n_ty (nd h new)) = false -> n_odoc (nd h new) = n_odoc (nd h this)) -> n_ty (nd h new) <> TDoc ->
  WFup (link_insert h this new ref).
Proof.
  intros h this new ref ks W Ht Hs Ho Hd. destruct (link_insert_spec h this new ref) as [Ll U].
  destruct (Nat.ltb_spec new (length h)) as [Hn|Hn].
  - eapply (WFup_view h _ (set_par (uv h) new this)); [assumption| |].
    + intros j. rewrite U. rewrite andb_true_r. unfold set_par. destruct (Nat.eqb j new); reflexivity.
    + eapply WFv_set_par; [exact W|exact Ht|exact Hs|exact Ho|exact Hd].
  - eapply (WFup_view h _ (uv h)); [assumption| |exact W]. intros j. rewrite U, andb_false_r. reflexivity.
Qed.

Lemma move_loop_inv : forall (P : heap -> Prop) k insf h frag h' r,
  (forall h0 kid h1 r1, P h0 -> n_first (nd h0 frag) = Some kid -> insf h0 kid = (h1, r1) -> P h1) ->
  P h -> move_loop k insf h frag = (h', r) -> P h'.
Proof.
  induction k as [|k IH]; intros insf h frag h' r Hi P0; cbn.
  - intros [= <- _]; assumption.
  - destruct (n_first (nd h frag)) as [kid|] eqn:Ef; [|intros [= <- _]; assumption].
    destruct (insf h kid) as [h1 r1] eqn:E. pose proof (Hi _ _ _ _ P0 Ef E) as P1.
    destruct (is_err r1); [intros [= <- _]; assumption|]. apply IH; assumption.
Qed.

(** the ways out of DOMParentNode::insertBefore: refused, or nothing to do; the DocumentFragment loop; [new] is taken
    from its old parent and linked in.  Every exception of the last way is raised before the first link is touched
    (the only mutating call that can throw, oldparent->removeChild, throws before it mutates). *)
Lemma pins_body_cases : forall insf cf h this new ref h' r, pins_body insf cf h this new ref = (h', r) ->
  h' = h \/
  (n_ty (nd h new) = TFrag /\ exists r1, move_loop (S (length h)) insf h new = (h', r1)) \/
  (r = RNode new /\ oid_eqb (pub_odoc h new) (Some (n_odoc (nd h this))) = true /\
   (fix_self cf = true -> tree_safe h new (Some this) (length h) = true) /\
   (forall x, ref = Some x -> parent h x = Some this /\ x <> new) /\
   exists h1, taken h new h1 /\ h' = link_insert h1 this new ref).
Proof.
  intros insf cf h this new ref h' r. unfold pins_body.
  destruct (n_ro _); [intros [= <- _]; left; reflexivity|].
  destruct (oid_eqb (pub_odoc h new) _) eqn:Eo; cbn [negb]; [|intros [= <- _]; left; reflexivity].
  destruct (if fix_self cf then _ else _) eqn:Es; [intros [= <- _]; left; reflexivity|].
  destruct (match ref with Some r0 => _ | None => false end) eqn:Er; [intros [= <- _]; left; reflexivity|].
  destruct (oid_eqb ref (Some new)) eqn:Ern; [intros [= <- _]; left; reflexivity|].
  destruct (ntype_eqb (n_ty (nd h new)) TFrag) eqn:EF.
  { destruct (forallb _ _); [|intros [= <- _]; left; reflexivity].
    destruct (move_loop _ _ _ _) as [h1 r1] eqn:E. intros H. right; left. split.
    - destruct (n_ty (nd h new)); try discriminate EF; reflexivity.
    - exists r1. destruct (is_err r1); injection H as <- _; reflexivity. }
  destruct (kid_ok h this new); cbn [negb]; [|intros [= <- _]; left; reflexivity].
  assert (Hs : fix_self cf = true -> tree_safe h new (Some this) (length h) = true).
  { intros Hc. rewrite Hc in Es. destruct (tree_safe _ _ _ _); [reflexivity|discriminate Es]. }
  assert (Href : forall x, ref = Some x -> parent h x = Some this /\ x <> new).
  { intros x ->. split.
    - apply oid_eqb_eq. destruct (oid_eqb (parent h x) (Some this)); [reflexivity|discriminate Er].
    - intros ->. cbn in Ern. rewrite Nat.eqb_refl in Ern. discriminate. }
  destruct (parent h new) as [op|] eqn:Ep.
  - destruct (v_remove h op new) as [h1 r1] eqn:E1. destruct (is_err r1) eqn:Ee; intros [= <- <-].
    + left. destruct r1; try discriminate Ee. eapply v_remove_error_unchanged; exact E1.
    + right; right. refine (conj eq_refl (conj eq_refl (conj Hs (conj Href _)))).
      exists h1. split; [right; exists op, r1; auto|reflexivity].
  - intros [= <- <-]. right; right. refine (conj eq_refl (conj eq_refl (conj Hs (conj Href _)))).
    exists h. split; [left; auto|reflexivity].
Qed.

Lemma pub_odoc_facts : forall h new d, oid_eqb (pub_odoc h new) (Some d) = true ->
  n_ty (nd h new) <> TDoc /\ (is_leaf (n_ty (nd h new)) = false -> n_odoc (nd h new) = d).
Proof.
  intros h new d. unfold pub_odoc. destruct (n_ty (nd h new)) eqn:T; cbn [is_leaf oid_eqb]; intros H;
    try discriminate H; (split; [discriminate|]); intros Hl; try discriminate Hl; apply Nat.eqb_eq in H; assumption.
Qed.

(** the upward half of the last way out: the checks made on [h] still hold of [h1], which differs from [h] at [new] only *)
Lemma WFup_relink : forall h this new ref h1, WFup h1 -> this < length h ->
  oid_eqb (pub_odoc h new) (Some (n_odoc (nd h this))) = true -> tree_safe h new (Some this) (length h) = true ->
  taken h new h1 -> WFup (link_insert h1 this new ref).
Proof.
  intros h this new ref h1 W1 Ht Eo Es Tk.
  destruct (pub_odoc_facts _ _ _ Eo) as [Hd Hod]. destruct (tree_safe_srooted _ _ _ _ Es) as [ks Hks].
  destruct (taken_new _ _ _ Tk) as [_ [Vt [Vo L1]]].
  eapply WFup_link_insert with (ks := ks); [exact W1|lia| | |].
  - eapply srooted_ext; [|exact Hks]. intros j Hj. exact (taken_other _ _ _ j Tk Hj).
  - rewrite Vt, Vo. intros Hl. rewrite (Hod Hl).
    generalize (taken_other _ _ _ this Tk (srooted_ne _ _ _ _ Hks)). unfold uv, upf. intros [= _ _ _ ->]. reflexivity.
  - rewrite Vt. exact Hd.
Qed.

(** the virtual insertBefore: refused at once (a leaf type, or a Document that would get a second root element), or
    DOMParentNode::insertBefore, after which a Document records an element just inserted as its root *)
Lemma ins_cases : forall fuel cf h this new ref h' r, ins (S fuel) cf h this new ref = (h', r) ->
  h' = h \/
  exists h1, pins_body (fun h0 kid => ins fuel cf h0 this kid ref) cf h this new ref = (h1, r) /\
             (h' = h1 \/ is_err r = false /\ h' = upd h1 this (set_docel (Some new))).
Proof.
  intros fuel cf h this new ref h' r. cbn [ins].
  destruct (n_ty (nd h this)); try (intros [= <- _]; left; reflexivity); try (intros E; right; exists h'; split; [exact E|left; reflexivity]).
  destruct (_ && _ && _); [intros [= <- _]; left; reflexivity|].
  destruct (_ && _); [intros [= <- _]; left; reflexivity|].
  destruct (pins_body _ cf h this new ref) as [h1 r1] eqn:E. destruct (is_err r1) eqn:Er.
  - intros [= <- <-]. right. exists h1. auto.
  - destruct (ntype_eqb _ _); intros [= <- <-]; right; exists h1; auto.
Qed.

(** insertBefore for any invariant that survives a change of the Document's fDocElement, unlinking a child, and linking
    in a node that was taken from its parent after the checks.  [adm n k] says which node identities may come as newChild:
    any at all for the upward half, the nodes of the heap for the full invariant -- the first child of a DocumentFragment
    is admissible, which is what the loop over the fragment needs. *)
Section InsertBefore.
Variables (Inv : heap -> Prop) (adm : nat -> id -> Prop).
Hypothesis Inv_docel : forall h i v, Inv h -> Inv (upd h i (set_docel v)).
Hypothesis Inv_unlink : forall h this old, Inv h -> parent h old = Some this -> Inv (link_remove h this old).
Hypothesis adm_first : forall n h p k, sized Inv n h -> n_first (nd h p) = Some k -> adm n k.
Hypothesis Inv_relink : forall n h this new ref h1, sized Inv n h -> this < n -> adm n new ->
  oid_eqb (pub_odoc h new) (Some (n_odoc (nd h this))) = true -> tree_safe h new (Some this) (length h) = true ->
  (forall x, ref = Some x -> parent h x = Some this /\ x <> new) ->
  taken h new h1 -> sized Inv n h1 -> Inv (link_insert h1 this new ref).

Lemma pins_body_keeps : forall n insf h this new ref h' r,
  (forall h0 kid h1 r1, sized Inv n h0 -> adm n kid -> insf h0 kid = (h1, r1) -> sized Inv n h1) ->
  sized Inv n h -> this < n -> adm n new -> pins_body insf cfg_fixed h this new ref = (h', r) -> sized Inv n h'.
Proof.
  intros n insf h this new ref h' r Hi P Ht Hnew E.
  destruct (pins_body_cases _ _ _ _ _ _ _ _ E) as [->|[[_ [r1 El]]|[_ [Eo [Es [Href [h1 [Tk ->]]]]]]]].
  - exact P.
  - eapply move_loop_inv; [|exact P|exact El]. intros h0 kid h2 r2 P0 Hf. apply Hi; [exact P0|eapply adm_first; eassumption].
  - assert (P1 : sized Inv n h1).
    { eapply sized_taken; [|exact P|exact Tk]. intros; eapply (v_remove_keeps Inv Inv_docel Inv_unlink); eassumption. }
    split; [exact (Inv_relink n h this new ref h1 P Ht Hnew Eo (Es eq_refl) Href Tk P1)|].
    rewrite (proj1 (link_insert_spec _ _ _ _)). exact (proj2 P1).
Qed.

Lemma ins_keeps : forall n fuel h this new ref h' r,
  sized Inv n h -> this < n -> adm n new -> ins fuel cfg_fixed h this new ref = (h', r) -> sized Inv n h'.
Proof.
  induction fuel as [|fuel IH]; intros h this new ref h' r P Ht Hn E; [injection E as <- _; exact P|].
  destruct (ins_cases _ _ _ _ _ _ _ _ E) as [->|[h1 [E1 Hh]]]; [exact P|].
  assert (P1 : sized Inv n h1).
  { apply (pins_body_keeps n _ _ _ _ _ _ _ (fun h0 kid h2 r2 P0 Hk E0 => IH h0 this kid ref h2 r2 P0 Ht Hk E0) P Ht Hn E1). }
  destruct Hh as [->|[_ ->]]; [exact P1|]. destruct P1 as [W1 L1]. split; [apply Inv_docel; exact W1|rewrite length_upd; exact L1].
Qed.
End InsertBefore.

Lemma WFup_ins : forall n fuel h this new ref h' r,
  sized WFup n h -> this < n -> ins fuel cfg_fixed h this new ref = (h', r) -> sized WFup n h'.
Proof.
  intros n fuel h this new ref h' r P Ht. apply (ins_keeps WFup (fun _ _ => True)); auto.
  - (* Inv_docel *) intros; apply WFup_upd_pres; auto with upres.
  - (* Inv_unlink *) intros; apply WFup_link_remove; assumption.
  - (* Inv_relink *) intros m h0 t0 n0 ref0 h1 [_ L] Ht0 _ Eo Es _ Tk [W1 _]. apply WFup_relink with (h := h0); [exact W1|lia|exact Eo|exact Es|exact Tk].
Qed.

Lemma G_attr : forall h e f, WFup h -> G h (upd h e (set_attrs f)).
Proof. intros. split; [apply WFup_upd_pres; auto with upres|rewrite length_upd; lia]. Qed.

Lemma uv_alloc : forall h x j, uv (h ++ [x]) j = ext_view (uv h) (length h) (upf x) j.
Proof.
  intros. unfold uv, ext_view, nd. destruct (Nat.eqb_spec j (length h)) as [->|Hn].
  - rewrite nth_middle. reflexivity.
  - destruct (Nat.lt_ge_cases j (length h)).
    + rewrite app_nth1 by assumption. reflexivity.
    + rewrite !nth_overflow; [reflexivity|lia|rewrite app_length; cbn; lia].
Qed.

Lemma WFup_alloc : forall h x, WFup h -> n_owned x = false -> n_ty x <> TDoc -> WFup (h ++ [x]).
Proof.
  intros h x W Ho Ht.
  unfold WFup. rewrite app_length. cbn [length]. replace (length h + 1) with (S (length h)) by lia.
  eapply WFv_ext; [intros j; apply uv_alloc|].
  unfold upf. rewrite Ho. apply WFv_alloc; assumption.
Qed.

(** every operation, except the two that rebuild the VALUE of an attribute (setAttribute, and setNodeValue on an Attr):
    those release the attribute's children and append a fresh Text node *)
Definition covered (h : heap) (o : op) : bool :=
  match o with
  | OSetAttr _ _ _ => false
  | OSetData n _ => negb (ntype_eqb (n_ty (nd h n)) TAttr)
  | _ => true
  end.

Lemma WFup_init : forall n, WFup (init_heap n).
Proof.
  intros n. unfold WFup, init_heap. rewrite map_length, seq_length.
  assert (V : forall j, j < n -> uv (map doc_node (seq 0 n)) j = (TDoc, j, false, j)).
  { intros j Hj. unfold uv, nd. rewrite nth_indep with (d' := doc_node 0) by (rewrite map_length, seq_length; assumption).
    rewrite map_nth, seq_nth by assumption. reflexivity. }
  assert (P : forall j, j < n -> vparent (uv (map doc_node (seq 0 n))) j = None) by (intros j Hj; unfold vparent; rewrite V by assumption; reflexivity).
  split.
  - intros c p Hc Hp. rewrite P in Hp by assumption. discriminate.
  - intros c Hc. exists 1. cbn [rooted]. rewrite P by assumption. reflexivity.
  - intros c p Hc Hp. rewrite P in Hp by assumption. discriminate.
  - intros d Hd _. split; [unfold vodoc; rewrite V by assumption; reflexivity|apply P; assumption].
Qed.

Definition no_attr_value_op (o : op) : bool := match o with OSetAttr _ _ _ | OSetData _ _ => false | _ => true end.

Lemma WFup_parent_lt : forall h c p, WFup h -> parent h c = Some p -> p < length h.
Proof.
  intros h c p [V _ _ _] Hp. apply (V c p (parent_in_heap _ _ _ Hp)). rewrite vparent_uv. exact Hp.
Qed.

Lemma WFup_not_own_parent : forall h c, WFup h -> c < length h -> parent h c <> Some c.
Proof.
  intros h c [V A O D] Hc Hp. destruct (A c Hc) as [k Hk].
  assert (F : forall k, rooted (uv h) c k = false).
  { induction k0 as [|k0 IH]; cbn [rooted]; [reflexivity|]. rewrite vparent_uv, Hp. exact IH. }
  rewrite F in Hk. discriminate.
Qed.
