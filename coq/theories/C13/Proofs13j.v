(** C13 -- lemmas, part j: the full invariant [WFheap] under its primitive mutations: updates that touch no link,
    allocation, removeChild, insertBefore (DocumentFragments included); the initial heap. *)
From Coq Require Import NArith List Bool Arith Lia.
From XV Require Import C13.Ops13 C13.Model13 C13.Proofs13b C13.Proofs13d C13.Proofs13f C13.Proofs13h.
Import ListNotations.

Definition sib_pres (f : node -> node) := forall x, svn (f x) = svn x /\ n_first (f x) = n_first x.

Lemma WFsib_ext : forall h h' ks, length h' = length h -> (forall j, sv h' j = sv h j) -> (forall j, fv h' j = fv h j) ->
  WFsib h ks -> WFsib h' ks.
Proof.
  intros h h' ks L Es Ef W.
  assert (Eo : forall c, n_owner (nd h' c) = n_owner (nd h c) /\ n_owned (nd h' c) = n_owned (nd h c)).
  { intros c. exact (sv_own _ _ _ (Es c)). }
  split.
  - intros p Hp. rewrite L in Hp. apply sibs_frame with (h := h); [apply Ef|intros; apply Es|apply (s_sibs _ _ W); exact Hp].
  - intros p c Hc. rewrite L. apply (s_valid _ _ W); exact Hc.
  - apply (s_nodup _ _ W).
  - intros c Hc Ho. rewrite L in Hc. destruct (Eo c) as [E1 E2]. rewrite E1. rewrite E2 in Ho. apply (s_owned _ _ W); assumption.
  - intros c Hc Ho. rewrite L in Hc. destruct (Eo c) as [E1 E2]. rewrite E1, Es. rewrite E2 in Ho. apply (s_free _ _ W); assumption.
Qed.

Lemma sv_fv_upd_pres : forall h i f, sib_pres f -> (forall j, sv (upd h i f) j = sv h j) /\ (forall j, fv (upd h i f) j = fv h j).
Proof.
  intros h i f Hf. split; intros j; [apply (nd_upd_proj _ svn)|apply (nd_upd_proj _ n_first)]; intros x; apply Hf.
Qed.

Lemma WFheap_upd_pres : forall h i f, up_pres f -> sib_pres f -> WFheap h -> WFheap (upd h i f).
Proof.
  intros h i f Hu Hs [Wu [ks Ws]]. split; [apply WFup_upd_pres; assumption|]. exists ks.
  destruct (sv_fv_upd_pres h i f Hs). apply WFsib_ext with (h := h); auto. apply length_upd.
Qed.

Lemma sib_pres_docel v : sib_pres (set_docel v). Proof. intros []; split; reflexivity. Qed.
Lemma sib_pres_val v : sib_pres (set_val v). Proof. intros []; split; reflexivity. Qed.
Lemma sib_pres_attrs v : sib_pres (set_attrs v). Proof. intros []; split; reflexivity. Qed.
Lemma sib_pres_ro v : sib_pres (set_ro v). Proof. intros []; split; reflexivity. Qed.
Lemma sib_pres_name v : sib_pres (set_name v). Proof. intros []; split; reflexivity. Qed.
Lemma sib_pres_ns v : sib_pres (set_ns v). Proof. intros []; split; reflexivity. Qed.

Lemma sib_pres_oelem v : sib_pres (set_oelem v). Proof. intros []; split; reflexivity. Qed.
Lemma sib_pres_dead v : sib_pres (set_dead v). Proof. intros []; split; reflexivity. Qed.

Lemma sib_pres_udata v : sib_pres (set_udata v). Proof. intros []; split; reflexivity. Qed.
Lemma sib_pres_hasud v : sib_pres (set_hasud v). Proof. intros []; split; reflexivity. Qed.
Lemma sib_pres_isid v : sib_pres (set_isid v). Proof. intros []; split; reflexivity. Qed.
Lemma sib_pres_idtab v : sib_pres (set_idtab v). Proof. intros []; split; reflexivity. Qed.
Lemma sib_pres_idnum v : sib_pres (set_idnum v). Proof. intros []; split; reflexivity. Qed.
Lemma sib_pres_released : sib_pres set_released. Proof. intros []; split; reflexivity. Qed.

#[export] Hint Resolve sib_pres_docel sib_pres_val sib_pres_attrs sib_pres_ro sib_pres_name sib_pres_ns sib_pres_oelem
  sib_pres_dead sib_pres_udata sib_pres_hasud sib_pres_isid sib_pres_idtab sib_pres_idnum sib_pres_released : upres.

Lemma first_is_child : forall h ks p k, WFsib h ks -> n_first (nd h p) = Some k -> parent h k = Some p.
Proof.
  intros h ks p k W Hf. pose proof (s_sibs _ _ W p (first_some_lt _ _ _ Hf)) as Hs.
  pose proof (sibs_first _ _ _ Hs) as Hh. rewrite Hf in Hh.
  destruct (ks p) as [|f r] eqn:Ek; [discriminate Hh|]. injection Hh as <-.
  destruct (WFsib_member h ks p k W) as [Hw Ho]; [rewrite Ek; left; reflexivity|].
  unfold parent. rewrite Ho, Hw. reflexivity.
Qed.

Lemma WFheap_link_remove : forall h this old, WFheap h ->
  parent h old = Some this \/ n_first (nd h this) = Some old -> WFheap (link_remove h this old).
Proof.
  intros h this old [Wu [ks Ws]] Hc. split; [apply WFup_link_remove; exact Wu|].
  assert (Hp : parent h old = Some this) by (destruct Hc as [Hp|Hf]; [exact Hp|eapply first_is_child; eassumption]).
  destruct (parent_owned _ _ _ Hp) as [Ho [Hw Hl]].
  eexists. apply WFsib_link_remove; try eassumption. eapply WFup_parent_lt; eassumption.
Qed.

Lemma WFheap_ins : forall n fuel h this new ref h' r,
  sized WFheap n h -> this < n -> new < n -> ins fuel cfg_fixed h this new ref = (h', r) -> sized WFheap n h'.
Proof.
  intros n fuel h this new ref h' r P Ht Hn. apply (ins_keeps WFheap (fun m k => k < m)); auto.
  - (* Inv_docel *) intros; apply WFheap_upd_pres; auto with upres.
  - (* Inv_unlink *) intros; apply WFheap_link_remove; auto.
  - (* adm_first *) intros m h0 p k [[_ [ks Ws]] <-] Hf. exact (parent_in_heap _ _ _ (first_is_child _ _ _ _ Ws Hf)).
  - (* Inv_relink *) intros m h0 t0 n0 ref0 h1 [_ L] Ht0 Hn0 Eo Es Href Tk [[Wu1 [ks1 Ws1]] L1].
    destruct (taken_new _ _ _ Tk) as [Hfree _]. split.
    + apply WFup_relink with (h := h0); [exact Wu1|lia|exact Eo|exact Es|exact Tk].
    + eexists. apply WFsib_link_insert; [exact Ws1|lia|lia|exact (tree_safe_ne _ _ _ _ Es)|exact Hfree|].
      (* the reference child is still a child of this *)
      intros x Hx. destruct (Href x Hx) as [Hpx Hxn]. destruct (parent_owned _ _ _ Hpx) as [Hxo [Hxw Hxl]].
      destruct (own_of_uv _ _ _ (taken_other _ _ _ x Tk Hxn)) as [V1 V2].
      rewrite <- Hxw, <- V1. apply (s_owned _ _ Ws1); [lia|congruence].
Qed.

Lemma ks_beyond : forall h ks p, WFsib h ks -> length h <= p -> ks p = [].
Proof.
  intros h ks p W Hp. destruct (ks p) as [|c l] eqn:E; [reflexivity|].
  destruct (s_valid _ _ W p c) as [_ H]; [rewrite E; left; reflexivity|lia].
Qed.

Definition unlinked (x : node) : Prop :=
  n_owned x = false /\ n_first x = None /\ n_next x = None /\ n_prev x = None /\ n_isfirst x = false.

Lemma WFheap_alloc : forall h x, WFheap h -> unlinked x -> n_ty x <> TDoc -> WFheap (h ++ [x]).
Proof.
  intros h x [Wu [ks Ws]] [Ho [Hf [Hnx [Hpv Hif]]]] Ht.
  assert (Ll : length (h ++ [x]) = S (length h)) by (rewrite app_length; cbn; lia).
  split; [apply WFup_alloc; assumption|]. exists ks.
  pose proof (nd_alloc_old h x) as Nd. pose proof (nd_alloc_new h x) as Nn.
  split.
  - intros p Hp. rewrite Ll in Hp. destruct (Nat.eq_dec p (length h)) as [->|Hne].
    + rewrite (ks_beyond _ _ _ Ws (le_n _)). cbn. unfold fv. rewrite Nn. exact Hf.
    + assert (Hpl : p < length h) by lia.
      apply sibs_frame with (h := h); [unfold fv; rewrite Nd by exact Hpl; reflexivity| |apply (s_sibs _ _ Ws); exact Hpl].
      intros c Hc. unfold sv. rewrite Nd; [reflexivity|]. apply (s_valid _ _ Ws p c Hc).
  - intros p c Hc. destruct (s_valid _ _ Ws p c Hc). rewrite Ll. lia.
  - apply (s_nodup _ _ Ws).
  - intros c Hc Hoc. rewrite Ll in Hc. destruct (Nat.eq_dec c (length h)) as [->|Hne].
    + rewrite Nn in Hoc. congruence.
    + assert (Hcl : c < length h) by lia. rewrite Nd in * by exact Hcl. apply (s_owned _ _ Ws); assumption.
  - intros c Hc Hoc. rewrite Ll in Hc. destruct (Nat.eq_dec c (length h)) as [->|Hne].
    + unfold sv. rewrite Nn. unfold svn. rewrite Ho, Hnx, Hpv, Hif. reflexivity.
    + assert (Hcl : c < length h) by lia. unfold sv. rewrite Nd in * by exact Hcl. apply (s_free _ _ Ws); assumption.
Qed.

Definition link_op (o : op) : bool :=
  match o with
  | OClone _ _ | ONormalize _ | OSplitText _ _ | ORename _ _ _ _ | OSetAttr _ _ _ | ORemoveAttr _ _ => false
  | _ => true
  end.

Lemma WFheap_init : forall n, WFheap (init_heap n).
Proof.
  intros n. split; [apply WFup_init|]. exists (fun _ => []).
  assert (Nd : forall j, nd (init_heap n) j = doc_node j \/ nd (init_heap n) j = dummy).
  { intros j. unfold init_heap, nd. destruct (Nat.lt_ge_cases j n) as [Hj|Hj].
    - left. rewrite nth_indep with (d' := doc_node 0) by (rewrite map_length, seq_length; assumption).
      rewrite map_nth, seq_nth by assumption. reflexivity.
    - right. apply nth_overflow. rewrite map_length, seq_length. assumption. }
  split.
  - intros p _. cbn. unfold fv. destruct (Nd p) as [-> | ->]; reflexivity.
  - intros p c [].
  - intros p. constructor.
  - intros c _ Ho. destruct (Nd c) as [E|E]; rewrite E in Ho; discriminate.
  - intros c _ _. unfold sv. destruct (Nd c) as [-> | ->]; reflexivity.
Qed.
