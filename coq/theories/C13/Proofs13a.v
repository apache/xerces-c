(** C13 -- the concrete operation sequences of the finite theorems (table tie, defect witnesses). *)
From Coq Require Import NArith List.
From XV Require Import C13.Ops13 C13.Model13.
Import ListNotations.

Definition all_types : list ntype := [TElem; TText; TCData; TERef; TPI; TComment; TDoc; TFrag].

Definition A : str := [97%N].
Definition X : str := [120%N].
(** witness of F18: one document, one element e, e.appendChild(e) *)
Definition w_self : list op := [OCreate 0 TElem A []; OAppend 1 1].
(** witness of F26: the clone of a first child appended behind it *)
Definition w_cloneflag : list op :=
  [OCreate 0 TElem A []; OCreate 0 TText [] X; OAppend 1 2; OClone 2 false; OAppend 1 3].
(** witness of F27: a fragment holding two elements appended to an empty document *)
Definition w_fragdoc : list op :=
  [OCreate 0 TFrag [] []; OCreate 0 TElem A []; OCreate 0 TElem A []; OAppend 1 2; OAppend 1 3; OAppend 0 1].

(** /repo before the C13-fragment-into-document, -replace-self-docelem, -normalize-empty-text, -rename-name-check,
    -setattrnode-idmap and -setidattrnode-identity patches: F18 and F26 repaired, the later switches as found *)
Definition cfg_head : cfg := mkCfg true true false false false false false false.
