(** C13 -- lemmas, part f: the sibling-chain half of well-formedness.  Definitions ([sibs], [WFsib], [WFheap]) and the
    list-level lemmas about doubly linked child chains: frame, the two neighbours of a cut, insertion behind a prefix,
    removal. *)
From Coq Require Import NArith List Bool Arith Lia.
From XV Require Import C13.Ops13 C13.Model13 C13.Proofs13b.
Import ListNotations.

(** what the sibling invariants read of a node: fOwnerNode, OWNED, nextSibling, previousSibling, FIRSTCHILD *)
Definition sview := (id * bool * option id * option id * bool)%type.
Definition svn (x : node) : sview := (n_owner x, n_owned x, n_next x, n_prev x, n_isfirst x).
Definition sv (h : heap) (j : id) : sview := svn (nd h j).
Definition fv (h : heap) (j : id) : option id := n_first (nd h j).
Definition set_nx (s : sview) (v : option id) : sview := let '(o, ow, _, pv, f) := s in (o, ow, v, pv, f).
Definition set_pv (s : sview) (v : option id) : sview := let '(o, ow, nx, _, f) := s in (o, ow, nx, v, f).

(** the pointer surgery common to removeChild and insertBefore behind the first child: the nextSibling of [pv] is
    redirected to [nx], the previousSibling of [tgt] to [pv']; [c] is the node that leaves or enters, every other node
    keeps its view *)
Definition spliced (h h' : heap) (c pv tgt : id) (nx pv' : option id) : Prop :=
  forall x, x <> c -> sv h' x =
    (let s := if Nat.eqb x pv then set_nx (sv h x) nx else sv h x in if Nat.eqb x tgt then set_pv s pv' else s).

(** [dl h p c r]: the nodes of [r] follow [c] in the child chain of [p]: each is owned by p, points forward to its
    successor and back to its predecessor, and is not flagged first child *)
Fixpoint dl (h : heap) (p c : id) (r : list id) : Prop :=
  match r with
  | [] => True
  | d :: r' => sv h d = (p, true, hd_error r', Some c, false) /\ dl h p d r'
  end.
(** the child chain of p is exactly [cs]: fFirstChild is the head, the head is flagged and its previousSibling is
    the LAST child (circular), the rest is doubly linked *)
Definition sibs (h : heap) (p : id) (cs : list id) : Prop :=
  match cs with
  | [] => fv h p = None
  | f :: r => fv h p = Some f /\ sv h f = (p, true, hd_error r, Some (last r f), true) /\ dl h p f r
  end.

Record WFsib (h : heap) (ks : id -> list id) : Prop := {
  s_sibs : forall p, p < length h -> sibs h p (ks p);
  s_valid : forall p c, In c (ks p) -> c < length h /\ p < length h;
  s_nodup : forall p, NoDup (ks p);
  s_owned : forall c, c < length h -> n_owned (nd h c) = true -> In c (ks (n_owner (nd h c)));
  s_free : forall c, c < length h -> n_owned (nd h c) = false -> sv h c = (n_owner (nd h c), false, None, None, false)
}.

(** the full invariant of the property's first clause *)
Definition WFheap (h : heap) : Prop := WFup h /\ exists ks, WFsib h ks.

Lemma last_cons : forall (r : list id) d c, last (d :: r) c = last r d.
Proof. induction r as [|x r IH]; intros d c; [reflexivity|]. change (last (d :: x :: r) c) with (last (x :: r) c). rewrite (IH x c), (IH x d). reflexivity. Qed.

Lemma last_in : forall (r : list id) c, r <> [] -> In (last r c) r.
Proof.
  induction r as [|x r IH]; intros c H; [contradiction|]. destruct r as [|y r]; [left; reflexivity|].
  right. change (last (x :: y :: r) c) with (last (y :: r) c). apply IH. discriminate.
Qed.

Lemma last_app : forall (a b : list id) c, last (a ++ b) c = last b (last a c).
Proof.
  induction a as [|x a IH]; intros b c; [reflexivity|]. rewrite last_cons. cbn [app].
  destruct (a ++ b) eqn:E; [destruct a, b; try discriminate; reflexivity|]. rewrite <- E, last_cons. apply IH.
Qed.

Lemma NoDup_app_disj : forall (a b : list id) x, NoDup (a ++ b) -> In x a -> In x b -> False.
Proof.
  induction a as [|y a IH]; intros b x ND Ha Hb; [contradiction|]. inversion ND as [|? ? Hy NDa]; subst.
  destruct Ha as [->|Ha]; [apply Hy; apply in_or_app; right; exact Hb|exact (IH b x NDa Ha Hb)].
Qed.

(** the two neighbours of a cut [r1 | r2] in the child list [f :: r1 ++ r2]: the node in front of the cut and the node
    whose previousSibling reaches across it (the head of [r2]; the first child, circularly, when [r2] is empty) *)
Lemma cut_ends : forall (f : id) r1 r2, NoDup (f :: r1 ++ r2) ->
  let pv := last r1 f in
  let tgt := match hd_error r2 with Some d => d | None => f end in
  In pv (f :: r1 ++ r2) /\ In tgt (f :: r1 ++ r2) /\
  Nat.eqb f pv = (match r1 with [] => true | _ => false end) /\
  Nat.eqb f tgt = (match r2 with [] => true | _ => false end) /\
  (r1 <> [] \/ r2 <> [] -> pv <> tgt) /\
  (forall y, In y (r1 ++ r2) -> y = tgt -> hd_error r2 = Some y).
Proof.
  intros f r1 r2 ND. cbv zeta. inversion ND as [|? ? Hf NDr]; subst.
  assert (Hf1 : forall x, In x r1 -> x <> f) by (intros x Hx ->; apply Hf; apply in_or_app; left; exact Hx).
  assert (Hf2 : forall x, In x r2 -> x <> f) by (intros x Hx ->; apply Hf; apply in_or_app; right; exact Hx).
  assert (Hp : r1 = [] /\ last r1 f = f \/ r1 <> [] /\ In (last r1 f) r1).
  { destruct r1 as [|e r1]; [left; auto|right; split; [discriminate|apply last_in; discriminate]]. }
  (* for either shape of [r2], in the order of the statement: [pv] is in the list, [tgt] is in the list, [f] is [pv] iff
     [r1] is empty; the bullets then do: [f] is [tgt] iff [r2] is empty, [pv <> tgt], and the last conjunct *)
  destruct r2 as [|d t]; cbn [hd_error]; (split; [destruct Hp as [[_ ->]|[_ Hp]]; [left; reflexivity|right; apply in_or_app; left; exact Hp]|]);
    (split; [first [left; reflexivity|right; apply in_or_app; right; left; reflexivity]|]);
    (split; [destruct Hp as [[-> ->]|[Hne Hp]]; [apply Nat.eqb_refl|destruct r1; [contradiction|]; apply Nat.eqb_neq; intros E; exact (Hf1 _ Hp (eq_sym E))]|]).
  - split; [apply Nat.eqb_refl|]. split.
    + intros [Hne|Hne] E; [|contradiction]. destruct Hp as [[E1 _]|[_ Hp]]; [contradiction|exact (Hf1 _ Hp E)].
    + intros y Hy ->. rewrite app_nil_r in Hy. exfalso. exact (Hf1 f Hy eq_refl).
  - split; [apply Nat.eqb_neq; intros E; exact (Hf2 d (or_introl eq_refl) (eq_sym E))|]. split.
    + intros _ E. destruct Hp as [[_ Ep]|[_ Hp]].
      * apply (Hf2 d (or_introl eq_refl)). congruence.
      * apply (NoDup_app_disj r1 (d :: t) d NDr); [rewrite <- E; exact Hp|left; reflexivity].
    + intros y _ ->. reflexivity.
Qed.

Lemma dl_frame : forall h h' p r c, (forall x, In x r -> sv h' x = sv h x) -> dl h p c r -> dl h' p c r.
Proof.
  induction r as [|d r IH]; intros c E H; [exact I|]. destruct H as [H1 H2]. split.
  - rewrite E by (left; reflexivity). exact H1.
  - apply IH; [|exact H2]. intros x Hx. apply E. right; exact Hx.
Qed.

Lemma dl_sv : forall h p r c x, dl h p c r -> In x r -> exists nx pv, sv h x = (p, true, nx, Some pv, false).
Proof.
  induction r as [|d r IH]; intros c x H Hx; [contradiction|]. destruct H as [H1 H2]. destruct Hx as [<-|Hx].
  - eauto.
  - eapply IH; eauto.
Qed.

(** insert [n] behind [r1]: in front of the head of [r2], or at the end *)
Lemma dl_insert : forall h h' p n r2 r1 c,
  dl h p c (r1 ++ r2) -> NoDup (c :: r1 ++ r2) ->
  (forall x, In x (r1 ++ r2) -> x <> last r1 c -> Some x <> hd_error r2 -> sv h' x = sv h x) ->
  (r1 <> [] -> sv h' (last r1 c) = set_nx (sv h (last r1 c)) (Some n)) ->
  (forall d, hd_error r2 = Some d -> sv h' d = set_pv (sv h d) (Some n)) ->
  sv h' n = (p, true, hd_error r2, Some (last r1 c), false) ->
  dl h' p c (r1 ++ n :: r2).
Proof.
  induction r1 as [|d r1 IH]; intros c H ND Ho Hl Hd Hn.
  - cbn [app last] in *. split; [exact Hn|]. destruct r2 as [|e r2]; [exact I|]. destruct H as [H1 H2]. split.
    + rewrite (Hd e eq_refl), H1. reflexivity.
    + eapply dl_frame; [|exact H2]. intros x Hx. apply Ho.
      * right; exact Hx.
      * intros ->. inversion ND as [|? ? Hnin _]. apply Hnin. right; exact Hx.
      * cbn [hd_error]. intros [= ->]. inversion ND as [|? ? _ ND1]. inversion ND1 as [|? ? Hnin _]. contradiction.
  - cbn [app] in *. destruct H as [H1 H2]. rewrite last_cons in *.
    assert (NDr : NoDup (d :: r1 ++ r2)) by (inversion ND; assumption).
    cbn [dl]. split.
    + destruct r1 as [|e r1].
      * cbn [last app hd_error] in *. rewrite Hl by discriminate. rewrite H1. reflexivity.
      * rewrite Ho.
        -- exact H1.
        -- left; reflexivity.
        -- intros E. inversion NDr as [|? ? Hnin _]. apply Hnin. apply (in_or_app (e :: r1) r2). left. rewrite E. apply last_in. discriminate.
        -- intros E. inversion NDr as [|? ? Hnin _]. apply Hnin. apply (in_or_app (e :: r1) r2). right.
           destruct r2 as [|y r2]; [discriminate|]. cbn in E. injection E as ->. left; reflexivity.
    + apply IH; try assumption.
      * intros x Hx H1' H2'. apply Ho; [right; exact Hx|exact H1'|exact H2'].
      * intros Hne. apply Hl. discriminate.
Qed.

(** remove [old] somewhere behind [c] *)
Lemma dl_remove : forall h h' p old r2 r1 c,
  dl h p c (r1 ++ old :: r2) -> NoDup (c :: r1 ++ old :: r2) ->
  (forall x, In x (r1 ++ r2) -> x <> last r1 c -> Some x <> hd_error r2 -> sv h' x = sv h x) ->
  (r1 <> [] -> sv h' (last r1 c) = set_nx (sv h (last r1 c)) (hd_error r2)) ->
  (forall d, hd_error r2 = Some d -> sv h' d = set_pv (sv h d) (Some (last r1 c))) ->
  dl h' p c (r1 ++ r2).
Proof.
  induction r1 as [|d r1 IH]; intros c H ND Ho Hl Hd.
  - cbn [app] in *. destruct H as [H1 H2]. cbn [last] in *.
    destruct r2 as [|e r2]; [exact I|]. destruct H2 as [H3 H4]. cbn [dl]. split.
    + rewrite (Hd e eq_refl), H3. reflexivity.
    + eapply dl_frame; [|exact H4]. intros x Hx. apply Ho.
      * right; exact Hx.
      * intros ->. inversion ND as [|? ? Hnin _]. apply Hnin. right. right. exact Hx.
      * cbn [hd_error]. intros [= ->]. inversion ND as [|? ? _ ND1]. inversion ND1 as [|? ? _ ND2]. inversion ND2 as [|? ? Hnin _]. contradiction.
  - cbn [app] in *. destruct H as [H1 H2]. rewrite last_cons in *.
    assert (NDr : NoDup (d :: r1 ++ old :: r2)) by (inversion ND; assumption).
    cbn [dl]. split.
    + destruct r1 as [|e r1].
      * cbn [last app hd_error] in *. rewrite Hl by discriminate. rewrite H1. reflexivity.
      * rewrite Ho.
        -- exact H1.
        -- left; reflexivity.
        -- intros E. inversion NDr as [|? ? Hnin _]. apply Hnin. apply (in_or_app (e :: r1) (old :: r2)). left. rewrite E. apply last_in. discriminate.
        -- intros E. inversion NDr as [|? ? Hnin _]. apply Hnin. apply (in_or_app (e :: r1) (old :: r2)). right. right.
           destruct r2 as [|y r2]; [discriminate|]. cbn in E. injection E as ->. left; reflexivity.
    + apply IH; try assumption.
      * intros x Hx H1' H2'. apply Ho; [right; exact Hx|exact H1'|exact H2'].
      * intros Hne. apply Hl. discriminate.
Qed.

(** what a splice at the cut [r1 | r2] of the child list [f :: r1 ++ r2] means for the nodes of the list *)
Lemma spliced_views : forall h h' f r1 r2 c nx pv',
  NoDup (f :: r1 ++ r2) -> ~ In c (f :: r1 ++ r2) ->
  spliced h h' c (last r1 f) (match hd_error r2 with Some d => d | None => f end) nx pv' ->
  (forall x, x <> c -> ~ In x (f :: r1 ++ r2) -> sv h' x = sv h x) /\
  sv h' f = (let s := match r1 with [] => set_nx (sv h f) nx | _ => sv h f end in
             match r2 with [] => set_pv s pv' | _ => s end) /\
  (forall x, In x (r1 ++ r2) -> x <> last r1 f -> Some x <> hd_error r2 -> sv h' x = sv h x) /\
  (r1 <> [] -> sv h' (last r1 f) = set_nx (sv h (last r1 f)) nx) /\
  (forall d, hd_error r2 = Some d -> sv h' d = set_pv (sv h d) pv').
Proof.
  intros h h' f r1 r2 c nx pv' ND Hc F. unfold spliced in F. cbv zeta in F.
  destruct (cut_ends f r1 r2 ND) as [Hpm [Htm [Hfp [Hft [Hpt Hty]]]]].
  set (pv := last r1 f) in *. set (tgt := match hd_error r2 with Some d => d | None => f end) in *.
  assert (Hnc : forall y, In y (f :: r1 ++ r2) -> y <> c) by (intros y Hy ->; exact (Hc Hy)).
  split; [|split; [|split; [|split]]].
  - intros x Hx Hnin. rewrite F by exact Hx.
    destruct (Nat.eqb_spec x tgt) as [->|_]; [exfalso; exact (Hnin Htm)|].
    destruct (Nat.eqb_spec x pv) as [->|_]; [exfalso; exact (Hnin Hpm)|reflexivity].
  - rewrite F by (apply Hnc; left; reflexivity). rewrite Hfp, Hft. destruct r1, r2; reflexivity.
  - intros x Hx Hx1 Hx2. rewrite F by (apply Hnc; right; exact Hx).
    destruct (Nat.eqb_spec x pv); [contradiction|]. destruct (Nat.eqb_spec x tgt) as [E|_]; [|reflexivity].
    exfalso. apply Hx2. symmetry. exact (Hty x Hx E).
  - intros Hne. rewrite F by (apply Hnc; exact Hpm).
    destruct (Nat.eqb_spec pv tgt) as [E|_]; [exfalso; exact (Hpt (or_introl Hne) E)|]. rewrite Nat.eqb_refl. reflexivity.
  - intros d Hd. assert (Et : tgt = d) by (subst tgt; rewrite Hd; reflexivity). subst d.
    assert (Hr2 : r2 <> []) by (intros Er; rewrite Er in Hd; discriminate Hd).
    rewrite F by (apply Hnc; exact Htm). rewrite Nat.eqb_refl.
    destruct (Nat.eqb_spec tgt pv) as [E|_]; [exact (False_ind _ (Hpt (or_intror Hr2) (eq_sym E)))|reflexivity].
Qed.

(** the two list operations on the representation [sibs], for a cut behind the first child *)
Lemma sibs_insert : forall h h' p f r1 r2 n,
  sibs h p (f :: r1 ++ r2) -> NoDup (f :: r1 ++ r2) -> ~ In n (f :: r1 ++ r2) -> fv h' p = fv h p ->
  spliced h h' n (last r1 f) (match hd_error r2 with Some d => d | None => f end) (Some n) (Some n) ->
  sv h' n = (p, true, hd_error r2, Some (last r1 f), false) ->
  sibs h' p (f :: r1 ++ n :: r2) /\ (forall x, x <> n -> ~ In x (f :: r1 ++ r2) -> sv h' x = sv h x).
Proof.
  intros h h' p f r1 r2 n [Hf [Hsf Hd]] ND Hn Ef F3 F2.
  destruct (spliced_views _ _ _ _ _ _ _ _ ND Hn F3) as [S1 [S2 [S3 [S4 S5]]]].
  split; [|exact S1]. cbn [sibs]. split; [rewrite Ef; exact Hf|]. split.
  - rewrite S2, Hsf. rewrite !last_app.
    destruct r1 as [|e r1], r2 as [|d r2']; rewrite ?last_cons; cbn [app hd_error set_nx set_pv last]; reflexivity.
  - eapply dl_insert; [exact Hd|exact ND|exact S3|exact S4|exact S5|exact F2].
Qed.

Lemma sibs_remove : forall h h' p f r1 r2 old,
  sibs h p (f :: r1 ++ old :: r2) -> NoDup (f :: r1 ++ old :: r2) -> fv h' p = fv h p ->
  spliced h h' old (last r1 f) (match hd_error r2 with Some d => d | None => f end) (hd_error r2) (Some (last r1 f)) ->
  sibs h' p (f :: r1 ++ r2) /\ (forall x, x <> old -> ~ In x (f :: r1 ++ r2) -> sv h' x = sv h x).
Proof.
  intros h h' p f r1 r2 old [Hf [Hsf Hd]] ND Ef F3.
  pose proof (NoDup_remove_1 (f :: r1) r2 old ND) as ND'. pose proof (NoDup_remove_2 (f :: r1) r2 old ND) as Hor.
  destruct (spliced_views _ _ _ _ _ _ _ _ ND' Hor F3) as [S1 [S2 [S3 [S4 S5]]]].
  split; [|exact S1]. cbn [sibs]. split; [rewrite Ef; exact Hf|]. split.
  - rewrite S2, Hsf. rewrite !last_app.
    destruct r1 as [|e r1], r2 as [|d r2']; rewrite ?last_cons; cbn [app hd_error set_nx set_pv last]; reflexivity.
  - eapply dl_remove with (old := old); [exact Hd|exact ND|exact S3|exact S4|exact S5].
Qed.
