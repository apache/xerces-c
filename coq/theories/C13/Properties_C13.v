(** Property C13 -- DOM mutation keeps the tree well-formed and equal to a reference DOM.
    The property theorems, each followed by [Print Assumptions]; the Examples are witnesses and are not.  Model: Model13.v (heap with the implementation's link
    fields; the kidOK table and the numeric codes are regenerated from /repo on every run).  Spec: Spec13.v.
    The invariants and their preservation by the primitives and by every operation are in Proofs13b..m, the attribute
    vector in Proofs13n.  This file holds the theorems only. *)
From Coq Require Import NArith ZArith List Bool Arith Lia.
From XV Require Import Base.XDefs Gen.GenKidOK C13.Ops13 C13.Spec13 C13.Model13 C13.Abs13 C13.Proofs13a C13.Proofs13b C13.Proofs13d
  C13.Proofs13f C13.Proofs13h C13.Proofs13j C13.Proofs13l C13.Proofs13m C13.AttrMap13 C13.Proofs13n.
Import ListNotations.

(** tie to the source: the regenerated kidOK table is the DOM structure model *)
Theorem T13_kidok_table :
  forallb (fun p => forallb (fun c =>
     Bool.eqb (existsb (N.eqb (tcode c)) (lookupN (tcode p) gen_kidOK)) (allowed_child p c)) all_types) all_types = true.
Proof. vm_compute. reflexivity. Qed.
Print Assumptions T13_kidok_table.

(** DEFECT F18 on the model of the code as found: e.appendChild(e) succeeds and e becomes its own parent *)
Theorem T13_insert_self_refuted :
  let h := fst (run_cfg cfg_found (init_heap 1) w_self) in
  snd (run_cfg cfg_found (init_heap 1) w_self) = [RNode 1; RNode 1] /\ parent h 1 = Some 1.
Proof. vm_compute. split; reflexivity. Qed.
Print Assumptions T13_insert_self_refuted.

(** ... and the repaired model refuses it with HIERARCHY_REQUEST_ERR, heap unchanged *)
Theorem T13_insert_self_fixed :
  run_cfg cfg_fixed (init_heap 1) w_self =
  (fst (run_cfg cfg_fixed (init_heap 1) [OCreate 0 TElem A []]), [RNode 1; RErr HIERARCHY]).
Proof. vm_compute. reflexivity. Qed.
Print Assumptions T13_insert_self_fixed.

(** DEFECT F26 as found: the clone of a first child keeps the FIRSTCHILD flag; appended behind the original its
    previousSibling reads null although it is the second child *)
Theorem T13_clone_flag_refuted :
  let h := fst (run_cfg cfg_found (init_heap 1) w_cloneflag) in
  kids h 1 = [2; 3] /\ prev_sib h 3 = None.
Proof. vm_compute. split; reflexivity. Qed.
Print Assumptions T13_clone_flag_refuted.

Theorem T13_clone_flag_fixed :
  let h := fst (run_cfg cfg_fixed (init_heap 1) w_cloneflag) in
  kids h 1 = [2; 3] /\ prev_sib h 3 = Some 2.
Proof. vm_compute. split; reflexivity. Qed.
Print Assumptions T13_clone_flag_fixed.

(** KNOWN FINDING F27 (faithful model): a DocumentFragment holding two elements appended to a Document raises
    HIERARCHY_REQUEST_ERR after the first element was moved: exception AND changed tree; the reference DOM
    refuses the fragment as a whole *)
Theorem T13_fragment_into_document_refuted :
  let h0 := fst (run_cfg cfg_fixed (init_heap 1) (removelast w_fragdoc)) in
  let '(h1, r) := step_cfg cfg_head h0 (OAppend 0 1) in
  r = RErr HIERARCHY /\ kids h0 0 = [] /\ kids h1 0 = [2] /\ kids h1 1 = [3] /\
  sstep (abs h0) (OAppend 0 1) = (abs h0, RErr HIERARCHY).
Proof. vm_compute. repeat split; reflexivity. Qed.
Print Assumptions T13_fragment_into_document_refuted.

(** The upward half of well-formedness on its own (it needs no assumption on the sibling links),
    [WFup h] = every parent pointer is a live node (a node has at most one parent by construction: one fOwnerNode
    field) + acyclicity as a rank to the root (from every node the parent walk ends) + ownerDocument uniform
    (a non-leaf child carries its parent's fOwnerDocument, a Document owns itself and has no parent; leaf nodes read
    theirs through the parent), is preserved by every operation of the repaired model with ARBITRARY operands,
    whatever the result (value, exception or skip).  Unconditional thanks to the F18 repair.  The statement leaves out
    ([covered]) the two operations that rebuild the VALUE of an attribute node, setAttribute and setNodeValue on an Attr. *)
Theorem T13_wf_preserved_partial : forall h o h' r, WFup h -> covered h o = true -> step h o = (h', r) -> WFup h' /\ length h <= length h'.
Proof. intros h o h' r W Hc. exact (step_grows WFup WFup_closed h o h' r W (covered_named h o Hc)). Qed.
Print Assumptions T13_wf_preserved_partial.

Theorem T13_wf_reachable_partial : forall n l h rs, forallb no_attr_value_op l = true ->
  run_cfg cfg_fixed (init_heap n) l = (h, rs) -> WFup h.
Proof.
  intros n l h rs Hl E.
  exact (proj1 (run_grows WFup WFup_closed l _ _ _ (WFup_init n) (forallb_imp _ _ _ l no_attr_value_named Hl) E)).
Qed.
Print Assumptions T13_wf_reachable_partial.

(** in particular no operation sequence makes a node its own parent (contrast T13_insert_self_refuted) *)
Theorem T13_no_self_parent : forall n l h rs c, forallb no_attr_value_op l = true ->
  run_cfg cfg_fixed (init_heap n) l = (h, rs) -> c < length h -> parent h c <> Some c.
Proof. intros n l h rs c Hl E. apply WFup_not_own_parent. exact (T13_wf_reachable_partial n l h rs Hl E). Qed.
Print Assumptions T13_no_self_parent.

(** non-vacuity: a reachable heap with three levels, a moved subtree, a clone and a fragment insertion *)
Example T13_wf_nonvacuous :
  let l := [OCreate 0 TElem A []; OAppend 0 2; OCreate 0 TElem A []; OAppend 2 3; OCreate 0 TText [] X; OAppend 3 4;
            OClone 2 true; OCreate 0 TFrag [] []; OAppend 8 5; OAppend 3 8; OAppend 5 2] in
  let '(h, rs) := run_cfg cfg_fixed (init_heap 2) l in
  kids h 2 = [3] /\ kids h 3 = [4; 5] /\ last rs ROk = RErr HIERARCHY /\ WFup h.
Proof.
  cbv zeta. destruct (run_cfg _ _ _) as [h rs] eqn:E.
  assert (W : WFup h) by (eapply (T13_wf_reachable_partial 2); [|exact E]; reflexivity).
  vm_compute in E. injection E as <- <-. split; [|split; [|split]]; [vm_compute; reflexivity..|exact W].
Qed.

(** character data: INDEX_SIZE_ERR exactly when offset > length (insertData, deleteData, substringData;
    for splitText: whenever offset > length),
    offsets and counts being arbitrary 64-bit values *)
Theorem T13_chardata_index : forall h n off cnt s, n_ro (nd h n) = false ->
  (snd (cd_insert h n off s) = RErr INDEX_SIZE <-> (dlen h n < off)%N) /\
  (snd (cd_delete h n off cnt) = RErr INDEX_SIZE <-> (dlen h n < off)%N) /\
  (snd (cd_substring h n off cnt) = RErr INDEX_SIZE <-> (dlen h n < off)%N) /\
  ((dlen h n < off)%N -> forall cf, split_text cf h n off = (h, RErr INDEX_SIZE)).
Proof.
  intros h n off cnt s R. unfold cd_insert, cd_delete, cd_substring, split_text. rewrite R. cbv zeta.
  destruct (N.ltb_spec (dlen h n) off) as [L|L]; cbn [snd]; repeat split; intros; try reflexivity; try lia; discriminate.
Qed.
Print Assumptions T13_chardata_index.

Theorem T13_chardata_insert : forall h n off s, n < length h -> n_ro (nd h n) = false -> (off <= dlen h n)%N ->
  n_val (nd (fst (cd_insert h n off s)) n) =
  firstn (N.to_nat off) (n_val (nd h n)) ++ s ++ skipn (N.to_nat off) (n_val (nd h n)).
Proof.
  intros h n off s Hn R L. unfold cd_insert. rewrite R. cbv zeta. destruct (N.ltb_spec (dlen h n) off); [lia|].
  cbn [fst]. rewrite nd_upd_eq by assumption. reflexivity.
Qed.
Print Assumptions T13_chardata_insert.

(** deleteData with ANY 64-bit count (XMLSize_t arithmetic wraps, [wadd]): exactly the units from off up to
    min(off + cnt, length) go away -- a count beyond the end, even one for which off + cnt wraps around 2^64, means
    "to the end".  (Data of 2^63 units does not fit a 64-bit address space.) *)
Theorem T13_chardata_delete : forall h n off cnt, n < length h -> n_ro (nd h n) = false ->
  (off <= dlen h n)%N -> (cnt < w64)%N -> (2 * dlen h n < w64)%N ->
  n_val (nd (fst (cd_delete h n off cnt)) n) =
  firstn (N.to_nat off) (n_val (nd h n)) ++ skipn (N.to_nat (off + N.min cnt (dlen h n - off))) (n_val (nd h n)).
Proof. intros h n off cnt Hn R L _. apply cd_delete_value; assumption. Qed.
Print Assumptions T13_chardata_delete.

Example T13_chardata_delete_wraps :
  let h := fst (step (init_heap 1) (OCreate 0 TText [] [97; 98; 99; 100; 101; 102]%N)) in
  n_val (nd (fst (step h (ODeleteData 1 1 18446744073709551615))) 1) = [97%N].
Proof. vm_compute. reflexivity. Qed.

(** exceptions leave the heap unchanged -- proved for removeChild and setData, appendData, insertData, deleteData, substringData (which check
    before they mutate) and, below, for insertBefore without a fragment; for replaceChild/splitText/cloneNode/normalize/renameNode it is NOT proved (and it is false for
    a DocumentFragment moved into a Document, T13_fragment_into_document_refuted); the correspondence compares the full
    dump after every raising operation *)
Theorem T13_error_unchanged_partial : forall h p c n (off cnt : N) s h' e,
  (v_remove h p c = (h', RErr e) \/
   cd_set h n s = (h', RErr e) \/ cd_append h n s = (h', RErr e) \/ cd_insert h n off s = (h', RErr e) \/
   cd_delete h n off cnt = (h', RErr e) \/ cd_substring h n off cnt = (h', RErr e)) -> h' = h.
Proof.
  intros h p c n off cnt s h' e. unfold cd_set, cd_append, cd_insert, cd_substring, cd_delete.
  intros [H|[H|[H|[H|[H|H]]]]]; revert H; [apply v_remove_error_unchanged| | | | |];
    try (destruct (n_ro _); [intros [= <- _]; reflexivity|]); try discriminate;
    destruct (N.ltb _ _); try discriminate; intros [= <- _]; reflexivity.
Qed.
Print Assumptions T13_error_unchanged_partial.

(** the same for insertBefore / appendChild (any target incl. Document and Attr, any cfg) when newChild
    is not a DocumentFragment: a DOMException leaves the heap exactly as it was.  For a DocumentFragment newChild the
    claim is NOT proved (it needs the sibling-chain invariant to show that the move loop cannot fail once the pre-scan
    passed) and is false for a Document target (F27); the correspondence covers it with fragments whose children are
    illegal for the target at every position. *)
Theorem T13_insert_error_unchanged_partial : forall fuel cf h this new ref h' e,
  n_ty (nd h new) <> TFrag -> ins fuel cf h this new ref = (h', RErr e) -> h' = h.
Proof.
  intros [|fuel] cf h this new ref h' e T E; [injection E as <- _; reflexivity|].
  destruct (ins_cases _ _ _ _ _ _ _ _ E) as [->|[h1 [E1 [->|[Hr _]]]]]; [reflexivity| |discriminate Hr].
  destruct (pins_body_cases _ _ _ _ _ _ _ _ E1) as [->|[[Tf _]|[Hr _]]]; [reflexivity|contradiction|discriminate Hr].
Qed.
Print Assumptions T13_insert_error_unchanged_partial.

(** renameNode on the model: a Level-1 element in the middle of its siblings renamed into a namespace is replaced by a
    new node at the SAME position, which takes over children and attributes (the reference DOM agrees) *)
Example T13_rename_keeps_position :
  let l := [OCreate 0 TElem A []; OAppend 0 1; OCreate 0 TElem A []; OCreate 0 TElem X []; OCreate 0 TElem A [];
            OAppend 1 2; OAppend 1 3; OAppend 1 4; OCreate 0 TText [] X; OAppend 3 5; OSetAttr 3 A X;
            ORename 0 3 X [112; 58; 98]%N] in
  let '(h, rs) := run_cfg cfg_fixed (init_heap 1) l in
  kids h 1 = [2; 8; 4] /\ kids h 8 = [5] /\ kids h 3 = [] /\ n_attrs (nd h 8) = [6] /\ n_oelem (nd h 6) = Some 8 /\
  n_attrs (nd h 3) = [] /\
  abs h = fst (srun (sinit 1) l).
Proof. vm_compute. repeat split; reflexivity. Qed.

(** KNOWN FINDINGS F30 (faithful model, [cfg_head]) / F31 (also present in the repaired model: [step]) *)
Theorem T13_rename_unchecked_name_refuted :
  let h := fst (step (init_heap 1) (OCreate 0 TElem A [])) in
  snd (step_cfg cfg_head h (ORename 0 1 [] [49; 97]%N)) = RNode 1 /\ snd (sstep (abs h) (ORename 0 1 [] [49; 97]%N)) = RErr INVALID_CHAR.
Proof. vm_compute. split; reflexivity. Qed.
Print Assumptions T13_rename_unchecked_name_refuted.

Theorem T13_rename_ns_error_changes_name_refuted :
  let h := fst (run_cfg cfg_fixed (init_heap 1) [OCreate 0 TElem A []; ORename 0 1 X [112; 58; 98]%N]) in
  let '(h1, r) := step h (ORename 0 2 X [113; 58]%N) in
  r = RErr NAMESPACE /\ n_name (nd h 2) = [112; 58; 98]%N /\ n_name (nd h1 2) = [113; 58]%N.
Proof. vm_compute. repeat split; reflexivity. Qed.
Print Assumptions T13_rename_ns_error_changes_name_refuted.

(** The FULL invariant of the property's first clause.
    [WFheap h] = [WFup h] (above) + [exists ks, WFsib h ks] (Proofs13f.v): for every node p the child chain is a list
    ks p without repetition of live nodes such that fFirstChild is its head, every element is owned by p with OWNED set,
    nextSibling is the successor, previousSibling the predecessor, the head's previousSibling is the LAST child
    (circular), FIRSTCHILD is set on the head only; every OWNED node is in the chain of its owner; a node that is not
    OWNED has no siblings and no FIRSTCHILD flag.
    This statement leaves out cloneNode, normalize, splitText, renameNode, setAttribute, removeAttribute ([link_op]) and
    setNodeValue on an Attr ([covered]); T13_wf_preserved_all below has every operation. *)
Theorem T13_wf_preserved : forall h o h' r, WFheap h -> link_op o = true -> covered h o = true -> step h o = (h', r) ->
  WFheap h' /\ length h <= length h'.
Proof. intros h o h' r W _ Hc. exact (step_grows WFheap WFheap_closed h o h' r W (covered_named h o Hc)). Qed.
Print Assumptions T13_wf_preserved.

Theorem T13_wf_reachable : forall n l h rs, forallb (fun o => link_op o && no_attr_value_op o) l = true ->
  run_cfg cfg_fixed (init_heap n) l = (h, rs) -> WFheap h.
Proof.
  intros n l h rs Hl E. refine (proj1 (run_grows WFheap WFheap_closed l _ _ _ (WFheap_init n) (forallb_imp _ _ _ l _ Hl) E)).
  intros o Ho. apply andb_prop in Ho. apply no_attr_value_named. apply Ho.
Qed.
Print Assumptions T13_wf_reachable.

(** the two primitives on their own (used by every composite operation) *)
Theorem T13_link_remove_wf : forall h ks this old, WFsib h ks -> this < length h -> old < length h ->
  n_owned (nd h old) = true -> n_owner (nd h old) = this ->
  WFsib (link_remove h this old) (ks_set ks this (remove_id old (ks this))).
Proof. exact WFsib_link_remove. Qed.
Print Assumptions T13_link_remove_wf.

Theorem T13_link_insert_wf : forall h ks this new ref, WFsib h ks -> this < length h -> new < length h -> new <> this ->
  n_owned (nd h new) = false -> (forall r, ref = Some r -> In r (ks this)) ->
  WFsib (link_insert h this new ref) (ks_set ks this (insert_before ref new (ks this))).
Proof. exact WFsib_link_insert. Qed.
Print Assumptions T13_link_insert_wf.

(** the fuel of the model's firstChild/nextSibling walk suffices: [kids] is exactly the chain of the invariant, it lists
    exactly the nodes owned by p, and lastChild (= firstChild.previousSibling) is its last element.  Note that the new
    child lists of the two primitives are the reference DOM's [remove_id] / [insert_before] (Spec13), so these theorems
    are the link-level half of the refinement to the reference DOM. *)
Theorem T13_kids_exact : forall h ks p, WFsib h ks -> p < length h -> kids h p = ks p.
Proof.
  intros h ks p W Hp. unfold kids. pose proof (s_sibs _ _ W p Hp) as Hs.
  assert (Hl : length (ks p) <= length h).
  { apply nodup_bounded_length; [apply (s_nodup _ _ W)|]. intros x Hx. apply (s_valid _ _ W p x Hx). }
  destruct (ks p) as [|f r] eqn:Ek.
  - cbn in Hs. unfold fv in Hs. rewrite Hs. destruct (length h); reflexivity.
  - destruct Hs as [Hf [Hsf Hd]]. unfold fv in Hf. rewrite Hf.
    destruct (length h) as [|n] eqn:El; [cbn in Hl; lia|]. cbn [walk].
    rewrite (sv_next _ _ _ _ _ _ _ Hsf). f_equal.
    apply (walk_chain h p r f); [exact Hd|cbn in Hl; lia].
Qed.
Print Assumptions T13_kids_exact.

Theorem T13_kids_are_the_owned : forall h ks p c, WFsib h ks -> p < length h -> c < length h ->
  (In c (kids h p) <-> n_owned (nd h c) = true /\ n_owner (nd h c) = p).
Proof.
  intros h ks p c W Hp Hc. rewrite (T13_kids_exact h ks p W Hp). split.
  - intros Hin. destruct (WFsib_member _ _ _ _ W Hin). auto.
  - intros [Ho Hw]. rewrite <- Hw. apply (s_owned _ _ W); assumption.
Qed.
Print Assumptions T13_kids_are_the_owned.

Theorem T13_last_child : forall h ks p, WFsib h ks -> p < length h ->
  last_child h p = match kids h p with [] => None | f :: r => Some (last r f) end.
Proof.
  intros h ks p W Hp. rewrite (T13_kids_exact h ks p W Hp). pose proof (s_sibs _ _ W p Hp) as Hs. unfold last_child.
  destruct (ks p) as [|f r]; [exact (f_equal (fun o : option nat => match o with None => None | Some f0 => n_prev (nd h f0) end) Hs)|].
  destruct Hs as [Hf [Hsf _]]. unfold fv in Hf. rewrite Hf. exact (sv_prev _ _ _ _ _ _ _ Hsf).
Qed.
Print Assumptions T13_last_child.

(** non-vacuity: a heap with a fragment insertion, a replaceChild and a refused insertion, reachable by such operations *)
Example T13_wfheap_nonvacuous :
  let l := [OCreate 0 TElem A []; OAppend 0 2; OCreate 0 TElem A []; OAppend 2 3; OCreate 0 TText [] X; OAppend 3 4;
            OCreate 0 TFrag [] []; OCreate 0 TComment [] X; OAppend 5 6; OInsertBefore 3 5 (Some 4); OReplace 2 4 3; OAppend 4 2] in
  let '(h, rs) := run_cfg cfg_fixed (init_heap 2) l in
  kids h 2 = [4] /\ kids h 3 = [6] /\ last rs ROk = RErr HIERARCHY /\ WFheap h.
Proof.
  cbv zeta. destruct (run_cfg _ _ _) as [h rs] eqn:E.
  assert (W : WFheap h) by (eapply (T13_wf_reachable 2); [|exact E]; reflexivity).
  vm_compute in E. injection E as <- <-. split; [|split; [|split]]; [vm_compute; reflexivity..|exact W].
Qed.

(** removeAttributeNode(a) removes THAT node -- it succeeds only when a itself is in the
    element's attribute map (an attribute of the same name owned by another element or by nobody does not count),
    and otherwise raises NOT_FOUND_ERR (or NO_MODIFICATION_ALLOWED_ERR) with the heap unchanged.  The attribute map is
    modelled as the name-sorted vector of Attr node identities searched linearly (for the bisection of
    DOMAttrMapImpl::findNamePoint see T13_attrmap_find below). *)
Theorem T13_attr_node_identity : forall h e a h' r, remove_attribute_node h e a = (h', r) ->
  (r = RNode a /\ In a (n_attrs (nd h e))) \/ ((r = RErr NOT_FOUND \/ r = RErr NO_MOD) /\ h' = h).
Proof.
  intros h e a h' r. unfold remove_attribute_node.
  destruct (n_ro _); [intros [= <- <-]; right; auto|].
  destruct (if n_nsimpl (nd h a) then _ else _) as [f|] eqn:Ef; [|intros [= <- <-]; right; auto].
  destruct (Nat.eqb_spec f a) as [->|_]; [|intros [= <- <-]; right; auto].
  intros [= _ <-]. left. split; [reflexivity|].
  destruct (n_nsimpl (nd h a)); [eapply amap_find_ns_in|eapply amap_find_in]; exact Ef.
Qed.
Print Assumptions T13_attr_node_identity.

(** User data.  The model keeps the records of the document's (node, key) table with the node they belong to; node identity
    is creation order, so a node created after a release() is a NEW node even when the implementation recycles the storage.
    NOT proved: the frame over ALL operations ("user data of n changes only by setUserData on n, release, renameNode's
    transfer"); the correspondence compares getUserData for every (live node, key) pair after every operation. *)
Theorem T13_userdata_fresh : forall h d t nm v h' i key, create h d t nm v = (h', RNode i) ->
  n_udata (nd h' i) = [] /\ snd (get_user_data h' i key) = RData 0.
Proof.
  intros h d t nm v h' i key. unfold create, alloc, fresh, get_user_data.
  destruct (n_ty (nd h d)); try discriminate.
  destruct t; try discriminate; try (destruct (valid_name nm); [|discriminate]);
    intros [= <- <-]; rewrite nd_alloc_new; cbn; auto.
Qed.
Print Assumptions T13_userdata_fresh.

Theorem T13_userdata_set_get : forall h n key data hd, n < length h -> data <> 0%N ->
  snd (get_user_data (fst (set_user_data h n key data hd)) n key) = RData data.
Proof.
  intros h n key data hd Hn Hd. unfold set_user_data, get_user_data.
  destruct (N.eqb_spec data 0); [contradiction|]. cbn [andb fst snd].
  rewrite !nd_upd_eq by (rewrite ?length_upd; assumption). cbn. unfold str_eqb. rewrite str_cmp_refl. reflexivity.
Qed.
Print Assumptions T13_userdata_set_get.

Theorem T13_userdata_frame : forall h n key data hd m, m <> n ->
  n_udata (nd (fst (set_user_data h n key data hd)) m) = n_udata (nd h m) /\
  n_hasud (nd (fst (set_user_data h n key data hd)) m) = n_hasud (nd h m).
Proof.
  intros h n key data hd m Hm. unfold set_user_data.
  destruct (_ && _); [auto|]. destruct (N.eqb data 0); cbn [fst]; rewrite !nd_upd_ne by congruence; auto.
Qed.
Print Assumptions T13_userdata_frame.

(** The ID map (DOMNodeIDMap with its hash, probe sequence and deleted markers; growth not modelled): remove(attr) marks
    the slot holding THAT attribute and leaves every other entry -- in particular one of another attribute with the same
    value -- where it is. *)
Theorem T13_idmap_remove_identity : forall h a k, n_odoc (nd h a) < length h ->
  let d := n_odoc (nd h a) in
  tab_get (n_idtab (nd (id_remove h a) d)) k = tab_get (n_idtab (nd h d)) k \/
  (tab_get (n_idtab (nd h d)) k = Some (Some a) /\ tab_get (n_idtab (nd (id_remove h a) d)) k = Some None).
Proof. intros h a k _. apply id_remove_identity. Qed.
Print Assumptions T13_idmap_remove_identity.

(** non-vacuity + the duplicate-ID scenario on the model: two elements carry the ID "d"; un-registering the SECOND one
    leaves getElementById("d") on the first, un-registering the first moves it to the second *)
Example T13_duplicate_ids :
  let pre := [OCreate 0 TElem A []; OCreate 0 TElem X []; OSetAttr 1 A [100%N]; OSetAttr 2 A [100%N]; OSetIdAttr 1 A true; OSetIdAttr 2 A true] in
  snd (run_cfg cfg_fixed (init_heap 1) (pre ++ [ORemoveAttrNode 2 5; OGetById 0 [100%N]])) =
    [RNode 1; RNode 2; ROk; ROk; ROk; ROk; RNode 5; RNode 1] /\
  snd (run_cfg cfg_fixed (init_heap 1) (pre ++ [OSetIdAttr 1 A false; OGetById 0 [100%N]])) =
    [RNode 1; RNode 2; ROk; ROk; ROk; ROk; ROk; RNode 2].
Proof. vm_compute. split; reflexivity. Qed.

(** The FULL invariant [WFheap] for EVERY operation of the model (Proofs13m.v): also cloneNode
    (deep, with attributes), normalize, splitText, renameNode, setAttribute, removeAttribute and setNodeValue on an Attr,
    with ARBITRARY operands, whatever the result (value, exception, skip).  The only side condition is syntactic:
    setAttribute is not called with the EMPTY name ([named_attr_op]; createAttribute refuses it with
    INVALID_CHARACTER_ERR -- the model's by-name search could otherwise "find" an index outside the heap, because the
    invariant does not speak about the contents of attribute maps). *)
Theorem T13_wf_preserved_all : forall h o h' r, WFheap h -> named_attr_op o = true -> step h o = (h', r) ->
  WFheap h' /\ length h <= length h'.
Proof. exact (step_grows WFheap WFheap_closed). Qed.
Print Assumptions T13_wf_preserved_all.

Theorem T13_wf_reachable_all : forall n l h rs, forallb named_attr_op l = true ->
  run_cfg cfg_fixed (init_heap n) l = (h, rs) -> WFheap h.
Proof. intros n l h rs Hl E. exact (proj1 (run_grows WFheap WFheap_closed l _ _ _ (WFheap_init n) Hl E)). Qed.
Print Assumptions T13_wf_reachable_all.

(** non-vacuity: a history with clone, split, normalize, rename, setAttribute (twice: the value is rebuilt), removeAttribute *)
Example T13_wf_all_nonvacuous :
  let l := [OCreate 0 TElem A []; OAppend 0 1; OCreate 0 TText [] [97; 98; 99]%N; OAppend 1 2; OSplitText 2 1;
            OSetAttr 1 A X; OSetAttr 1 A A; OClone 1 true; ONormalize 1; ORename 0 1 X [112; 58; 98]%N; ORemoveAttr 12 A] in
  let '(h, rs) := run_cfg cfg_fixed (init_heap 1) l in
  nth 4 rs ROk = RNode 3 /\ kids h 12 = [2] /\ n_attrs (nd h 12) = [] /\ WFheap h.
Proof.
  cbv zeta. destruct (run_cfg _ _ _) as [h rs] eqn:E.
  assert (W : WFheap h) by (eapply T13_wf_reachable_all; [|exact E]; reflexivity).
  vm_compute in E. injection E as <- <-. split; [|split; [|split]]; [vm_compute; reflexivity..|exact W].
Qed.

(** DOMAttrMapImpl's name-sorted vector.  [find_name_point] (AttrMap13.v) is the bisection of
    DOMAttrMapImpl::findNamePoint(name) line by line (int arithmetic, the "if (first>i) i=first" epilogue, -1 - i encoding).
    The fuel of the model (size + 1 iterations) is never exhausted.  PARTIAL: sortedness is proved per update of one vector, not as an invariant of all operation
    histories (renameNode changes the name of a detached attribute; the heap invariant WFheap does not speak about
    attribute maps); the correspondence asks findNamePoint itself after every update (query fp). *)
Theorem T13_attrmap_bisect : forall h l nm, lsorted (names h l) -> fnp_ok h l nm (find_name_point h l nm).
Proof. intros h l nm S. apply find_name_point_ok. apply lsorted_name_at. exact S. Qed.
Print Assumptions T13_attrmap_bisect.

Theorem T13_attrmap_find : forall h l nm, lsorted (names h l) -> amap_find_bis h l nm = amap_find h l nm.
Proof. exact find_bis_eq. Qed.
Print Assumptions T13_attrmap_find.

Theorem T13_attrmap_put : forall h l a, lsorted (names h l) -> amap_put_bis h l a = amap_put h l a.
Proof. exact put_bis_eq. Qed.
Print Assumptions T13_attrmap_put.

Theorem T13_attrmap_sorted_partial : forall h l a, lsorted (names h l) ->
  lsorted (names h (amap_put h l a)) /\ lsorted (names h (amap_del l a)).
Proof. intros h l a S. split; [apply amap_put_sorted|apply amap_del_sorted]; exact S. Qed.
Print Assumptions T13_attrmap_sorted_partial.

Theorem T13_attrmap_unique : forall h l i j, lsorted (names h l) -> i < length l -> j < length l ->
  n_name (nd h (nth i l 0)) = n_name (nd h (nth j l 0)) -> i = j.
Proof. exact lsorted_unique. Qed.
Print Assumptions T13_attrmap_unique.

(** non-vacuity: sorted vectors of every size arise from the empty one by setNamedItem; and the bisection on a concrete
    element with five attributes inserted out of order (c, a, e, b, d): present names, absent names before / between / after *)
Example T13_attrmap_nonvacuous_sorted : forall h a b c, lsorted (names h (amap_put h (amap_put h (amap_put h [] a) b) c)).
Proof. intros. repeat apply amap_put_sorted. exact I. Qed.

Example T13_attrmap_nonvacuous :
  let nmc (c : N) : str := [c] in
  let l := [OCreate 0 TElem A []; OSetAttr 1 (nmc 99%N) X; OSetAttr 1 (nmc 97%N) X; OSetAttr 1 (nmc 101%N) X;
            OSetAttr 1 (nmc 98%N) X; OSetAttr 1 (nmc 100%N) X] in
  let h := fst (run_cfg cfg_fixed (init_heap 1) l) in
  n_attrs (nd h 1) = [4; 8; 2; 10; 6] /\
  map (find_name_point h (n_attrs (nd h 1))) [nmc 97%N; nmc 99%N; nmc 101%N; nmc 65%N; [98; 98]%N; nmc 122%N] = [0; 2; 4; -1; -3; -6]%Z /\
  map (fun q => amap_find_bis h (n_attrs (nd h 1)) q) [nmc 98%N; nmc 102%N] = [Some 8; None].
Proof. vm_compute. repeat split; reflexivity. Qed.
