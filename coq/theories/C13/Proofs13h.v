(** C13 -- lemmas, part h: the two pointer-level primitives link_remove and link_insert preserve the sibling-chain
    invariant [WFsib]; the new child list is the reference DOM's [remove_id] / [insert_before].  List facts and
    [WFsib_relist] first, then what each case of the C++ does to the sibling views, then one lemma per case. *)
From Coq Require Import NArith List Bool Arith Lia.
From XV Require Import C13.Ops13 C13.Spec13 C13.Model13 C13.Proofs13b C13.Proofs13d C13.Proofs13f.
Import ListNotations.

Definition ks_set (ks : id -> list id) (p : id) (l : list id) : id -> list id :=
  fun q => if Nat.eqb q p then l else ks q.

Lemma sv_fields : forall h x o ow nx pv f, sv h x = (o, ow, nx, pv, f) ->
  n_owner (nd h x) = o /\ n_owned (nd h x) = ow /\ n_next (nd h x) = nx /\ n_prev (nd h x) = pv /\ n_isfirst (nd h x) = f.
Proof. unfold sv, svn. intros h x o ow nx pv f [= -> -> -> -> ->]. auto. Qed.

Lemma sv_next : forall h x o ow nx pv f, sv h x = (o, ow, nx, pv, f) -> n_next (nd h x) = nx.
Proof. intros h x o ow nx pv f H. destruct (sv_fields _ _ _ _ _ _ _ H) as [_ [_ [E _]]]. exact E. Qed.
Lemma sv_prev : forall h x o ow nx pv f, sv h x = (o, ow, nx, pv, f) -> n_prev (nd h x) = pv.
Proof. intros h x o ow nx pv f H. destruct (sv_fields _ _ _ _ _ _ _ H) as [_ [_ [_ [E _]]]]. exact E. Qed.

Lemma sv_own : forall h h' x, sv h' x = sv h x ->
  n_owner (nd h' x) = n_owner (nd h x) /\ n_owned (nd h' x) = n_owned (nd h x).
Proof. intros h h' x. unfold sv, svn. intros [= -> -> _ _ _]. auto. Qed.

Lemma sibs_first : forall h p cs, sibs h p cs -> n_first (nd h p) = hd_error cs.
Proof. intros h p [|f r] H; [exact H|exact (proj1 H)]. Qed.

Lemma sibs_member : forall h p cs x, sibs h p cs -> In x cs -> n_owner (nd h x) = p /\ n_owned (nd h x) = true.
Proof.
  intros h p cs x H Hx. destruct cs as [|f r]; [contradiction|]. destruct H as [_ [Hf Hd]].
  destruct Hx as [<-|Hx].
  - destruct (sv_fields _ _ _ _ _ _ _ Hf) as [? [? _]]. auto.
  - destruct (dl_sv _ _ _ _ _ Hd Hx) as [nx [pv E]]. destruct (sv_fields _ _ _ _ _ _ _ E) as [? [? _]]. auto.
Qed.

Lemma WFsib_member : forall h ks p x, WFsib h ks -> In x (ks p) -> n_owner (nd h x) = p /\ n_owned (nd h x) = true.
Proof.
  intros h ks p x W Hx. destruct (s_valid _ _ W _ _ Hx) as [_ Hp]. eapply sibs_member; [apply (s_sibs _ _ W p Hp)|exact Hx].
Qed.

Lemma WFsib_disjoint : forall h ks p q x, WFsib h ks -> In x (ks p) -> In x (ks q) -> p = q.
Proof.
  intros h ks p q x W H1 H2. destruct (WFsib_member _ _ _ _ W H1). destruct (WFsib_member _ _ _ _ W H2). congruence.
Qed.

Lemma sibs_frame : forall h h' p cs, fv h' p = fv h p -> (forall x, In x cs -> sv h' x = sv h x) -> sibs h p cs -> sibs h' p cs.
Proof.
  intros h h' p cs Hf Hs H. destruct cs as [|f r]; cbn [sibs] in *; [congruence|].
  destruct H as [H1 [H2 H3]]. split; [congruence|]. split.
  - rewrite Hs by (left; reflexivity). exact H2.
  - eapply dl_frame; [|exact H3]. intros x Hx. apply Hs. right; exact Hx.
Qed.

Lemma dl_split_sv : forall h p x r2 r1 c, dl h p c (r1 ++ x :: r2) -> sv h x = (p, true, hd_error r2, Some (last r1 c), false).
Proof.
  induction r1 as [|d r1 IH]; intros c H.
  - destruct H as [H _]. exact H.
  - destruct H as [_ H]. rewrite last_cons. apply IH. exact H.
Qed.

Lemma walk_chain : forall h p r c fuel, dl h p c r -> length r <= fuel -> walk h (hd_error r) fuel = r.
Proof.
  induction r as [|d r IH]; intros c fuel H L.
  - destruct fuel; reflexivity.
  - destruct fuel as [|fuel]; [cbn in L; lia|]. destruct H as [H1 H2]. cbn [hd_error walk].
    rewrite (sv_next _ _ _ _ _ _ _ H1). f_equal. apply (IH d); [exact H2|cbn in L; lia].
Qed.

Lemma nodup_bounded_length : forall (l : list nat) n, NoDup l -> (forall x, In x l -> x < n) -> length l <= n.
Proof.
  intros l n ND H. rewrite <- (seq_length n 0). apply NoDup_incl_length; [exact ND|].
  intros x Hx. apply in_seq. specialize (H x Hx). lia.
Qed.

Lemma remove_id_head : forall c l, remove_id c (c :: l) = l.
Proof. intros. cbn. rewrite Nat.eqb_refl. reflexivity. Qed.
Lemma remove_id_split : forall c r1 r2, ~ In c r1 -> remove_id c (r1 ++ c :: r2) = r1 ++ r2.
Proof.
  induction r1 as [|x r1 IH]; intros r2 H; cbn [app].
  - apply remove_id_head.
  - cbn [remove_id]. destruct (Nat.eqb_spec x c) as [->|Hn]; [exfalso; apply H; left; reflexivity|].
    f_equal. apply IH. intros Hc. apply H. right; exact Hc.
Qed.
Lemma remove_id_in : forall c x l, In x (remove_id c l) -> In x l.
Proof.
  induction l as [|y l IH]; cbn; [auto|]. destruct (Nat.eqb y c); [auto|]. intros [->|H]; auto.
Qed.
Lemma remove_id_keeps : forall c x l, x <> c -> In x l -> In x (remove_id c l).
Proof.
  induction l as [|y l IH]; intros Hn H; [contradiction|]. cbn. destruct (Nat.eqb_spec y c) as [->|Hy].
  - destruct H as [->|H]; [contradiction|exact H].
  - destruct H as [->|H]; [left; reflexivity|right; apply IH; assumption].
Qed.
Lemma remove_id_nodup : forall c l, NoDup l -> NoDup (remove_id c l).
Proof.
  induction l as [|y l IH]; intros H; [constructor|]. inversion H as [|? ? Hn Hl]. cbn. destruct (Nat.eqb y c); [exact Hl|].
  constructor; [|apply IH; exact Hl]. intros Hc. apply Hn. eapply remove_id_in; exact Hc.
Qed.
Lemma insert_before_head : forall c f r, insert_before (Some f) c (f :: r) = c :: f :: r.
Proof. intros. cbn. rewrite Nat.eqb_refl. reflexivity. Qed.
Lemma insert_before_split : forall c x r1 r2, ~ In x r1 -> insert_before (Some x) c (r1 ++ x :: r2) = r1 ++ c :: x :: r2.
Proof.
  induction r1 as [|y r1 IH]; intros r2 H; cbn [app].
  - apply insert_before_head.
  - cbn [insert_before]. destruct (Nat.eqb_spec y x) as [->|_]; [exfalso; apply H; left; reflexivity|].
    f_equal. apply IH. intros Hc. apply H. right; exact Hc.
Qed.
Lemma insert_before_none : forall c l, insert_before None c l = l ++ [c].
Proof. intros c [|y l]; reflexivity. Qed.

Lemma insert_before_cut : forall c l1 l2, NoDup (l1 ++ l2) -> insert_before (hd_error l2) c (l1 ++ l2) = l1 ++ c :: l2.
Proof.
  intros c l1 [|x l2] ND; cbn [hd_error]; [rewrite insert_before_none, app_nil_r; reflexivity|].
  apply insert_before_split. apply NoDup_remove_2 in ND. intros Hc. apply ND. apply in_or_app. left; exact Hc.
Qed.
Lemma insert_before_inv : forall ref c l x, In x (insert_before ref c l) -> x = c \/ In x l.
Proof.
  intros [z|] c l x.
  - induction l as [|y l IH]; cbn [insert_before].
    + intros [->|[]]. left; reflexivity.
    + destruct (Nat.eqb y z).
      * intros [->|H]; [left; reflexivity|right; exact H].
      * intros [->|H]; [right; left; reflexivity|]. destruct (IH H); [left; assumption|right; right; assumption].
  - rewrite insert_before_none. intros H. apply in_app_or in H. destruct H as [H|[->|[]]]; [right; exact H|left; reflexivity].
Qed.
Lemma insert_before_new : forall ref c l, In c (insert_before ref c l).
Proof.
  intros [z|] c l.
  - induction l as [|y l IH]; cbn [insert_before]; [left; reflexivity|]. destruct (Nat.eqb y z); [left; reflexivity|right; exact IH].
  - rewrite insert_before_none. apply in_or_app. right. left. reflexivity.
Qed.
Lemma insert_before_old : forall ref c l x, In x l -> In x (insert_before ref c l).
Proof.
  intros [z|] c l x Hx.
  - induction l as [|y l IH]; [contradiction|]. cbn [insert_before]. destruct (Nat.eqb y z); [right; exact Hx|].
    destruct Hx as [->|Hx]; [left; reflexivity|right; apply IH; exact Hx].
  - rewrite insert_before_none. apply in_or_app. left; exact Hx.
Qed.
Lemma NoDup_snoc : forall (l : list nat) c, NoDup l -> ~ In c l -> NoDup (l ++ [c]).
Proof.
  induction l as [|y l IH]; intros c ND Hn; cbn; [constructor; [intros []|constructor]|].
  inversion ND as [|? ? Hy Hl]. constructor.
  - intros Hc. apply in_app_or in Hc. destruct Hc as [Hc|[->|[]]]; [contradiction|]. apply Hn. left; reflexivity.
  - apply IH; [exact Hl|]. intros Hc. apply Hn. right; exact Hc.
Qed.
Lemma insert_before_nodup : forall ref c l, NoDup l -> ~ In c l -> NoDup (insert_before ref c l).
Proof.
  intros [z|] c l ND Hn.
  - induction l as [|y l IH]; cbn [insert_before]; [constructor; [intros []|constructor]|].
    inversion ND as [|? ? Hy Hl]. destruct (Nat.eqb y z).
    + constructor; [exact Hn|exact ND].
    + constructor.
      * intros Hc. destruct (insert_before_inv _ _ _ _ Hc) as [->|Hc']; [apply Hn; left; reflexivity|contradiction].
      * apply IH; [exact Hl|]. intros Hc. apply Hn. right; exact Hc.
  - rewrite insert_before_none. apply NoDup_snoc; assumption.
Qed.

(** the child list of [this] becomes [l'], which differs from the old one by the node [c] only; no other node of the
    heap is touched *)
Definition relisted (h h' : heap) (ks : id -> list id) (this c : id) (l' : list id) : Prop :=
  (forall q, q <> this -> fv h' q = fv h q) /\
  (forall x, x <> c -> ~ In x (ks this) -> sv h' x = sv h x) /\
  sibs h' this l'.

Lemma WFsib_relist : forall h h' ks this c l',
  WFsib h ks -> length h' = length h -> this < length h -> c < length h ->
  (forall q, q <> this -> ~ In c (ks q)) ->
  relisted h h' ks this c l' -> NoDup l' ->
  (forall x, x <> c -> (In x l' <-> In x (ks this))) ->
  (* [c] has entered the list, or it has left it and its links are cleared *)
  In c l' \/ sv h' c = (n_owner (nd h' c), false, None, None, false) ->
  WFsib h' (ks_set ks this l').
Proof.
  intros h h' ks this c l' W Hlen Ht Hc Hcq [C1 [C3 C4]] ND Hmem Hcs.
  assert (Hown : forall x, x <> c -> n_owner (nd h' x) = n_owner (nd h x) /\ n_owned (nd h' x) = n_owned (nd h x)).
  { intros x Hx. destruct (in_dec Nat.eq_dec x (ks this)) as [Hin|Hnin].
    - destruct (WFsib_member _ _ _ _ W Hin) as [E1 E2].
      destruct (sibs_member _ _ _ x C4 (proj2 (Hmem x Hx) Hin)) as [E3 E4]. split; congruence.
    - exact (sv_own _ _ _ (C3 x Hx Hnin)). }
  split.
  - (* s_sibs *) intros q Hq. unfold ks_set. destruct (Nat.eqb_spec q this) as [->|Hne]; [exact C4|].
    apply sibs_frame with (h := h); [apply C1; exact Hne| |apply (s_sibs _ _ W); rewrite <- Hlen; exact Hq].
    intros x Hx. apply C3.
    + intros ->. exact (Hcq q Hne Hx).
    + intros Hx'. apply Hne. eapply WFsib_disjoint; eauto.
  - (* s_valid *) intros q x. unfold ks_set. rewrite Hlen. destruct (Nat.eqb_spec q this) as [->|Hne]; [|apply (s_valid _ _ W)].
    intros Hx. split; [|exact Ht]. destruct (Nat.eq_dec x c) as [->|Hxc]; [exact Hc|].
    apply (s_valid _ _ W this x). apply Hmem; assumption.
  - (* s_nodup *) intros q. unfold ks_set. destruct (Nat.eqb q this); [exact ND|apply (s_nodup _ _ W)].
  - (* s_owned *) intros x Hx Hox. rewrite Hlen in Hx. destruct (Nat.eq_dec x c) as [->|Hne].
    + destruct Hcs as [Hin|E]; [|unfold sv, svn in E; congruence].
      destruct (sibs_member _ _ _ _ C4 Hin) as [-> _]. unfold ks_set. rewrite Nat.eqb_refl. exact Hin.
    + destruct (Hown x Hne) as [E1 E2]. rewrite E1. rewrite E2 in Hox.
      pose proof (s_owned _ _ W x Hx Hox) as Hin'. unfold ks_set.
      destruct (Nat.eqb_spec (n_owner (nd h x)) this) as [E|_]; [|exact Hin'].
      rewrite E in Hin'. apply Hmem; assumption.
  - (* s_free *) intros x Hx Hox. rewrite Hlen in Hx. destruct (Nat.eq_dec x c) as [->|Hne].
    + destruct Hcs as [Hin|E]; [|exact E]. destruct (sibs_member _ _ _ _ C4 Hin). congruence.
    + destruct (Hown x Hne) as [E1 E2]. rewrite E1. rewrite E2 in Hox.
      rewrite C3; [apply (s_free _ _ W); assumption|exact Hne|].
      intros Hin'. destruct (WFsib_member _ _ _ _ W Hin'). congruence.
Qed.

Definition cleared (d : id) : sview := (d, false, None, None, false).

(** Each conclusion of the five lemmas below reads the view of a node [x] in a heap that is a chain of [upd]s over [h];
    every bullet does so in the same three steps.
    [through_upds] rewrites [nd (upd .. i f) x] to [(if i =? x then f else id) (nd .. x)] down to [nd h x] ([nd_upd_if];
    the bounds are hypotheses).
    [compare_nodes] settles each test [i =? x]: by the distinctness hypothesis that says so where there is one, by cases
    otherwise; what is left is the setters of exactly the updates that hit [x], applied to [nd h x].
    [views] unfolds the views; the setters build the record anew from projections, so the fields compute without a case
    analysis on the node, and congruence with the hypotheses about [h] closes the goal (an impossible case is closed
    before, by [try congruence]). *)
Ltac through_upds := repeat (rewrite nd_upd_if by (rewrite ?length_upd; assumption)).
Ltac compare_nodes := repeat match goal with
  | H : ?a <> ?b |- context [Nat.eqb ?a ?b] => rewrite (proj2 (Nat.eqb_neq a b) H)
  | H : ?a <> ?b |- context [Nat.eqb ?b ?a] => rewrite (proj2 (Nat.eqb_neq b a) (not_eq_sym H))
  | |- context [Nat.eqb ?a ?a] => rewrite (Nat.eqb_refl a)
  | |- context [Nat.eqb ?a ?b] => destruct (Nat.eqb_spec a b); subst
  end.
Ltac views := unfold sv, svn, fv, set_nx, set_pv, cleared;
  cbn [n_owner n_owned n_next n_prev n_isfirst n_first set_owner set_owned set_next set_prev set_isfirst set_first];
  try congruence.

Lemma link_remove_first : forall h this old,
  this < length h -> old < length h -> n_first (nd h this) = Some old ->
  (forall d, n_next (nd h old) = Some d -> d < length h /\ d <> old) ->
  let h' := link_remove h this old in
  (forall x, fv h' x = if Nat.eqb x this then n_next (nd h old) else fv h x) /\
  sv h' old = cleared (n_odoc (nd h this)) /\
  (forall d, n_next (nd h old) = Some d ->
     sv h' d = (let '(o, ow, nx, _, _) := sv h d in (o, ow, nx, n_prev (nd h old), true))) /\
  (forall x, x <> old -> Some x <> n_next (nd h old) -> sv h' x = sv h x).
Proof.
  intros h this old Ht Ho Hf Hd. cbv zeta. unfold link_remove. rewrite Hf. cbn [oid_eqb]. rewrite Nat.eqb_refl.
  destruct (n_next (nd h old)) as [d|] eqn:En.
  - destruct (Hd d eq_refl) as [Hdl Hdo].
    repeat split.
    + intros x. unfold fv. through_upds. compare_nodes; views.
    + unfold sv. through_upds. compare_nodes; try congruence; views.
    + intros d' [= <-]. unfold sv. through_upds. compare_nodes; try congruence; views.
    + intros x Hx Hx2. unfold sv. through_upds. compare_nodes; try congruence; views.
  - repeat split.
    + intros x. unfold fv. through_upds. compare_nodes; views.
    + unfold sv. through_upds. compare_nodes; try congruence; views.
    + intros d' [=].
    + intros x Hx Hx2. unfold sv. through_upds. compare_nodes; try congruence; views.
Qed.

Lemma link_remove_inner : forall h this old f pv,
  this < length h -> old < length h -> f < length h -> pv < length h ->
  n_first (nd h this) = Some f -> f <> old -> n_prev (nd h old) = Some pv -> pv <> old -> n_isfirst (nd h old) = false ->
  (forall d, n_next (nd h old) = Some d -> d < length h /\ d <> old /\ d <> pv) ->
  let h' := link_remove h this old in
  let tgt := match n_next (nd h old) with Some d => d | None => f end in
  (forall x, fv h' x = fv h x) /\
  sv h' old = cleared (n_odoc (nd h this)) /\
  spliced h h' old pv tgt (n_next (nd h old)) (Some pv).
Proof.
  intros h this old f pv Ht Ho Hfl Hpl Hf Hfo Hp Hpo Hif Hd. cbv zeta. unfold link_remove. rewrite Hf, Hp. cbn [oid_eqb].
  destruct (Nat.eqb_spec f old) as [E|_]; [contradiction|].
  destruct (n_next (nd h old)) as [d|] eqn:En.
  - destruct (Hd d eq_refl) as [Hdl [Hdo Hdp]]. repeat split.
    + intros x. unfold fv. through_upds. compare_nodes; views.
    + unfold sv. through_upds. compare_nodes; try congruence; views.
    + intros x Hx. unfold sv. through_upds. compare_nodes; try congruence; views.
  - assert (Hf' : n_first (nd (upd h pv (set_next None)) this) = Some f).
    { through_upds. compare_nodes; views. }
    rewrite Hf'. repeat split.
    + intros x. unfold fv. through_upds. compare_nodes; views.
    + unfold sv. through_upds. compare_nodes; try congruence; views.
    + intros x Hx. unfold sv. through_upds. compare_nodes; try congruence; views.
Qed.

Lemma link_insert_empty : forall h this new ref,
  this < length h -> new < length h -> new <> this -> n_first (nd h this) = None ->
  n_next (nd h new) = None ->
  let h' := link_insert h this new ref in
  (forall x, fv h' x = if Nat.eqb x this then Some new else fv h x) /\
  sv h' new = (this, true, None, Some new, true) /\
  (forall x, x <> new -> sv h' x = sv h x).
Proof.
  intros h this new ref Ht Hn Hne Hf Hnx. cbv zeta. unfold link_insert.
  assert (E : n_first (nd (upd (upd h new (set_owner this)) new (set_owned true)) this) = None).
  { through_upds. compare_nodes; views. }
  rewrite E. repeat split.
  - intros x. unfold fv. through_upds. compare_nodes; views.
  - unfold sv. through_upds. compare_nodes; try congruence; views.
  - intros x Hx. unfold sv. through_upds. compare_nodes; try congruence; views.
Qed.

Lemma link_insert_head : forall h this new f,
  this < length h -> new < length h -> f < length h -> new <> this -> new <> f ->
  n_first (nd h this) = Some f ->
  let h' := link_insert h this new (Some f) in
  (forall x, fv h' x = if Nat.eqb x this then Some new else fv h x) /\
  sv h' new = (this, true, Some f, n_prev (nd h f), true) /\
  sv h' f = (let '(o, ow, nx, _, _) := sv h f in (o, ow, nx, Some new, false)) /\
  (forall x, x <> new -> x <> f -> sv h' x = sv h x).
Proof.
  intros h this new f Ht Hn Hfl Hne Hnf Hf. cbv zeta. unfold link_insert.
  assert (E : n_first (nd (upd (upd h new (set_owner this)) new (set_owned true)) this) = Some f).
  { through_upds. compare_nodes; views. }
  rewrite E, Nat.eqb_refl. repeat split.
  - intros x. unfold fv. through_upds. compare_nodes; views.
  - unfold sv. through_upds. compare_nodes; try congruence; views.
  - unfold sv. through_upds. compare_nodes; try congruence; views.
  - intros x Hx Hx2. unfold sv. through_upds. compare_nodes; try congruence; views.
Qed.

(** behind a child: in front of [ref], or at the end when [ref] is null (the last child is the first one's previousSibling);
    [tgt] is the node whose previousSibling becomes [new] *)
Lemma link_insert_behind : forall h this new f ref tgt pv,
  this < length h -> new < length h -> f < length h -> tgt < length h -> pv < length h ->
  new <> this -> new <> f -> new <> tgt -> new <> pv ->
  n_first (nd h this) = Some f -> ref <> Some f -> tgt = match ref with Some r => r | None => f end ->
  n_prev (nd h tgt) = Some pv -> n_next (nd h new) = None -> n_isfirst (nd h new) = false ->
  let h' := link_insert h this new ref in
  (forall x, fv h' x = fv h x) /\
  sv h' new = (this, true, ref, Some pv, false) /\
  spliced h h' new pv tgt (Some new) (Some new).
Proof.
  intros h this new f ref tgt pv Ht Hn Hfl Htl Hpl Hne Hnf Hnt Hnp Hf Hrf -> Hp Hnx Hif. cbv zeta. unfold link_insert.
  assert (E : n_first (nd (upd (upd h new (set_owner this)) new (set_owned true)) this) = Some f).
  { through_upds. compare_nodes; views. }
  rewrite E.
  assert (E2 : n_prev (nd (upd (upd h new (set_owner this)) new (set_owned true)) (match ref with Some r => r | None => f end)) = Some pv).
  { through_upds. compare_nodes; views. }
  destruct ref as [r|].
  - destruct (Nat.eqb_spec r f) as [->|_]; [contradiction|]. rewrite E2. repeat split.
    + intros x. unfold fv. through_upds. compare_nodes; views.
    + unfold sv. through_upds. compare_nodes; try congruence; views.
    + intros x Hx. unfold sv. through_upds. compare_nodes; try congruence; views.
  - rewrite E2. repeat split.
    + intros x. unfold fv. through_upds. compare_nodes; views.
    + unfold sv. through_upds. compare_nodes; try congruence; views.
    + intros x Hx. unfold sv. through_upds. compare_nodes; try congruence; views.
Qed.

Section Relink.
Variables (h : heap) (ks : id -> list id) (this : id).
Hypotheses (W : WFsib h ks) (Ht : this < length h).

Lemma kids_are : forall l, ks this = l -> sibs h this l /\ NoDup l.
Proof. intros l <-. split; [exact (s_sibs _ _ W this Ht)|exact (s_nodup _ _ W this)]. Qed.

Lemma child_lt : forall x, In x (ks this) -> x < length h.
Proof. intros x Hx. apply (s_valid _ _ W this x Hx). Qed.

Lemma relisted_remove_first : forall old r, old < length h -> ks this = old :: r ->
  relisted h (link_remove h this old) ks this old r /\ sv (link_remove h this old) old = cleared (n_odoc (nd h this)).
Proof.
  intros old r Ho Ek. destruct (kids_are _ Ek) as [Hs ND].
  destruct Hs as [Hf [Hsf Hd]]. pose proof (sv_next _ _ _ _ _ _ _ Hsf) as Hnx. pose proof (sv_prev _ _ _ _ _ _ _ Hsf) as Hpv.
  destruct (link_remove_first h this old Ht Ho Hf) as [F1 [F2 [F3 F4]]].
  { intros d Hd'. rewrite Hnx in Hd'. destruct r as [|d' r']; [discriminate|]. injection Hd' as ->.
    split; [apply child_lt; rewrite Ek; right; left; reflexivity|]. inversion ND as [|? ? Hn _]. intros ->. apply Hn. left; reflexivity. }
  split; [|exact F2]. split; [|split].
  - intros q Hq. rewrite F1. destruct (Nat.eqb_spec q this); [contradiction|reflexivity].
  - intros x Hx Hnin. apply F4; [exact Hx|]. rewrite Hnx. intros E. apply Hnin. rewrite Ek. right.
    destruct r as [|d r']; [discriminate|]. injection E as ->. left; reflexivity.
  - destruct r as [|d r']; cbn [sibs].
    + rewrite F1, Nat.eqb_refl, Hnx. reflexivity.
    + destruct Hd as [Hd1 Hd2]. split; [rewrite F1, Nat.eqb_refl, Hnx; reflexivity|]. split.
      * rewrite (F3 d) by (rewrite Hnx; reflexivity). rewrite Hd1, Hpv. rewrite last_cons. reflexivity.
      * eapply dl_frame; [|exact Hd2]. intros x Hx. inversion ND as [|? ? Hn1 ND1]. inversion ND1 as [|? ? Hn2 _]. apply F4.
        -- intros ->. apply Hn1. right; exact Hx.
        -- rewrite Hnx. cbn. intros [= ->]. contradiction.
Qed.

(** [pv] takes over old's nextSibling, [tgt] gets [pv] as previousSibling *)
Lemma relisted_remove_inner : forall old f r1 r2, old < length h -> ks this = f :: r1 ++ old :: r2 ->
  relisted h (link_remove h this old) ks this old (f :: r1 ++ r2) /\
  sv (link_remove h this old) old = cleared (n_odoc (nd h this)).
Proof.
  intros old f r1 r2 Ho Ek. destruct (kids_are _ Ek) as [Hs ND].
  pose proof Hs as [Hf [_ Hd]].
  destruct (sv_fields _ _ _ _ _ _ _ (dl_split_sv _ _ _ _ _ _ Hd)) as [_ [_ [Hnx [Hpv Hif]]]].
  pose proof (NoDup_remove_1 (f :: r1) r2 old ND) as ND'. pose proof (NoDup_remove_2 (f :: r1) r2 old ND) as Hor.
  set (pv := last r1 f) in *. set (tgt := match hd_error r2 with Some d => d | None => f end).
  destruct (cut_ends f r1 r2 ND') as [Hpm [Htm [_ [_ [Hpt _]]]]]. fold pv tgt in Hpm, Htm, Hpt.
  assert (Hsub : forall y, In y (f :: r1 ++ r2) -> In y (ks this)).
  { intros y Hy. rewrite Ek. apply (in_app_or (f :: r1) r2) in Hy. apply (in_or_app (f :: r1) (old :: r2)).
    destruct Hy; [left|right; right]; assumption. }
  assert (Hmid : forall y, In y (f :: r1 ++ r2) -> y < length h /\ y <> old).
  { intros y Hy. split; [apply child_lt, Hsub, Hy|intros ->; exact (Hor Hy)]. }
  destruct (Hmid pv Hpm) as [Hpl Hpo]. destruct (Hmid tgt Htm) as [Htl Hto]. destruct (Hmid f (or_introl eq_refl)) as [Hfl Hfo].
  destruct (link_remove_inner h this old f pv Ht Ho Hfl Hpl Hf Hfo Hpv Hpo Hif) as [F1 [F2 F3]].
  { intros d Hd'. rewrite Hnx in Hd'. assert (Et : tgt = d) by (subst tgt; rewrite Hd'; reflexivity). subst d.
    split; [exact Htl|]. split; [exact Hto|]. intros E. apply Hpt; [|symmetry; exact E].
    right. intros Er. rewrite Er in Hd'. discriminate Hd'. }
  rewrite Hnx in F3. destruct (sibs_remove _ _ _ _ _ _ _ Hs ND (F1 this) F3) as [C4 C3].
  split; [|exact F2]. split; [|split; [|exact C4]].
  - intros q _. apply F1.
  - intros x Hx Hnin. apply C3; [exact Hx|]. intros Hy. exact (Hnin (Hsub x Hy)).
Qed.

Section Insert.
Variable new : id.
Hypotheses (Hn : new < length h) (Hnt : new <> this) (Hfree : n_owned (nd h new) = false).

Lemma unowned_no_child : forall q, ~ In new (ks q).
Proof. intros q Hc. destruct (WFsib_member _ _ _ _ W Hc). congruence. Qed.

Lemma unowned_links : n_next (nd h new) = None /\ n_isfirst (nd h new) = false.
Proof. destruct (sv_fields _ _ _ _ _ _ _ (s_free _ _ W new Hn Hfree)) as [_ [_ [Hx [_ Hy]]]]. auto. Qed.

(** as the first child: of a childless node, or in front of the present first child *)
Lemma relisted_insert_front : forall l, ks this = l ->
  relisted h (link_insert h this new (hd_error l)) ks this new (new :: l).
Proof.
  intros l Ek. destruct (kids_are _ Ek) as [Hs ND].
  destruct unowned_links as [Hnnx _]. destruct l as [|f r]; cbn [hd_error].
  - destruct (link_insert_empty h this new None Ht Hn Hnt Hs Hnnx) as [F1 [F2 F3]]. split; [|split].
    + intros q Hq. rewrite F1. destruct (Nat.eqb_spec q this); [contradiction|reflexivity].
    + intros x Hx _. apply F3; exact Hx.
    + cbn [sibs]. split; [rewrite F1, Nat.eqb_refl; reflexivity|]. split; [exact F2|exact I].
  - destruct Hs as [Hf [Hsf Hd]]. pose proof (sv_prev _ _ _ _ _ _ _ Hsf) as Hfpv.
    assert (Hnl : ~ In new (f :: r)) by (rewrite <- Ek; apply unowned_no_child).
    assert (Hnf : new <> f) by (intros ->; apply Hnl; left; reflexivity).
    destruct (link_insert_head h this new f Ht Hn (child_lt f ltac:(rewrite Ek; left; reflexivity)) Hnt Hnf Hf) as [F1 [F2 [F3 F4]]].
    split; [|split].
    + intros q Hq. rewrite F1. destruct (Nat.eqb_spec q this); [contradiction|reflexivity].
    + intros y Hy Hnin. apply F4; [exact Hy|]. intros ->. apply Hnin. rewrite Ek. left; reflexivity.
    + cbn [sibs dl]. split; [rewrite F1, Nat.eqb_refl; reflexivity|]. split; [|split].
      * rewrite F2, Hfpv, last_cons. reflexivity.
      * rewrite F3, Hsf. reflexivity.
      * eapply dl_frame; [|exact Hd]. intros y Hy. apply F4.
        -- intros ->. apply Hnl. right; exact Hy.
        -- intros ->. inversion ND; contradiction.
Qed.

(** behind the first child: in front of the head of [r2], or at the end; [pv] gets new as its nextSibling, [tgt] as its
    previousSibling *)
Lemma relisted_insert_behind : forall f r1 r2, ks this = f :: r1 ++ r2 ->
  relisted h (link_insert h this new (hd_error r2)) ks this new (f :: r1 ++ new :: r2).
Proof.
  intros f r1 r2 Ek. destruct (kids_are _ Ek) as [Hs ND].
  pose proof Hs as [Hf [Hsf Hd]]. pose proof (sv_prev _ _ _ _ _ _ _ Hsf) as Hfpv. destruct unowned_links as [Hnnx Hnif].
  assert (Hnl : ~ In new (f :: r1 ++ r2)) by (rewrite <- Ek; apply unowned_no_child).
  assert (Hfr : ~ In f (r1 ++ r2)) by (inversion ND; assumption).
  set (pv := last r1 f). set (tgt := match hd_error r2 with Some d => d | None => f end).
  destruct (cut_ends f r1 r2 ND) as [Hpm [Htm _]]. fold pv tgt in Hpm, Htm.
  assert (Hmem : forall y, In y (f :: r1 ++ r2) -> y < length h /\ new <> y).
  { intros y Hy. split; [apply child_lt; rewrite Ek; exact Hy|intros ->; exact (Hnl Hy)]. }
  destruct (Hmem pv Hpm) as [Hpl Hnp]. destruct (Hmem tgt Htm) as [Htl Hntg]. destruct (Hmem f (or_introl eq_refl)) as [Hfl Hnf].
  assert (Htpv : n_prev (nd h tgt) = Some pv).
  { subst tgt pv. destruct r2 as [|d r2']; cbn [hd_error].
    - rewrite Hfpv, app_nil_r. reflexivity.
    - exact (sv_prev _ _ _ _ _ _ _ (dl_split_sv _ _ _ _ _ _ Hd)). }
  assert (Hrf : hd_error r2 <> Some f).
  { intros E. apply Hfr. apply in_or_app. right. destruct r2 as [|d r2']; [discriminate|]. injection E as ->. left; reflexivity. }
  destruct (link_insert_behind h this new f (hd_error r2) tgt pv Ht Hn Hfl Htl Hpl Hnt Hnf Hntg Hnp Hf Hrf eq_refl Htpv Hnnx Hnif)
    as [F1 [F2 F3]].
  destruct (sibs_insert _ _ _ _ _ _ _ Hs ND Hnl (F1 this) F3 F2) as [C4 C3].
  split; [intros q _; apply F1|]. split; [rewrite Ek; exact C3|exact C4].
Qed.
End Insert.
End Relink.

Lemma WFsib_link_remove : forall h ks this old,
  WFsib h ks -> this < length h -> old < length h ->
  n_owned (nd h old) = true -> n_owner (nd h old) = this ->
  WFsib (link_remove h this old) (ks_set ks this (remove_id old (ks this))).
Proof.
  intros h ks this old W Ht Ho Hown Howner.
  assert (Hin : In old (ks this)) by (rewrite <- Howner; apply (s_owned _ _ W); assumption).
  pose proof (s_nodup _ _ W this) as ND.
  assert (R : relisted h (link_remove h this old) ks this old (remove_id old (ks this)) /\
              sv (link_remove h this old) old = cleared (n_odoc (nd h this))).
  { destruct (in_split _ _ Hin) as [l1 [l2 Ek]]. rewrite Ek in ND |- *. rewrite remove_id_split.
    - destruct l1 as [|f r1]; [apply relisted_remove_first|apply relisted_remove_inner]; assumption.
    - apply NoDup_remove_2 in ND. intros Hc. apply ND. apply in_or_app. left; exact Hc. }
  destruct R as [R C2].
  apply WFsib_relist with (h := h) (c := old); try assumption.
  - apply length_link_remove.
  - intros q Hq Hc. apply Hq. eapply WFsib_disjoint; eauto.
  - apply remove_id_nodup. exact ND.
  - intros x Hx. split; [apply remove_id_in|apply remove_id_keeps; exact Hx].
  - right. destruct (sv_fields _ _ _ _ _ _ _ C2) as [E _]. rewrite E. exact C2.
Qed.

Lemma WFsib_link_insert : forall h ks this new ref,
  WFsib h ks -> this < length h -> new < length h -> new <> this ->
  n_owned (nd h new) = false ->
  (forall r, ref = Some r -> In r (ks this)) ->
  WFsib (link_insert h this new ref) (ks_set ks this (insert_before ref new (ks this))).
Proof.
  intros h ks this new ref W Ht Hn Hnt Hfree Href.
  pose proof (s_nodup _ _ W this) as ND. pose proof (unowned_no_child h ks W new Hfree) as Hout.
  assert (R : relisted h (link_insert h this new ref) ks this new (insert_before ref new (ks this))).
  { assert (Hsplit : exists l1 l2, ks this = l1 ++ l2 /\ ref = hd_error l2).
    { destruct ref as [x|]; [|exists (ks this), []; rewrite app_nil_r; auto].
      destruct (in_split _ _ (Href x eq_refl)) as [l1 [l2 E]]. exists l1, (x :: l2). auto. }
    destruct Hsplit as [l1 [l2 [Ek ->]]]. rewrite Ek in ND |- *. rewrite (insert_before_cut _ _ _ ND).
    destruct l1 as [|f r1]; [apply relisted_insert_front|apply relisted_insert_behind]; assumption. }
  apply WFsib_relist with (h := h) (c := new); try assumption.
  - apply link_insert_spec.
  - intros q _. apply Hout.
  - apply insert_before_nodup; [exact ND|apply Hout].
  - intros x Hx. split; [|apply insert_before_old].
    intros H. destruct (insert_before_inv _ _ _ _ H); [contradiction|assumption].
  - left. apply insert_before_new.
Qed.
