(** C03 -- lemmas: the equations of the XML 1.1 end-of-line normalisation and of its specification, texts it leaves
    unchanged, and the line / column counters. *)
From Coq Require Import ZArith ZifyBool ZifyN ZifyNat Lia.
From XV Require Import Base.XDefs C02.Model02 C03.Model03.
Local Open Scope N_scope.

Lemma eol11_cons2 : forall c d r, eol_norm11 (c :: d :: r) =
  if c =? 13 then 10 :: (if (d =? 10) || (d =? 0x85) then eol_norm11 r else eol_norm11 (d :: r))
  else if (c =? 0x85) || (c =? 0x2028) then 10 :: eol_norm11 (d :: r) else c :: eol_norm11 (d :: r).
Proof. reflexivity. Qed.
Lemma pair11_cons2 : forall c d r, pair11_to_lf (c :: d :: r) =
  if (c =? 13) && ((d =? 10) || (d =? 0x85)) then 10 :: pair11_to_lf r else c :: pair11_to_lf (d :: r).
Proof. reflexivity. Qed.
Lemma eol11_cons1 : forall c, eol_norm11 [c] = if c =? 13 then [10] else if (c =? 0x85) || (c =? 0x2028) then [10] else [c].
Proof. intros c. cbn [eol_norm11]. destruct (c =? 13); [reflexivity|]. destruct ((c =? 0x85) || (c =? 0x2028)); reflexivity. Qed.

Definition norm_of (v11 : bool) (s : str) : str := if v11 then eol_norm11 s else eol_norm s.
Definition split_ok (v11 : bool) (a b : str) : Prop :=
  last a 0 <> 13 \/ (hd 0 b <> 10 /\ (v11 = true -> hd 0 b <> 0x85)).
Definition clean11 (s : str) : bool := forallb (fun c => negb (is_eol11_single c)) s.
Lemma eol11_clean : forall s, clean11 (eol_norm11 s) = true.
Proof.
  (* one character of look-ahead: the claims for [s] and for every [c :: s] go through the induction together *)
  assert (A : forall s, clean11 (eol_norm11 s) = true /\ forall c, clean11 (eol_norm11 (c :: s)) = true); [|intros s; apply A].
  induction s as [|d r [IHr IHd]]; (split; [|intros c]).
  - reflexivity.
  - rewrite eol11_cons1. unfold clean11, is_eol11_single. destruct (c =? 13) eqn:E; [reflexivity|].
    destruct ((c =? 0x85) || (c =? 0x2028)) eqn:E2; [reflexivity|]. cbn [forallb]. rewrite E, E2. reflexivity.
  - exact (IHd d).
  - rewrite eol11_cons2. unfold clean11 in *. destruct (c =? 13) eqn:E.
    + destruct ((d =? 10) || (d =? 0x85)); [exact IHr|exact (IHd d)].
    + destruct ((c =? 0x85) || (c =? 0x2028)) eqn:E2; [exact (IHd d)|].
      cbn [forallb]. unfold is_eol11_single at 1. rewrite E, E2. exact (IHd d).
Qed.
Lemma eol11_id_clean : forall s, clean11 s = true -> eol_norm11 s = s.
Proof.
  induction s as [|c r IH]; intros H; [reflexivity|]. unfold clean11 in H. cbn [forallb] in H. apply andb_true_iff in H.
  destruct H as [H1 H2]. cbn [eol_norm11]. unfold is_eol11_single in H1. destruct (c =? 13); [discriminate|]. cbn [orb] in H1.
  destruct ((c =? 0x85) || (c =? 0x2028)); [discriminate|]. rewrite (IH H2). reflexivity.
Qed.

Lemma line_after_norm : forall v s, line_after v s = 1 + count_lf (norm_of v s).
Proof. reflexivity. Qed.
Lemma col_after_norm : forall v s, col_after v s = 1 + since_lf 0 (norm_of v s).
Proof. reflexivity. Qed.
Lemma count_lf_cons : forall c s, count_lf (c :: s) = (if c =? 10 then 1 else 0) + count_lf s.
Proof. intros c s. unfold count_lf. cbn [filter]. destruct (c =? 10); cbn [length]; lia. Qed.
Lemma since_lf_app : forall a b acc, since_lf acc (a ++ b) = since_lf (since_lf acc a) b.
Proof. induction a as [|c a IH]; intros b acc; [reflexivity|]. cbn [app since_lf]. apply IH. Qed.
Lemma since_lf_split : forall s acc, since_lf acc s = if count_lf s =? 0 then acc + N.of_nat (length s) else since_lf 0 s.
Proof.
  induction s as [|c s IH]; intros acc.
  - cbn. lia.
  - rewrite count_lf_cons. cbn [since_lf length]. destruct (c =? 10) eqn:E.
    + replace (1 + count_lf s =? 0) with false by (symmetry; apply N.eqb_neq; lia). reflexivity.
    + rewrite (IH (acc + 1)), (IH (0 + 1)). change (0 + count_lf s) with (count_lf s). destruct (count_lf s =? 0); lia.
Qed.

(* a text free of line-end characters is not changed by the normalisation *)
Definition plain (v11 : bool) (s : str) : bool :=
  forallb (fun c => negb ((c =? 13) || (c =? 10) || (v11 && ((c =? 0x85) || (c =? 0x2028))))) s.
Lemma plain_norm : forall v s, plain v s = true -> norm_of v s = s /\ count_lf s = 0.
Proof.
  intros v. induction s as [|c s IH]; intros H; [split; [destruct v|]; reflexivity|]. unfold plain in H. cbn [forallb] in H.
  apply andb_true_iff in H. destruct H as [Hc Hs]. destruct (IH Hs) as [I1 I2]. rewrite count_lf_cons, I2.
  destruct (c =? 13) eqn:E13; [discriminate|]. destruct (c =? 10) eqn:E10; [discriminate|]. cbn [orb] in Hc.
  split; [|reflexivity]. unfold norm_of in *. destruct v.
  - cbn [andb] in Hc. cbn [eol_norm11]. rewrite E13. destruct ((c =? 0x85) || (c =? 0x2028)); [discriminate|]. rewrite I1. reflexivity.
  - cbn [eol_norm]. unfold c_cr. rewrite E13, I1. reflexivity.
Qed.
Lemma plain_split : forall v a b, plain v b = true -> split_ok v a b.
Proof.
  intros v a b P. right. destruct b as [|c r]; cbn [hd]; [split; [|intros _]; discriminate|]. unfold plain in P. cbn [forallb] in P.
  apply andb_true_iff in P. destruct P as [P _]. destruct (c =? 13); [discriminate|]. destruct (c =? 10) eqn:E10; [discriminate|].
  cbn [orb] in P. apply N.eqb_neq in E10. split; [exact E10|]. intros V. subst v. cbn [andb] in P.
  destruct (c =? 0x85) eqn:E; [discriminate|]. apply N.eqb_neq in E. exact E.
Qed.

Definition breaks (v11 : bool) : list str :=
  [[10]; [13]; [13; 10]] ++ (if v11 then [[0x85]; [0x2028]; [13; 0x85]] else []).
Lemma break_norm : forall v e, In e (breaks v) -> norm_of v e = [10].
Proof.
  intros v e H. destruct v; cbn [breaks app In] in H;
    repeat (destruct H as [H|H]; [subst e; reflexivity|]); contradiction.
Qed.
