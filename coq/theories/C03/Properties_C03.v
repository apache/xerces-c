(** Property C03 -- the content reported equals the document's infoset; all APIs / scanners agree.
    Theorems about Model03.v: end-of-line handling (XML 1.0 and 1.1), attribute-value normalisation, Locator line and column,
    the [specified] flag, the reader stack; and the corollary of C02's accept theorem. *)
From Coq Require Import ZArith ZifyBool ZifyN ZifyNat Lia.
From XV Require Import Base.XDefs C02.Model02 C02.Spec02 C02.Proofs02a C02.Proofs02e C02.Properties_C02 C03.Model03 C03.Proofs03a.
Local Open Scope N_scope.

(* both normalisations look one character ahead: induction in steps of one and two *)
Lemma list_ind2 : forall (P : str -> Prop), P [] -> (forall c, P [c]) ->
  (forall c d r, P r -> P (d :: r) -> P (c :: d :: r)) -> forall s, P s.
Proof.
  intros P H0 H1 H2. assert (A : forall s, P s /\ forall c, P (c :: s)).
  { induction s as [|d r [IH1 IH2]]; [split; [exact H0|exact H1]|]. split; [apply IH2|]. intros c. apply H2; [exact IH1|apply IH2]. }
  intros s. apply A.
Qed.
Lemma eol_norm_cons2 : forall c d r, eol_norm (c :: d :: r) =
  if c =? 13 then 10 :: (if d =? 10 then eol_norm r else eol_norm (d :: r)) else c :: eol_norm (d :: r).
Proof. reflexivity. Qed.
Lemma crlf_cons2 : forall c d r, crlf_to_lf (c :: d :: r) =
  if (c =? 13) && (d =? 10) then 10 :: crlf_to_lf r else c :: crlf_to_lf (d :: r).
Proof. reflexivity. Qed.
(** end-of-line handling: the reader's normalisation is the function of XML 1.0 section 2.11, for every input *)
Lemma eol_eq : forall s, eol_norm s = eol_spec s.
Proof.
  apply list_ind2; [reflexivity| |].
  - intros c. unfold eol_spec. cbn [eol_norm crlf_to_lf map]. unfold c_cr, c_lf. destruct (c =? 13); reflexivity.
  - intros c d r IHr IHd. unfold eol_spec in *. rewrite eol_norm_cons2, crlf_cons2. destruct (c =? 13) eqn:E.
    + cbn [andb]. destruct (d =? 10) eqn:E2.
      * cbn [map N.eqb Pos.eqb]. rewrite IHr. reflexivity.
      * cbn [map]. rewrite E. rewrite IHd. reflexivity.
    + cbn [andb map]. rewrite E. rewrite IHd. reflexivity.
Qed.
Theorem T03_eol : forall s, eol_norm s = eol_spec s.
Proof. exact eol_eq. Qed.
Print Assumptions T03_eol.

Lemma eol_no_cr : forall s, no_cr (eol_norm s) = true.
Proof.
  apply list_ind2; [reflexivity| |].
  - intros c. cbn [eol_norm]. destruct (c =? c_cr) eqn:E; cbn [no_cr forallb]; [reflexivity|rewrite E; reflexivity].
  - intros c d r IHr IHd. rewrite eol_norm_cons2. destruct (c =? 13) eqn:E.
    + destruct (d =? 10); cbn [no_cr forallb]; [exact IHr|exact IHd].
    + cbn [no_cr forallb]. unfold c_cr. rewrite E. cbn [negb andb]. exact IHd.
Qed.
Lemma eol_id_no_cr : forall s, no_cr s = true -> eol_norm s = s.
Proof. induction s as [|c r IH]; intros H; [reflexivity|]. cbn [no_cr forallb] in H. apply andb_true_iff in H.
  destruct H as [H1 H2]. cbn [eol_norm]. destruct (c =? c_cr); [discriminate|]. rewrite (IH H2). reflexivity. Qed.
Theorem T03_eol_no_cr : forall s, ~ In 13 (eol_norm s).
Proof. intros s H. pose proof (eol_no_cr s) as C. unfold no_cr in C. rewrite forallb_forall in C. specialize (C 13 H). discriminate. Qed.
Print Assumptions T03_eol_no_cr.
Theorem T03_eol_idempotent : forall s, eol_norm (eol_norm s) = eol_norm s.
Proof. intros s. apply eol_id_no_cr. apply eol_no_cr. Qed.
Print Assumptions T03_eol_idempotent.

(** attribute-value normalisation, CDATA attributes: the code computes section 3.3.3 *)
Theorem T03_attnorm_cdata : forall v, attnorm_cdata v = attnorm_spec_cdata v.
Proof.
  induction v as [|[e c] v IH]; [reflexivity|]. unfold attnorm_cdata, attnorm_spec_cdata in *. cbn [map]. rewrite IH.
  f_equal. unfold step1. cbn [fst snd]. destruct e; [reflexivity|].
  destruct (is_ws c) eqn:W.
  - apply is_ws_spec in W. destruct W as [X|[X|[X|X]]]; subst c; reflexivity.
  - replace ((c =? 9) || (c =? 10) || (c =? 13)) with false; [reflexivity|].
    symmetry. destruct ((c =? 9) || (c =? 10) || (c =? 13)) eqn:X; [|reflexivity].
    assert (is_ws c = true) by (apply is_ws_spec; lia). congruence.
Qed.
Print Assumptions T03_attnorm_cdata.

Definition no_escaped_blank (v : raw) : bool := forallb (fun p => negb (fst p && is_ws (snd p) && negb (snd p =? 32))) v.
(** under the guard that excludes exactly the defect class (no TAB/LF/CR written as a character reference), the
    namespace-aware path (normalizeAttValue) computes section 3.3.3 as well *)
Theorem T03_attnorm_tokenized_guarded : forall v a b, no_escaped_blank v = true ->
  attnorm_tok a b v = collapse (fun c => c =? 32) a b (map step1 v).
Proof.
  induction v as [|[e c] v IH]; intros a b G; [reflexivity|]. cbn [no_escaped_blank forallb fst snd] in G.
  apply andb_true_iff in G. destruct G as [G1 G]. cbn [attnorm_tok map collapse snd]. unfold step1 at 1 2 3. cbn [fst snd].
  destruct (is_ws c) eqn:W.
  - assert (S32 : ((if e then c else 32) =? 32) = true).
    { destruct e; [|reflexivity]. cbn [andb] in G1. destruct (c =? 32); [reflexivity|discriminate]. }
    rewrite S32. apply IH. exact G.
  - assert (S32 : ((if e then c else c) =? 32) = false).
    { destruct e; apply N.eqb_neq; intro X; subst c; vm_compute in W; discriminate. }
    rewrite S32. rewrite (IH false true G). destruct e; reflexivity.
Qed.
Print Assumptions T03_attnorm_tokenized_guarded.
(** the inline (non-namespace) start-tag path computes section 3.3.3 for every raw value *)
Theorem T03_attnorm_tokenized_inline : forall v a b,
  attnorm_tok_inline a b v = collapse (fun c => c =? 32) a b (map step1 v).
Proof.
  induction v as [|[e c] v IH]; intros a b; [reflexivity|]. cbn [attnorm_tok_inline map collapse fst snd].
  assert (T : ((c =? 32) || (negb e && is_ws c)) = (step1 (e, c) =? 32)).
  { unfold step1. cbn [fst snd]. destruct e; cbn [negb andb]; [rewrite orb_false_r; reflexivity|].
    destruct (is_ws c) eqn:W; [rewrite orb_true_r; reflexivity|]. rewrite orb_false_r. reflexivity. }
  rewrite T. destruct (step1 (e, c) =? 32) eqn:S32; [apply IH|].
  rewrite (IH false true). assert (C : step1 (e, c) = c).
  { unfold step1 in *. cbn [fst snd] in *. destruct e; [reflexivity|]. destruct (is_ws c); [discriminate|reflexivity]. }
  rewrite C. reflexivity.
Qed.
Print Assumptions T03_attnorm_tokenized_inline.

(** known finding F3: without the guard the namespace-aware path does NOT compute section 3.3.3, and the two
    start-tag paths disagree with each other: value  x&#9;&#9;y  of an NMTOKENS attribute *)
Definition f3_value : raw := [(false, 120); (true, 9); (true, 9); (false, 121)].
Theorem T03_attnorm_tokenized_refuted :
  attnorm_tok false false f3_value = [120; 32; 121] /\ attnorm_spec_tok f3_value = [120; 9; 9; 121] /\
  attnorm_tok_inline false false f3_value = [120; 9; 9; 121].
Proof. vm_compute. repeat split; reflexivity. Qed.
Print Assumptions T03_attnorm_tokenized_refuted.

(** the content delivered is a function of the document's content alone: two lexical documents with the same
    content ([events]) are reported identically, whatever their quotes, references, white space, CDATA/empty-tag
    forms and line ends (corollary of T02_accept_partial, with its restrictions) *)
Theorem T03_content_partial : forall nsf d1 d2 ch1 ch2,
  events d1 = events d2 ->
  wf_ldoc nsf d1 = true -> ld_decl d1 = None -> forallb misc_simple (ld_prolog d1) = true ->
  forallb misc_simple (ld_epilog d1) = true -> no_cr (render1 d1) = true -> eol_choices_ok (render1 d1) ch1 = true ->
  wf_ldoc nsf d2 = true -> ld_decl d2 = None -> forallb misc_simple (ld_prolog d2) = true ->
  forallb misc_simple (ld_epilog d2) = true -> no_cr (render1 d2) = true -> eol_choices_ok (render1 d2) ch2 = true ->
  xscan {| ns := nsf |} (render d1 ch1) = xscan {| ns := nsf |} (render d2 ch2).
Proof.
  intros nsf d1 d2 ch1 ch2 E A1 A2 A3 A4 A5 A6 B1 B2 B3 B4 B5 B6.
  rewrite (T02_accept_partial nsf d1 ch1 A1 A2 A3 A4 A5 A6), (T02_accept_partial nsf d2 ch2 B1 B2 B3 B4 B5 B6), E. reflexivity.
Qed.
Print Assumptions T03_content_partial.

Example T03_nonvacuous_eol : eol_norm [97; 13; 10; 98; 13; 99; 10; 13; 13; 10] = [97; 10; 98; 10; 99; 10; 10; 10].
Proof. vm_compute. reflexivity. Qed.
Example T03_nonvacuous_guard : no_escaped_blank [(false, 32); (false, 9); (true, 32); (true, 65); (false, 66)] = true /\
  attnorm_tok false false [(false, 32); (false, 9); (true, 32); (true, 65); (false, 32); (false, 66); (false, 10)] = [65; 32; 66].
Proof. vm_compute. split; reflexivity. Qed.

(** XML 1.1 end-of-line handling (handleEOL with fNEL on): the reader's normalisation is the function of XML 1.1
    section 2.11 for every input; none of #xD, #x85, #x2028 survives; idempotent *)
Theorem T03_eol11 : forall s, eol_norm11 s = eol11_spec s.
Proof.
  apply list_ind2; [reflexivity| |].
  - intros c. rewrite eol11_cons1. unfold eol11_spec, is_eol11_single. cbn [pair11_to_lf map].
    destruct (c =? 13); [reflexivity|]. cbn [orb]. destruct ((c =? 0x85) || (c =? 0x2028)); reflexivity.
  - intros c d r IHr IHd. unfold eol11_spec in *. rewrite eol11_cons2, pair11_cons2. destruct (c =? 13) eqn:E.
    + cbn [andb]. destruct ((d =? 10) || (d =? 0x85)) eqn:E2.
      * cbn [map]. rewrite IHr. reflexivity.
      * cbn [map]. unfold is_eol11_single at 1. rewrite E. cbn [orb]. rewrite IHd. reflexivity.
    + cbn [andb map]. unfold is_eol11_single at 1. rewrite E. cbn [orb]. rewrite IHd.
      destruct ((c =? 0x85) || (c =? 0x2028)); reflexivity.
Qed.
Print Assumptions T03_eol11.
Theorem T03_eol11_clean : forall s c, is_eol11_single c = true -> ~ In c (eol_norm11 s).
Proof.
  intros s c Hc I. pose proof (eol11_clean s) as C. unfold clean11 in C. rewrite forallb_forall in C. specialize (C c I).
  rewrite Hc in C. discriminate.
Qed.
Print Assumptions T03_eol11_clean.
Theorem T03_eol11_idempotent : forall s, eol_norm11 (eol_norm11 s) = eol_norm11 s.
Proof.
  intros s. apply eol11_id_clean. apply eol11_clean.
Qed.
Print Assumptions T03_eol11_idempotent.
Theorem T03_eol11_conservative : forall s, no_nel s = true -> eol_norm s = eol_norm11 s.
Proof.
  apply (list_ind2 (fun s => no_nel s = true -> eol_norm s = eol_norm11 s)); [reflexivity| |].
  - intros c H. unfold no_nel in H. cbn [forallb] in H. rewrite andb_true_r in H. rewrite eol11_cons1. cbn [eol_norm].
    unfold c_cr, c_lf. destruct (c =? 13); [reflexivity|]. destruct ((c =? 0x85) || (c =? 0x2028)); [discriminate|reflexivity].
  - intros c d r IHr IHd H. unfold no_nel in *. cbn [forallb] in H. apply andb_true_iff in H. destruct H as [Hc H].
    pose proof H as Hdr. cbn [forallb] in H. apply andb_true_iff in H. destruct H as [Hdd Hr].
    rewrite eol11_cons2, eol_norm_cons2, (IHr Hr), (IHd Hdr). destruct (c =? 13).
    + destruct (d =? 0x85); [discriminate|]. rewrite orb_false_r. reflexivity.
    + destruct ((c =? 0x85) || (c =? 0x2028)); [discriminate|reflexivity].
Qed.
Print Assumptions T03_eol11_conservative.
(** both normalisations distribute over a split that keeps #xD and its #xA (XML 1.1: #xA / #x85) together;
    [last (c :: d :: r) 0] reduces to [last (d :: r) 0], so [H] passes unchanged to the shorter lists *)
Lemma eol_app : forall v a b, split_ok v a b -> norm_of v (a ++ b) = norm_of v a ++ norm_of v b.
Proof.
  intros v a. unfold norm_of, split_ok. revert a. destruct v.
  - apply (list_ind2 (fun a => forall b, last a 0 <> 13 \/ (hd 0 b <> 10 /\ (true = true -> hd 0 b <> 0x85)) ->
                                          eol_norm11 (a ++ b) = eol_norm11 a ++ eol_norm11 b)).
    + intros b _. reflexivity.
    + intros c b H. cbn [app last] in *. rewrite eol11_cons1. destruct b as [|d r].
      * rewrite eol11_cons1, app_nil_r. reflexivity.
      * rewrite eol11_cons2. destruct (c =? 13) eqn:E; [|destruct ((c =? 0x85) || (c =? 0x2028)); reflexivity].
        apply N.eqb_eq in E. subst c. destruct H as [H|[H1 H2]]; [contradiction|]. specialize (H2 eq_refl). cbn [hd] in *.
        apply N.eqb_neq in H1, H2. rewrite H1, H2. reflexivity.
    + intros c d r IHr IHd b H. change ((c :: d :: r) ++ b) with (c :: d :: (r ++ b)). rewrite !eol11_cons2.
      change (d :: r ++ b) with ((d :: r) ++ b). rewrite (IHd b H).
      destruct (c =? 13); [|destruct ((c =? 0x85) || (c =? 0x2028)); reflexivity].
      destruct ((d =? 10) || (d =? 0x85)); [|reflexivity].
      (* [H] speaks of [last r 0] only if [r] is non-empty *)
      destruct r as [|e r']; [reflexivity|]. rewrite (IHr b H). reflexivity.
  - apply (list_ind2 (fun a => forall b, last a 0 <> 13 \/ (hd 0 b <> 10 /\ (false = true -> hd 0 b <> 0x85)) ->
                                          eol_norm (a ++ b) = eol_norm a ++ eol_norm b)).
    + intros b _. reflexivity.
    + intros c b H. cbn [app last] in *. cbn [eol_norm]. unfold c_cr, c_lf. destruct (c =? 13) eqn:E; [|reflexivity].
      apply N.eqb_eq in E. subst c. destruct H as [H|[H _]]; [contradiction|]. destruct b as [|d r]; [reflexivity|].
      cbn [hd] in H. apply N.eqb_neq in H. rewrite H. reflexivity.
    + intros c d r IHr IHd b H. change ((c :: d :: r) ++ b) with (c :: d :: (r ++ b)). rewrite !eol_norm_cons2.
      change (d :: r ++ b) with ((d :: r) ++ b). rewrite (IHd b H).
      destruct (c =? 13); [|reflexivity]. destruct (d =? 10); [|reflexivity].
      (* [H] speaks of [last r 0] only if [r] is non-empty *)
      destruct r as [|e r']; [reflexivity|]. rewrite (IHr b H). reflexivity.
Qed.
Lemma count_lf_app : forall a b, count_lf (a ++ b) = count_lf a + count_lf b.
Proof. intros a b. unfold count_lf. rewrite filter_app, app_length. lia. Qed.
(** interaction with the XML declaration: the declaration is read in XML 1.0 mode and the rest in XML 1.1 mode;
    for a declaration without NEL / LSEP (XML 1.1 section 2.11 forbids them there) that does not end in #xD the
    result is the XML 1.1 normalisation of the whole entity *)
Theorem T03_eol11_decl : forall decl rest, no_nel decl = true -> last decl 0 <> 13 ->
  eol_doc11 decl rest = eol_norm11 (decl ++ rest).
Proof. intros decl rest H L. unfold eol_doc11. rewrite (T03_eol11_conservative decl H). symmetry. apply (eol_app true). left. exact L. Qed.
Print Assumptions T03_eol11_decl.
Example T03_nonvacuous_eol11 :
  eol_norm11 [97; 13; 0x85; 98; 0x85; 99; 0x2028; 13; 13; 10; 13] = [97; 10; 98; 10; 99; 10; 10; 10; 10] /\
  no_nel [60; 63; 120; 109; 108; 32; 10; 63; 62] = true /\
  eol_doc11 [60; 63; 120; 109; 108; 13; 10; 63; 62] [13; 0x85; 0x85] = [60; 63; 120; 109; 108; 10; 63; 62; 10; 10].
Proof. vm_compute. repeat split; reflexivity. Qed.

(** line and column (Locator) in both versions: over every split of the text consumed that does not separate #xD
    from the #xA (#x85 in XML 1.1) belonging to it, the line is additive; the column advances by the number of
    UTF-16 units of a continuation without line ends (TAB = 1, supplementary character = 2) and otherwise depends on
    the continuation alone; right after any line-end form the column is 1 and the line one more *)
Theorem T03_line_additive_v : forall v a b, split_ok v a b ->
  line_after v (a ++ b) = line_after v a + count_lf (norm_of v b).
Proof. intros v a b H. rewrite !line_after_norm, (eol_app v a b H), count_lf_app. lia. Qed.
Print Assumptions T03_line_additive_v.
Theorem T03_line_additive : forall a b, (last a 0 <> 13 \/ hd 0 b <> 10) ->
  line_after false (a ++ b) = line_after false a + count_lf (eol_norm b).
Proof. intros a b H. apply (T03_line_additive_v false). destruct H as [H|H]; [left; exact H|right; split; [exact H|discriminate]]. Qed.
Print Assumptions T03_line_additive.
Theorem T03_col_additive : forall v a b, split_ok v a b ->
  col_after v (a ++ b) = if count_lf (norm_of v b) =? 0 then col_after v a + N.of_nat (length (norm_of v b))
                         else col_after v b.
Proof.
  intros v a b H. rewrite !col_after_norm.
  rewrite (eol_app v a b H), since_lf_app, since_lf_split. destruct (count_lf (norm_of v b) =? 0); lia.
Qed.
Print Assumptions T03_col_additive.
Theorem T03_col_units : forall v a b, plain v b = true -> col_after v (a ++ b) = col_after v a + N.of_nat (length b).
Proof. intros v a b P. destruct (plain_norm v b P) as [N1 N2]. rewrite (T03_col_additive v a b (plain_split v a b P)), N1, N2. reflexivity. Qed.
Print Assumptions T03_col_units.
Theorem T03_col_after_break : forall v a e, In e (breaks v) -> last a 0 <> 13 ->
  col_after v (a ++ e) = 1 /\ line_after v (a ++ e) = line_after v a + 1.
Proof.
  intros v a e H L. assert (Sp : split_ok v a e) by (left; exact L).
  rewrite (T03_col_additive v a e Sp), (T03_line_additive_v v a e Sp), (break_norm v e H). split; [|reflexivity].
  change (count_lf [10] =? 0) with false. cbv iota. rewrite col_after_norm, (break_norm v e H). reflexivity.
Qed.
Print Assumptions T03_col_after_break.
Example T03_nonvacuous_col :
  plain true [9; 0xD801; 0xDC00; 120] = true /\ col_after true ([97; 0x2028; 98] ++ [9; 0xD801; 0xDC00; 120]) = 6 /\
  col_after false [97; 13; 10; 9; 98] = 3 /\ line_after true [97; 13; 0x85; 0x85; 98] = 3.
Proof. vm_compute. repeat split; reflexivity. Qed.
Example T03_nonvacuous_split : split_ok true [97; 13] [98] /\ In [13; 0x85] (breaks true).
Proof. split; [right; split; [discriminate|intros _; discriminate]|cbn; tauto]. Qed.

(** DTD defaulting and the [specified] property: every attribute written in the tag is delivered, in document order,
    with specified = true; an attribute delivered with specified = false is a declared default whose name is not
    written in the tag; the flag does not depend on anything else (in particular not on the history of the pooled
    XMLAttr objects: the model sets it on every use - the correspondence runs element sequences and consecutive parses
    on one parser object against it) *)
Theorem T03_specified_literal : forall lit defs a, In a lit -> In (a, true) (att_list lit defs).
Proof. intros lit defs a H. unfold att_list. apply in_or_app. left. apply in_map_iff. exists a. split; [reflexivity|exact H]. Qed.
Print Assumptions T03_specified_literal.
Theorem T03_specified_flag : forall lit defs a f, In (a, f) (att_list lit defs) ->
  if f then In a lit else In a defs /\ has_name (fst a) lit = false.
Proof.
  intros lit defs a f H. unfold att_list in H. apply in_app_or in H. destruct H as [H|H]; apply in_map_iff in H;
    destruct H as [x [E I]]; inversion E; subst.
  - exact I.
  - apply filter_In in I. destruct I as [I1 I2]. split; [exact I1|]. destruct (has_name (fst a) lit); [discriminate|reflexivity].
Qed.
Print Assumptions T03_specified_flag.
Theorem T03_specified_order : forall lit defs, map fst (firstn (length lit) (att_list lit defs)) = lit.
Proof.
  intros lit defs. unfold att_list. rewrite <- (map_length (fun a => (a, true)) lit) at 1. rewrite firstn_app, Nat.sub_diag, firstn_all.
  cbn [firstn]. rewrite app_nil_r, map_map. cbn [fst]. apply map_id.
Qed.
Print Assumptions T03_specified_order.
(** Locator / error position inside nested entities: while any number of INTERNAL entities are open on top of an
    external entity, the position reported is the one reached in that external entity (just past the reference),
    whatever lies below it on the reader stack *)
Theorem T03_locator_nearest_external : forall v ints c below, forallb (fun e => negb (fst e)) ints = true ->
  locator v (ints ++ (true, c) :: below) = (line_after v c, col_after v c).
Proof.
  intros v ints c below H. unfold locator. replace (last_ext (ints ++ (true, c) :: below)) with c; [reflexivity|].
  induction ints as [|[e t] r IH]; [reflexivity|]. cbn [forallb fst] in H. apply andb_true_iff in H.
  destruct H as [H1 H2]. destruct e; [discriminate|]. cbn [app last_ext]. rewrite <- (IH H2).
  destruct (r ++ (true, c) :: below) eqn:E; [destruct r; discriminate|reflexivity].
Qed.
Print Assumptions T03_locator_nearest_external.
Example T03_nonvacuous_specified :
  att_list [([100], [108]); ([120], [49])] [([100], [118]); ([102], [119])] =
    [(([100], [108]), true); (([120], [49]), true); (([102], [119]), false)] /\
  locator false [(false, [65; 10; 10]); (false, [66]); (true, [108; 10; 38; 105; 59]); (true, [10; 10; 10; 10])] = (2, 4).
Proof. vm_compute. split; reflexivity. Qed.
