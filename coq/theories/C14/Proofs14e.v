(** C14 -- DOMNodeIDMap: the open-addressing invariant (every entry is reachable along its probe sequence through
    non-empty slots), its preservation by add (with and without growth) and remove, and the correctness of find; sequences
    of add / remove against the specification set; fNumEntries under repeated add / remove of one attribute;
    [unique_entries] and what remove does to a registered entry. *)
From Coq Require Import List NArith Arith Bool Lia.
From XV Require Import Gen.GenC14IdMap C14.Spec14 C14.Hist14 C14.IdMap14.
Import ListNotations.

Lemma list_eqb_refl : forall l, list_eqb l l = true.
Proof. induction l as [|x r IH]; [reflexivity|]. cbn. rewrite N.eqb_refl. exact IH. Qed.
Lemma list_eqb_eq : forall a b, list_eqb a b = true -> a = b.
Proof.
  induction a as [|x r IH]; intros [|y s] H; cbn in H; try discriminate; [reflexivity|].
  apply andb_prop in H. destruct H as [H1 H2]. apply N.eqb_eq in H1. subst. f_equal. apply IH. exact H2.
Qed.

Lemma slot_upd_same : forall t k x, k < length t -> slot_at (upd k x t) k = x.
Proof.
  unfold slot_at. induction t as [|y r IH]; intros k x H; [cbn in H; lia|]. destruct k; cbn; [reflexivity|].
  apply IH. cbn in H. lia.
Qed.
Lemma slot_upd_other : forall t k k' x, k <> k' -> slot_at (upd k x t) k' = slot_at t k'.
Proof.
  unfold slot_at. induction t as [|y r IH]; intros k k' x H; [destruct k; reflexivity|].
  destruct k; destruct k'; cbn; try reflexivity; try lia. apply IH. lia.
Qed.
Lemma slot_in_range : forall t k e, slot_at t k = SAttr e -> k < length t /\ In (SAttr e) t.
Proof.
  intros t k e H. unfold slot_at in H. destruct (Nat.lt_ge_cases k (length t)) as [Hlt|Hge]; [|rewrite nth_overflow in H by exact Hge; discriminate].
  split; [exact Hlt|]. rewrite <- H. apply nth_In. exact Hlt.
Qed.
Lemma upd_length : forall {A} (t : list A) k x, length (upd k x t) = length t.
Proof. induction t as [|y r IH]; intros k x; [destruct k; reflexivity|]. destruct k; cbn; [reflexivity|]. rewrite IH. reflexivity. Qed.

(** the j-th slot of the probe sequence with step h0 *)
Fixpoint pos (size h0 j : nat) : nat := match j with O => h0 | S j' => step size h0 (pos size h0 j') end.
Lemma pos_lt : forall size h0 j, 0 < size -> h0 < size -> pos size h0 j < size.
Proof.
  intros size h0 j Hs Hh. induction j as [|j IH]; [exact Hh|]. cbn. unfold step.
  destruct (Nat.leb_spec size (pos size h0 j + h0)); [apply Nat.mod_upper_bound; lia|lia].
Qed.
Lemma pos_shift : forall size h0 j, pos size h0 (S j) = step size h0 (pos size h0 j).
Proof. reflexivity. Qed.

(** facts about gPrimes / gMaxFill are read off the generated table by evaluation: a property of every entry, or of every
    two adjacent entries *)
Lemma table_all : forall (P : N * N -> bool), forallb P idmap_sizes = true ->
  forall k s mx, size_at k = Some (s, mx) -> exists p, P p = true /\ s = N.to_nat (fst p) /\ mx = N.to_nat (snd p).
Proof.
  intros P Hall k s mx H. unfold size_at in H. destruct (nth_error idmap_sizes k) as [[sN mN]|] eqn:E; [|discriminate].
  injection H as <- <-. exists (sN, mN). split; [|split; reflexivity].
  rewrite forallb_forall in Hall. apply Hall. exact (nth_error_In _ _ E).
Qed.
Lemma adjacent_all : forall {A} (P : A -> A -> bool) (l : list A),
  forallb (fun ab => P (fst ab) (snd ab)) (combine l (tl l)) = true ->
  forall k a b, nth_error l k = Some a -> nth_error l (S k) = Some b -> P a b = true.
Proof.
  intros A P. induction l as [|x l IH]; intros H k a b Ha Hb; [destruct k; discriminate|].
  destruct l as [|y l]; [destruct k; discriminate|]. cbn [tl combine forallb fst snd] in H. apply andb_prop in H.
  destruct k as [|k]; [cbn in Ha, Hb; injection Ha as <-; injection Hb as <-; exact (proj1 H)|].
  exact (IH (proj2 H) k a b Ha Hb).
Qed.
Lemma sizes_ge2 : forall k s mx, size_at k = Some (s, mx) -> 2 <= s.
Proof.
  intros k s mx H. destruct (table_all (fun p => 2 <=? fst p)%N eq_refl k s mx H) as [p [Hp [-> _]]].
  apply N.leb_le in Hp. lia.
Qed.

Section Map.
  Variable val : nat -> list N.

  Definition nonempty (s : slot) : Prop := s <> SEmpty.
  Definition reach (t : list slot) (size : nat) (k e : nat) : Prop :=
    let h0 := h0_of size (val e) in
    exists j, j < size /\ pos size h0 j = k /\ forall i, i < j -> nonempty (slot_at t (pos size h0 i)).
  Definition wf (m : idmap) : Prop :=
    length (im_tab m) = im_size m /\ 2 <= im_size m /\
    forall k e, slot_at (im_tab m) k = SAttr e -> reach (im_tab m) (im_size m) k e.
  Definition present (m : idmap) (e : nat) : Prop := exists k, slot_at (im_tab m) k = SAttr e.

  Lemma wf_size : forall m, wf m -> 2 <= im_size m.
  Proof. intros m [_ [H _]]. exact H. Qed.

  Lemma upd_keeps_nonempty : forall t k x y, k < length t -> x <> SEmpty ->
    nonempty (slot_at t y) -> nonempty (slot_at (upd k x t) y).
  Proof.
    intros t k x y Hk Hx Hy. destruct (Nat.eq_dec k y) as [<-|Hn]; [rewrite slot_upd_same by exact Hk; exact Hx|].
    rewrite slot_upd_other by exact Hn. exact Hy.
  Qed.

  Lemma h0_lt : forall size v, 2 <= size -> h0_of size v < size.
  Proof.
    intros size v H. unfold h0_of.
    assert (N.to_nat (xhash v (N.of_nat (size - 1))) < size - 1); [|lia].
    unfold xhash. destruct v as [|c r].
    - cbn. lia.
    - assert (Hm : (N.of_nat (size - 1) <> 0)%N) by lia.
      pose proof (N.mod_upper_bound (xhash_go c r) (N.of_nat (size - 1)) Hm). lia.
  Qed.

  Lemma probe_val_sound : forall t size h0 v fuel cur e,
    probe_val val t size h0 v fuel cur = Done (Some e) -> exists k, slot_at t k = SAttr e /\ val e = v.
  Proof.
    intros t size h0 v. induction fuel as [|fu IH]; intros cur e H; [discriminate|]. cbn in H.
    destruct (slot_at t cur) as [| |e'] eqn:E; [discriminate|exact (IH _ _ H)|].
    destruct (list_eqb (val e') v) eqn:Ev.
    - injection H as <-. exists cur. split; [exact E|apply list_eqb_eq; exact Ev].
    - exact (IH _ _ H).
  Qed.

  Lemma probe_val_reach : forall t size h0 e j i fuel,
    (forall e' k', slot_at t k' = SAttr e' -> val e' = val e -> e' = e) ->
    slot_at t (pos size h0 j) = SAttr e ->
    (forall l, l < j -> nonempty (slot_at t (pos size h0 l))) ->
    i <= j -> j - i < fuel ->
    probe_val val t size h0 (val e) fuel (pos size h0 i) = Done (Some e).
  Proof.
    intros t size h0 e j i fuel Hd Hj Hne. revert i. induction fuel as [|fu IH]; intros i Hi Hf; [lia|].
    cbn. destruct (Nat.eq_dec i j) as [->|Hn].
    - rewrite Hj. rewrite list_eqb_refl. reflexivity.
    - assert (Hlt : i < j) by lia. pose proof (Hne i Hlt) as Hni.
      destruct (slot_at t (pos size h0 i)) as [| |e'] eqn:E.
      + exfalso. apply Hni. reflexivity.
      + rewrite <- pos_shift. apply IH; lia.
      + destruct (list_eqb (val e') (val e)) eqn:Ev.
        * apply list_eqb_eq in Ev. rewrite (Hd e' _ E Ev). reflexivity.
        * rewrite <- pos_shift. apply IH; lia.
  Qed.

  Lemma probe_val_no_growerr : forall t size h0 v fuel cur, probe_val val t size h0 v fuel cur <> GrowErr.
  Proof.
    intros t size h0 v. induction fuel as [|fu IH]; intros cur; [discriminate|]. cbn.
    destruct (slot_at t cur); [discriminate|apply IH|]. destruct (list_eqb (val e) v); [discriminate|apply IH].
  Qed.

  Theorem find_sound : forall m v e, im_find val m v = Done (Some e) -> present m e /\ val e = v.
  Proof. intros m v e H. unfold im_find in H. apply probe_val_sound in H. destruct H as [k [H1 H2]]. split; [exists k; exact H1|exact H2]. Qed.

  Theorem find_complete : forall m e, wf m -> present m e ->
    (forall e' k', slot_at (im_tab m) k' = SAttr e' -> val e' = val e -> e' = e) ->
    im_find val m (val e) = Done (Some e).
  Proof.
    intros m e [Hl [Hs Hr]] [k Hk] Hd. destruct (Hr k e Hk) as [j [Hj [Hp Hne]]].
    unfold im_find. change (h0_of (im_size m) (val e)) with (pos (im_size m) (h0_of (im_size m) (val e)) 0) at 2.
    apply (probe_val_reach _ _ _ e j 0); try assumption; try lia. rewrite Hp. exact Hk.
  Qed.

  (** an absent value is never "found": find answers None (or the C++ loop would not end) *)
  Theorem find_absent : forall m v, (forall e, present m e -> val e <> v) ->
    im_find val m v = Done None \/ im_find val m v = Hang.
  Proof.
    intros m v H. destruct (im_find val m v) as [[e|]| |] eqn:E; [|left; reflexivity|right; reflexivity|].
    - exfalso. destruct (find_sound m v e E) as [Hp Hv]. exact (H e Hp Hv).
    - exfalso. unfold im_find in E. exact (probe_val_no_growerr _ _ _ _ _ _ E).
  Qed.

  Lemma probe_free_spec : forall t size h0 fuel i k,
    probe_free t size h0 fuel (pos size h0 i) = Some k ->
    exists j, i <= j /\ j < i + fuel /\ pos size h0 j = k /\
              (forall l, i <= l -> l < j -> nonempty (slot_at t (pos size h0 l))) /\
              (forall e, slot_at t k <> SAttr e).
  Proof.
    intros t size h0. induction fuel as [|fu IH]; intros i k H; [discriminate|]. cbn in H.
    destruct (slot_at t (pos size h0 i)) as [| |e'] eqn:E.
    - injection H as <-. exists i. repeat split; try lia. intros e. rewrite E. discriminate.
    - injection H as <-. exists i. repeat split; try lia. intros e. rewrite E. discriminate.
    - rewrite <- pos_shift in H. destruct (IH _ _ H) as [j [H1 [H2 [H3 [H4 H5]]]]].
      exists j. repeat split; try lia; try assumption.
      intros l Hl1 Hl2. destruct (Nat.eq_dec l i) as [->|Hn]; [rewrite E; discriminate|apply H4; lia].
  Qed.

  (** overwriting slot k with a non-empty value: the invariant is kept if a new entry can be reached, and the entries are
      the new one and the old ones outside k *)
  Lemma upd_wf : forall m k x, wf m -> k < length (im_tab m) -> x <> SEmpty ->
    (forall e, x = SAttr e -> reach (im_tab m) (im_size m) k e) ->
    let m' := {| im_tab := upd k x (im_tab m); im_size := im_size m; im_idx := im_idx m; im_num := im_num m; im_max := im_max m |} in
    wf m' /\ forall e, present m' e <-> x = SAttr e \/ exists k', k' <> k /\ slot_at (im_tab m) k' = SAttr e.
  Proof.
    intros m k x [Hl [Hs Hr]] Hk Hx Hnew m'.
    assert (Hmono : forall t e, reach (im_tab m) (im_size m) t e -> reach (upd k x (im_tab m)) (im_size m) t e).
    { intros t e [j [H1 [H2 H3]]]. exists j. split; [exact H1|]. split; [exact H2|].
      intros i Hi. apply upd_keeps_nonempty; [exact Hk|exact Hx|exact (H3 i Hi)]. }
    split.
    - split; [cbn; rewrite upd_length; exact Hl|]. split; [exact Hs|]. cbn [m' im_tab im_size]. intros k' e Hs'. apply Hmono.
      destruct (Nat.eq_dec k k') as [<-|Hn]; [rewrite slot_upd_same in Hs' by exact Hk; exact (Hnew e Hs')|].
      rewrite slot_upd_other in Hs' by exact Hn. exact (Hr k' e Hs').
    - intros e. unfold present. cbn [m' im_tab]. split.
      + intros [k' Hk']. destruct (Nat.eq_dec k k') as [<-|Hn]; [left; rewrite slot_upd_same in Hk' by exact Hk; exact Hk'|].
        right. exists k'. rewrite slot_upd_other in Hk' by exact Hn. split; [intros E; exact (Hn (eq_sym E))|exact Hk'].
      + intros [->|[k' [Hn Hk']]]; [exists k; apply slot_upd_same; exact Hk|].
        exists k'. rewrite slot_upd_other by (intros E; exact (Hn (eq_sym E))). exact Hk'.
  Qed.

  Lemma put_wf : forall m e m', wf m -> im_put val m e = Done m' ->
    wf m' /\ present m' e /\ (forall e', present m e' -> present m' e') /\
    (forall e', present m' e' -> e' = e \/ present m e') /\ im_size m' = im_size m /\ im_num m' = im_num m.
  Proof.
    intros m e m' Hw H. pose proof Hw as [Hl [Hs Hr]]. unfold im_put in H.
    set (h0 := h0_of (im_size m) (val e)) in *.
    destruct (probe_free (im_tab m) (im_size m) h0 (im_size m) h0) as [k|] eqn:E; [|discriminate].
    injection H as <-. change h0 with (pos (im_size m) h0 0) in E at 2.
    destruct (probe_free_spec _ _ _ _ _ _ E) as [j [_ [Hj [Hp [Hne Hfree]]]]].
    assert (Hh : h0 < im_size m) by (apply h0_lt; exact Hs).
    assert (Hk : k < length (im_tab m)) by (rewrite Hl, <- Hp; apply pos_lt; lia).
    destruct (upd_wf m k (SAttr e) Hw Hk ltac:(discriminate)) as [W Hpres].
    { intros e0 [= <-]. exists j. split; [lia|]. split; [exact Hp|]. intros i Hi. apply Hne; lia. }
    split; [exact W|]. split; [apply Hpres; left; reflexivity|]. split; [|split; [|split; reflexivity]].
    - intros e' [k' Hk']. apply Hpres. right. exists k'. split; [intros ->; exact (Hfree e' Hk')|exact Hk'].
    - intros e' He'. apply Hpres in He'. destruct He' as [[= ->]|[k' [_ Hk']]]; [left; reflexivity|right; exists k'; exact Hk'].
  Qed.

  Lemma probe_attr_spec : forall t size h0 e fuel cur k,
    probe_attr t size h0 e fuel cur = Done (Some k) -> slot_at t k = SAttr e.
  Proof.
    intros t size h0 e. induction fuel as [|fu IH]; intros cur k H; [discriminate|]. cbn in H.
    destruct (slot_at t cur) as [| |e'] eqn:E; [discriminate|exact (IH _ _ H)|].
    destruct (Nat.eqb_spec e' e) as [->|Hn]; [injection H as <-; exact E|exact (IH _ _ H)].
  Qed.
  Lemma remove_wf : forall m e m', wf m -> im_remove val m e = Done m' ->
    wf m' /\ (forall e', e' <> e -> present m e' -> present m' e') /\ (forall e', present m' e' -> present m e').
  Proof.
    intros m e m' Hw H. unfold im_remove in H.
    destruct (probe_attr _ _ _ e _ _) as [[k|]| |] eqn:E; try discriminate.
    - injection H as <-. pose proof (probe_attr_spec _ _ _ _ _ _ _ E) as Hk.
      destruct (upd_wf m k SDel Hw (proj1 (slot_in_range _ _ _ Hk)) ltac:(discriminate) ltac:(discriminate)) as [W Hpres].
      split; [exact W|]. split.
      + intros e' Hne [k' Hk']. apply Hpres. right. exists k'. split; [|exact Hk'].
        intros ->. rewrite Hk in Hk'. injection Hk' as <-. exact (Hne eq_refl).
      + intros e' He'. apply Hpres in He'. destruct He' as [He'|[k' [_ Hk']]]; [discriminate|exists k'; exact Hk'].
    - injection H as <-. split; [exact Hw|]. split; intros; assumption.
  Qed.

  Lemma empty_wf : forall s idx n mx, 2 <= s ->
    wf {| im_tab := repeat SEmpty s; im_size := s; im_idx := idx; im_num := n; im_max := mx |} /\
    forall e, ~ present {| im_tab := repeat SEmpty s; im_size := s; im_idx := idx; im_num := n; im_max := mx |} e.
  Proof.
    intros s idx n mx Hs.
    assert (He : forall k, slot_at (repeat SEmpty s) k = SEmpty).
    { intros k. unfold slot_at. clear. revert k. induction s as [|s IH]; intros [|k]; cbn; auto. }
    split.
    - split; [cbn [im_tab im_size]; apply repeat_length|]. split; [exact Hs|]. cbn [im_tab im_size]. intros k e H. rewrite He in H. discriminate.
    - intros e [k Hk]. cbn [im_tab] in Hk. rewrite He in Hk. discriminate.
  Qed.
  Lemma with_num_wf : forall m n, wf m -> wf (with_num m n).
  Proof. intros m n H. exact H. Qed.

  Definition keeps (m m' : idmap) : Prop := forall e, present m e -> present m' e.

  (** the re-insertion loop of growTable, one step of which is [restep]: given what one add at fuel fu does to the
      reachability invariant, the loop keeps it, keeps what the new table held and brings over every entry of the old one *)
  Definition restep (fu : nat) := fun (acc : outcome idmap) (sl : slot) =>
    match acc, sl with Done m', SAttr e' => im_add val fu m' e' | _, _ => acc end.

  Lemma refill_wf : forall fu,
    (forall m e m', wf m -> im_add val fu m e = Done m' ->
       wf m' /\ present m' e /\ keeps m m' /\ (forall e', present m' e' -> e' = e \/ present m e')) ->
    forall l acc mr, fold_left (restep fu) l (Done acc) = Done mr -> wf acc ->
    wf mr /\ keeps acc mr /\ (forall e', In (SAttr e') l -> present mr e') /\
    (forall e', present mr e' -> present acc e' \/ In (SAttr e') l).
  Proof.
    intros fu Hadd. induction l as [|sl l IHl]; intros acc mr Hf Hacc.
    - cbn in Hf. injection Hf as <-. split; [exact Hacc|]. split; [intros x Hx; exact Hx|]. split; [intros e' []|intros e' He'; left; exact He'].
    - cbn [fold_left restep] in Hf. destruct sl as [| |e0].
      1-2: (* an empty or deleted slot is passed over *)
        destruct (IHl _ _ Hf Hacc) as [A [B [C D]]]; split; [exact A|]; split; [exact B|]; split;
        [intros e' [Hx|Hx]; [discriminate|apply C; exact Hx]
        |intros e' He'; destruct (D e' He') as [|]; [left; assumption|right; right; assumption]].
      destruct (im_add val fu acc e0) as [acc1| |] eqn:Ea.
      2-3: (* a failed re-insertion stays a failure to the end of the loop *)
        exfalso; clear -Hf; induction l as [|x l IHl']; [discriminate|]; cbn in Hf; apply IHl'; exact Hf.
      destruct (Hadd _ _ _ Hacc Ea) as [W1 [P1 [K1 O1]]].
      destruct (IHl _ _ Hf W1) as [A [B [C D]]]. split; [exact A|]. split; [intros x Hx; apply B; apply K1; exact Hx|]. split.
      + intros e' [Hx|Hx]; [injection Hx as <-; apply B; exact P1|apply C; exact Hx].
      + intros e' He'. destruct (D e' He') as [Hd|Hd]; [|right; right; exact Hd].
        destruct (O1 e' Hd) as [->|Ho]; [right; left; reflexivity|left; exact Ho].
  Qed.

  Lemma add_wf : forall fuel m e m', wf m -> im_add val fuel m e = Done m' ->
    wf m' /\ present m' e /\ keeps m m' /\ (forall e', present m' e' -> e' = e \/ present m e').
  Proof.
    induction fuel as [|fu IH]; intros m e m' Hwf H; [discriminate|]. cbn [im_add] in H.
    destruct (im_max m <=? im_num m).
    - (* growTable, then the store *)
      destruct (size_at (S (im_idx m))) as [[s mx]|] eqn:Es; [|discriminate].
      destruct (empty_wf s (S (im_idx m)) (im_num m) mx (sizes_ge2 _ _ _ Es)) as [Hw0 Hp0].
      change (fold_left _ (im_tab m) ?o) with (fold_left (restep fu) (im_tab m) o) in H.
      destruct (fold_left (restep fu) (im_tab m) _) as [m1| |] eqn:Ef; try discriminate.
      destruct (refill_wf fu IH _ _ _ Ef Hw0) as [W1 [_ [C1 D1]]].
      destruct (put_wf _ _ _ (with_num_wf m1 (S (im_num m1)) W1) H) as [W2 [P2 [K2 [O2 _]]]].
      split; [exact W2|]. split; [exact P2|]. split.
      + intros e' [k Hk]. apply K2. apply C1. exact (proj2 (slot_in_range _ _ _ Hk)).
      + intros e' He'. destruct (O2 e' He') as [->|Ho]; [left; reflexivity|]. right.
        destruct (D1 e' Ho) as [Hd|Hd]; [exfalso; exact (Hp0 e' Hd)|].
        apply In_nth with (d := SEmpty) in Hd. destruct Hd as [k [_ Hk]]. exists k. exact Hk.
    - destruct (put_wf _ _ _ (with_num_wf m (S (im_num m)) Hwf) H) as [W2 [P2 [K2 [O2 _]]]].
      split; [exact W2|]. split; [exact P2|]. split; [exact K2|exact O2].
  Qed.
End Map.

(** the invariant only reads the values of the entries that are in the table *)
Lemma wf_ext : forall val val' m, (forall e, present m e -> val e = val' e) -> wf val m -> wf val' m.
Proof.
  intros val val' m H [Hl [Hs Hr]]. split; [exact Hl|]. split; [exact Hs|]. intros k e Hk.
  destruct (Hr k e Hk) as [j [H1 [H2 H3]]]. unfold reach. rewrite <- (H e (ex_intro _ k Hk)).
  exists j. split; [exact H1|]. split; [exact H2|exact H3].
Qed.
Inductive top := TAdd (e : nat) | TRemove (e : nat).
Fixpoint t_run (val : nat -> list N) (fuel : nat) (m : idmap) (l : list top) : outcome idmap :=
  match l with
  | [] => Done m
  | TAdd e :: r => match im_add val fuel m e with Done m' => t_run val fuel m' r | o => o end
  | TRemove e :: r => match im_remove val m e with Done m' => t_run val fuel m' r | o => o end
  end.
Fixpoint spec_set (s : list nat) (l : list top) : list nat :=
  match l with
  | [] => s
  | TAdd e :: r => spec_set (e :: s) r
  | TRemove e :: r => spec_set (filter (fun x => negb (x =? e)) s) r
  end.

Theorem seq_nothing_lost : forall val fuel l m s m', wf val m -> (forall e, In e s -> present m e) ->
  t_run val fuel m l = Done m' -> wf val m' /\ forall e, In e (spec_set s l) -> present m' e.
Proof.
  intros val fuel. induction l as [|[e|e] r IH]; intros m s m' Hwf Hs H.
  - cbn in H. injection H as <-. split; [exact Hwf|exact Hs].
  - cbn in H. destruct (im_add val fuel m e) as [m1| |] eqn:Ea; try discriminate.
    destruct (add_wf val fuel m e m1 Hwf Ea) as [W [P [K _]]].
    apply (IH m1 (e :: s) m' W); [|exact H]. intros x [<-|Hx]; [exact P|apply K; apply Hs; exact Hx].
  - cbn in H. destruct (im_remove val m e) as [m1| |] eqn:Er; try discriminate.
    destruct (remove_wf val m e m1 Hwf Er) as [W [K _]].
    apply (IH m1 (filter (fun x => negb (x =? e)) s) m' W); [|exact H].
    intros x Hx. apply filter_In in Hx. destruct Hx as [Hin Hne]. apply K; [|apply Hs; exact Hin].
    intros ->. rewrite Nat.eqb_refl in Hne. discriminate.
Qed.

Theorem seq_no_ghost : forall val fuel l m s m', wf val m -> (forall e, present m e -> In e s) ->
  t_run val fuel m l = Done m' -> forall e, present m' e -> In e (s ++ flat_map (fun o => match o with TAdd x => [x] | _ => [] end) l).
Proof.
  intros val fuel. induction l as [|[e|e] r IH]; intros m s m' Hwf Hs H x Hx.
  - cbn in H. injection H as <-. rewrite app_nil_r. apply Hs. exact Hx.
  - cbn in H. destruct (im_add val fuel m e) as [m1| |] eqn:Ea; try discriminate.
    destruct (add_wf val fuel m e m1 Hwf Ea) as [W [_ [_ O]]].
    assert (Hs1 : forall y, present m1 y -> In y (s ++ [e])).
    { intros y Hy. apply in_or_app. destruct (O y Hy) as [->|Hp]; [right; left; reflexivity|left; apply Hs; exact Hp]. }
    pose proof (IH m1 (s ++ [e]) m' W Hs1 H x Hx) as Hin. rewrite <- app_assoc in Hin. exact Hin.
  - cbn in H. destruct (im_remove val m e) as [m1| |] eqn:Er; try discriminate.
    destruct (remove_wf val m e m1 Hwf Er) as [W [_ O]].
    apply (IH m1 s m' W (fun y Hy => Hs y (O y Hy)) H x Hx).
Qed.

Lemma im_new_shape : exists k s mx, size_at k = Some (s, mx) /\
  im_new = {| im_tab := repeat SEmpty s; im_size := s; im_idx := k; im_num := 0; im_max := mx |}.
Proof.
  unfold im_new. destruct (size_at _) as [[s mx]|] eqn:E; [|exfalso; vm_compute in E; discriminate].
  eexists _, s, mx. split; [exact E|reflexivity].
Qed.
Lemma im_new_wf : forall val, wf val im_new /\ forall e, ~ present im_new e.
Proof. intros val. destruct im_new_shape as [k [s [mx [E ->]]]]. apply empty_wf. exact (sizes_ge2 _ _ _ E). Qed.

(** remove does not give the entry back to the fill limit: adding and removing one attribute n times, in a table where
    its first probe slot is free, leaves a deleted marker there and fNumEntries n higher (no growth on the way) *)
Fixpoint rounds (e n : nat) : list top := match n with O => [] | S n' => TAdd e :: TRemove e :: rounds e n' end.

Lemma t_run_app : forall val fuel l1 l2 m,
  t_run val fuel m (l1 ++ l2) = match t_run val fuel m l1 with Done m' => t_run val fuel m' l2 | o => o end.
Proof.
  intros val fuel. induction l1 as [|[e|e] r IH]; intros l2 m; [reflexivity| |]; cbn [app t_run].
  - destruct (im_add val fuel m e); [apply IH|reflexivity|reflexivity].
  - destruct (im_remove val m e); [apply IH|reflexivity|reflexivity].
Qed.
Lemma upd_upd : forall {A} (t : list A) k x y, upd k y (upd k x t) = upd k y t.
Proof. induction t as [|z r IH]; intros k x y; [destruct k; reflexivity|]. destruct k; cbn; [reflexivity|]. rewrite IH. reflexivity. Qed.

Lemma add_remove_round : forall val fu e m,
  let h0 := h0_of (im_size m) (val e) in
  (forall e', slot_at (im_tab m) h0 <> SAttr e') -> h0 < length (im_tab m) -> 0 < im_size m -> im_num m < im_max m ->
  t_run val (S fu) m [TAdd e; TRemove e] =
  Done {| im_tab := upd h0 SDel (im_tab m); im_size := im_size m; im_idx := im_idx m; im_num := S (im_num m); im_max := im_max m |}.
Proof.
  intros val fu e m h0 Hfree Hlen Hsize Hnum.
  assert (Hput : probe_free (im_tab m) (im_size m) h0 (im_size m) h0 = Some h0).
  { destruct (im_size m); [lia|]. cbn [probe_free]. destruct (slot_at (im_tab m) h0) as [| |e']; [reflexivity|reflexivity|exfalso; exact (Hfree e' eq_refl)]. }
  assert (Hrem : probe_attr (upd h0 (SAttr e) (im_tab m)) (im_size m) h0 e (im_size m) h0 = Done (Some h0)).
  { destruct (im_size m); [lia|]. cbn [probe_attr]. rewrite (slot_upd_same _ _ _ Hlen), Nat.eqb_refl. reflexivity. }
  cbn [t_run im_add]. destruct (Nat.leb_spec (im_max m) (im_num m)) as [Hle|_]; [lia|].
  unfold im_put. cbn [with_num im_tab im_size im_idx im_num im_max]. fold h0. rewrite Hput.
  unfold im_remove. cbn [im_tab im_size im_idx im_num im_max]. fold h0. rewrite Hrem, upd_upd. reflexivity.
Qed.
Lemma add_remove_rounds : forall val fu e n m,
  let h0 := h0_of (im_size m) (val e) in
  (forall e', slot_at (im_tab m) h0 <> SAttr e') -> h0 < length (im_tab m) -> 0 < im_size m ->
  im_num m + S n <= im_max m ->
  t_run val (S fu) m (rounds e (S n)) =
  Done {| im_tab := upd h0 SDel (im_tab m); im_size := im_size m; im_idx := im_idx m; im_num := im_num m + S n; im_max := im_max m |}.
Proof.
  intros val fu e. induction n as [|n IH]; intros m h0 Hfree Hlen Hsize Hnum.
  - change (rounds e 1) with [TAdd e; TRemove e]. rewrite (add_remove_round val fu e m Hfree Hlen Hsize) by lia.
    fold h0. do 2 f_equal. lia.
  - change (rounds e (S (S n))) with ([TAdd e; TRemove e] ++ rounds e (S n)). rewrite t_run_app.
    rewrite (add_remove_round val fu e m Hfree Hlen Hsize) by lia. fold h0.
    rewrite IH; cbn [im_tab im_size im_idx im_num im_max]; fold h0.
    + rewrite upd_upd. do 2 f_equal. lia.
    + intros e'. rewrite (slot_upd_same _ _ _ Hlen). discriminate.
    + rewrite upd_length. exact Hlen.
    + exact Hsize.
    + lia.
Qed.
Definition unique_entries (m : idmap) : Prop :=
  forall k k' e, slot_at (im_tab m) k = SAttr e -> slot_at (im_tab m) k' = SAttr e -> k = k'.

Lemma probe_attr_no_growerr : forall t size h0 e fuel cur, probe_attr t size h0 e fuel cur <> GrowErr.
Proof.
  intros t size h0 e. induction fuel as [|fu IH]; intros cur; [discriminate|]. cbn.
  destruct (slot_at t cur); [discriminate|apply IH|]. destruct (_ =? e); [discriminate|apply IH].
Qed.
Lemma probe_attr_reach : forall t size h0 e j i fuel,
  slot_at t (pos size h0 j) = SAttr e ->
  (forall l, l < j -> nonempty (slot_at t (pos size h0 l))) ->
  i <= j -> j - i < fuel ->
  exists k, probe_attr t size h0 e fuel (pos size h0 i) = Done (Some k).
Proof.
  intros t size h0 e j i fuel Hj Hne. revert i. induction fuel as [|fu IH]; intros i Hi Hf; [lia|].
  cbn. destruct (Nat.eq_dec i j) as [->|Hn].
  - rewrite Hj, Nat.eqb_refl. eexists. reflexivity.
  - assert (Hlt : i < j) by lia. pose proof (Hne i Hlt) as Hni.
    destruct (slot_at t (pos size h0 i)) as [| |e'] eqn:E.
    + exfalso. apply Hni. reflexivity.
    + rewrite <- pos_shift. apply IH; lia.
    + destruct (e' =? e); [eexists; reflexivity|]. rewrite <- pos_shift. apply IH; lia.
Qed.

(** remove finds a registered entry: it ends with the deleted marker in the slot of that entry *)
Lemma remove_found : forall val m e, wf val m -> present m e ->
  exists k, slot_at (im_tab m) k = SAttr e /\
    im_remove val m e = Done {| im_tab := upd k SDel (im_tab m); im_size := im_size m; im_idx := im_idx m;
                                im_num := im_num m; im_max := im_max m |}.
Proof.
  intros val m e [Hl [Hs Hr]] [k0 Hk0]. destruct (Hr k0 e Hk0) as [j [Hj [Hp Hne]]].
  destruct (probe_attr_reach (im_tab m) (im_size m) (h0_of (im_size m) (val e)) e j 0 (im_size m)) as [k Ek];
    [rewrite Hp; exact Hk0|exact Hne|lia|lia|].
  cbn [pos] in Ek. exists k. split; [exact (probe_attr_spec _ _ _ _ _ _ _ Ek)|]. unfold im_remove. rewrite Ek. reflexivity.
Qed.

(** the result of a run is named by the run itself, so that the table it ends with is evaluated but never written out *)
Lemma done_witness : forall {A} (o : outcome A) (P : A -> Prop), match o with Done m => P m | _ => False end -> exists m, o = Done m /\ P m.
Proof. intros A [m| |] P H; [exists m; split; [reflexivity|exact H]|destruct H|destruct H]. Qed.
