(** C14 -- the cache of DOMDeepNodeListImpl: whatever was cached, item(i) / getLength answer from the current
    tree, provided the cache is stale or describes the current tree ([cache_ok]: every mutation bumps the document's
    change counter, so a cache with another count is never trusted) and the tree walk nextMatchingElementAfter steps
    through the matching elements in document order (a hypothesis here; Nav14.dl_nav on well-formed forests). *)
From Coq Require Import List NArith Arith Bool Lia.
From XV Require Import C14.Spec14 C14.Hist14 C14.Model14.
Import ListNotations.

Section DeepList.
  Variable f : forest.
  Variable root : nat.
  Variable name : list N.
  Let matches := sp_tag_list f root name.
  Let seq := root :: matches.
  Let n := length matches.

  Hypothesis Hnext : forall k c, nth_error seq k = Some c ->
    md_next_match f root name (m_fuel f) (Some c) = nth_error seq (S k).
  Hypothesis Hfuel : n < m_fuel f.


  Lemma seq_len : length seq = S n.
  Proof. reflexivity. Qed.

  Lemma count_spec : forall fuel index1 c idx nx l,
    md_root l = root -> md_name l = name ->
    nth_error seq idx = Some c -> n - idx < fuel ->
    md_count f l fuel index1 (Some c) idx nx =
    if index1 <=? idx then (nx, Some c, idx)
    else (if index1 <=? n then nth_error seq index1 else None, nth_error seq (Nat.min index1 n), Nat.min index1 n).
  Proof.
    induction fuel as [|fu IH]; intros index1 c idx nx l Hr Hn Hc Hf; [lia|].
    assert (Hidx : idx <= n).
    { assert (idx < length seq) by (apply nth_error_Some; rewrite Hc; discriminate). rewrite seq_len in H. lia. }
    cbn [md_count is_some andb]. rewrite Hr, Hn.
    destruct (Nat.ltb_spec idx index1) as [Hlt|Hge].
    - cbn [andb]. rewrite (Hnext idx c Hc).
      destruct (Nat.leb_spec index1 idx) as [Hle|_]; [lia|].
      destruct (nth_error seq (S idx)) as [c'|] eqn:E.
      + assert (HS : S idx <= n).
        { assert (S idx < length seq) by (apply nth_error_Some; rewrite E; discriminate). rewrite seq_len in H. lia. }
        rewrite (IH index1 c' (S idx) (Some c') l Hr Hn E) by lia.
        destruct (Nat.leb_spec index1 (S idx)) as [Hle1|Hgt1].
        * assert (index1 = S idx) by lia. subst index1.
          destruct (Nat.leb_spec (S idx) n); [|lia]. rewrite Nat.min_l by lia. rewrite E. reflexivity.
        * reflexivity.
      + assert (idx = n).
        { apply nth_error_None in E. rewrite seq_len in E. lia. }
        subst idx. destruct (Nat.leb_spec index1 n); [lia|]. rewrite Nat.min_r by lia. rewrite Hc. reflexivity.
    - cbn [andb]. destruct (Nat.leb_spec index1 idx); [reflexivity|lia].
  Qed.

  Definition cache_ok (changes : nat) (l : m_dlist) : Prop :=
    md_root l = root /\ md_name l = name /\
    (md_changes l = changes -> md_cur l = nth_error seq (md_idx l) /\ md_idx l <= n).

  Lemma nth_seq_S : forall i, nth_error seq (S i) = nth_error matches i.
  Proof. reflexivity. Qed.

  Lemma restart_spec : forall l i, md_root l = root -> md_name l = name ->
    md_count f l (m_fuel f) (S i) (Some (md_root l)) 0 None =
    (if S i <=? n then nth_error seq (S i) else None, nth_error seq (Nat.min (S i) n), Nat.min (S i) n).
  Proof.
    intros l i Hr Hn. rewrite Hr. rewrite (count_spec (m_fuel f) (S i) root 0 None l Hr Hn eq_refl) by lia.
    reflexivity.
  Qed.

  Lemma item_answer : forall i (x : option nat),
    (if S i <=? n then nth_error seq (S i) else None) = x ->
    match x with Some _ => nth_error seq (Nat.min (S i) n) | None => None end = nth_error matches i.
  Proof.
    intros i x Hx. destruct (Nat.leb_spec (S i) n) as [Hle|Hgt].
    - rewrite Nat.min_l by lia. rewrite <- Hx. rewrite nth_seq_S.
      destruct (nth_error matches i) eqn:E; [reflexivity|]. apply nth_error_None in E. fold n in E. lia.
    - subst x. symmetry. apply nth_error_None. fold n. lia.
  Qed.

  (** the answer and the cache after the counting loop has run to index S i (or to the end of the list) *)
  Lemma counted_ok : forall changes ch l i, md_root l = root -> md_name l = name -> ch = changes ->
    let l' := {| md_root := md_root l; md_name := md_name l; md_changes := ch;
                 md_cur := nth_error seq (Nat.min (S i) n); md_idx := Nat.min (S i) n |} in
    match (if S i <=? n then nth_error seq (S i) else None) with Some _ => nth_error seq (Nat.min (S i) n) | None => None end
      = nth_error matches i /\
    cache_ok changes l' /\ md_changes l' = changes /\ md_idx l' = Nat.min (S i) n.
  Proof.
    intros changes ch l i Hr Hn Hch l'. split; [apply item_answer; reflexivity|]. split; [|split; [exact Hch|reflexivity]].
    split; [exact Hr|]. split; [exact Hn|]. intros _. split; [reflexivity|]. apply Nat.le_min_r.
  Qed.

  Theorem cache_item_correct : forall changes l i, cache_ok changes l ->
    fst (md_cache_item f changes l (S i)) = nth_error matches i /\
    cache_ok changes (snd (md_cache_item f changes l (S i))) /\
    md_changes (snd (md_cache_item f changes l (S i))) = changes /\
    md_idx (snd (md_cache_item f changes l (S i))) = Nat.min (S i) n.
  Proof.
    intros changes l i [Hr [Hn Hc]]. unfold md_cache_item.
    destruct (Nat.eqb_spec changes (md_changes l)) as [Heq|Hne]; cbn [negb].
    - symmetry in Heq. destruct (Hc Heq) as [Hcur Hidx].
      destruct (Nat.ltb_spec (S i) (md_idx l)) as [Hlt|Hge].
      + rewrite (restart_spec l i Hr Hn). exact (counted_ok changes (md_changes l) l i Hr Hn Heq).
      + destruct (Nat.eqb_spec (S i) (md_idx l)) as [He|Hn2].
        * cbn [fst snd]. split; [rewrite Hcur, <- He; apply nth_seq_S|]. split; [|split; [exact Heq|lia]].
          split; [exact Hr|]. split; [exact Hn|]. intros _. split; [exact Hcur|exact Hidx].
        * destruct (md_cur l) as [c|] eqn:Ecur.
          -- rewrite (count_spec (m_fuel f) (S i) c (md_idx l) None l Hr Hn (eq_sym Hcur)) by lia.
             destruct (Nat.leb_spec (S i) (md_idx l)); [lia|].
             exact (counted_ok changes (md_changes l) l i Hr Hn Heq).
          -- (* no current node although the index is within the list: impossible *)
             exfalso. symmetry in Hcur. apply nth_error_None in Hcur. rewrite seq_len in Hcur. lia.
    - rewrite (restart_spec l i Hr Hn). exact (counted_ok changes changes l i Hr Hn eq_refl).
  Qed.

  Theorem length_correct : forall changes l, cache_ok changes l ->
    fst (md_length f changes l) = n /\ cache_ok changes (snd (md_length f changes l)).
  Proof.
    intros changes l Hok. unfold md_length.
    destruct (cache_item_correct changes l 0 Hok) as [_ [Hok1 _]].
    destruct (md_cache_item f changes l 1) as [r1 l1]. cbn [snd] in Hok1.
    (* item(INT_MAX): the index stops at the number of matches, which is below the fuel *)
    destruct (cache_item_correct changes l1 (m_fuel f) Hok1) as [_ [Hok2 [_ Hidx]]].
    destruct (md_cache_item f changes l1 (S (m_fuel f))) as [r2 l2]. cbn [snd fst] in *.
    split; [lia|exact Hok2].
  Qed.
End DeepList.

Theorem deeplist_correct : forall f root name,
  (forall k c, nth_error (root :: sp_tag_list f root name) k = Some c ->
     md_next_match f root name (m_fuel f) (Some c) = nth_error (root :: sp_tag_list f root name) (S k)) ->
  length (sp_tag_list f root name) < m_fuel f ->
  forall changes l, cache_ok f root name changes l ->
  (forall i, fst (md_cache_item f changes l (S i)) = nth_error (sp_tag_list f root name) i /\
             cache_ok f root name changes (snd (md_cache_item f changes l (S i)))) /\
  fst (md_length f changes l) = length (sp_tag_list f root name) /\
  cache_ok f root name changes (snd (md_length f changes l)).
Proof.
  intros f root name Hn Hf changes l Hok. split; [|exact (length_correct f root name Hn Hf changes l Hok)].
  intros i. destruct (cache_item_correct f root name Hn Hf changes l i Hok) as [A [B _]]. split; assumption.
Qed.
