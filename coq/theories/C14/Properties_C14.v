(** Property C14 -- Live lists, iterators, walkers and ranges stay consistent under mutation.
    The property theorems, each followed by [Print Assumptions], and the examples (closed by evaluation, like the
    refutations, which evaluate a witness).  The general lemmas they rest on are in Tree14.v / Nav14.v (well-formed forests, pointer walks), Proofs14a-c
    (range fix-ups, tag-name list cache, iterator loops), Walk14.v (TreeWalker), Proofs14e/g (DOMNodeIDMap), ProofsR14.v.
    Spec14.v  = DOM Level 2 Traversal-Range on a rose tree (mentions nothing of the C++),
    Model14.v = the C++ (DOMNodeIteratorImpl, DOMTreeWalkerImpl, DOMDeepNodeListImpl, DOMRangeImpl and the
                notification loops), parameterised by [fixes]: the code as it is / as repaired by fixes/C14-*.patch,
    Hist14.v  = histories and the specification interpreter [sp_run]; Model14.m_run runs the same histories.

    State of the defects found (DESIGN.md section 5 / known-findings.d/C14.json):
      F19 (fresh iterator + removal crashes), F20 (insertData start offset), F26 (TreeWalker::previousNode depth)
          are repaired in /repo (fix: commits); the theorems are about the repaired code, the *_refuted theorems
          record what the code does without the repair ([fx_as_is]);
      F27 (TreeWalker: filter REJECT on a node hidden by whatToShow prunes) and F28 (splitText can leave start after
          end) are KNOWN FINDINGS: tests of the repository expect this behaviour, so the code keeps it.  [fx_current] is the
          code of /repo; for these two the positive theorems are GUARDED (they exclude exactly the defect class)
          and the *_refuted theorems exhibit the witnesses.  [fx_repaired] (all five flags set) is what the
          specification interpreter [sp_run] describes.  F30 (KNOWN FINDING) and F31 (repaired in /repo, 6b8949c) concern
          the Range content operations, see the last section.

      F29 (getElementById returns elements that were removed from the document tree) is a KNOWN FINDING as well
          (IdMap14.im_step chk=false is the code as it is; T14_getbyid_detached_refuted).

    PARTIAL items (said here once, and in checks/meta/C14.json):
    - the iterator / tag-list / range-removal theorems are proved for every WELL-FORMED forest (unique node ids,
      [wf_forest]) -- the pointer walks of the code are proved to be document-order successor / predecessor / subtree
      membership (Tree14.v, Nav14.v) -- and, for the iterator, for a current node inside the root's subtree; that
      these two facts hold in every reachable state (preservation of [wf_forest] by the tree mutations; correctness of
      the removeNode fix-up against [sp_it_remove]) is not proved: the extracted certificates of Cert14.v check them on
      the states of the correspondence's histories (0 failures required).  The *_partial / *_certified theorems
      state the same with the navigation facts as explicit hypotheses / certificates;
    - T14_range_valid_*: validity is proved for the operations that do not restructure the tree (boundary
      setters, collapse, character-data edits inside one container); for node insertion/removal/splitText it is
      checked on every state of the correspondence by [range_ok] (extracted) and on the library's DOM directly;
    - TreeWalker: parentNode, firstChild and lastChild are proved equal to the specification (guarded by F27 for the
      code as it is); nextSibling, previousSibling, nextNode, previousNode are compared with [sp_w_target_at] by
      correspondence only (plus T14_walker_sample, a finite sweep);
    - DOMNodeIDMap is proved in full (T14_idmap_full);
    - Range content operations (last section): toString / cloneContents / extractContents / deleteContents / insertNode
      are modelled function by function (ModelR14.v) and specified on the rose tree (SpecR14.v); proved: cloneContents and
      toString change nothing (T14_clone_contents_pure), the same-text-node deletion (T14_delete_same_text_partial), the
      two defects F30/F31 (theorems ..._refuted); model = specification for these operations in general is NOT proved --
      it is compared on every run by the correspondence (library = model, repaired model = specification). *)
From Coq Require Import List NArith ZArith Arith Bool Lia.
From XV Require Import C14.Spec14 C14.Hist14 C14.Model14 C14.Cert14 C14.IdMap14 C14.Proofs14a C14.Proofs14b C14.Proofs14c C14.Proofs14e C14.Tree14 C14.Nav14 C14.Proofs14g C14.Walk14 C14.SpecR14 C14.ModelR14 C14.ProofsR14.
Import ListNotations.

Definition fx_as_is := {| fx_iter_fresh := false; fx_ins_text := false; fx_wprev := false; fx_wshow := false; fx_split := false |}.
Definition fx_repaired := {| fx_iter_fresh := true; fx_ins_text := true; fx_wprev := true; fx_wshow := true; fx_split := true |}.
Definition fx_current := {| fx_iter_fresh := true; fx_ins_text := true; fx_wprev := true; fx_wshow := false; fx_split := false |}.
Definition tab_all : list N := [1;1;1;1;1;1;1]%N.
Definition some_invalid (l : list answer) : bool :=
  existsb (fun a : answer => existsb (fun o => match o with Some (_, false) => true | _ => false end) (snd a)) l.

(** T14_iter_position (stepping part): for an iterator whose current node lies in the document order of its root,
    nextNode()/previousNode() of the code return exactly what the specification returns for the abstract position
    (reference = fCurrentNode, after = fForward) -- the first accepted node behind / the last accepted node in front
    of the gap in the CURRENT filtered document order -- and leave the position the specification prescribes. *)
Theorem T14_iter_position_next_partial : forall tab f it0,
  let root := mi_root it0 in let order := ids (it_order f root) in
  NoDup order -> nth_error order 0 = Some root -> length order <= m_fuel f ->
  (forall k c, nth_error order k = Some c -> mi_next_raw f root (Some c) true = nth_error order (S k)) ->
  (forall s, In s (it_order f root) -> it_accepts tab (mi_what it0) (mi_usef it0) s = mi_accept tab f it0 (tid s)) ->
  forall cur fwd, (forall c, cur = Some c -> In c order) ->
  sp_it_next tab f (abs_it (mi_set it0 cur fwd)) =
  (fst (mi_next tab f (mi_set it0 cur fwd)), abs_it (snd (mi_next tab f (mi_set it0 cur fwd)))).
Proof. intros tab f it0 root order. exact (next_is_spec tab f it0). Qed.
Print Assumptions T14_iter_position_next_partial.

Theorem T14_iter_position_prev_partial : forall tab f it0,
  let root := mi_root it0 in let order := ids (it_order f root) in
  NoDup order -> nth_error order 0 = Some root -> length order <= m_fuel f ->
  (forall k c, nth_error order (S k) = Some c -> mi_prev_raw f root c = nth_error order k) ->
  mi_prev_raw f root root = None ->
  (forall s, In s (it_order f root) -> it_accepts tab (mi_what it0) (mi_usef it0) s = mi_accept tab f it0 (tid s)) ->
  forall cur fwd, (forall c, cur = Some c -> In c order) ->
  sp_it_prev tab f (abs_it (mi_set it0 cur fwd)) =
  (fst (mi_prev tab f (mi_set it0 cur fwd)), abs_it (snd (mi_prev tab f (mi_set it0 cur fwd)))).
Proof. intros tab f it0 root order. exact (prev_is_spec tab f it0). Qed.
Print Assumptions T14_iter_position_prev_partial.

(** the pointer walks nextNode(node,true) / previousNode(node) on a well-formed forest (node ids unique -- [wf_forest]) are
    the successor / predecessor in the document order of the root's subtree (Tree14.v, Nav14.v) *)
Theorem T14_nav_successor : forall f R Rt, wf_forest f -> find_node f R = Some Rt ->
  forall k c, nth_error (ids (it_order f R)) k = Some c ->
  mi_next_raw f R (Some c) true = nth_error (ids (it_order f R)) (S k).
Proof.
  intros f R Rt Hwf HR k c Hk. rewrite (order_of_root f R Rt HR) in *. rewrite mi_next_raw_is_walk_step.
  apply (walk_step_is_successor f R Hwf (m_fuel f) Rt HR); [pose proof (nodes_fuel f); lia|exact Hk].
Qed.
Print Assumptions T14_nav_successor.
Theorem T14_nav_predecessor : forall f R Rt, wf_forest f -> find_node f R = Some Rt ->
  forall k c, nth_error (ids (it_order f R)) (S k) = Some c -> mi_prev_raw f R c = nth_error (ids (it_order f R)) k.
Proof.
  intros f R Rt Hwf HR k c Hk. rewrite (order_of_root f R Rt HR) in *. destruct (find_node_in f R Rt HR) as [Hin HtR].
  apply (pred_tree f R Hwf Rt Hin); [|exact Hk]. rewrite <- HtR. exact (not_below_itself f Rt Hwf Hin).
Qed.
Print Assumptions T14_nav_predecessor.


(** T14_iter_position WITHOUT navigation hypotheses: hence for every iterator whose root is in a well-formed forest and
    whose current node lies in the root's subtree, nextNode() and previousNode() are the specification's moves *)
Theorem T14_iter_position_next : forall tab f it0 Rt, wf_forest f -> find_node f (mi_root it0) = Some Rt ->
  forall cur fwd, (forall c, cur = Some c -> In c (ids (it_order f (mi_root it0)))) ->
  sp_it_next tab f (abs_it (mi_set it0 cur fwd)) =
  (fst (mi_next tab f (mi_set it0 cur fwd)), abs_it (snd (mi_next tab f (mi_set it0 cur fwd)))).
Proof.
  intros tab f it0 Rt Hwf HR. destruct (iter_order_wf f _ Rt Hwf HR) as [Hnd [Hhd [Hlen Hsub]]].
  apply (next_is_spec tab f it0 Hnd Hhd Hlen (T14_nav_successor f _ Rt Hwf HR)).
  intros s Hs. exact (it_accept_wf f tab it0 s Hwf (Hsub s Hs)).
Qed.
Print Assumptions T14_iter_position_next.

Theorem T14_iter_position_prev : forall tab f it0 Rt, wf_forest f -> find_node f (mi_root it0) = Some Rt ->
  forall cur fwd, (forall c, cur = Some c -> In c (ids (it_order f (mi_root it0)))) ->
  sp_it_prev tab f (abs_it (mi_set it0 cur fwd)) =
  (fst (mi_prev tab f (mi_set it0 cur fwd)), abs_it (snd (mi_prev tab f (mi_set it0 cur fwd)))).
Proof.
  intros tab f it0 Rt Hwf HR. destruct (iter_order_wf f _ Rt Hwf HR) as [Hnd [Hhd [Hlen Hsub]]].
  apply (prev_is_spec tab f it0 Hnd Hhd Hlen (T14_nav_predecessor f _ Rt Hwf HR)).
  - unfold mi_prev_raw. rewrite Nat.eqb_refl. reflexivity.
  - intros s Hs. exact (it_accept_wf f tab it0 s Hwf (Hsub s Hs)).
Qed.
Print Assumptions T14_iter_position_prev.

(** what the specification's step means: the node returned by nextNode is accepted, lies behind the gap, and no
    accepted node lies between the gap and it (it is the neighbour in the filtered order) *)
Theorem T14_spec_next_is_neighbour : forall tab f it r it',
  sp_it_next tab f it = (Some r, it') ->
  let order := it_order f (si_root it) in
  let g := gap_of (ids order) (si_ref it) (si_after it) in
  exists pre s post, skipn g order = pre ++ s :: post /\ tid s = r /\
    it_accepts tab (si_what it) (si_usef it) s = true /\
    (forall x, In x pre -> it_accepts tab (si_what it) (si_usef it) x = false) /\
    si_ref it' = Some r /\ si_after it' = true.
Proof.
  intros tab f it r it' H order g. unfold sp_it_next in H. fold order in H. fold g in H.
  destruct (find (it_accepts tab (si_what it) (si_usef it)) (skipn g order)) as [s|] eqn:E; [|discriminate].
  injection H as Hr Hit. subst it'. destruct (find_split _ _ s E) as [pre [post [H1 [H2 H3]]]].
  exists pre, s, post. cbn [si_ref si_after]. rewrite Hr. repeat split; assumption.
Qed.
Print Assumptions T14_spec_next_is_neighbour.

(** DEFECT F19 (code as it is): removing a node while a never-stepped NodeIterator is registered kills the
    process; repaired (fixes/C14-iter-fresh.patch) the history runs to its end *)
Theorem T14_iter_fresh_refuted :
  exists h, snd (m_run fx_as_is tab_all h) = true /\ snd (m_run fx_repaired tab_all h) = false.
Proof. exists [ONewE [98%N]; OIns 1 2 None; OIt 1 65535%N false; ORm 2]. vm_compute. split; reflexivity. Qed.
Print Assumptions T14_iter_fresh_refuted.

(** the repaired acceptNode is the specification's verdict: whatToShow skips and takes precedence over the filter;
    otherwise the filter's accept / reject / skip *)
Theorem T14_walker_accept_partial : forall tab f w s,
  find_node f (tid s) = Some s ->
  mw_accept fx_repaired tab f w (tid s) = view_verdict tab (mw_what w) (mw_usef w) s.
Proof.
  intros tab f w s Hs. apply accept_is_verdict; [exact Hs|left; reflexivity].
Qed.
Print Assumptions T14_walker_accept_partial.

(** the code as it is (F27 open): the same, except on nodes that whatToShow hides AND the filter rejects *)
Theorem T14_walker_accept_guarded : forall tab f w s,
  find_node f (tid s) = Some s ->
  (shown (mw_what w) (tkind s) = true \/ mw_usef w = false \/ filter_verdict tab s <> VReject) ->
  mw_accept fx_current tab f w (tid s) = view_verdict tab (mw_what w) (mw_usef w) s.
Proof.
  intros tab f w s Hs G. apply accept_is_verdict; [exact Hs|right; exact G].
Qed.
Print Assumptions T14_walker_accept_guarded.

(** T14_walker, parentNode(): on every well-formed forest the code's climb is the specification's "closest visible
    ancestor not above the root" -- for the code as it is and as repaired alike (F27 turns SKIP into REJECT, never into
    ACCEPT, and only ACCEPT matters for parentNode) *)
Theorem T14_walker_parent : forall f fx tab w X, wf_forest f -> find_node f (mw_cur w) = Some X ->
  mw_target fx tab f w WParent = sp_w_target_at tab f (abs_w w) (mw_root w) WParent.
Proof. intros f fx tab w X Hwf HX. exact (walker_parent_is_spec f Hwf (mw_root w) fx tab w X eq_refl HX). Qed.
Print Assumptions T14_walker_parent.

(** T14_walker, firstChild(): descend into skipped nodes, climb out of them, prune rejected ones = the head of the
    specification's visible-children list; for a current node that is the root or is not skipped, inside the root's
    subtree.  Repaired code: unconditional.  Code as it is (F27 open): on forests free of the F27 class. *)
Theorem T14_walker_first : forall f fx tab w S, wf_forest f -> fx_wshow fx = true ->
  find_node f (mw_cur w) = Some S ->
  is_skip (view_verdict tab (mw_what w) (mw_usef w) S) && negb (tid S =? mw_root w) = false ->
  ~ In (mw_root w) (ids (dnodes (tkids S))) ->
  mw_target fx tab f w WFirst = sp_w_target_at tab f (abs_w w) (mw_root w) WFirst.
Proof.
  intros f fx tab w S Hwf Hfx. exact (walker_kid_is_spec false f fx tab w S Hwf (fun s _ => or_introl Hfx)).
Qed.
Print Assumptions T14_walker_first.

Theorem T14_walker_first_guarded : forall f tab w S, wf_forest f ->
  (forall s, In s (fnodes f) -> shown (mw_what w) (tkind s) = true \/ mw_usef w = false \/ filter_verdict tab s <> VReject) ->
  find_node f (mw_cur w) = Some S ->
  is_skip (view_verdict tab (mw_what w) (mw_usef w) S) && negb (tid S =? mw_root w) = false ->
  ~ In (mw_root w) (ids (dnodes (tkids S))) ->
  mw_target fx_current tab f w WFirst = sp_w_target_at tab f (abs_w w) (mw_root w) WFirst.
Proof.
  intros f tab w S Hwf G. exact (walker_kid_is_spec false f fx_current tab w S Hwf (fun s Hs => or_intror (G s Hs))).
Qed.
Print Assumptions T14_walker_first_guarded.

(** T14_walker, lastChild(): the mirror image *)
Theorem T14_walker_last : forall f fx tab w S, wf_forest f -> fx_wshow fx = true ->
  find_node f (mw_cur w) = Some S ->
  is_skip (view_verdict tab (mw_what w) (mw_usef w) S) && negb (tid S =? mw_root w) = false ->
  ~ In (mw_root w) (ids (dnodes (tkids S))) ->
  mw_target fx tab f w WLast = sp_w_target_at tab f (abs_w w) (mw_root w) WLast.
Proof.
  intros f fx tab w S Hwf Hfx. exact (walker_kid_is_spec true f fx tab w S Hwf (fun s _ => or_introl Hfx)).
Qed.
Print Assumptions T14_walker_last.
Theorem T14_walker_last_guarded : forall f tab w S, wf_forest f ->
  (forall s, In s (fnodes f) -> shown (mw_what w) (tkind s) = true \/ mw_usef w = false \/ filter_verdict tab s <> VReject) ->
  find_node f (mw_cur w) = Some S ->
  is_skip (view_verdict tab (mw_what w) (mw_usef w) S) && negb (tid S =? mw_root w) = false ->
  ~ In (mw_root w) (ids (dnodes (tkids S))) ->
  mw_target fx_current tab f w WLast = sp_w_target_at tab f (abs_w w) (mw_root w) WLast.
Proof.
  intros f tab w S Hwf G. exact (walker_kid_is_spec true f fx_current tab w S Hwf (fun s Hs => or_intror (G s Hs))).
Qed.
Print Assumptions T14_walker_last_guarded.

(** DEFECT F26 (code as it is): previousNode skips the deepest descendants *)
Theorem T14_walker_prev_refuted :
  exists h, fst (m_run fx_as_is tab_all h) <> sp_run tab_all h /\ fst (m_run fx_repaired tab_all h) = sp_run tab_all h.
Proof.
  exists [ONewE [98%N]; OIns 1 2 None; ONewE [99%N]; OIns 2 3 None; ONewE [100%N]; OIns 3 4 None; ONewE [101%N]; OIns 1 5 None;
          OTw 1 65535%N false; OWSet 0 5; OW WPrev 0].
  split; [vm_compute; discriminate|vm_compute; reflexivity].
Qed.
Print Assumptions T14_walker_prev_refuted.

(** KNOWN FINDING F27 (code as it is): a filter REJECT on a node hidden by whatToShow prunes its subtree *)
Theorem T14_walker_show_refuted :
  exists h, fst (m_run fx_current [1;2;1;1;1;1;1]%N h) <> sp_run [1;2;1;1;1;1;1]%N h /\
            fst (m_run fx_repaired [1;2;1;1;1;1;1]%N h) = sp_run [1;2;1;1;1;1;1]%N h.
Proof.
  exists [ONewE [98%N]; OIns 1 2 None; ONewT [120%N]; OIns 2 3 None; OTw 1 4%N true; OW WNext 0].
  split; [vm_compute; discriminate|vm_compute; reflexivity].
Qed.
Print Assumptions T14_walker_show_refuted.

(** T14_deeplist: whatever the list object cached before -- provided the cache is either stale (its change count
    differs from the document's) or describes the current tree -- item(i) is the i-th and getLength the number of
    matching elements below the root in current document order; the new cache again describes the current tree. *)
Theorem T14_deeplist_item_partial : forall f root name,
  (forall k c, nth_error (root :: sp_tag_list f root name) k = Some c ->
     md_next_match f root name (m_fuel f) (Some c) = nth_error (root :: sp_tag_list f root name) (S k)) ->
  length (sp_tag_list f root name) < m_fuel f ->
  forall changes l i, cache_ok f root name changes l ->
  fst (md_cache_item f changes l (S i)) = nth_error (sp_tag_list f root name) i /\
  cache_ok f root name changes (snd (md_cache_item f changes l (S i))) /\
  md_changes (snd (md_cache_item f changes l (S i))) = changes.
Proof.
  intros f root name Hn Hf changes l i Hok. destruct (cache_item_correct f root name Hn Hf changes l i Hok) as [A [B [C _]]].
  split; [exact A|split; [exact B|exact C]].
Qed.
Print Assumptions T14_deeplist_item_partial.

Theorem T14_deeplist_length_partial : forall f root name,
  (forall k c, nth_error (root :: sp_tag_list f root name) k = Some c ->
     md_next_match f root name (m_fuel f) (Some c) = nth_error (root :: sp_tag_list f root name) (S k)) ->
  length (sp_tag_list f root name) < m_fuel f ->
  forall changes l, cache_ok f root name changes l ->
  fst (md_length f changes l) = length (sp_tag_list f root name) /\
  cache_ok f root name changes (snd (md_length f changes l)).
Proof. intros f root name Hn Hf. exact (length_correct f root name Hn Hf). Qed.
Print Assumptions T14_deeplist_length_partial.

Theorem T14_deeplist : forall f root name Rt, wf_forest f -> find_node f root = Some Rt ->
  forall changes l, cache_ok f root name changes l ->
  (forall i, fst (md_cache_item f changes l (S i)) = nth_error (sp_tag_list f root name) i /\
             cache_ok f root name changes (snd (md_cache_item f changes l (S i)))) /\
  fst (md_length f changes l) = length (sp_tag_list f root name) /\
  cache_ok f root name changes (snd (md_length f changes l)).
Proof. intros f root name Rt Hwf HR. destruct (dl_nav f Hwf root name Rt HR) as [Hn Hf]. exact (deeplist_correct f root name Hn Hf). Qed.
Print Assumptions T14_deeplist.

(** every mutation bumps the counter, hence every cache is stale -- and therefore [cache_ok] -- for ANY new tree;
    a fresh list (fChanges = 0) is [cache_ok] because the counter of a document with a root element is >= 1 *)
Theorem T14_deeplist_cache_survives_mutation : forall f' root name changes l,
  md_root l = root -> md_name l = name -> md_changes l <= changes -> cache_ok f' root name (S changes) l.
Proof. intros f' root name changes l Hr Hn Hle. split; [exact Hr|]. split; [exact Hn|]. intros E. lia. Qed.
Print Assumptions T14_deeplist_cache_survives_mutation.

Theorem T14_deeplist_fresh : forall f root name changes, changes <> 0 ->
  cache_ok f root name changes {| md_root := root; md_name := name; md_changes := 0; md_cur := None; md_idx := 0 |}.
Proof. intros f root name changes H. split; [reflexivity|]. split; [reflexivity|]. cbn. intros E. exfalso. apply H. symmetry. exact E. Qed.
Print Assumptions T14_deeplist_fresh.

(** T14_changed_everywhere (model side): the two tree-restructuring code paths bump the counter *)
Theorem T14_changed_everywhere : forall s x s' p r n,
  (m_remove_child s x = Some s' -> ms_changes s' = S (ms_changes s)) /\
  ms_changes (m_attach s p r n) = S (ms_changes s).
Proof.
  intros s x s' p r n. split; [|reflexivity].
  unfold m_remove_child. destruct (notify_its (ms_fx s) (ms_f s) x (ms_its s)); [|discriminate].
  intros H. injection H as <-. reflexivity.
Qed.
Print Assumptions T14_changed_everywhere.

(** T14_range_moves: the repaired fix-ups are the rules of DOM Range 2.12 on both boundary points *)
Theorem T14_range_moves_insert_text : forall f x off cnt r, m_is_cd f x = true ->
  to_range (mr_upd_ins_text fx_repaired f x off cnt r) = r_map (bp_ins_text x off cnt) (to_range r).
Proof. intros. apply ins_text_is_spec; [reflexivity|assumption]. Qed.
Print Assumptions T14_range_moves_insert_text.

Theorem T14_range_moves_delete_text : forall f x off cnt r, m_is_cd f x = true ->
  to_range (mr_upd_del_text f x off cnt r) = r_map (bp_del_text x off cnt) (to_range r).
Proof.
  intros f x off cnt r Hcd. apply to_range_pointwise;
    (cbn [mr_upd_del_text mr_sc mr_so mr_ec mr_eo]; rewrite (is_x_cd f x _ Hcd); unfold bp_del_text, m_del_off; cbn [fst snd];
     destruct (_ =? x); [destruct (off + cnt <? _); [|destruct (off <? _)]|]; reflexivity).
Qed.
Print Assumptions T14_range_moves_delete_text.

Theorem T14_range_moves_set_text : forall f x r, m_is_cd f x = true ->
  to_range (mr_upd_set_text f x r) = r_map (bp_set_text x) (to_range r).
Proof.
  intros f x r Hcd. apply to_range_pointwise;
    (cbn [mr_upd_set_text mr_sc mr_so mr_ec mr_eo]; rewrite (is_x_cd f x _ Hcd); unfold bp_set_text; cbn [fst snd];
     destruct (_ =? x); reflexivity).
Qed.
Print Assumptions T14_range_moves_set_text.

Theorem T14_range_moves_insert_node : forall f n p r, m_parent f n = Some p ->
  to_range (mr_upd_ins_node f n r) = r_map (bp_ins_node p (m_index_of f n p)) (to_range r).
Proof.
  intros f n p [sc so ec eo] Hp. apply to_range_pointwise;
    (cbn [mr_upd_ins_node mr_sc mr_so mr_ec mr_eo]; rewrite Hp; unfold bp_ins_node; cbn [fst snd];
     match goal with |- context [p =? ?c] => rewrite (Nat.eqb_sym p c); destruct (Nat.eqb_spec c p) as [->|_] end;
     [destruct (_ <? _)|]; reflexivity).
Qed.
Print Assumptions T14_range_moves_insert_node.

Theorem T14_range_moves_split : forall f x nw off p r, m_is_cd f x = true -> m_parent f x = Some p ->
  nw <> p -> x <> p ->
  to_range (mr_upd_split fx_repaired f x nw off r) =
  r_map (bp_split_parent p (m_index_of f x p)) (r_map (bp_split x nw off) (to_range r)).
Proof. intros f x nw off p r Hcd Hp _ _. exact (split_is_spec fx_repaired f x nw off p r eq_refl Hcd Hp). Qed.
Print Assumptions T14_range_moves_split.

(** the code as it is (F28 open): the split rule holds unless a boundary point sits in the parent directly
    behind the split node *)
Theorem T14_range_moves_split_guarded : forall f x nw off p i r, m_is_cd f x = true ->
  r_s (r_map (bp_split x nw off) (to_range r)) <> (p, S i) ->
  r_e (r_map (bp_split x nw off) (to_range r)) <> (p, S i) ->
  to_range (mr_upd_split fx_current f x nw off r) = r_map (bp_split_parent p i) (r_map (bp_split x nw off) (to_range r)).
Proof. intros. apply split_is_spec_guarded; [reflexivity|assumption..]. Qed.
Print Assumptions T14_range_moves_split_guarded.

(** isAncestorOf decides subtree membership on well-formed forests; hence the removal rule without navigation hypotheses
    (for a well-formed forest and containers that are nodes of it) *)
Theorem T14_is_ancestor : forall f x X c, wf_forest f -> find_node f x = Some X -> In c (ids (fnodes f)) ->
  m_is_anc f (m_fuel f) x (Some c) = memb c (sub_ids f x).
Proof. intros f x X c Hwf HX Hc. exact (is_anc_wf f Hwf (m_fuel f) x X c HX Hc (nodes_fuel f)). Qed.
Print Assumptions T14_is_ancestor.

Theorem T14_range_moves_remove_node : forall f x X p r, wf_forest f -> find_node f x = Some X -> m_parent f x = Some p ->
  In (mr_sc r) (ids (fnodes f)) -> In (mr_ec r) (ids (fnodes f)) ->
  to_range (mr_upd_del_node f x r) = r_map (bp_del_node p (m_index_of f x p) (sub_ids f x)) (to_range r).
Proof.
  intros f x X p r Hwf HX Hp Hs He. apply del_node_is_spec; [exact Hp| | |exact (parent_not_in_subtree f x X p Hwf HX Hp)].
  - exact (T14_is_ancestor f x X _ Hwf HX Hs).
  - exact (T14_is_ancestor f x X _ Hwf HX He).
Qed.
Print Assumptions T14_range_moves_remove_node.

Theorem T14_range_moves_remove_node_partial : forall f x p r sub,
  m_parent f x = Some p ->
  (forall c, m_is_anc f (m_fuel f) x (Some c) = memb c sub) -> memb p sub = false ->
  to_range (mr_upd_del_node f x r) = r_map (bp_del_node p (m_index_of f x p) sub) (to_range r).
Proof. intros f x p r sub Hp Hanc Hpsub. apply del_node_is_spec; [exact Hp|apply Hanc|apply Hanc|exact Hpsub]. Qed.
Print Assumptions T14_range_moves_remove_node_partial.

(** DEFECT F20 (code as it is): [5,8] in a text node, insertData(2,"ab") gives [2,10]; 2.12.1 demands [7,10] *)
Theorem T14_insert_text_refuted :
  exists f x off cnt r, m_is_cd f x = true /\
    to_range (mr_upd_ins_text fx_as_is f x off cnt r) <> r_map (bp_ins_text x off cnt) (to_range r) /\
    to_range (mr_upd_ins_text fx_as_is f x off cnt r) = {| r_s := (3, 2); r_e := (3, 10) |} /\
    r_map (bp_ins_text x off cnt) (to_range r) = {| r_s := (3, 7); r_e := (3, 10) |}.
Proof.
  exists [Node 0 KDoc [] [Node 1 KElem [97%N] [Node 3 KText [104;101;108;108;111;119;111;114;108;100]%N []]]], 3, 2, 2,
         {| mr_sc := 3; mr_so := 5; mr_ec := 3; mr_eo := 8 |}.
  vm_compute. repeat split; try reflexivity. discriminate.
Qed.
Print Assumptions T14_insert_text_refuted.

(** T14_range_valid (partial): operations that keep the tree's structure keep every valid range valid *)
Theorem T14_range_valid_set_start : forall m r b, range_ok m r = true -> bp_ok m b = true ->
  (exists p, bp_pos m b = Some p) -> range_ok m (sp_set_start m r b) = true.
Proof. intros m r b Hr Hb _. exact (set_start_valid m r b Hr Hb). Qed.
Print Assumptions T14_range_valid_set_start.
Theorem T14_range_valid_set_end : forall m r b, range_ok m r = true -> bp_ok m b = true ->
  (exists p, bp_pos m b = Some p) -> range_ok m (sp_set_end m r b) = true.
Proof. intros m r b Hr Hb _. exact (set_end_valid m r b Hr Hb). Qed.
Print Assumptions T14_range_valid_set_end.
Theorem T14_range_valid_collapse : forall m r toStart, range_ok m r = true ->
  range_ok m (if toStart : bool then {| r_s := r_s r; r_e := r_s r |} else {| r_s := r_e r; r_e := r_e r |}) = true.
Proof.
  intros m r toStart Hr. destruct (range_ok_elim m r Hr) as [H1 [H2 [[ps Hs] [pe He]]]].
  destruct toStart; [exact (range_ok_point m _ ps H1 Hs)|exact (range_ok_point m _ pe H2 He)].
Qed.
Print Assumptions T14_range_valid_collapse.

(** inside one character-data container: after insertData / deleteData the offsets are still ordered and within the
    new length -- for the repaired code and (second theorem) also for the code as it is, which is why F20 is a
    violation of "moves as DOM Range specifies" but not of validity *)
Theorem T14_range_valid_text_insert : forall off cnt so eo len, so <= eo -> eo <= len -> off <= len ->
  let g := fun o => if off <? o then o + cnt else o in g so <= g eo /\ g eo <= len + cnt.
Proof. intros off cnt so eo len H1 H2 H3 g. unfold g. destruct (Nat.ltb_spec off so); destruct (Nat.ltb_spec off eo); lia. Qed.
Print Assumptions T14_range_valid_text_insert.
Theorem T14_range_valid_text_insert_as_is : forall off cnt so eo len, so <= eo -> eo <= len -> off <= len ->
  (if off <? so then off else so) <= (if off <? eo then eo + cnt else eo) /\ (if off <? eo then eo + cnt else eo) <= len + cnt.
Proof. intros off cnt so eo len H1 H2 H3. destruct (Nat.ltb_spec off so); destruct (Nat.ltb_spec off eo); lia. Qed.
Print Assumptions T14_range_valid_text_insert_as_is.
Theorem T14_range_valid_text_delete : forall off cnt so eo len, so <= eo -> eo <= len -> off + cnt <= len ->
  m_del_off off cnt so <= m_del_off off cnt eo /\ m_del_off off cnt eo <= len - cnt.
Proof.
  intros off cnt so eo len H1 H2 H3. unfold m_del_off.
  destruct (Nat.ltb_spec (off + cnt) so); destruct (Nat.ltb_spec (off + cnt) eo);
    destruct (Nat.ltb_spec off so); destruct (Nat.ltb_spec off eo); lia.
Qed.
Print Assumptions T14_range_valid_text_delete.

(** KNOWN FINDING F28 (code as it is): splitText leaves a live range with its start behind its end *)
Theorem T14_split_invalid_refuted :
  exists h, some_invalid (fst (m_run fx_current tab_all h)) = true /\ some_invalid (fst (m_run fx_repaired tab_all h)) = false
            /\ fst (m_run fx_repaired tab_all h) = sp_run tab_all h.
Proof.
  exists [ONewT [97;98;99;100;101;102]%N; OIns 1 2 None; ORg; ORSetS 0 2 5; ORSetE 0 1 1; OSplit 2 3].
  vm_compute. repeat split; reflexivity.
Qed.
Print Assumptions T14_split_invalid_refuted.
(** * getElementById: DOMNodeIDMap (IdMap14.v; table sizes, fill limits and hash constants regenerated from /repo) *)

(** T14_idmap: after ANY sequence of add / remove on the document's initially empty table -- whatever growth happened
    on the way -- (1) every element of the specification set (added and not removed since) is found under its ID
    value, provided the registered ID values are pairwise different (DOMNodeIDMap's documented precondition);
    (2) whatever find returns is a registered element carrying exactly that value; (3) a value no registered element
    carries is never found.
    This statement leaves [Hang] possible and says nothing about removed entries: that the probe loops terminate and that
    no attribute is registered twice (so that remove takes the entry out, T14_idmap_remove_gone) needs valid usage and the
    bookkeeping invariant -- T14_idmap_full below. *)
Theorem T14_idmap : forall val fuel l m',
  t_run val fuel im_new l = Done m' ->
  (forall e, In e (spec_set [] l) ->
     (forall e', present m' e' -> val e' = val e -> e' = e) -> im_find val m' (val e) = Done (Some e)) /\
  (forall v e, im_find val m' v = Done (Some e) -> present m' e /\ val e = v) /\
  (forall v, (forall e, present m' e -> val e <> v) -> im_find val m' v = Done None \/ im_find val m' v = Hang).
Proof.
  intros val fuel l m' H. destruct (im_new_wf val) as [W0 P0].
  destruct (seq_nothing_lost val fuel l im_new [] m' W0 (fun e (F : In e []) => match F with end) H) as [W Hin].
  split; [|split].
  - intros e He Hd. apply find_complete; [exact W|apply Hin; exact He|]. intros e' k' Hk'. apply Hd. exists k'. exact Hk'.
  - exact (find_sound val m').
  - exact (find_absent val m').
Qed.
Print Assumptions T14_idmap.

(** growth loses nothing: one add -- with or without growTable -- keeps the invariant, registers the new attribute,
    keeps every registered attribute and invents none *)
Theorem T14_idmap_add : forall val fuel m e m', wf val m -> im_add val fuel m e = Done m' ->
  wf val m' /\ present m' e /\ keeps m m' /\ (forall e', present m' e' -> e' = e \/ present m e').
Proof. exact add_wf. Qed.
Print Assumptions T14_idmap_add.

Theorem T14_idmap_remove : forall val m e m', wf val m -> im_remove val m e = Done m' ->
  wf val m' /\ (forall e', e' <> e -> present m e' -> present m' e') /\ (forall e', present m' e' -> present m e').
Proof. exact remove_wf. Qed.
Print Assumptions T14_idmap_remove.

Theorem T14_idmap_remove_gone : forall val m e m', wf val m -> unique_entries m -> present m e ->
  im_remove val m e = Done m' -> ~ present m' e.
Proof.
  intros val m e m' Hw Hu Hp H. destruct (remove_found val m e Hw Hp) as [k [Hk Er]]. rewrite Er in H. injection H as <-.
  pose proof (proj1 (slot_in_range _ _ _ Hk)) as Hkl. intros [k' Hk']. cbn [im_tab] in Hk'.
  destruct (Nat.eq_dec k k') as [<-|Hn]; [rewrite slot_upd_same in Hk' by exact Hkl; discriminate|].
  rewrite slot_upd_other in Hk' by exact Hn. exact (Hn (Hu k k' e Hk Hk')).
Qed.
Print Assumptions T14_idmap_remove_gone.

(** T14_idmap IN FULL (Proofs14g.v): for every valid sequence of add / remove (an attribute is registered only while
    it is not registered) from the empty table, growTable included: unless gPrimes is exhausted (the documented
    NodeIDMap_GrowErr) the run finishes -- no probe loop runs forever: the table sizes are prime (verified trial
    division over the generated table), so the probe sequence ((j+1) * h0) mod size visits every slot, and the
    bookkeeping invariant non-empty slots <= fNumEntries <= fMaxEntries < size keeps one slot empty; growTable never
    nests -- and then the table holds exactly the attributes of the specification set, each exactly once, find returns
    the element for every registered value (pairwise different values) and None for every other value. *)
Theorem T14_idmap_full : forall val fu l, valid_use [] l ->
  t_run val (S (S fu)) im_new l = GrowErr \/
  exists m', t_run val (S (S fu)) im_new l = Done m' /\
    NoDup (attrs_of (im_tab m')) /\ (forall e, In e (attrs_of (im_tab m')) <-> In e (spec_set [] l)) /\
    (forall e, In e (spec_set [] l) -> (forall e', In e' (spec_set [] l) -> val e' = val e -> e' = e) ->
               im_find val m' (val e) = Done (Some e)) /\
    (forall v, (forall e, In e (spec_set [] l) -> val e <> v) -> im_find val m' v = Done None).
Proof.
  intros val fu l Hv. destruct (run_from_new val fu l Hv) as [Hg|[m' [Hr [Hb [Hw Hs]]]]]; [left; exact Hg|].
  right. exists m'. split; [exact Hr|]. split; [exact (book_nodup m' Hb)|]. split; [exact Hs|].
  exact (find_is_lookup val m' _ Hb Hw Hs).
Qed.
Print Assumptions T14_idmap_full.

Theorem T14_idmap_add_full : forall val fu m e, book m -> wf val m -> ~ In e (attrs_of (im_tab m)) ->
  im_add val (S (S fu)) m e = GrowErr \/
  exists m', im_add val (S (S fu)) m e = Done m' /\ book m' /\ wf val m' /\
             (forall x, In x (attrs_of (im_tab m')) <-> x = e \/ In x (attrs_of (im_tab m))).
Proof. exact add_book. Qed.
Print Assumptions T14_idmap_add_full.

Theorem T14_idmap_sizes_prime : forall k s mx, size_at k = Some (s, mx) -> Znumtheory.prime (Z.of_nat s).
Proof. exact gen_sizes_prime. Qed.
Print Assumptions T14_idmap_sizes_prime.

(** KNOWN FINDING F29: getElementById returns an element that is no longer in the document tree *)
Theorem T14_getbyid_detached_refuted :
  exists h, im_run false h <> isp_run h /\ im_run true h = isp_run h.
Proof.
  exists [INew; IApp 1 2; ISetAttr 2 [105;100;120]%N; ISetId 2 true; IGet [105;100;120]%N; IRm 2; IGet [105;100;120]%N].
  split; [vm_compute; discriminate|vm_compute; reflexivity].
Qed.
Print Assumptions T14_getbyid_detached_refuted.


(** non-vacuity: "id40" and "id100" collide in the 997-slot table (same initial hash = same probe sequence); the
    attribute registered first is removed, the second is still found behind the deleted marker; 800 add/remove
    rounds push fNumEntries over the fill limit, the table grows to the next size and both are still found *)
Definition ex_val (e : nat) : list N :=
  match e with 2 => [105;100;52;48]%N | 3 => [105;100;49;48;48]%N | _ => [107]%N end.
Example T14_idmap_collision_example :
  xhash (ex_val 2) 996 = xhash (ex_val 3) 996 /\
  (exists m, t_run ex_val 3 im_new [TAdd 2; TAdd 3; TRemove 2] = Done m /\ im_find ex_val m (ex_val 3) = Done (Some 3)
             /\ im_find ex_val m (ex_val 2) = Done None) /\
  (exists m, t_run ex_val 3 im_new (flat_map (fun _ => [TAdd 5; TRemove 5]) (seq 0 800) ++ [TAdd 2; TAdd 3; TRemove 2]) = Done m /\
             im_size m = N.to_nat 9973 /\ im_find ex_val m (ex_val 3) = Done (Some 3) /\ im_find ex_val m (ex_val 2) = Done None).
Proof.
  split; [vm_compute; reflexivity|]. split.
  - apply done_witness. vm_compute. repeat split; reflexivity.
  - (* the first 797 rounds use up the fill limit (add_remove_rounds); only the growth and what follows is evaluated *)
    change (flat_map (fun _ => [TAdd 5; TRemove 5]) (seq 0 800) ++ [TAdd 2; TAdd 3; TRemove 2])
      with (rounds 5 797 ++ (rounds 5 3 ++ [TAdd 2; TAdd 3; TRemove 2])).
    rewrite t_run_app, (add_remove_rounds ex_val 2 5 796 im_new).
    + apply done_witness. vm_compute. repeat split; reflexivity.
    + intros e'. vm_compute. discriminate.
    + apply Nat.ltb_lt. reflexivity.
    + apply Nat.ltb_lt. reflexivity.
    + apply Nat.leb_le. reflexivity.
Qed.

(** * Certified states: the navigation hypotheses above are decidable; Cert14.v gives executable checks, and the
      theorems hold outright in every state where the check evaluates to true.  The extracted checks are evaluated
      by the correspondence on every iterator step, list query and node removal of every history ([m_run_certs]). *)
Definition ex_f_cert : forest :=
  [Node 0 KDoc [] [Node 1 KElem [97%N] [Node 2 KElem [98%N] [Node 3 KText [104;105]%N []; Node 4 KElem [99%N] []];
                                        Node 5 KComment [120%N] []; Node 6 KElem [98%N] []]]].

Theorem T14_iter_position_certified : forall tab f it, iter_cert tab f it = true ->
  sp_it_next tab f (abs_it it) = (fst (mi_next tab f it), abs_it (snd (mi_next tab f it))) /\
  sp_it_prev tab f (abs_it it) = (fst (mi_prev tab f it), abs_it (snd (mi_prev tab f it))).
Proof. intros tab f it H. exact (iter_is_spec tab f it (iter_cert_hyps tab f it H)). Qed.
Print Assumptions T14_iter_position_certified.

(** ... and never a removed node: whatever nextNode / previousNode return is a node of the CURRENT document order of the
    iterator root's subtree *)
Theorem T14_iter_never_removed_certified : forall tab f it r, iter_cert tab f it = true ->
  (fst (mi_next tab f it) = Some r -> In r (ids (it_order f (mi_root it)))) /\
  (fst (mi_prev tab f it) = Some r -> In r (ids (it_order f (mi_root it)))).
Proof.
  intros tab f it r H. destruct (T14_iter_position_certified tab f it H) as [Hn Hp]. split; intros E.
  - rewrite E in Hn. exact (sp_next_in_order tab f (abs_it it) r _ Hn).
  - rewrite E in Hp. exact (sp_prev_in_order tab f (abs_it it) r _ Hp).
Qed.
Print Assumptions T14_iter_never_removed_certified.

Theorem T14_deeplist_certified : forall f root name, dl_cert f root name = true ->
  forall changes l, cache_ok f root name changes l ->
  (forall i, fst (md_cache_item f changes l (S i)) = nth_error (sp_tag_list f root name) i /\
             cache_ok f root name changes (snd (md_cache_item f changes l (S i)))) /\
  fst (md_length f changes l) = length (sp_tag_list f root name) /\
  cache_ok f root name changes (snd (md_length f changes l)).
Proof. intros f root name H. destruct (dl_cert_hyps f root name H) as [Hn Hf]. exact (deeplist_correct f root name Hn Hf). Qed.
Print Assumptions T14_deeplist_certified.

Theorem T14_range_moves_remove_node_certified : forall f x p r, anc_cert f x = true -> m_parent f x = Some p ->
  (forall c, In c [mr_sc r; mr_ec r] -> In c (ids (fnodes f))) ->
  to_range (mr_upd_del_node f x r) = r_map (bp_del_node p (m_index_of f x p) (sub_ids f x)) (to_range r).
Proof.
  intros f x p r H Hp Hin. unfold anc_cert in H. rewrite Hp in H. apply andb_prop in H. destruct H as [Ha Hpn].
  rewrite forallb_forall in Ha. apply negb_true_iff in Hpn.
  apply del_node_is_spec; [exact Hp| | |exact Hpn]; apply Bool.eqb_prop; apply Ha; apply Hin; [left|right; left]; reflexivity.
Qed.
Print Assumptions T14_range_moves_remove_node_certified.

Example T14_certs_hold_on_example :
  iter_cert [1;2;3;1;1;1;2]%N ex_f_cert {| mi_root := 1; mi_what := 5%N; mi_usef := true; mi_cur := Some 3; mi_fwd := false |} = true /\
  dl_cert ex_f_cert 1 [98%N] = true /\ anc_cert ex_f_cert 2 = true /\
  m_run_certs fx_repaired tab_all [ONewE [98%N]; OIns 1 2 None; OIt 1 65535%N false; OItNext 0; ODl 0 [98%N]; ODLen 0; ORm 2; OItPrev 0] = (8, 0).
Proof. vm_compute. repeat split; reflexivity. Qed.
(** * Non-vacuity: the hypotheses of the conditional theorems hold on a concrete document
      a[ b[ "hi", c ], <!--x-->, b ]    (ids: a=1 b=2 "hi"=3 c=4 comment=5 b=6) *)
Definition ex_f : forest :=
  [Node 0 KDoc [] [Node 1 KElem [97%N] [Node 2 KElem [98%N] [Node 3 KText [104;105]%N []; Node 4 KElem [99%N] []];
                                        Node 5 KComment [120%N] []; Node 6 KElem [98%N] []]]].
Definition ex_it := {| mi_root := 1; mi_what := 65535%N; mi_usef := true; mi_cur := None; mi_fwd := true |}.

Fixpoint below (n : nat) : list nat := match n with O => [] | S k => below k ++ [k] end.
Lemma below_all : forall n k, k < n -> In k (below n).
Proof. induction n; intros k H; [lia|]. cbn. apply in_or_app. destruct (Nat.eq_dec k n); [right; left; auto|left; apply IHn; lia]. Qed.

Example T14_iter_hyps_satisfiable :
  let order := ids (it_order ex_f 1) in
  order = [1; 2; 3; 4; 5; 6] /\ NoDup order /\ length order <= m_fuel ex_f /\
  (forall k c, nth_error order k = Some c -> mi_next_raw ex_f 1 (Some c) true = nth_error order (S k)) /\
  (forall k c, nth_error order (S k) = Some c -> mi_prev_raw ex_f 1 c = nth_error order k) /\
  mi_prev_raw ex_f 1 1 = None /\
  (forall s, In s (it_order ex_f 1) -> it_accepts [1;2;3;1;1;1;2]%N 65535%N true s = mi_accept [1;2;3;1;1;1;2]%N ex_f ex_it (tid s)).
Proof.
  cbv zeta. split; [reflexivity|]. split; [|split; [vm_compute; lia|]].
  - change (ids (it_order ex_f 1)) with [1;2;3;4;5;6]. repeat constructor; cbn; intuition discriminate.
  - change (ids (it_order ex_f 1)) with [1;2;3;4;5;6]. split; [|split; [|split]].
    + intros k c H. do 6 (destruct k as [|k]; [cbn in H; injection H as <-; reflexivity|]). destruct k; discriminate.
    + intros k c H. do 5 (destruct k as [|k]; [cbn in H; injection H as <-; reflexivity|]). destruct k; discriminate.
    + reflexivity.
    + intros s Hs. vm_compute in Hs. repeat (destruct Hs as [<-|Hs]; [reflexivity|]). destruct Hs.
Qed.

Example T14_deeplist_hyps_satisfiable :
  sp_tag_list ex_f 1 [98%N] = [2; 6] /\
  (forall k c, nth_error (1 :: sp_tag_list ex_f 1 [98%N]) k = Some c ->
     md_next_match ex_f 1 [98%N] (m_fuel ex_f) (Some c) = nth_error (1 :: sp_tag_list ex_f 1 [98%N]) (S k)) /\
  length (sp_tag_list ex_f 1 [98%N]) < m_fuel ex_f.
Proof.
  split; [reflexivity|]. split; [|vm_compute; lia].
  change (sp_tag_list ex_f 1 [98%N]) with [2; 6].
  intros k c H. do 3 (destruct k as [|k]; [cbn in H; injection H as <-; reflexivity|]). destruct k; discriminate.
Qed.

Example T14_range_moves_hyps_satisfiable :
  m_parent ex_f 2 = Some 1 /\ (forall c, m_is_anc ex_f (m_fuel ex_f) 2 (Some c) = memb c (sub_ids ex_f 2)) /\
  memb 1 (sub_ids ex_f 2) = false /\ m_is_cd ex_f 3 = true.
Proof.
  split; [reflexivity|]. split; [|split; reflexivity].
  intros c. do 8 (destruct c as [|c]; [reflexivity|]).
  (* ids that do not occur: the climb finds no parent, the subtree does not contain them *)
  reflexivity.
Qed.

(** the repaired model and the specification interpreter agree on a history that exercises all four view kinds
    across mutations (a finite sample, NOT the general claim -- that is the correspondence's job) *)
Example T14_history_sample :
  let h := [ONewE [98%N]; OIns 1 2 None; ONewT [104;105]%N; OIns 2 3 None; ONewE [99%N]; OIns 2 4 None;
            OIt 1 65535%N false; OItNext 0; OItNext 0; OItNext 0; OTw 1 1%N true; OW WNext 0; ODl 0 [98%N]; ODLen 0;
            ORg; ORSetS 0 3 1; ORSetE 0 2 2; ORm 2; OItPrev 0; OItNext 0; ODLen 0; ODItem 0 0; OW WPrev 0;
            OIns 1 2 None; OIData 3 0 [120;121]%N; OSplit 3 2; ODItem 0 0; OItNext 0; OW WNext 0] in
  fst (m_run fx_repaired [1;2;3;1;1;1;2]%N h) = sp_run [1;2;3;1;1;1;2]%N h /\ snd (m_run fx_repaired [1;2;3;1;1;1;2]%N h) = false
  /\ some_invalid (sp_run [1;2;3;1;1;1;2]%N h) = false.
Proof. vm_compute. repeat split; reflexivity. Qed.

(** TreeWalker moves: a FINITE SAMPLE (not the general claim): on the example document, for every filter table over
    {accept, reject, skip} for the names b, c, #text, #comment, for 4 whatToShow masks, with and without filter, every
    one of the seven moves from every node the walker can stand on (the root, or a node of its view) gives the same
    target in the repaired model and in the specification *)
Definition walker_sample_ok : bool :=
  let moves := [WParent; WFirst; WLast; WPrevSib; WNextSib; WNext; WPrev] in
  let vs := [1; 2; 3]%N in
  forallb (fun vb => forallb (fun vc => forallb (fun vt => forallb (fun vm =>
    let tab := [1; vb; vc; 1; 1; vt; vm]%N in
    forallb (fun what => forallb (fun usef =>
      forallb (fun cur =>
        let w := {| sw_root := 1; sw_what := what; sw_usef := usef; sw_cur := cur |} in
        let mw := {| mw_root := 1; mw_what := what; mw_usef := usef; mw_cur := cur |} in
        if in_view (view_verdict tab what usef) ex_f_cert 1 cur then
          forallb (fun m => opt_eqb (sp_w_target_at tab ex_f_cert w 1 m) (mw_target fx_repaired tab ex_f_cert mw m)) moves
        else true) [1; 2; 3; 4; 5; 6]) [true; false]) [65535; 1; 4; 133]%N) vs) vs) vs) vs.
Example T14_walker_sample : walker_sample_ok = true.
Proof.
  (* four closed evaluations of [sample_at] (Walk14.v): without filter the table is not read at all; a mask that hides a kind
     of node never reads the table entry of that kind, which therefore stays a variable *)
  assert (Hu : forallb (fun what => sample_at fx_repaired ex_f_cert [] what false) [65535; 1; 4; 133]%N = true) by (vm_compute; reflexivity).
  assert (Ha : forallb (fun vb => forallb (fun vc => forallb (fun vt => forallb (fun vm =>
                 sample_at fx_repaired ex_f_cert [1; vb; vc; 1; 1; vt; vm]%N 65535 true && sample_at fx_repaired ex_f_cert [1; vb; vc; 1; 1; vt; vm]%N 133 true)
                 [1; 2; 3]%N) [1; 2; 3]%N) [1; 2; 3]%N) [1; 2; 3]%N = true) by (vm_compute; reflexivity).
  assert (He : forall vt vm, forallb (fun vb => forallb (fun vc => sample_at fx_repaired ex_f_cert [1; vb; vc; 1; 1; vt; vm]%N 1 true)
                 [1; 2; 3]%N) [1; 2; 3]%N = true) by (intros vt vm; vm_compute; reflexivity).
  assert (Ht : forall vb vc vm, forallb (fun vt => sample_at fx_repaired ex_f_cert [1; vb; vc; 1; 1; vt; vm]%N 4 true) [1; 2; 3]%N = true)
    by (intros vb vc vm; vm_compute; reflexivity).
  unfold walker_sample_ok. apply forallb_forall. intros vb Hvb. apply forallb_forall. intros vc Hvc.
  apply forallb_forall. intros vt Hvt. apply forallb_forall. intros vm Hvm. apply forallb_forall. intros what Hwhat.
  change (sample_at fx_repaired ex_f_cert [1; vb; vc; 1; 1; vt; vm]%N what true &&
          (sample_at fx_repaired ex_f_cert [1; vb; vc; 1; 1; vt; vm]%N what false && true) = true).
  rewrite forallb_forall in Hu. rewrite sample_at_no_filter, (Hu what Hwhat), andb_true_r.
  rewrite forallb_forall in Ha. specialize (Ha vb Hvb). rewrite forallb_forall in Ha. specialize (Ha vc Hvc).
  rewrite forallb_forall in Ha. specialize (Ha vt Hvt). rewrite forallb_forall in Ha. specialize (Ha vm Hvm). apply andb_prop in Ha.
  destruct Hwhat as [<-|[<-|[<-|[<-|[]]]]].
  - exact (proj1 Ha).
  - specialize (He vt vm). rewrite forallb_forall in He. specialize (He vb Hvb). rewrite forallb_forall in He. exact (He vc Hvc).
  - specialize (Ht vb vc vm). rewrite forallb_forall in Ht. exact (Ht vt Hvt).
  - exact (proj2 Ha).
Qed.
(** * Range content operations (SpecR14.v = DOM Range 2.6-2.9 on the rose tree, ModelR14.v = DOMRangeImpl::toString,
      traverseContents and its ten helpers, insertNode) *)

(** cloneContents() and toString() are observers: whatever the range selects -- all four container relationships
    of traverseContents, partially selected character data, boundary walks of any depth -- the document, every
    iterator, walker, tag list and range (the operating one included) are exactly what they were *)
Theorem T14_clone_contents_pure : forall deld k s s' frag,
  xr_traverse deld HClone k s = Some (s', frag) -> s' = s.
Proof. intros deld k s. exact (xr_traverse_clone deld k s). Qed.
Print Assumptions T14_clone_contents_pure.
Theorem T14_clone_step_pure : forall t d s k a s', mx_step t d s (XClone k) = Some (a, s') -> s' = s.
Proof.
  intros t d s k a s' H. cbn [mx_step] in H. destruct (get_opt (ms_rgs s) k); [|injection H as _ <-; reflexivity].
  destruct (xr_traverse d HClone k s) as [[s1 fr]|] eqn:E; [|discriminate].
  apply T14_clone_contents_pure in E. subst s1. injection H as _ <-. reflexivity.
Qed.
Print Assumptions T14_clone_step_pure.
Theorem T14_tostring_step_pure : forall t d s k a s', mx_step t d s (XStr k) = Some (a, s') -> s' = s.
Proof. intros t d s k a s' H. cbn [mx_step] in H. destruct (get_opt (ms_rgs s) k); injection H as _ <-; reflexivity. Qed.
Print Assumptions T14_tostring_step_pure.
(** non-vacuity: a range from inside a text node to inside another one below a different parent is cloned
    (two partially selected elements with their partial text), and the state is untouched *)
Definition h_content : list xop :=
  [XBase (ONewE [98%N]); XBase (OIns 1 2 None); XBase (ONewT [104;101;108;108;111]%N); XBase (OIns 2 3 None);
   XBase (ONewE [99%N]); XBase (OIns 1 4 None); XBase (ONewT [119;111;114;108;100]%N); XBase (OIns 4 5 None);
   XBase (ONewC [120%N]); XBase (OIns 1 6 (Some 4));
   XBase ORg; XBase (ORSetS 0 3 2); XBase (ORSetE 0 5 3)].
Example T14_clone_example :
  map fst (fst (mx_run fx_current false false tab_all (h_content ++ [XClone 0]))) =
  map fst (fst (mx_run fx_current false false tab_all h_content)) ++
  [XRFrag [FT None KElem [98%N] [FT None KText [108;108;111]%N []]; FT None KComment [120%N] [];
           FT None KElem [99%N] [FT None KText [119;111;114]%N []]]].
Proof. vm_compute. reflexivity. Qed.

Theorem T14_fragment_collapsed : forall m b orig, sp_fragment m {| r_s := b; r_e := b |} orig = [].
Proof. intros m [c o] orig. unfold sp_fragment, bp_eqb. cbn [r_s r_e fst snd]. rewrite !Nat.eqb_refl. reflexivity. Qed.
Print Assumptions T14_fragment_collapsed.

(** deleteContents with both boundary points in one character-data node = deleteData(start, end - start), whose
    fix-up is Range 2.12.2 (T14_range_moves_delete_text), then collapse(true) *)
Theorem T14_delete_same_text_partial : forall d k s, m_is_cd (ms_f s) (mr_sc (rg_of s k)) = true ->
  mr_sc (rg_of s k) = mr_ec (rg_of s k) -> mr_so (rg_of s k) <> mr_eo (rg_of s k) ->
  option_map fst (xr_traverse d HDelete k s) =
  Some (xr_steps (m_del_text s (mr_sc (rg_of s k)) (mr_so (rg_of s k)) (mr_eo (rg_of s k) - mr_so (rg_of s k))) [ORColl k true]).
Proof.
  intros d k s Hcd Hsame Hne. unfold xr_traverse. rewrite <- Hsame, Nat.eqb_refl.
  unfold xr_same. apply Nat.eqb_neq in Hne. rewrite Hne, Hcd. cbn [is_clone option_map fst]. reflexivity.
Qed.
Print Assumptions T14_delete_same_text_partial.

(** the repaired model IS the specification on a history that exercises toString, cloneContents, extractContents with
    a common-ancestor range, insertNode with a split, and deleteContents (finite sample; the unbounded statement
    model = specification for the content operations is NOT proved: it is the subject of the correspondence) *)
Definition h_content2 : list xop :=
  h_content ++ [XBase ORg; XBase (ORSetS 1 3 1); XBase (ORSetE 1 5 4); XStr 0; XClone 0; XExt 0; XStr 1;
                XBase (ONewE [100%N]); XInsN 1 7; XBase (OVal 1); XDel 1; XBase (OVal 1); XBase (OVal 2)].
Example T14_content_sample :
  fst (mx_run fx_repaired true true tab_all h_content2) = spx_run tab_all h_content2 /\
  snd (mx_run fx_repaired true true tab_all h_content2) = false /\ length (spx_run tab_all h_content2) = 26.
Proof. vm_compute. repeat split; reflexivity. Qed.

(** KNOWN FINDING F30 (code as it is): toString() appends comments; the specification (and the model restricted to
    Text nodes) does not *)
Theorem T14_tostring_comment_refuted :
  exists h, fst (mx_run fx_repaired false true tab_all h) <> spx_run tab_all h /\
            fst (mx_run fx_repaired true true tab_all h) = spx_run tab_all h.
Proof. exists (h_content ++ [XStr 0]). split; [vm_compute; discriminate|vm_compute; reflexivity]. Qed.
Print Assumptions T14_tostring_comment_refuted.

(** DEFECT F31 (repaired in /repo, 6b8949c; deld = false is the code without the repair): deleteContents truncates a
    partially selected boundary text node with setNodeValue: ANOTHER live range with a boundary point in the kept part of the node is thrown to offset 0;
    repaired (fixes/C14-range-traverse-text.patch, deleteData) the model is the specification *)
Theorem T14_delete_other_range_refuted :
  exists h, fst (mx_run fx_repaired true false tab_all h) <> spx_run tab_all h /\
            fst (mx_run fx_repaired true true tab_all h) = spx_run tab_all h.
Proof.
  exists (h_content ++ [XBase ORg; XBase (ORSetS 1 3 1); XBase (ORSetE 1 5 4); XDel 0]).
  split; [vm_compute; discriminate|vm_compute; reflexivity].
Qed.
Print Assumptions T14_delete_other_range_refuted.
