(** C14 -- the pointer walks of the code on a well-formed forest:
    "first child, else next sibling, else the next sibling of the nearest ancestor that has one, not beyond the root"
    (DOMNodeIteratorImpl::nextNode(node,true), DOMDeepNodeListImpl::nextMatchingElementAfter) is the successor in the
    document order of the root's subtree; previousNode(node) (previous sibling's deepest last descendant, else the
    parent) is the predecessor; isAncestorOf (the parent climb of DOMRangeImpl) decides membership in the subtree. *)
From Coq Require Import List NArith Arith Bool Lia.
From XV Require Import C14.Spec14 C14.Hist14 C14.Model14 C14.Tree14.
Import ListNotations.

Lemma order_of_root : forall f R Rt, find_node f R = Some Rt -> it_order f R = docorder Rt.
Proof. intros f R Rt H. unfold it_order. rewrite H. reflexivity. Qed.
Lemma iter_order_wf : forall f R Rt, wf_forest f -> find_node f R = Some Rt ->
  NoDup (ids (it_order f R)) /\ nth_error (ids (it_order f R)) 0 = Some R /\ length (ids (it_order f R)) <= m_fuel f /\
  (forall s, In s (it_order f R) -> In s (fnodes f)).
Proof.
  intros f R Rt Hwf HR. destruct (find_node_in f R Rt HR) as [Hin HtR]. rewrite (order_of_root f R Rt HR).
  split; [exact (nodup_sub f Rt Hwf Hin)|]. split; [rewrite docorder_eq; cbn; rewrite HtR; reflexivity|]. split.
  - rewrite ids_length. pose proof (node_fuel f Rt Hin). lia.
  - intros s Hs. exact (sub_in_dnodes f Rt s Hin Hs).
Qed.

Section Nav.
  Variable f : forest.
  Variable R : nat.                               (* the root's id *)
  Hypothesis Hwf : wf_forest f.

  (** the walk from a node whose children are not to be visited, with climb fuel F *)
  Definition skipnext (F : nat) (x : nat) : option nat := mi_climb f R (S F) (Some x).
  (** one step of the walk, with climb fuel F for the case without children *)
  Definition walk_step (F : nat) (c : nat) : option nat :=
    if m_has_kids f c then m_first_child f c else skipnext F c.

  Definition head_or (l : list nat) (cont : option nat) : option nat := match l with y :: _ => Some y | [] => cont end.
  Definition succ_chain (F : nat) (l : list nat) (cont : option nat) : Prop :=
    forall k c, nth_error l k = Some c -> walk_step F c = match nth_error l (S k) with Some n => Some n | None => cont end.

  Lemma chain_nil : forall F cont, succ_chain F [] cont.
  Proof. intros F cont k c H. destruct k; discriminate. Qed.
  Lemma chain_cons : forall F x l cont, walk_step F x = head_or l cont -> succ_chain F l cont -> succ_chain F (x :: l) cont.
  Proof.
    intros F x l cont Hx Hl k c H. destruct k as [|k]; cbn in H.
    - injection H as <-. rewrite Hx. destruct l; reflexivity.
    - cbn [nth_error]. exact (Hl k c H).
  Qed.
  Lemma chain_app : forall F l1 l2 cont, succ_chain F l1 (head_or l2 cont) -> succ_chain F l2 cont -> succ_chain F (l1 ++ l2) cont.
  Proof.
    intros F l1. induction l1 as [|x l1 IH]; intros l2 cont H1 H2; [exact H2|].
    cbn [app]. apply chain_cons.
    - rewrite (H1 0 x eq_refl). cbn [nth_error]. destruct l1 as [|y l1]; cbn; [reflexivity|reflexivity].
    - apply IH; [|exact H2]. intros k c Hk. exact (H1 (S k) c Hk).
  Qed.
  Lemma head_or_dnodes : forall (r : list tree) cont, head_or (ids (dnodes r)) cont = match r with c :: _ => Some (tid c) | [] => cont end.
  Proof. intros [|c r] cont; [reflexivity|]. rewrite dnodes_cons, docorder_eq. reflexivity. Qed.

  Lemma skipnext_unfold : forall F x, skipnext (S F) x =
    if x =? R then None else match m_next_sibling f x with Some r => Some r | None => match m_parent f x with Some p => skipnext F p | None => None end end.
  Proof.
    intros F x. unfold skipnext. cbn [mi_climb]. destruct (x =? R); [reflexivity|].
    destruct (m_next_sibling f x); [reflexivity|]. destruct (m_parent f x); reflexivity.
  Qed.

  (** the chains over the subtrees of the children r = the last children of T, given the chain over each child's subtree:
      what follows the subtree of a child is its next sibling, or, behind the last child, what follows T *)
  Lemma chain_kids : forall F T d cont, In T (fnodes f) ->
    (forall F', d <= F' -> skipnext F' (tid T) = cont) -> ~ In R (ids (dnodes (tkids T))) ->
    (forall c, In c (tkids T) -> forall cont', (forall F', S d <= F' -> skipnext F' (tid c) = cont') ->
       ~ In R (ids (dnodes (tkids c))) -> succ_chain F (ids (docorder c)) cont') ->
    forall r pre, tkids T = pre ++ r -> succ_chain F (ids (dnodes r)) cont.
  Proof.
    intros F T d cont Ht Hcont HR Hsub. induction r as [|c r IHr]; intros pre E; [apply chain_nil|].
    rewrite dnodes_cons, ids_app. apply chain_app; [|apply (IHr (pre ++ [c])); rewrite <- app_assoc; exact E].
    assert (Hc : In c (tkids T)) by (rewrite E; apply in_or_app; right; left; reflexivity).
    destruct (below_kid R (tkids T) c Hc HR) as [HcR HRc]. apply (Hsub c Hc); [|exact HRc].
    intros F' HF'. destruct F' as [|F0]; [lia|]. rewrite skipnext_unfold.
    destruct (Nat.eqb_spec (tid c) R) as [E1|_]; [exfalso; exact (HcR E1)|].
    rewrite (m_next_sibling_wf f T pre c r Hwf Ht E), head_or_dnodes. destruct r as [|c2 r2]; cbn [ids map hd_error]; [|reflexivity].
    rewrite (m_parent_wf f T c Hwf Ht Hc). apply Hcont. lia.
  Qed.

  (** the chain over the subtree of t, inside the root's subtree; cont is what follows the subtree of t, reached by the climb
      from t with any fuel of at least d (d = 0 for the root itself, one more per level below it) *)
  Lemma chain_tree : forall F t, In t (fnodes f) ->
    forall d cont, (forall F', d <= F' -> skipnext F' (tid t) = cont) ->
    ~ In R (ids (dnodes (tkids t))) -> d + length (docorder t) <= S F ->
    succ_chain F (ids (docorder t)) cont.
  Proof.
    intros F t. induction t as [i k v ks IH] using tree_ind2. intros Ht d cont Hcont HR Hd.
    rewrite docorder_eq. cbn [ids map tkids tid] in *. apply chain_cons.
    - unfold walk_step. pose proof (has_kids_wf f Hwf _ Ht) as H1. pose proof (first_child_wf f Hwf _ Ht) as H2.
      cbn [tkids tid] in H1, H2. rewrite H1, H2.
      destruct ks as [|c r]; cbn [is_nil negb].
      + cbn. apply Hcont. rewrite docorder_eq in Hd. cbn in Hd. lia.
      + rewrite dnodes_cons, docorder_eq. reflexivity.
    - apply (chain_kids F (Node i k v ks) d cont Ht Hcont HR) with (pre := []); [|reflexivity].
      intros c Hc cont' Hcont' HRc. rewrite Forall_forall in IH.
      apply (IH c Hc (kids_in_dnodes f (Node i k v ks) c Ht Hc) (S d) cont' Hcont' HRc).
      rewrite docorder_eq in Hd. cbn [length tkids] in *. pose proof (len_top ks c Hc). lia.
  Qed.

  Theorem walk_step_is_successor : forall F Rt, find_node f R = Some Rt -> length (fnodes f) <= S F ->
    forall k c, nth_error (ids (docorder Rt)) k = Some c -> walk_step F c = nth_error (ids (docorder Rt)) (S k).
  Proof.
    intros F Rt HR HF k c Hk. destruct (find_node_in f R Rt HR) as [Hin HtR].
    assert (Hch : succ_chain F (ids (docorder Rt)) None).
    { apply (chain_tree F Rt Hin 0 None).
      - intros F' _. unfold skipnext. cbn [mi_climb]. rewrite HtR, Nat.eqb_refl. reflexivity.
      - rewrite <- HtR. exact (not_below_itself f Rt Hwf Hin).
      - pose proof (node_le f Rt Hin). lia. }
    rewrite (Hch k c Hk). destruct (nth_error (ids (docorder Rt)) (S k)); reflexivity.
  Qed.
End Nav.

Lemma mi_next_raw_is_walk_step : forall f R c, mi_next_raw f R (Some c) true = walk_step f R (m_fuel f) c.
Proof.
  intros f R c. unfold mi_next_raw, walk_step, skipnext. cbn [andb mi_climb]. destruct (m_has_kids f c); [reflexivity|].
  destruct (c =? R); [reflexivity|]. destruct (m_next_sibling f c); reflexivity.
Qed.
Lemma md_climb_eq : forall f root fuel cur, md_climb f root fuel cur = mi_climb f root fuel cur.
Proof.
  intros f root. induction fuel as [|fu IH]; intros cur; [reflexivity|]. cbn. destruct cur as [c|]; [|reflexivity].
  destruct (c =? root); [reflexivity|]. destruct (m_next_sibling f c); [reflexivity|]. apply IH.
Qed.

Lemma find_hd_filter : forall {A} (P : A -> bool) l, find P l = hd_error (filter P l).
Proof. intros A P. induction l as [|x l IH]; [reflexivity|]. cbn. destruct (P x); [reflexivity|exact IH]. Qed.
Lemma filter_next : forall {A} (P : A -> bool) l k c, nth_error (filter P l) k = Some c ->
  exists j, nth_error l j = Some c /\ find P (skipn (S j) l) = nth_error (filter P l) (S k).
Proof.
  intros A P. induction l as [|x l IH]; intros k c H; [destruct k; discriminate|]. cbn [filter] in *.
  destruct (P x) eqn:Ex.
  - destruct k as [|k]; cbn in H.
    + injection H as <-. exists 0. split; [reflexivity|]. cbn [skipn nth_error]. apply find_hd_filter.
    + destruct (IH k c H) as [j [H1 H2]]. exists (S j). split; [exact H1|]. cbn [nth_error]. exact H2.
  - destruct (IH k c H) as [j [H1 H2]]. exists (S j). split; [exact H1|exact H2].
Qed.
Lemma filter_map_ids : forall (P : tree -> bool) (Q : nat -> bool) l, (forall s, In s l -> P s = Q (tid s)) ->
  ids (filter P l) = filter Q (ids l).
Proof.
  intros P Q. unfold ids. induction l as [|s l IH]; intros H; [reflexivity|].
  assert (IH' := IH (fun s' Hs' => H s' (or_intror Hs'))).
  cbn [filter map]. rewrite <- (H s (or_introl eq_refl)). destruct (P s); cbn [map]; [f_equal|]; exact IH'.
Qed.
Lemma filter_length_le : forall {A} (P : A -> bool) l, length (filter P l) <= length l.
Proof. intros A P. induction l as [|x l IH]; [cbn; lia|]. cbn. destruct (P x); cbn; lia. Qed.

Section TagList.
  Variable f : forest.
  Hypothesis Hwf : wf_forest f.

  Lemma md_step_is_walk_step : forall root c,
    (if m_has_kids f c then m_first_child f c
     else if negb (c =? root) && is_some (m_next_sibling f c) then m_next_sibling f c
     else md_climb f root (m_fuel f) (Some c)) = walk_step f root (length (fnodes f)) c.
  Proof.
    intros root c. unfold walk_step, skipnext, m_fuel. rewrite md_climb_eq. cbn [mi_climb]. destruct (m_has_kids f c); [reflexivity|].
    destruct (c =? root); cbn [negb andb]; [reflexivity|]. destruct (m_next_sibling f c); reflexivity.
  Qed.

  Definition matchb (root : nat) (name : list N) (n : nat) : bool := negb (n =? root) && md_matches f name n.

  Lemma md_scan : forall root name Rt, find_node f root = Some Rt ->
    forall fuel j c, nth_error (ids (docorder Rt)) j = Some c -> length (docorder Rt) - j <= fuel ->
    md_next_match f root name fuel (Some c) = find (matchb root name) (skipn (S j) (ids (docorder Rt))).
  Proof.
    intros root name Rt HR. induction fuel as [|fu IH]; intros j c Hj Hf.
    - assert (j < length (ids (docorder Rt))) by (apply nth_error_Some; rewrite Hj; discriminate).
      rewrite ids_length in H. lia.
    - cbn [md_next_match]. rewrite md_step_is_walk_step.
      rewrite (walk_step_is_successor f root Hwf (length (fnodes f)) Rt HR ltac:(lia) j c Hj).
      destruct (nth_error (ids (docorder Rt)) (S j)) as [n|] eqn:E.
      + rewrite (skipn_nth (S j) _ n E). cbn [find]. unfold matchb at 1.
        destruct (negb (n =? root) && md_matches f name n); [reflexivity|].
        apply (IH (S j) n E). lia.
      + apply nth_error_None in E. rewrite (skipn_all2 _ E). reflexivity.
  Qed.

  Theorem dl_nav : forall root name Rt, find_node f root = Some Rt ->
    (forall k c, nth_error (root :: sp_tag_list f root name) k = Some c ->
       md_next_match f root name (m_fuel f) (Some c) = nth_error (root :: sp_tag_list f root name) (S k)) /\
    length (sp_tag_list f root name) < m_fuel f.
  Proof.
    intros root name Rt HR. destruct (find_node_in f root Rt HR) as [Hin HtR].
    pose proof (nodup_sub f Rt Hwf Hin) as Hnd.
    assert (Hord : ids (docorder Rt) = root :: ids (dnodes (tkids Rt))) by (rewrite docorder_eq; cbn; rewrite HtR; reflexivity).
    assert (Hm : sp_tag_list f root name = filter (matchb root name) (ids (dnodes (tkids Rt)))).
    { unfold sp_tag_list. rewrite HR. rewrite docorder_eq. cbn [tl]. apply filter_map_ids.
      intros s Hs. unfold matchb, md_matches.
      assert (Hsf : In s (fnodes f)) by (apply (sub_in_dnodes f Rt s Hin); rewrite docorder_eq; right; exact Hs).
      rewrite (find_node_wf f s Hwf Hsf).
      destruct (Nat.eqb_spec (tid s) root) as [E|_]; [|reflexivity].
      exfalso. rewrite <- HtR in E. exact (self_not_proper Rt s Hnd Hs E). }
    pose proof (node_le f Rt Hin) as Hlen. pose proof (nodes_fuel f) as Hfu.
    split.
    - intros k c Hk. rewrite Hm in *. destruct k as [|k]; cbn [nth_error] in Hk.
      + injection Hk as <-. rewrite (md_scan root name Rt HR (m_fuel f) 0 root); [|rewrite Hord; reflexivity|lia].
        rewrite Hord. cbn [skipn nth_error]. apply find_hd_filter.
      + destruct (filter_next (matchb root name) _ k c Hk) as [j [H1 H2]].
        rewrite (md_scan root name Rt HR (m_fuel f) (S j) c); [|rewrite Hord; exact H1|lia].
        rewrite Hord. cbn [skipn nth_error]. exact H2.
    - rewrite Hm. pose proof (filter_length_le (matchb root name) (ids (dnodes (tkids Rt)))) as H.
      pose proof (ids_length (dnodes (tkids Rt))) as H0.
      rewrite docorder_eq in Hlen. cbn [length] in Hlen. lia.
  Qed.
End TagList.
Section Prev.
  Variable f : forest.
  Variable R : nat.
  Hypothesis Hwf : wf_forest f.

  Definition lastid (t : tree) : nat := last (ids (docorder t)) (tid t).

  Lemma docorder_snoc : forall i k v pre c, docorder (Node i k v (pre ++ [c])) = (Node i k v (pre ++ [c]) :: dnodes pre) ++ docorder c.
  Proof. intros. rewrite docorder_eq. cbn [tkids]. unfold dnodes. rewrite flat_map_app. cbn. rewrite app_nil_r. reflexivity. Qed.
  Lemma last_app_ne : forall {A} (a b : list A) d, b <> [] -> last (a ++ b) d = last b d.
  Proof.
    intros A a b d Hb. induction a as [|x a IH]; [reflexivity|]. cbn [app].
    assert (Hne : a ++ b <> []) by (destruct a; [exact Hb|discriminate]).
    destruct (a ++ b) as [|z l] eqn:E; [contradiction|]. cbn [last]. exact IH.
  Qed.
  Lemma docorder_ne : forall t, ids (docorder t) <> [].
  Proof. intros t. rewrite docorder_eq. discriminate. Qed.
  Lemma lastid_snoc : forall i k v pre c, lastid (Node i k v (pre ++ [c])) = lastid c.
  Proof.
    intros. unfold lastid. rewrite docorder_snoc, ids_app. rewrite last_app_ne by apply docorder_ne.
    generalize (docorder_ne c). generalize (ids (docorder c)). intros l Hl. destruct l as [|x l]; [contradiction|].
    clear. revert x. induction l as [|y l IH]; intros x; [reflexivity|]. cbn [last] in *. apply IH.
  Qed.

  Lemma deepest_last_wf : forall t, In t (fnodes f) -> forall F, length (docorder t) <= F ->
    m_deepest_last f F (tid t) = lastid t.
  Proof.
    intros t. induction t as [i k v ks IH] using tree_ind2. intros Ht F HF.
    destruct F as [|fu]; [rewrite docorder_eq in HF; cbn in HF; lia|]. cbn [m_deepest_last tid].
    unfold m_last_child. pose proof (m_kids_wf f _ Hwf Ht) as Hk. cbn [tid tkids] in Hk. rewrite Hk.
    destruct ks as [|cl pre _] using rev_ind.
    - cbn. reflexivity.
    - unfold ids. rewrite map_app, rev_app_distr. cbn [map rev app hd_error].
      rewrite lastid_snoc. rewrite Forall_forall in IH.
      assert (Hc : In cl (pre ++ [cl])) by (apply in_or_app; right; left; reflexivity).
      apply (IH cl Hc); [exact (kids_in_dnodes f _ cl Ht Hc)|].
      rewrite docorder_snoc, app_length in HF. cbn [length] in HF. lia.
  Qed.

  Definition prevraw (c : nat) : option nat := mi_prev_raw f R c.
  Definition pred_chain (l : list nat) : Prop := forall k c, nth_error l (S k) = Some c -> prevraw c = nth_error l k.

  Lemma pred_single : forall e, pred_chain [e].
  Proof. intros e k c H. destruct k; discriminate. Qed.
  Lemma pred_cons : forall e x l, prevraw x = Some e -> pred_chain (x :: l) -> pred_chain (e :: x :: l).
  Proof.
    intros e x l Hx Hl k c H. destruct k as [|k]; cbn in H.
    - injection H as <-. exact Hx.
    - exact (Hl k c H).
  Qed.
  Lemma last_default : forall {A} (l : list A) d d', l <> [] -> last l d = last l d'.
  Proof.
    intros A. induction l as [|x l IH]; intros d d' H; [contradiction|]. destruct l as [|y l]; [reflexivity|].
    cbn [last] in *. apply IH. discriminate.
  Qed.
  Lemma last_cons : forall {A} (x : A) l d, last (x :: l) d = last l x.
  Proof. intros A x l d. destruct l as [|y l]; [reflexivity|]. change (last (x :: y :: l) d) with (last (y :: l) d). apply last_default. discriminate. Qed.
  Lemma pred_glue : forall l1 e l2, pred_chain (e :: l1) -> pred_chain (last l1 e :: l2) -> pred_chain (e :: l1 ++ l2).
  Proof.
    induction l1 as [|x l1 IH]; intros e l2 H1 H2; [exact H2|].
    cbn [app]. apply pred_cons; [exact (H1 0 x eq_refl)|].
    apply IH; [intros k c Hk; exact (H1 (S k) c Hk)|].
    destruct l1 as [|n l1]; [exact H2|]. rewrite (last_default (n :: l1) x e) by discriminate. exact H2.
  Qed.

  (** the predecessor chain over the subtrees of the children r = the last children of T, given the chain over each child's
      subtree; e0 = the node in front of them in document order: the deepest last node of the child before r, or T itself *)
  Lemma pred_kids : forall T, In T (fnodes f) -> ~ In R (ids (dnodes (tkids T))) ->
    (forall c, In c (tkids T) -> ~ In R (ids (dnodes (tkids c))) -> pred_chain (ids (docorder c))) ->
    forall r pre e0, tkids T = pre ++ r ->
    e0 = match last_error pre with Some c => lastid c | None => tid T end ->
    pred_chain (e0 :: ids (dnodes r)).
  Proof.
    intros T Ht HR Hsub. induction r as [|c r IHr]; intros pre e0 E He0; [apply pred_single|].
    assert (Hc : In c (tkids T)) by (rewrite E; apply in_or_app; right; left; reflexivity).
    destruct (below_kid R (tkids T) c Hc HR) as [HcR HRc].
    rewrite dnodes_cons, ids_app. rewrite (docorder_eq c) at 1. cbn [ids map app].
    change (tid c :: map tid (dnodes (tkids c)) ++ ids (dnodes r)) with ((tid c :: ids (dnodes (tkids c))) ++ ids (dnodes r)).
    apply pred_glue.
    - pose proof (Hsub c Hc HRc) as Hch. rewrite docorder_eq in Hch. apply pred_cons; [|exact Hch].
      (* the child itself: previous sibling's deepest last, or the parent *)
      unfold prevraw, mi_prev_raw.
      destruct (Nat.eqb_spec (tid c) R) as [E1|_]; [exfalso; exact (HcR E1)|].
      rewrite (m_prev_sibling_wf f Hwf T pre c r Ht E).
      destruct pre as [|pl pre0 _] using rev_ind.
      + cbn. rewrite (m_parent_wf f T c Hwf Ht Hc). rewrite He0. reflexivity.
      + unfold ids. rewrite map_app. cbn [map]. rewrite last_error_snoc.
        rewrite last_error_snoc in He0. rewrite He0. f_equal.
        assert (Hp0 : In pl (tkids T)) by (rewrite E; apply in_or_app; left; apply in_or_app; right; left; reflexivity).
        apply deepest_last_wf; [exact (kids_in_dnodes f T pl Ht Hp0)|].
        pose proof (node_fuel f pl (kids_in_dnodes f T pl Ht Hp0)). lia.
    - assert (El2 : last (tid c :: ids (dnodes (tkids c))) e0 = lastid c).
      { unfold lastid. rewrite docorder_eq. cbn [ids map]. fold (ids (dnodes (tkids c))). rewrite !last_cons. reflexivity. }
      rewrite El2. apply (IHr (pre ++ [c])); [rewrite <- app_assoc; exact E|]. rewrite last_error_snoc. reflexivity.
  Qed.

  Lemma pred_tree : forall t, In t (fnodes f) -> ~ In R (ids (dnodes (tkids t))) -> pred_chain (ids (docorder t)).
  Proof.
    intros t. induction t as [i k v ks IH] using tree_ind2. intros Ht HR. rewrite docorder_eq. cbn [ids map tkids tid] in *.
    apply (pred_kids (Node i k v ks) Ht HR) with (pre := []); [|reflexivity|reflexivity].
    intros c Hc HRc. rewrite Forall_forall in IH. exact (IH c Hc (kids_in_dnodes f (Node i k v ks) c Ht Hc) HRc).
  Qed.
End Prev.
Section Anc.
  Variable f : forest.
  Hypothesis Hwf : wf_forest f.

  Lemma anc_mono : forall F a n, m_is_anc f F a n = true -> m_is_anc f (S F) a n = true.
  Proof.
    induction F as [|F IH]; intros a n H; [discriminate|]. cbn [m_is_anc] in *. destruct n as [c|]; [|discriminate].
    destruct (c =? a); [reflexivity|]. apply IH. exact H.
  Qed.
  Lemma anc_mono_le : forall F G a n, F <= G -> m_is_anc f F a n = true -> m_is_anc f G a n = true.
  Proof. intros F G a n Hle H. induction Hle; [exact H|apply anc_mono; exact IHHle]. Qed.

  Lemma anc_sound : forall F X c, In X (fnodes f) -> In c (fnodes f) ->
    m_is_anc f F (tid X) (Some (tid c)) = true -> In c (docorder X).
  Proof.
    induction F as [|F IH]; intros X c HX Hc H; [discriminate|]. cbn [m_is_anc] in H.
    destruct (Nat.eqb_spec (tid c) (tid X)) as [E|E].
    - rewrite (same_id (fnodes f) c X Hwf Hc HX E). apply head_in.
    - destruct (m_parent f (tid c)) as [q|] eqn:Ep; [|destruct F; discriminate].
      destruct (parent_of_node f c q Hwf Hc Ep) as [p [Hp [Hcp <-]]].
      pose proof (IH X p HX Hp H) as Hin. rewrite docorder_eq. right. exact (kids_proper X p c Hin Hcp).
  Qed.

  Lemma anc_complete_gen : forall X, In X (fnodes f) -> forall c, In c (docorder X) ->
    forall a F G, length (docorder X) <= F -> m_is_anc f G a (Some (tid X)) = true ->
    m_is_anc f (F + G) a (Some (tid c)) = true.
  Proof.
    intros X HX c Hc. revert X c Hc HX.
    apply (docorder_ind (fun X c => In X (fnodes f) -> forall a F G, length (docorder X) <= F ->
             m_is_anc f G a (Some (tid X)) = true -> m_is_anc f (F + G) a (Some (tid c)) = true)).
    - intros X _ a F G HF HG. apply (anc_mono_le G); [lia|exact HG].
    - intros X k c Hk _ IH HX a F G HF HG.
      assert (Hstep : m_is_anc f (S G) a (Some (tid k)) = true).
      { cbn [m_is_anc]. destruct (tid k =? a); [reflexivity|]. rewrite (m_parent_wf f X k Hwf HX Hk). exact HG. }
      pose proof (len_top (tkids X) k Hk) as Hl. rewrite (docorder_eq X) in HF. cbn [length] in HF.
      apply (anc_mono_le (length (docorder k) + S G)); [lia|].
      exact (IH (kids_in_dnodes f X k HX Hk) a _ (S G) (le_n _) Hstep).
  Qed.
  Theorem is_anc_wf : forall F x X c, find_node f x = Some X -> In c (ids (fnodes f)) -> length (fnodes f) < F ->
    m_is_anc f F x (Some c) = memb c (sub_ids f x).
  Proof.
    intros F x X c HX Hc HF. destruct (find_node_in f x X HX) as [HXf HtX].
    apply in_ids_inv in Hc. destruct Hc as [cn [Hcn <-]].
    unfold sub_ids. rewrite HX.
    destruct (memb (tid cn) (ids (docorder X))) eqn:Em.
    - apply memb_In, in_ids_inv in Em. destruct Em as [c' [Hc' Ec']].
      assert (c' = cn) by (apply (same_id (fnodes f)); [exact Hwf|exact (sub_in_dnodes f X c' HXf Hc')|exact Hcn|exact Ec']).
      subst c'. rewrite <- HtX.
      assert (H0 : m_is_anc f 1 (tid X) (Some (tid X)) = true) by (cbn; rewrite Nat.eqb_refl; reflexivity).
      pose proof (anc_complete_gen X HXf cn Hc' (tid X) (length (docorder X)) 1 (le_n _) H0) as H1.
      apply (anc_mono_le (length (docorder X) + 1)); [|exact H1].
      pose proof (node_le f X HXf). lia.
    - destruct (m_is_anc f F x (Some (tid cn))) eqn:Ea; [|reflexivity].
      exfalso. rewrite <- HtX in Ea. pose proof (anc_sound _ X cn HXf Hcn Ea) as Hin.
      assert (memb (tid cn) (ids (docorder X)) = true) by (apply memb_In; apply in_ids; exact Hin).
      rewrite H in Em. discriminate.
  Qed.
End Anc.
