(** C14 -- executable certificates for the navigation hypotheses of Proofs14b/c.  The conditional theorems about
    iterator stepping, the tag-name list and the removal fix-up of ranges hold in every state in which these boolean
    checks evaluate to [true] (T14_*_certified); the extracted checks are evaluated on every state of every history
    of the correspondence ([m_run_certs]), so the hypotheses are machine-checked for all sampled states. *)
From Coq Require Import List NArith Arith Bool.
From XV Require Import C14.Spec14 C14.Hist14 C14.Model14.
Import ListNotations.

Definition opt_eqb (a b : option nat) : bool :=
  match a, b with Some x, Some y => x =? y | None, None => true | _, _ => false end.
Fixpoint nodupb (l : list nat) : bool :=
  match l with [] => true | x :: r => negb (memb x r) && nodupb r end.

(** the pointer walks of the iterator are single steps in the document order of the root's subtree, ids are unique,
    and the filter sees the node the order lists *)
Definition iter_cert (tab : list N) (f : forest) (it : m_iter) : bool :=
  let root := mi_root it in
  let trees := it_order f root in
  let order := ids trees in
  nodupb order && opt_eqb (nth_error order 0) (Some root) && (length order <=? m_fuel f) &&
  forallb (fun k => match nth_error order k with
                    | Some c => opt_eqb (mi_next_raw f root (Some c) true) (nth_error order (S k))
                    | None => true end) (seq 0 (length order)) &&
  forallb (fun k => match nth_error order (S k) with
                    | Some c => opt_eqb (mi_prev_raw f root c) (nth_error order k)
                    | None => true end) (seq 0 (length order)) &&
  opt_eqb (mi_prev_raw f root root) None &&
  forallb (fun s => Bool.eqb (it_accepts tab (mi_what it) (mi_usef it) s) (mi_accept tab f it (tid s))) trees &&
  (match mi_cur it with Some c => memb c order | None => true end).

(** nextMatchingElementAfter steps through root :: matching elements *)
Definition dl_cert (f : forest) (root : nat) (name : list N) : bool :=
  let sq := root :: sp_tag_list f root name in
  forallb (fun k => match nth_error sq k with
                    | Some c => opt_eqb (md_next_match f root name (m_fuel f) (Some c)) (nth_error sq (S k))
                    | None => true end) (seq 0 (length sq)) &&
  (length (sp_tag_list f root name) <? m_fuel f).

(** isAncestorOf(x, c) decides membership of c in the subtree of x, for every node of the forest *)
Definition anc_cert (f : forest) (x : nat) : bool :=
  match m_parent f x with
  | Some p => forallb (fun c => Bool.eqb (m_is_anc f (m_fuel f) x (Some c)) (memb c (sub_ids f x))) (ids (fnodes f))
              && negb (memb p (sub_ids f x))
  | None => true
  end.

(** the certificate that the step about to be taken relies on *)
Definition step_cert (s : m_state) (o : op) : bool :=
  let f := ms_f s in
  match o with
  | OItNext k | OItPrev k => match get_opt (ms_its s) k with Some it => iter_cert (ms_tab s) f it | None => true end
  | ODLen k | ODItem k _ => match nth_error (ms_dls s) k with Some l => dl_cert f (md_root l) (md_name l) | None => true end
  | ORm x => if known f x then anc_cert f x else true
  | OIns _ n _ => if known f n then anc_cert f n else true
  | _ => true
  end.
(** (number of certificates evaluated, number that failed) along a history *)
Fixpoint m_run_certs_from (s : m_state) (h : list op) (n bad : nat) : nat * nat :=
  match h with
  | [] => (n, bad)
  | o :: r => let c := step_cert s o in
              match m_step s o with
              | None => (S n, if c then bad else S bad)
              | Some (_, s') => m_run_certs_from s' r (S n) (if c then bad else S bad)
              end
  end.
Definition m_run_certs (fx : fixes) (tab : list N) (h : list op) : nat * nat := m_run_certs_from (m_init fx tab) h 0 0.
