(** C14 -- well-formed rose trees (unique node ids): the pointer structure read off the tree by Model14
    (find_node / find_parent / kids / next and previous sibling) is what the tree's shape says; descendants, sizes, and
    a few list lemmas the other files share. *)
From Coq Require Import List NArith Arith Bool Lia.
From XV Require Import C14.Spec14 C14.Hist14 C14.Model14.
Import ListNotations.

Section TreeInd.
  Variable P : tree -> Prop.
  Hypothesis H : forall i k v ks, Forall P ks -> P (Node i k v ks).
  Fixpoint tree_ind2 (t : tree) : P t :=
    match t with
    | Node i k v ks =>
      H i k v ks ((fix go (l : list tree) : Forall P l :=
                     match l with [] => Forall_nil P | c :: r => Forall_cons c (tree_ind2 c) (go r) end) ks)
    end.
End TreeInd.

Definition dnodes (l : list tree) : list tree := flat_map docorder l.
Definition wf_forest (f : forest) : Prop := NoDup (ids (fnodes f)).

Lemma docorder_eq : forall t, docorder t = t :: dnodes (tkids t).
Proof. intros [i k v ks]. reflexivity. Qed.
Lemma dnodes_cons : forall k r, dnodes (k :: r) = docorder k ++ dnodes r.
Proof. reflexivity. Qed.
Lemma ids_app : forall a b, ids (a ++ b) = ids a ++ ids b.
Proof. intros. unfold ids. apply map_app. Qed.
Lemma in_ids : forall x l, In x l -> In (tid x) (ids l).
Proof. intros. unfold ids. apply in_map. assumption. Qed.
Lemma ids_length : forall l, length (ids l) = length l.
Proof. intros l. unfold ids. apply map_length. Qed.
Lemma in_ids_inv : forall i l, In i (ids l) -> exists x, In x l /\ tid x = i.
Proof. intros i l H. unfold ids in H. apply in_map_iff in H. destruct H as [x [E Hx]]. exists x. split; assumption. Qed.
Lemma head_in : forall t, In t (docorder t).
Proof. intros t. rewrite docorder_eq. left. reflexivity. Qed.
Lemma top_in_dnodes : forall l t, In t l -> In t (dnodes l).
Proof. intros l t H. unfold dnodes. apply in_flat_map. exists t. split; [exact H|apply head_in]. Qed.

Lemma NoDup_app_disj : forall {A} (a b : list A) x, NoDup (a ++ b) -> In x a -> In x b -> False.
Proof.
  induction a as [|y a IH]; intros b x Hnd Ha Hb; [destruct Ha|].
  cbn in Hnd. inversion Hnd as [|? ? Hn Hnd']; subst. destruct Ha as [->|Ha].
  - apply Hn. apply in_or_app. right. exact Hb.
  - exact (IH b x Hnd' Ha Hb).
Qed.

Lemma NoDup_app_remove_r : forall {A} (a b : list A), NoDup (a ++ b) -> NoDup a.
Proof.
  induction a as [|y a IH]; intros b H; [constructor|]. cbn in H. inversion H as [|? ? Hn H']; subst.
  constructor; [intros Hin; apply Hn; apply in_or_app; left; exact Hin|exact (IH b H')].
Qed.
Lemma NoDup_app_remove_l : forall {A} (a b : list A), NoDup (a ++ b) -> NoDup b.
Proof. induction a as [|y a IH]; intros b H; [exact H|]. cbn in H. inversion H; subst. apply IH. assumption. Qed.

(** [In x (docorder t)]: x is t or a descendant of t.  Induction along the path from t down to x. *)
Lemma docorder_ind : forall P : tree -> tree -> Prop,
  (forall t, P t t) -> (forall t k x, In k (tkids t) -> In x (docorder k) -> P k x -> P t x) ->
  forall t x, In x (docorder t) -> P t x.
Proof.
  intros P H0 HS t. induction t as [i k v ks IH] using tree_ind2. intros x Hx.
  rewrite docorder_eq in Hx. destruct Hx as [<-|Hx]; [apply H0|].
  cbn [tkids] in Hx. unfold dnodes in Hx. apply in_flat_map in Hx. destruct Hx as [k0 [Hk0 Hx]].
  rewrite Forall_forall in IH. exact (HS (Node i k v ks) k0 x Hk0 Hx (IH k0 Hk0 x Hx)).
Qed.
Lemma in_dnodes : forall l x, In x (dnodes l) <-> exists t, In t l /\ In x (docorder t).
Proof. intros l x. apply in_flat_map. Qed.
Lemma below_top : forall t k x, In k (tkids t) -> In x (docorder k) -> In x (docorder t).
Proof. intros t k x Hk Hx. rewrite docorder_eq. right. apply in_dnodes. exists k. split; assumption. Qed.

Lemma kids_proper : forall t p c, In p (docorder t) -> In c (tkids p) -> In c (dnodes (tkids t)).
Proof.
  intros t p c Hp. revert c. revert t p Hp. apply (docorder_ind (fun t p => forall c, In c (tkids p) -> In c (dnodes (tkids t)))).
  - intros t c Hc. apply top_in_dnodes. exact Hc.
  - intros t k p Hk _ IH c Hc. apply in_dnodes. exists k. split; [exact Hk|]. rewrite docorder_eq. right. exact (IH c Hc).
Qed.
Lemma kids_in_dnodes : forall l p c, In p (dnodes l) -> In c (tkids p) -> In c (dnodes l).
Proof.
  intros l p c Hp Hc. apply in_dnodes in Hp. destruct Hp as [t [Ht Hp]].
  apply in_dnodes. exists t. split; [exact Ht|]. rewrite docorder_eq. right. exact (kids_proper t p c Hp Hc).
Qed.
Lemma sub_in_dnodes : forall l p x, In p (dnodes l) -> In x (docorder p) -> In x (dnodes l).
Proof.
  intros l p x Hp Hx. apply in_dnodes in Hp. destruct Hp as [t [Ht Hp]]. apply in_dnodes. exists t. split; [exact Ht|].
  clear Ht. revert t p Hp Hx. apply (docorder_ind (fun t p => In x (docorder p) -> In x (docorder t))).
  - intros t H. exact H.
  - intros t k p Hk _ IH H. exact (below_top t k x Hk (IH H)).
Qed.

Lemma nodup_sub_list : forall l k, NoDup (ids (dnodes l)) -> In k l -> NoDup (ids (docorder k)).
Proof.
  induction l as [|k0 r IH]; intros k Hnd Hk; [destruct Hk|].
  rewrite dnodes_cons, ids_app in Hnd. destruct Hk as [<-|Hk].
  - exact (NoDup_app_remove_r _ _ Hnd).
  - apply IH; [exact (NoDup_app_remove_l _ _ Hnd)|exact Hk].
Qed.
Lemma nodup_kids : forall t, NoDup (ids (docorder t)) -> NoDup (ids (dnodes (tkids t))).
Proof. intros t H. rewrite docorder_eq in H. cbn in H. inversion H; assumption. Qed.
Lemma nodup_sub : forall l x, NoDup (ids (dnodes l)) -> In x (dnodes l) -> NoDup (ids (docorder x)).
Proof.
  intros l x Hnd Hx. apply in_dnodes in Hx. destruct Hx as [t [Ht Hx]]. pose proof (nodup_sub_list l t Hnd Ht) as Hnt.
  clear Ht Hnd. revert t x Hx Hnt. apply (docorder_ind (fun t x => NoDup (ids (docorder t)) -> NoDup (ids (docorder x)))).
  - intros t H. exact H.
  - intros t k x Hk _ IH Hnt. exact (IH (nodup_sub_list (tkids t) k (nodup_kids t Hnt) Hk)).
Qed.
Lemma self_not_proper : forall t c, NoDup (ids (docorder t)) -> In c (dnodes (tkids t)) -> tid c <> tid t.
Proof.
  intros t c Hnd Hc E. rewrite docorder_eq in Hnd. cbn in Hnd. inversion Hnd as [|? ? Hn _]; subst.
  apply Hn. rewrite <- E. apply in_ids. exact Hc.
Qed.

Lemma top_no_parent : forall l, NoDup (ids (dnodes l)) -> forall T q c', In T l -> In q (dnodes l) -> In c' (tkids q) ->
  tid c' <> tid T.
Proof.
  induction l as [|k r IH]; intros Hnd T q c' HT Hq Hc'; [destruct HT|].
  rewrite dnodes_cons in Hq. pose proof Hnd as Hnd0. rewrite dnodes_cons, ids_app in Hnd.
  apply in_app_or in Hq. destruct HT as [<-|HT]; destruct Hq as [Hq|Hq].
  - apply self_not_proper; [exact (NoDup_app_remove_r _ _ Hnd)|exact (kids_proper k q c' Hq Hc')].
  - intros E. apply (NoDup_app_disj _ _ (tid k) Hnd); [apply in_ids; apply head_in|].
    rewrite <- E. apply in_ids. exact (kids_in_dnodes r q c' Hq Hc').
  - intros E. apply (NoDup_app_disj _ _ (tid T) Hnd); [|apply in_ids; apply top_in_dnodes; exact HT].
    rewrite <- E. apply in_ids. rewrite docorder_eq. right. exact (kids_proper k q c' Hq Hc').
  - exact (IH (NoDup_app_remove_l _ _ Hnd) T q c' HT Hq Hc').
Qed.

Definition one_parent (l : list tree) : Prop :=
  NoDup (ids (dnodes l)) -> forall p q c c', In p (dnodes l) -> In q (dnodes l) -> In c (tkids p) -> In c' (tkids q) ->
  tid c = tid c' -> p = q.
Lemma one_parent_list : forall l, Forall (fun t => one_parent [t]) l -> one_parent l.
Proof.
  induction l as [|k r IH]; intros HF Hnd p q c c' Hp Hq Hc Hc' E; [destruct Hp|].
  inversion HF as [|? ? Hk Hr]; subst. rewrite dnodes_cons, ids_app in Hnd.
  rewrite dnodes_cons in Hp, Hq. apply in_app_or in Hp. apply in_app_or in Hq.
  assert (Hk1 : dnodes [k] = docorder k) by (unfold dnodes; cbn; apply app_nil_r).
  destruct Hp as [Hp|Hp]; destruct Hq as [Hq|Hq].
  - apply (Hk ltac:(rewrite Hk1; exact (NoDup_app_remove_r _ _ Hnd)) p q c c'); try rewrite Hk1; assumption.
  - exfalso. apply (NoDup_app_disj _ _ (tid c) Hnd).
    + apply in_ids. rewrite docorder_eq. right. exact (kids_proper k p c Hp Hc).
    + rewrite E. apply in_ids. exact (kids_in_dnodes r q c' Hq Hc').
  - exfalso. apply (NoDup_app_disj _ _ (tid c') Hnd).
    + apply in_ids. rewrite docorder_eq. right. exact (kids_proper k q c' Hq Hc').
    + rewrite <- E. apply in_ids. exact (kids_in_dnodes r p c Hp Hc).
  - exact (IH Hr (NoDup_app_remove_l _ _ Hnd) p q c c' Hp Hq Hc Hc' E).
Qed.
Lemma one_parent_tree : forall t, one_parent [t].
Proof.
  intros t. induction t as [i k v ks IH] using tree_ind2.
  intros Hnd p q c c' Hp Hq Hc Hc' E.
  assert (H1 : dnodes [Node i k v ks] = Node i k v ks :: dnodes ks) by (unfold dnodes; cbn; rewrite app_nil_r; reflexivity).
  rewrite H1 in *. cbn in Hnd. inversion Hnd as [|? ? Hni Hndk]; subst.
  destruct Hp as [<-|Hp]; destruct Hq as [<-|Hq].
  - reflexivity.
  - exfalso. cbn [tkids] in Hc. apply (top_no_parent ks Hndk c q c' Hc Hq Hc'). symmetry. exact E.
  - exfalso. cbn [tkids] in Hc'. apply (top_no_parent ks Hndk c' p c Hc' Hp Hc). exact E.
  - exact (one_parent_list ks IH Hndk p q c c' Hp Hq Hc Hc' E).
Qed.
Lemma one_parent_forest : forall l, one_parent l.
Proof. intros l. apply one_parent_list. apply Forall_forall. intros t _. apply one_parent_tree. Qed.
Lemma find_by_id : forall l s, NoDup (ids l) -> In s l -> find (fun x => tid x =? tid s) l = Some s.
Proof.
  induction l as [|y r IH]; intros s Hnd Hs; [destruct Hs|]. cbn in Hnd. inversion Hnd as [|? ? Hn Hnd']; subst.
  cbn. destruct Hs as [->|Hs]; [rewrite Nat.eqb_refl; reflexivity|].
  destruct (Nat.eqb_spec (tid y) (tid s)) as [E|E]; [exfalso; apply Hn; rewrite E; apply in_ids; exact Hs|].
  exact (IH s Hnd' Hs).
Qed.
Lemma find_node_wf : forall f s, wf_forest f -> In s (fnodes f) -> find_node f (tid s) = Some s.
Proof. intros f s H Hs. unfold find_node. apply find_by_id; assumption. Qed.
Lemma find_node_in : forall f i s, find_node f i = Some s -> In s (fnodes f) /\ tid s = i.
Proof. intros f i s H. unfold find_node in H. apply find_some in H. destruct H as [H1 H2]. apply Nat.eqb_eq in H2. split; assumption. Qed.

Lemma find_first_unique : forall {A} (g : A -> bool) l p, In p l -> g p = true ->
  (forall q, In q l -> g q = true -> q = p) -> find g l = Some p.
Proof.
  intros A g. induction l as [|y r IH]; intros p Hp Hg Hu; [destruct Hp|]. cbn.
  destruct (g y) eqn:Ey; [f_equal; apply Hu; [left; reflexivity|exact Ey]|].
  destruct Hp as [->|Hp]; [rewrite Hg in Ey; discriminate|].
  apply IH; [exact Hp|exact Hg|]. intros q Hq. apply Hu. right. exact Hq.
Qed.
Lemma has_kid_spec : forall i s, has_kid i s = true <-> exists c, In c (tkids s) /\ tid c = i.
Proof.
  intros i s. unfold has_kid. rewrite existsb_exists. split; intros [c [H1 H2]]; exists c; split; try assumption.
  - apply Nat.eqb_eq. exact H2.
  - apply Nat.eqb_eq. exact H2.
Qed.
Lemma find_parent_wf : forall f p c, wf_forest f -> In p (fnodes f) -> In c (tkids p) -> find_parent f (tid c) = Some p.
Proof.
  intros f p c Hwf Hp Hc. unfold find_parent. apply find_first_unique; [exact Hp|apply has_kid_spec; exists c; split; [exact Hc|reflexivity]|].
  intros q Hq Hk. apply has_kid_spec in Hk. destruct Hk as [c' [Hc' E]].
  exact (one_parent_forest f Hwf q p c' c Hq Hp Hc' Hc E).
Qed.
Lemma find_parent_top : forall f T, wf_forest f -> In T f -> find_parent f (tid T) = None.
Proof.
  intros f T Hwf HT. unfold find_parent. destruct (find (has_kid (tid T)) (fnodes f)) as [q|] eqn:E; [|reflexivity].
  apply find_some in E. destruct E as [Hq Hk]. apply has_kid_spec in Hk. destruct Hk as [c' [Hc' E]].
  exfalso. exact (top_no_parent f Hwf T q c' HT Hq Hc' E).
Qed.

Lemma m_kids_wf : forall f p, wf_forest f -> In p (fnodes f) -> m_kids f (tid p) = ids (tkids p).
Proof. intros f p H Hp. unfold m_kids. rewrite (find_node_wf f p H Hp). reflexivity. Qed.
Lemma m_parent_wf : forall f p c, wf_forest f -> In p (fnodes f) -> In c (tkids p) -> m_parent f (tid c) = Some (tid p).
Proof. intros f p c H Hp Hc. unfold m_parent. rewrite (find_parent_wf f p c H Hp Hc). reflexivity. Qed.

Lemma after_in_split : forall l1 x l2, ~ In x l1 -> after_in x (l1 ++ x :: l2) = hd_error l2.
Proof.
  induction l1 as [|y l1 IH]; intros x l2 Hn; cbn.
  - rewrite Nat.eqb_refl. reflexivity.
  - destruct (Nat.eqb_spec y x) as [E|E]; [exfalso; apply Hn; left; exact E|]. apply IH. intros H. apply Hn. right. exact H.
Qed.
Lemma kids_ids_nodup : forall f p, wf_forest f -> In p (fnodes f) -> NoDup (ids (tkids p)).
Proof.
  intros f p H Hp. pose proof (nodup_kids p (nodup_sub f p H Hp)) as Hk.
  revert Hk. generalize (tkids p). induction l as [|k r IH]; intros Hk; [constructor|].
  rewrite dnodes_cons, ids_app in Hk. cbn. constructor.
  - intros Hin. apply in_ids_inv in Hin. destruct Hin as [k' [Hk' E]].
    apply (NoDup_app_disj _ _ (tid k) Hk); [apply in_ids; apply head_in|]. rewrite <- E. apply in_ids. apply top_in_dnodes. exact Hk'.
  - apply IH. exact (NoDup_app_remove_l _ _ Hk).
Qed.
Lemma m_next_sibling_wf : forall f p pre c r, wf_forest f -> In p (fnodes f) -> tkids p = pre ++ c :: r ->
  m_next_sibling f (tid c) = hd_error (ids r).
Proof.
  intros f p pre c r H Hp E. unfold m_next_sibling.
  assert (Hc : In c (tkids p)) by (rewrite E; apply in_or_app; right; left; reflexivity).
  rewrite (m_parent_wf f p c H Hp Hc). rewrite (m_kids_wf f p H Hp). rewrite E, ids_app. cbn [ids map].
  apply after_in_split. pose proof (kids_ids_nodup f p H Hp) as Hnd. rewrite E, ids_app in Hnd. cbn [ids map] in Hnd.
  intros Hin. apply (NoDup_app_disj _ _ (tid c) Hnd Hin). left. reflexivity.
Qed.

Lemma skipn_nth : forall {A} k (l : list A) c, nth_error l k = Some c -> skipn k l = c :: skipn (S k) l.
Proof.
  intros A k. induction k as [|k IH]; intros l c H; destruct l as [|x r]; try discriminate.
  - cbn in H. injection H as ->. reflexivity.
  - cbn in H. cbn [skipn]. apply IH. exact H.
Qed.
Lemma memb_In : forall x l, memb x l = true <-> In x l.
Proof.
  intros x l. unfold memb. rewrite existsb_exists. split.
  - intros [y [Hy E]]. apply Nat.eqb_eq in E. subst. exact Hy.
  - intros H. exists x. split; [exact H|apply Nat.eqb_refl].
Qed.
Lemma same_id : forall (l : list tree) a b, NoDup (ids l) -> In a l -> In b l -> tid a = tid b -> a = b.
Proof.
  induction l as [|y l IH]; intros a b Hnd Ha Hb E; [destruct Ha|]. cbn in Hnd. inversion Hnd as [|? ? Hn Hnd']; subst.
  destruct Ha as [<-|Ha]; destruct Hb as [<-|Hb]; [reflexivity| | |exact (IH a b Hnd' Ha Hb E)].
  - exfalso. apply Hn. rewrite E. apply in_ids. exact Hb.
  - exfalso. apply Hn. rewrite <- E. apply in_ids. exact Ha.
Qed.
Lemma parent_of_node : forall f c q, wf_forest f -> In c (fnodes f) -> m_parent f (tid c) = Some q ->
  exists p, In p (fnodes f) /\ In c (tkids p) /\ tid p = q.
Proof.
  intros f c q Hwf Hc H. unfold m_parent in H. destruct (find_parent f (tid c)) as [p|] eqn:E; [|discriminate].
  injection H as <-. unfold find_parent in E. apply find_some in E. destruct E as [Hp Hk].
  apply has_kid_spec in Hk. destruct Hk as [c' [Hc' Ec]].
  assert (c' = c) by (apply (same_id (fnodes f)); [exact Hwf|exact (kids_in_dnodes f p c' Hp Hc')|exact Hc|exact Ec]).
  subst c'. exists p. repeat split; assumption.
Qed.
Lemma has_kids_wf : forall f, wf_forest f -> forall t, In t (fnodes f) -> m_has_kids f (tid t) = negb (is_nil (tkids t)).
Proof. intros f Hwf t Ht. unfold m_has_kids. rewrite (m_kids_wf f t Hwf Ht). destruct (tkids t); reflexivity. Qed.
Lemma first_child_wf : forall f, wf_forest f -> forall t, In t (fnodes f) -> m_first_child f (tid t) = hd_error (ids (tkids t)).
Proof. intros f Hwf t Ht. unfold m_first_child. rewrite (m_kids_wf f t Hwf Ht). reflexivity. Qed.

Definition last_error {A} (l : list A) : option A := hd_error (rev l).
Lemma last_error_snoc : forall {A} (l : list A) x, last_error (l ++ [x]) = Some x.
Proof. intros. unfold last_error. rewrite rev_app_distr. reflexivity. Qed.
Lemma last_error_cons : forall {A} (y : A) l, l <> [] -> last_error (y :: l) = last_error l.
Proof.
  intros A y l Hl. unfold last_error. cbn [rev]. destruct (rev l) eqn:E; [|reflexivity].
  exfalso. apply Hl. rewrite <- (rev_involutive l), E. reflexivity.
Qed.
Lemma before_in_absent : forall x l y, ~ In x l -> before_in x (y :: l) = None.
Proof.
  intros x. induction l as [|z l IH]; intros y Hn; [reflexivity|]. cbn.
  destruct (Nat.eqb_spec z x) as [E|E]; [exfalso; apply Hn; left; exact E|].
  apply IH. intros H. apply Hn. right. exact H.
Qed.
Lemma before_in_split : forall l1 x l2, NoDup (l1 ++ x :: l2) -> before_in x (l1 ++ x :: l2) = last_error l1.
Proof.
  induction l1 as [|y l1 IH]; intros x l2 Hnd.
  - cbn [app]. inversion Hnd; subst. apply before_in_absent. assumption.
  - cbn [app] in Hnd. inversion Hnd as [|? ? Hny Hnd']; subst. destruct l1 as [|z l1].
    + cbn. rewrite Nat.eqb_refl. reflexivity.
    + rewrite last_error_cons by discriminate. rewrite <- (IH x l2 Hnd'). cbn [app before_in].
      destruct (Nat.eqb_spec z x) as [E|E]; [|reflexivity].
      exfalso. subst z. cbn [app] in Hnd'. inversion Hnd' as [|? ? Hn _]; subst. apply Hn. apply in_or_app. right. left. reflexivity.
Qed.
Lemma last_child_wf : forall f, wf_forest f -> forall t, In t (fnodes f) -> m_last_child f (tid t) = last_error (ids (tkids t)).
Proof. intros f Hwf t Ht. unfold m_last_child, last_error. rewrite (m_kids_wf f t Hwf Ht). reflexivity. Qed.
Lemma m_prev_sibling_wf : forall f, wf_forest f -> forall p pre c r, In p (fnodes f) -> tkids p = pre ++ c :: r ->
  m_prev_sibling f (tid c) = last_error (ids pre).
Proof.
  intros f Hwf p pre c r Hp E. unfold m_prev_sibling.
  assert (Hc : In c (tkids p)) by (rewrite E; apply in_or_app; right; left; reflexivity).
  rewrite (m_parent_wf f p c Hwf Hp Hc), (m_kids_wf f p Hwf Hp). rewrite E, ids_app. cbn [ids map].
  apply before_in_split. pose proof (kids_ids_nodup f p Hwf Hp) as Hnd. rewrite E, ids_app in Hnd. exact Hnd.
Qed.

Lemma below_kid : forall R ks c, In c ks -> ~ In R (ids (dnodes ks)) -> tid c <> R /\ ~ In R (ids (dnodes (tkids c))).
Proof.
  intros R ks c Hc HR. split.
  - intros E. apply HR. rewrite <- E. apply in_ids. apply top_in_dnodes. exact Hc.
  - intros HinR. apply HR. apply in_ids_inv in HinR. destruct HinR as [x [Hx <-]]. apply in_ids.
    apply in_dnodes. exists c. split; [exact Hc|]. rewrite docorder_eq. right. exact Hx.
Qed.
Lemma not_below_itself : forall f t, wf_forest f -> In t (fnodes f) -> ~ In (tid t) (ids (dnodes (tkids t))).
Proof.
  intros f t Hwf Ht Hin. apply in_ids_inv in Hin. destruct Hin as [x [Hx Ex]].
  exact (self_not_proper t x (nodup_sub f t Hwf Ht) Hx Ex).
Qed.

Lemma len_top : forall l t, In t l -> length (docorder t) <= length (dnodes l).
Proof.
  induction l as [|y r IH]; intros t Ht; [destruct Ht|]. rewrite dnodes_cons, app_length.
  destruct Ht as [->|Ht]; [lia|]. pose proof (IH t Ht). lia.
Qed.
Lemma len_desc : forall t x, In x (docorder t) -> length (docorder x) <= length (docorder t).
Proof.
  apply (docorder_ind (fun t x => length (docorder x) <= length (docorder t))).
  - intros t. lia.
  - intros t k x Hk _ IH. rewrite (docorder_eq t). cbn [length]. pose proof (len_top (tkids t) k Hk). lia.
Qed.
Lemma len_sub : forall l x, In x (dnodes l) -> length (docorder x) <= length (dnodes l).
Proof.
  intros l x Hx. apply in_dnodes in Hx. destruct Hx as [t [Ht Hx]]. pose proof (len_top l t Ht). pose proof (len_desc t x Hx). lia.
Qed.

(** the fuel of the model's loops, m_fuel f = number of nodes + 1, exceeds every subtree of the forest *)
Lemma node_le : forall f x, In x (fnodes f) -> length (docorder x) <= length (fnodes f).
Proof. exact len_sub. Qed.
Lemma node_fuel : forall f x, In x (fnodes f) -> length (docorder x) < m_fuel f.
Proof. intros f x H. pose proof (node_le f x H). unfold m_fuel. lia. Qed.
Lemma nodes_fuel : forall f, length (fnodes f) < m_fuel f.
Proof. intros f. unfold m_fuel. lia. Qed.

(** a parent is not inside the subtree of its child: that subtree would be larger than itself *)
Lemma parent_not_in_subtree : forall f x X p, wf_forest f -> find_node f x = Some X -> m_parent f x = Some p ->
  memb p (sub_ids f x) = false.
Proof.
  intros f x X p Hwf HX Hp. destruct (find_node_in f x X HX) as [HXf HtX]. rewrite <- HtX in Hp.
  destruct (parent_of_node f X p Hwf HXf Hp) as [P [HP [HXP <-]]].
  destruct (memb (tid P) (sub_ids f x)) eqn:Em; [|reflexivity]. exfalso.
  unfold sub_ids in Em. rewrite HX in Em. apply memb_In, in_ids_inv in Em.
  destruct Em as [P' [HP' EP']].
  assert (P' = P) by (apply (same_id (fnodes f)); [exact Hwf|exact (sub_in_dnodes f X P' HXf HP')|exact HP|exact EP']).
  subst P'. pose proof (len_desc X P HP') as L1.
  pose proof (len_top (tkids P) X HXP) as L2. rewrite (docorder_eq P) in L1. cbn [length] in L1. lia.
Qed.
