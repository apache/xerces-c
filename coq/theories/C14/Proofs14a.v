(** C14 -- the Range fix-ups (Range 2.12), compared with the rules boundary point by boundary point, for any setting of
    the repair flags (splitText also for the code without the repair, outside the class of defect F28: a boundary point in the
    parent directly behind the split node); what keeps a range valid
    ([range_ok]) under the specification's setStart / setEnd. *)
From Coq Require Import List NArith Arith Bool Lia.
From XV Require Import C14.Spec14 C14.Hist14 C14.Model14 C14.Tree14.
Import ListNotations.

(** the fix-ups treat the two boundary points alike: it is enough to compare them point by point *)
Lemma to_range_pointwise : forall (g : bpoint -> bpoint) r r',
  (mr_sc r', mr_so r') = g (mr_sc r, mr_so r) -> (mr_ec r', mr_eo r') = g (mr_ec r, mr_eo r) -> to_range r' = r_map g (to_range r).
Proof. intros g r r' H1 H2. unfold to_range, r_map. cbn [r_s r_e]. rewrite H1, H2. reflexivity. Qed.
(** the code's test "the container is the edited node and is character data" is the rule's "the container is the edited node" *)
Lemma is_x_cd : forall f x c, m_is_cd f x = true -> (x =? c) && m_is_cd f c = (c =? x).
Proof. intros f x c H. rewrite (Nat.eqb_sym c x). destruct (Nat.eqb_spec x c) as [<-|_]; [rewrite H|]; reflexivity. Qed.

Lemma ins_text_is_spec : forall fx f x off cnt r, fx_ins_text fx = true -> m_is_cd f x = true ->
  to_range (mr_upd_ins_text fx f x off cnt r) = r_map (bp_ins_text x off cnt) (to_range r).
Proof.
  intros fx f x off cnt r Hfx Hcd. apply to_range_pointwise;
    (cbn [mr_upd_ins_text mr_sc mr_so mr_ec mr_eo]; rewrite ?Hfx, (is_x_cd f x _ Hcd); unfold bp_ins_text; cbn [fst snd];
     destruct (_ =? x); destruct (off <? _); reflexivity).
Qed.

(** splitText: x (a text node, child i of p) split at off, tail in nw; what the repaired updateSplitInfo does to one
    boundary point *)
Definition mb_split (f : forest) (p i x nw off : nat) (b : bpoint) : bpoint :=
  let s := (x =? fst b) && m_is_cd f (fst b) && (off <? snd b) in
  let c1 := if s then nw else fst b in
  let o1 := if s then snd b - off else snd b in
  (c1, if (c1 =? p) && (o1 =? S i) then S o1 else o1).

Lemma split_pointwise : forall f x nw off p i b, m_is_cd f x = true ->
  mb_split f p i x nw off b = bp_split_parent p i (bp_split x nw off b).
Proof.
  intros f x nw off p i [c o] Hcd. unfold mb_split, bp_split, bp_split_parent. cbn [fst snd]. rewrite (is_x_cd f x c Hcd).
  (* whether or not the point moves into nw, the parent rule then acts on the same (c1, o1) on both sides *)
  destruct ((c =? x) && (off <? o)); cbn [fst snd];
    match goal with |- (?c1, (if (?c1 =? p) && (?o1 =? S i) then _ else _)) = _ =>
      destruct (Nat.eqb_spec c1 p) as [E1|_]; [rewrite ?E1|reflexivity]; destruct (Nat.eqb_spec o1 (S i)) as [E2|_]; [rewrite ?E2|]; reflexivity
    end.
Qed.

Lemma split_is_spec : forall fx f x nw off p r, fx_split fx = true -> m_is_cd f x = true -> m_parent f x = Some p ->
  to_range (mr_upd_split fx f x nw off r) =
  r_map (bp_split_parent p (m_index_of f x p)) (r_map (bp_split x nw off) (to_range r)).
Proof.
  intros fx f x nw off p r Hfx Hcd Hp.
  change (to_range (mr_upd_split fx f x nw off r) =
          r_map (fun b => bp_split_parent p (m_index_of f x p) (bp_split x nw off b)) (to_range r)).
  unfold mr_upd_split. rewrite Hfx, Hp. apply to_range_pointwise; (rewrite <- (split_pointwise f) by assumption; reflexivity).
Qed.

(** removal of x = child k of p: the model climbs from each container with isAncestorOf; given that these two climbs
    decide membership in the subtree of x, and that p itself is not inside that subtree, the fix-up is 2.12.2 *)
Lemma del_node_is_spec : forall f x p r sub,
  m_parent f x = Some p ->
  m_is_anc f (m_fuel f) x (Some (mr_sc r)) = memb (mr_sc r) sub ->
  m_is_anc f (m_fuel f) x (Some (mr_ec r)) = memb (mr_ec r) sub ->
  memb p sub = false ->
  to_range (mr_upd_del_node f x r) = r_map (bp_del_node p (m_index_of f x p) sub) (to_range r).
Proof.
  intros f x p [sc so ec eo] sub Hp Hsc Hec Hpsub. cbn [mr_sc mr_ec] in Hsc, Hec.
  unfold mr_upd_del_node, to_range, r_map, bp_del_node. cbn [mr_sc mr_so mr_ec mr_eo r_s r_e fst snd].
  rewrite Hp. rewrite (Nat.eqb_sym sc p), (Nat.eqb_sym ec p).
  destruct (Nat.eqb_spec p sc) as [E1|E1]; destruct (Nat.eqb_spec p ec) as [E2|E2]; cbn [andb negb orb];
    try subst sc; try subst ec; cbn [mr_sc mr_so mr_ec mr_eo]; rewrite ?Hsc, ?Hec, ?Hpsub; cbn [mr_sc mr_so mr_ec mr_eo]; rewrite ?Hsc, ?Hec, ?Hpsub.
  - destruct (m_index_of f x p <? so); destruct (m_index_of f x p <? eo); reflexivity.
  - destruct (memb ec sub); cbn [mr_sc mr_so mr_ec mr_eo]; destruct (m_index_of f x p <? so); reflexivity.
  - destruct (memb sc sub); cbn [mr_sc mr_so mr_ec mr_eo]; rewrite ?Hec, ?Hpsub; destruct (m_index_of f x p <? eo); reflexivity.
  - destruct (memb sc sub); cbn [mr_sc mr_so mr_ec mr_eo]; rewrite ?Hec; destruct (memb ec sub); reflexivity.
Qed.
Lemma lex_cmp_refl : forall p, lex_cmp p p = Eq.
Proof. induction p as [|x r IH]; cbn; [reflexivity|]. rewrite Nat.compare_refl. exact IH. Qed.

Lemma bp_cmp_refl : forall m b p, bp_pos m b = Some p -> bp_cmp m b b = Some Eq.
Proof. intros m b p H. unfold bp_cmp. rewrite H. rewrite lex_cmp_refl. reflexivity. Qed.

Lemma bp_ok_pos : forall m b, bp_cmp m b b <> None -> exists p, bp_pos m b = Some p.
Proof. intros m b H. unfold bp_cmp in H. destruct (bp_pos m b) as [p|]; [exists p; reflexivity|]. exfalso. apply H. reflexivity. Qed.

(** a node of the tree has a path, so a boundary point that passes [bp_ok] has a position *)
Lemma path_in_found : forall t x, In x (docorder t) -> exists p, path_in (tid x) t = Some p.
Proof.
  apply (docorder_ind (fun t x => exists p, path_in (tid x) t = Some p)).
  - intros [i k v ks]. exists []. cbn. rewrite Nat.eqb_refl. reflexivity.
  - intros [i k v ks] c x Hc _ [p Hp]. cbn [path_in tkids] in *. destruct (i =? tid x); [eexists; reflexivity|].
    generalize 0. induction ks as [|y r IH]; intros n; [destruct Hc|].
    destruct (path_in (tid x) y) as [q|] eqn:E; [eexists; reflexivity|].
    destruct Hc as [->|Hc]; [rewrite Hp in E; discriminate|exact (IH Hc (S n))].
Qed.
Lemma bp_ok_has_pos : forall m b, bp_ok m b = true -> exists p, bp_pos m b = Some p.
Proof.
  intros m b H. unfold bp_ok in H. destruct (find_node [m] (fst b)) as [s|] eqn:E; [|discriminate].
  destruct (find_node_in [m] _ s E) as [Hs Et]. unfold fnodes in Hs. cbn in Hs. rewrite app_nil_r in Hs.
  destruct (path_in_found m s Hs) as [p Hp]. unfold bp_pos. rewrite <- Et, Hp. eexists. reflexivity.
Qed.

Lemma range_ok_elim : forall m r, range_ok m r = true ->
  bp_ok m (r_s r) = true /\ bp_ok m (r_e r) = true /\
  (exists ps, bp_pos m (r_s r) = Some ps) /\ (exists pe, bp_pos m (r_e r) = Some pe).
Proof.
  intros m r H. unfold range_ok in H. apply andb_prop in H. destruct H as [H H3]. apply andb_prop in H. destruct H as [H1 H2].
  split; [exact H1|]. split; [exact H2|]. unfold bp_cmp in H3.
  destruct (bp_pos m (r_s r)) as [ps|]; [|discriminate]. destruct (bp_pos m (r_e r)) as [pe|]; [|discriminate].
  split; eexists; reflexivity.
Qed.
Lemma range_ok_point : forall m b p, bp_ok m b = true -> bp_pos m b = Some p -> range_ok m {| r_s := b; r_e := b |} = true.
Proof. intros m b p Hb Hp. unfold range_ok. cbn [r_s r_e]. rewrite Hb, (bp_cmp_refl m b p Hp). reflexivity. Qed.
(** what setStart and setEnd leave: the two points if they are in order, else both ends on the new point x *)
Lemma range_ok_ordered_or_point : forall m a b x pa pb px, bp_ok m a = true -> bp_ok m b = true -> bp_ok m x = true ->
  bp_pos m a = Some pa -> bp_pos m b = Some pb -> bp_pos m x = Some px ->
  range_ok m (match bp_cmp m a b with Some Gt => {| r_s := x; r_e := x |} | _ => {| r_s := a; r_e := b |} end) = true.
Proof.
  intros m a b x pa pb px Ha Hb Hx Hpa Hpb Hpx. destruct (bp_cmp m a b) as [[| |]|] eqn:E;
    try exact (range_ok_point m x px Hx Hpx); unfold range_ok; cbn [r_s r_e]; rewrite Ha, Hb, E; try reflexivity.
  unfold bp_cmp in E. rewrite Hpa, Hpb in E. discriminate.
Qed.

Theorem set_start_valid : forall m r b, range_ok m r = true -> bp_ok m b = true -> range_ok m (sp_set_start m r b) = true.
Proof.
  intros m r b Hr Hb. destruct (bp_ok_has_pos m b Hb) as [p Hp]. destruct (range_ok_elim m r Hr) as [_ [H2 [_ [pe He]]]].
  exact (range_ok_ordered_or_point m b (r_e r) b p pe p Hb H2 Hb Hp He Hp).
Qed.
Theorem set_end_valid : forall m r b, range_ok m r = true -> bp_ok m b = true -> range_ok m (sp_set_end m r b) = true.
Proof.
  intros m r b Hr Hb. destruct (bp_ok_has_pos m b Hb) as [p Hp]. destruct (range_ok_elim m r Hr) as [H1 [_ [[ps Hs] _]]].
  exact (range_ok_ordered_or_point m (r_s r) b b ps p p H1 Hb Hb Hs Hp Hp).
Qed.
(** * the code as it is (F28 not repaired): splitText follows the rule except for boundary points sitting in the
      parent directly behind the split node *)
Lemma split_as_is : forall fx f x nw off r, fx_split fx = false -> m_is_cd f x = true ->
  to_range (mr_upd_split fx f x nw off r) = r_map (bp_split x nw off) (to_range r).
Proof.
  intros fx f x nw off r Hfx Hcd. unfold mr_upd_split. rewrite Hfx. apply to_range_pointwise;
    (cbn [mr_sc mr_so mr_ec mr_eo]; rewrite (is_x_cd f x _ Hcd); unfold bp_split; cbn [fst snd];
     destruct (_ =? x); destruct (off <? _); reflexivity).
Qed.
Lemma split_parent_id : forall p i b, b <> (p, S i) -> bp_split_parent p i b = b.
Proof.
  intros p i [c o] H. unfold bp_split_parent. cbn [fst snd].
  destruct (Nat.eqb_spec c p) as [E1|E1]; destruct (Nat.eqb_spec o (S i)) as [E2|E2]; cbn [andb]; try reflexivity.
  subst. exfalso. apply H. reflexivity.
Qed.
Lemma split_is_spec_guarded : forall fx f x nw off p i r, fx_split fx = false -> m_is_cd f x = true ->
  r_s (r_map (bp_split x nw off) (to_range r)) <> (p, S i) ->
  r_e (r_map (bp_split x nw off) (to_range r)) <> (p, S i) ->
  to_range (mr_upd_split fx f x nw off r) = r_map (bp_split_parent p i) (r_map (bp_split x nw off) (to_range r)).
Proof.
  intros fx f x nw off p i r Hfx Hcd Hs He. rewrite (split_as_is fx f x nw off r Hfx Hcd).
  set (r' := r_map (bp_split x nw off) (to_range r)) in *.
  destruct r' as [s e]. cbn [r_s r_e] in Hs, He. unfold r_map. cbn [r_s r_e].
  rewrite (split_parent_id p i s Hs), (split_parent_id p i e He). reflexivity.
Qed.
