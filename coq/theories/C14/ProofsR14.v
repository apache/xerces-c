(** C14 -- lemmas about the Range content operations (SpecR14.v / ModelR14.v): cloneContents never touches the document,
    the iterators, the walkers, the lists or any range: every path of traverseContents(CLONE_CONTENTS) returns the state it
    was given. *)
From Coq Require Import List NArith Arith Bool Lia.
From XV Require Import C14.Spec14 C14.Hist14 C14.Model14 C14.SpecR14 C14.ModelR14.
Import ListNotations.

(** a step of the traversal that, if it does not fail, hands back the state [s] it started from *)
Definition same_state {A} (s : m_state) (o : option (m_state * A)) : Prop := forall s' x, o = Some (s', x) -> s' = s.
Lemma same_ret : forall {A} s (x : A), same_state s (Some (s, x)).
Proof. intros A s x s' y H. injection H as <- _. reflexivity. Qed.
Lemma same_none : forall {A} s, same_state s (@None (m_state * A)).
Proof. intros A s s' x H. discriminate. Qed.
Lemma same_bind : forall {A B} s (o : option (m_state * A)) (K : m_state -> A -> option (m_state * B)),
  same_state s o -> (forall c, same_state s (K s c)) ->
  same_state s (match o with None => None | Some (s', c) => K s' c end).
Proof. intros A B s [[s1 c]|] K Ho HK; [|discriminate]. rewrite (Ho s1 c eq_refl). apply HK. Qed.

Section Clone.
Variable deld : bool.
Variable k : nat.

Lemma xr_full_clone : forall s n, same_state s (xr_full HClone s n).
Proof. intros s n. apply same_ret. Qed.
Lemma xr_node_clone : forall s n full isLeft, same_state s (xr_node deld HClone k s n full isLeft).
Proof.
  intros s n full isLeft. unfold xr_node, xr_text. cbn [is_clone]. destruct full; [apply xr_full_clone|].
  destruct (m_is_cd (ms_f s) n); [destruct isLeft|]; apply same_ret.
Qed.

Lemma xr_left_sibs_clone : forall fuel s next full acc, same_state s (xr_left_sibs deld HClone k fuel s next full acc).
Proof.
  induction fuel as [|fu IH]; intros s next full acc; cbn [xr_left_sibs]; [apply same_ret|].
  destruct next as [n|]; [|apply same_ret]. apply same_bind; [apply xr_node_clone|]. intros c. apply IH.
Qed.
Lemma xr_right_sibs_clone : forall fuel s next full acc, same_state s (xr_right_sibs deld HClone k fuel s next full acc).
Proof.
  induction fuel as [|fu IH]; intros s next full acc; cbn [xr_right_sibs]; [apply same_ret|].
  destruct next as [n|]; [|apply same_ret]. apply same_bind; [apply xr_node_clone|]. intros c. apply IH.
Qed.

Lemma xr_left_up_clone : forall root fuel s parent next full cloned,
  same_state s (xr_left_up deld HClone k root fuel s parent next full cloned).
Proof.
  intros root. induction fuel as [|fu IH]; intros s parent next full cloned; cbn [xr_left_up]; [apply same_ret|].
  destruct parent as [p|]; [|apply same_ret]. apply same_bind; [apply xr_left_sibs_clone|]. intros cs. cbv zeta.
  destruct (p =? root); [apply same_ret|]. destruct (m_parent (ms_f s) p) as [g|]; [|apply same_ret].
  apply same_bind; [apply xr_node_clone|]. intros cg. apply IH.
Qed.
Lemma xr_right_up_clone : forall root fuel s parent next full cloned,
  same_state s (xr_right_up deld HClone k root fuel s parent next full cloned).
Proof.
  intros root. induction fuel as [|fu IH]; intros s parent next full cloned; cbn [xr_right_up]; [apply same_ret|].
  destruct parent as [p|]; [|apply same_ret]. apply same_bind; [apply xr_right_sibs_clone|]. intros cs. cbv zeta.
  destruct (p =? root); [apply same_ret|]. destruct (m_parent (ms_f s) p) as [g|]; [|apply same_ret].
  apply same_bind; [apply xr_node_clone|]. intros cg. apply IH.
Qed.

Lemma xr_left_boundary_clone : forall s root, same_state s (xr_left_boundary deld HClone k s root).
Proof.
  intros s root. unfold xr_left_boundary. cbv zeta. destruct (_ =? root); [apply xr_node_clone|].
  destruct (m_parent (ms_f s) _) as [p|]; [|apply same_none].
  apply same_bind; [apply xr_node_clone|]. intros cp. apply xr_left_up_clone.
Qed.
Lemma xr_right_boundary_clone : forall s root, same_state s (xr_right_boundary deld HClone k s root).
Proof.
  intros s root. unfold xr_right_boundary. cbv zeta. destruct (_ =? root); [apply xr_node_clone|].
  destruct (m_parent (ms_f s) _) as [p|]; [|apply same_none].
  apply same_bind; [apply xr_node_clone|]. intros cp. apply xr_right_up_clone.
Qed.

Lemma xr_fwd_clone : forall cnt s n acc, same_state s (xr_fwd HClone cnt s n acc).
Proof.
  induction cnt as [|c IH]; intros s n acc; cbn [xr_fwd]; [apply same_ret|]. destruct n as [x|]; [|apply same_none].
  apply same_bind; [apply xr_full_clone|]. intros t. apply IH.
Qed.
Lemma xr_fwd_stop_clone : forall cnt s n acc, same_state s (xr_fwd_stop HClone cnt s n acc).
Proof.
  induction cnt as [|c IH]; intros s n acc; cbn [xr_fwd_stop]; [apply same_ret|]. destruct n as [x|]; [|apply same_ret].
  apply same_bind; [apply xr_full_clone|]. intros t. apply IH.
Qed.
Lemma xr_bwd_clone : forall cnt s n acc, same_state s (xr_bwd HClone cnt s n acc).
Proof.
  induction cnt as [|c IH]; intros s n acc; cbn [xr_bwd]; [apply same_ret|]. destruct n as [x|]; [|apply same_none].
  apply same_bind; [apply xr_full_clone|]. intros t. apply IH.
Qed.

Lemma xr_same_clone : forall s, same_state s (xr_same HClone k s).
Proof.
  intros s. unfold xr_same. cbn [is_clone]. cbv zeta. destruct (_ =? _); [apply same_ret|].
  destruct (m_is_cd (ms_f s) _); [apply same_ret|].
  apply (same_bind s _ (fun s1 fr => Some (s1, fr))); [apply xr_fwd_stop_clone|]. intros fr. apply same_ret.
Qed.
Lemma xr_common_start_clone : forall s a, same_state s (xr_common_start deld HClone k s a).
Proof.
  intros s a. unfold xr_common_start. cbn [is_clone]. apply same_bind; [apply xr_right_boundary_clone|]. intros n. cbv zeta.
  destruct (_ <=? _); [apply same_ret|].
  apply (same_bind s _ (fun s2 fr => Some (s2, fr))); [apply xr_bwd_clone|]. intros fr. apply same_ret.
Qed.
Lemma xr_common_end_clone : forall s a, same_state s (xr_common_end deld HClone k s a).
Proof.
  intros s a. unfold xr_common_end. cbn [is_clone]. apply same_bind; [apply xr_left_boundary_clone|]. intros n. cbv zeta.
  apply (same_bind s _ (fun s2 fr => Some (s2, fr))); [apply xr_fwd_clone|]. intros fr. apply same_ret.
Qed.
Lemma xr_common_anc_clone : forall s a b, same_state s (xr_common_anc deld HClone k s a b).
Proof.
  intros s a b. unfold xr_common_anc. cbn [is_clone]. apply same_bind; [apply xr_left_boundary_clone|]. intros n.
  destruct (m_parent (ms_f s) a) as [cp|]; [|apply same_none]. cbv zeta.
  apply same_bind; [apply xr_fwd_clone|]. intros fr.
  apply (same_bind s _ (fun s3 n2 => Some (s3, fr ++ [n2]))); [apply xr_right_boundary_clone|]. intros n2. apply same_ret.
Qed.

Theorem xr_traverse_clone : forall s, same_state s (xr_traverse deld HClone k s).
Proof.
  intros s. unfold xr_traverse. cbv zeta.
  destruct (_ =? _); [apply xr_same_clone|]. destruct (find _ _) as [c|]; [apply xr_common_start_clone|].
  destruct (find _ _) as [c2|]; [apply xr_common_end_clone|].
  destruct (strip_common _ _) as [[|a ?] [|b ?]]; try apply same_none. apply xr_common_anc_clone.
Qed.
End Clone.
