(** C14 -- DOMNodeIDMap: the probe loops terminate, and with that the table is correct in full.
    The probe sequence of a key is pos j = ((j+1) * h0) mod size with 0 < h0 < size; for a prime size it visits every
    slot within [size] steps (h0 is invertible modulo the size), so a loop that stops at an empty slot ends as soon as the
    table has one.  The sizes of gPrimes (Gen/GenC14IdMap.v) are prime (verified trial division).  The bookkeeping
    invariant (no attribute registered twice, non-empty slots <= fNumEntries <= fMaxEntries < size) is preserved by add --
    growTable included, which never nests -- and by remove, and keeps a slot empty. *)
From Coq Require Import List NArith ZArith Znumtheory Arith Bool Lia.
From XV Require Import Gen.GenC14IdMap C14.Spec14 C14.Hist14 C14.IdMap14 C14.Proofs14e.
Import ListNotations.
Local Open Scope nat_scope.

Lemma step_is_mod : forall size h0 cur, 0 < size -> step size h0 cur = (cur + h0) mod size.
Proof.
  intros size h0 cur Hs. unfold step. destruct (Nat.leb_spec size (cur + h0)); [reflexivity|]. symmetry. apply Nat.mod_small. assumption.
Qed.
Lemma pos_formula : forall size h0 j, 0 < size -> h0 < size -> pos size h0 j = (S j * h0) mod size.
Proof.
  intros size h0 j Hs Hh. induction j as [|j IH].
  - cbn [pos]. rewrite Nat.mul_1_l. symmetry. apply Nat.mod_small. exact Hh.
  - cbn [pos]. rewrite step_is_mod by exact Hs. rewrite IH. rewrite Nat.add_mod_idemp_l by lia.
    f_equal. lia.
Qed.

Local Open Scope Z_scope.
Lemma inv_mod_prime : forall p h, prime p -> 0 < h < p -> exists u, 0 <= u < p /\ (u * h) mod p = 1.
Proof.
  intros p h Hp Hh. assert (Hp1 : 1 < p) by (destruct Hp; assumption).
  assert (Hrel : rel_prime h p).
  { apply rel_prime_sym. apply prime_rel_prime; [exact Hp|]. intros Hd. apply Z.divide_pos_le in Hd; lia. }
  destruct (rel_prime_bezout _ _ Hrel) as [u v Huv].
  exists (u mod p). split; [apply Z.mod_pos_bound; lia|].
  rewrite Z.mul_mod_idemp_l by lia.
  replace (u * h) with (1 + (- v) * p) by lia. rewrite Z_mod_plus_full. apply Z.mod_small. lia.
Qed.
Lemma visits_all_Z : forall p h k, prime p -> 0 < h < p -> 0 <= k < p -> exists t, 1 <= t <= p /\ (t * h) mod p = k.
Proof.
  intros p h k Hp Hh Hk. assert (Hp1 : 1 < p) by (destruct Hp; assumption).
  destruct (inv_mod_prime p h Hp Hh) as [u [Hu Hinv]].
  set (t0 := (u * k) mod p).
  assert (Ht0 : 0 <= t0 < p) by (apply Z.mod_pos_bound; lia).
  assert (E : (t0 * h) mod p = k).
  { unfold t0. rewrite Z.mul_mod_idemp_l by lia. replace (u * k * h) with (k * (u * h)) by ring.
    rewrite <- Z.mul_mod_idemp_r by lia. rewrite Hinv. rewrite Z.mul_1_r. apply Z.mod_small. exact Hk. }
  destruct (Z.eq_dec t0 0) as [E0|E0].
  - exists p. split; [lia|]. rewrite E0, Z.mul_0_l, Z.mod_0_l in E by lia. subst k. rewrite Z.mul_comm. apply Z_mod_mult.
  - exists t0. split; [lia|exact E].
Qed.
Local Close Scope Z_scope.
Local Open Scope nat_scope.

Lemma visits_all : forall size h0 k, prime (Z.of_nat size) -> 0 < h0 -> h0 < size -> k < size ->
  exists j, j < size /\ pos size h0 j = k.
Proof.
  intros size h0 k Hp Hh0 Hh Hk.
  destruct (visits_all_Z (Z.of_nat size) (Z.of_nat h0) (Z.of_nat k) Hp ltac:(lia) ltac:(lia)) as [t [Ht E]].
  exists (Z.to_nat t - 1). split; [lia|]. rewrite pos_formula by lia.
  replace (S (Z.to_nat t - 1)) with (Z.to_nat t) by lia.
  apply Nat2Z.inj. rewrite Nat2Z.inj_mod, Nat2Z.inj_mul. rewrite Z2Nat.id by lia. exact E.
Qed.

Section Loops.
  Variable val : nat -> list N.

  (** the three probe loops have one shape: at an empty slot they stop; elsewhere they stop or go on to the next slot of the
      probe sequence with one unit of fuel less.  Such a loop does not run out of fuel if an empty slot is within reach. *)
  Lemma probe_ends : forall {R} (loop : nat -> nat -> R) (bad : R) t size h0,
    (forall fu cur, slot_at t cur = SEmpty -> loop (S fu) cur <> bad) ->
    (forall fu cur, loop (S fu) cur <> bad \/ loop (S fu) cur = loop fu (step size h0 cur)) ->
    forall fuel i, (exists j, i <= j /\ j < i + fuel /\ slot_at t (pos size h0 j) = SEmpty) -> loop fuel (pos size h0 i) <> bad.
  Proof.
    intros R loop bad t size h0 Hstop Hstep. induction fuel as [|fu IH]; intros i [j [H1 [H2 H3]]]; [lia|].
    destruct (Nat.eq_dec i j) as [->|Hn]; [exact (Hstop fu _ H3)|].
    destruct (Hstep fu (pos size h0 i)) as [H|H]; [exact H|]. rewrite H, <- pos_shift. apply IH.
    exists j. repeat split; [lia|lia|exact H3].
  Qed.
  Lemma probe_val_ends : forall t size h0 v fuel i,
    (exists j, i <= j /\ j < i + fuel /\ slot_at t (pos size h0 j) = SEmpty) ->
    probe_val val t size h0 v fuel (pos size h0 i) <> Hang.
  Proof.
    intros t size h0 v. apply (probe_ends (probe_val val t size h0 v) Hang); intros fu cur; cbn [probe_val].
    - intros E. rewrite E. discriminate.
    - destruct (slot_at t cur) as [| |e']; [left; discriminate|right; reflexivity|].
      destruct (list_eqb (val e') v); [left; discriminate|right; reflexivity].
  Qed.
  Lemma probe_attr_ends : forall t size h0 e fuel i,
    (exists j, i <= j /\ j < i + fuel /\ slot_at t (pos size h0 j) = SEmpty) ->
    probe_attr t size h0 e fuel (pos size h0 i) <> Hang.
  Proof.
    intros t size h0 e. apply (probe_ends (probe_attr t size h0 e) Hang); intros fu cur; cbn [probe_attr].
    - intros E. rewrite E. discriminate.
    - destruct (slot_at t cur) as [| |e']; [left; discriminate|right; reflexivity|].
      destruct (e' =? e); [left; discriminate|right; reflexivity].
  Qed.
  Lemma probe_free_ends : forall t size h0 fuel i,
    (exists j, i <= j /\ j < i + fuel /\ slot_at t (pos size h0 j) = SEmpty) ->
    probe_free t size h0 fuel (pos size h0 i) <> None.
  Proof.
    intros t size h0. apply (probe_ends (probe_free t size h0) None); intros fu cur; cbn [probe_free].
    - intros E. rewrite E. discriminate.
    - destruct (slot_at t cur) as [| |e']; [left; discriminate|left; discriminate|right; reflexivity].
  Qed.

  Definition has_empty (m : idmap) : Prop := exists k, k < im_size m /\ slot_at (im_tab m) k = SEmpty.

  Lemma reach_empty : forall m v, 2 <= im_size m -> prime (Z.of_nat (im_size m)) -> has_empty m ->
    exists j, 0 <= j /\ j < 0 + im_size m /\ slot_at (im_tab m) (pos (im_size m) (h0_of (im_size m) v) j) = SEmpty.
  Proof.
    intros m v Hs Hp [k [Hk He]].
    destruct (visits_all (im_size m) (h0_of (im_size m) v) k Hp) as [j [Hj Hpj]];
      [unfold h0_of; lia|apply h0_lt; exact Hs|exact Hk|].
    exists j. split; [lia|]. split; [lia|]. rewrite Hpj. exact He.
  Qed.

  (** T14_idmap, termination: in a table of prime size with at least one empty slot neither find nor remove nor the slot
      search of add can loop forever *)
  Theorem find_terminates : forall m v, 2 <= im_size m -> prime (Z.of_nat (im_size m)) -> has_empty m ->
    im_find val m v <> Hang.
  Proof. intros m v Hs Hp He. unfold im_find. apply (probe_val_ends _ _ _ _ _ 0). exact (reach_empty m v Hs Hp He). Qed.
  Theorem remove_terminates : forall m e, 2 <= im_size m -> prime (Z.of_nat (im_size m)) -> has_empty m ->
    im_remove val m e <> Hang.
  Proof.
    intros m e Hs Hp He. unfold im_remove.
    pose proof (probe_attr_ends (im_tab m) (im_size m) (h0_of (im_size m) (val e)) e (im_size m) 0 (reach_empty m (val e) Hs Hp He)) as H.
    cbn [pos] in H. destruct (probe_attr _ _ _ e _ _) as [[k|]| |]; try discriminate. exfalso. apply H. reflexivity.
  Qed.
  Theorem put_terminates : forall m e, 2 <= im_size m -> prime (Z.of_nat (im_size m)) -> has_empty m ->
    im_put val m e <> Hang.
  Proof.
    intros m e Hs Hp He. unfold im_put.
    pose proof (probe_free_ends (im_tab m) (im_size m) (h0_of (im_size m) (val e)) (im_size m) 0 (reach_empty m (val e) Hs Hp He)) as H.
    cbn [pos] in H. destruct (probe_free _ _ _ _ _); [discriminate|]. exfalso. apply H. reflexivity.
  Qed.
End Loops.

Local Open Scope Z_scope.
Lemma prime_no_small_divisor : forall n, 1 < n -> (forall e, 1 < e -> e * e <= n -> ~ (e | n)) -> prime n.
Proof.
  intros n Hn H. apply prime_alt. split; [exact Hn|]. intros d Hd [q Hq].
  assert (Hq1 : 1 < q) by nia.
  destruct (Z_le_gt_dec d q).
  - apply (H d); [lia|nia|exists q; exact Hq].
  - apply (H q); [lia|nia|exists d; lia].
Qed.

(** [no_div k n r w d]: none of the 2^k numbers d, d+w, d+2w, ... that are at most r divides n.  The range is halved down
    to single divisors, so that the depth k and not the number of divisors is counted in [nat]; a half that starts above
    r is not entered. *)
Fixpoint no_div (k : nat) (n r w d : Z) : bool :=
  if r <? d then true else
  match k with
  | O => negb (Z.rem n d =? 0)
  | S k' => no_div k' n r w d && no_div k' n r w (d + w * 2 ^ Z.of_nat k')
  end.
Lemma no_div_spec : forall k n r w d i, 0 < w -> 0 < d -> no_div k n r w d = true -> 0 <= i < 2 ^ Z.of_nat k ->
  d + w * i <= r -> ~ (d + w * i | n).
Proof.
  induction k as [|k IH]; intros n r w d i Hw Hd H Hi Hr; cbn [no_div] in H; (destruct (Z.ltb_spec r d) as [Hlt|_]; [nia|]).
  - replace (d + w * i) with d by (cbn in Hi; nia).
    apply negb_true_iff, Z.eqb_neq in H. intros Hdiv. apply H, Z.rem_divide; [lia|exact Hdiv].
  - apply andb_prop in H. destruct H as [Hlo Hhi]. rewrite Nat2Z.inj_succ, Z.pow_succ_r in Hi by lia.
    destruct (Z_lt_le_dec i (2 ^ Z.of_nat k)) as [Hlt|Hge].
    + apply (IH n r w d i Hw Hd Hlo); [lia|exact Hr].
    + replace (d + w * i) with (d + w * 2 ^ Z.of_nat k + w * (i - 2 ^ Z.of_nat k)) in * by lia.
      apply (IH n r w (d + w * 2 ^ Z.of_nat k) (i - 2 ^ Z.of_nat k)); [exact Hw|nia|exact Hhi|lia|exact Hr].
Qed.

(** A divisor of a number coprime to w is coprime to w, so it is j + w*i for a j coprime to w among 2..w+1: only those
    are tried (for w = 30, 8 of every 30 numbers). *)
Definition residues (w : Z) : list Z := filter (fun j => Z.gcd j w =? 1) (map Z.of_nat (seq 2 (Z.to_nat w))).
Lemma residues_cover : forall w e, 0 < w -> 1 < e -> Z.gcd e w = 1 -> exists i j, 0 <= i /\ In j (residues w) /\ e = j + w * i.
Proof.
  intros w e Hw He Hg. exists ((e - 2) / w), ((e - 2) mod w + 2).
  pose proof (Z.div_mod (e - 2) w ltac:(lia)) as Hdm. pose proof (Z.mod_pos_bound (e - 2) w Hw) as Hb.
  split; [apply Z.div_pos; lia|]. split; [|lia]. apply filter_In. split.
  - apply in_map_iff. exists (Z.to_nat ((e - 2) mod w + 2)). split; [lia|]. apply in_seq. lia.
  - apply Z.eqb_eq. replace ((e - 2) mod w + 2) with (e + - ((e - 2) / w) * w) by lia.
    rewrite Z.gcd_comm, Z.gcd_add_mult_diag_r, Z.gcd_comm. exact Hg.
Qed.

Definition wheel : Z := 30.
Definition prime_b (n : Z) : bool :=
  (1 <? n) && (Z.gcd n wheel =? 1) && forallb (no_div (Z.to_nat (Z.log2 n)) n (Z.sqrt n) wheel) (residues wheel).
Lemma prime_b_sound : forall n, prime_b n = true -> prime n.
Proof.
  intros n H. unfold prime_b in H. apply andb_prop in H. destruct H as [H Hfree]. apply andb_prop in H. destruct H as [Hn Hg].
  apply Z.ltb_lt in Hn. apply Z.eqb_eq in Hg. apply prime_no_small_divisor; [exact Hn|]. intros e He Hsq Hdiv.
  assert (Hge : Z.gcd e wheel = 1).
  { apply Z.divide_1_r_nonneg; [apply Z.gcd_nonneg|]. rewrite <- Hg. apply Z.gcd_greatest; [|apply Z.gcd_divide_r].
    apply Z.divide_trans with e; [apply Z.gcd_divide_l|exact Hdiv]. }
  destruct (residues_cover wheel e eq_refl He Hge) as [i [j [Hi [Hj ->]]]].
  rewrite forallb_forall in Hfree. specialize (Hfree j Hj).
  assert (Hj2 : 2 <= j). { apply filter_In, proj1, in_map_iff in Hj. destruct Hj as [x [<- Hx]]. apply in_seq in Hx. lia. }
  apply Z.sqrt_le_square in Hsq; [|lia|lia].
  apply (no_div_spec _ n _ wheel j i eq_refl ltac:(lia) Hfree); [|exact Hsq|exact Hdiv].
  (* the index i of the candidate j + 30 i <= sqrt n lies in the swept range: i <= n < 2 * 2^(log2 n) *)
  rewrite Z2Nat.id by (apply Z.log2_nonneg). pose proof (Z.log2_spec n ltac:(lia)) as Hlog.
  rewrite Z.pow_succ_r in Hlog by (apply Z.log2_nonneg). pose proof (Z.sqrt_le_lin n ltac:(lia)). unfold wheel in Hsq. lia.
Qed.
Local Close Scope Z_scope.
Local Open Scope nat_scope.

Lemma gen_sizes_prime : forall k s mx, size_at k = Some (s, mx) -> prime (Z.of_nat s).
Proof.
  intros k s mx H.
  assert (Hall : forallb (fun p => prime_b (Z.of_N (fst p))) idmap_sizes = true) by (vm_compute; reflexivity).
  destruct (table_all _ Hall k s mx H) as [p [Hp [-> _]]]. rewrite N_nat_Z. apply prime_b_sound. exact Hp.
Qed.
Definition attr_of (s : slot) : list nat := match s with SAttr e => [e] | _ => [] end.
Definition attrs_of (t : list slot) : list nat := flat_map attr_of t.
Definition is_nonempty (s : slot) : bool := match s with SEmpty => false | _ => true end.
Definition count_ne (t : list slot) : nat := length (filter is_nonempty t).

Lemma attrs_in : forall t e, In e (attrs_of t) <-> exists k, slot_at t k = SAttr e.
Proof.
  intros t e. unfold attrs_of. rewrite in_flat_map. split.
  - intros [s [Hs He]]. destruct s; cbn in He; try destruct He as [<-|[]]; try destruct He.
    apply In_nth with (d := SEmpty) in Hs. destruct Hs as [k [_ Hk]]. exists k. exact Hk.
  - intros [k Hk]. exists (SAttr e). split; [exact (proj2 (slot_in_range _ _ _ Hk))|left; reflexivity].
Qed.

Lemma put_attrs : forall t k e, k < length t -> (forall e', slot_at t k <> SAttr e') ->
  (forall x, In x (attrs_of (upd k (SAttr e) t)) <-> x = e \/ In x (attrs_of t)) /\
  (NoDup (attrs_of t) -> ~ In e (attrs_of t) -> NoDup (attrs_of (upd k (SAttr e) t))) /\
  count_ne (upd k (SAttr e) t) <= S (count_ne t).
Proof.
  unfold slot_at. induction t as [|s r IH]; intros k e Hk Hfree; [cbn in Hk; lia|].
  destruct k as [|k].
  - cbn [upd nth] in *. unfold attrs_of, count_ne. cbn [flat_map filter attr_of is_nonempty app length].
    assert (Es : attr_of s = []) by (destruct s as [| |e0]; [reflexivity|reflexivity|exfalso; exact (Hfree e0 eq_refl)]).
    rewrite Es. cbn [app]. split; [|split].
    + intros x. cbn. split; intros [H|H]; auto.
    + intros Hnd Hn. constructor; assumption.
    + destruct (is_nonempty s); cbn; lia.
  - cbn [upd nth length] in *. destruct (IH k e ltac:(lia) Hfree) as [A [B C]].
    unfold attrs_of, count_ne in *. cbn [flat_map filter]. split; [|split].
    + intros x. rewrite !in_app_iff. rewrite A. tauto.
    + intros Hnd Hn. destruct s as [| |e0]; cbn [attr_of app] in *; try (apply B; assumption).
      inversion Hnd as [|? ? Hn0 Hnd']; subst. constructor.
      * rewrite A. intros [E|Hin]; [apply Hn; left; exact E|exact (Hn0 Hin)].
      * apply B; [exact Hnd'|]. intros Hin. apply Hn. right. exact Hin.
    + destruct (is_nonempty s); cbn [length]; lia.
Qed.

Lemma del_attrs : forall t k e, slot_at t k = SAttr e ->
  (forall x, In x (attrs_of (upd k SDel t)) -> In x (attrs_of t)) /\
  (NoDup (attrs_of t) -> NoDup (attrs_of (upd k SDel t)) /\ ~ In e (attrs_of (upd k SDel t))) /\
  count_ne (upd k SDel t) = count_ne t.
Proof.
  unfold slot_at. induction t as [|s r IH]; intros k e Hk; [destruct k; discriminate|].
  destruct k as [|k].
  - cbn [upd nth] in *. subst s. unfold attrs_of, count_ne. cbn [flat_map filter attr_of is_nonempty app length].
    split; [|split; [|reflexivity]].
    + intros x H. right. exact H.
    + intros Hnd. inversion Hnd; subst. split; assumption.
  - cbn [upd nth] in *. destruct (IH k e Hk) as [A [B C]].
    unfold attrs_of, count_ne in *. cbn [flat_map filter]. split; [|split].
    + intros x. rewrite !in_app_iff. intros [H|H]; [left; exact H|right; exact (A x H)].
    + intros Hnd. destruct s as [| |e0]; cbn [attr_of app] in *; try (apply B; assumption).
      inversion Hnd as [|? ? Hn0 Hnd']; subst. destruct (B Hnd') as [B1 B2]. split.
      * constructor; [intros Hin; apply Hn0; exact (A e0 Hin)|exact B1].
      * intros [E|Hin]; [|exact (B2 Hin)]. subst e0. apply Hn0.
        apply attrs_in. exists k. exact Hk.
    + destruct (is_nonempty s); cbn [length]; lia.
Qed.

Lemma count_lt_has_empty : forall t, count_ne t < length t -> exists k, k < length t /\ slot_at t k = SEmpty.
Proof.
  unfold count_ne, slot_at. induction t as [|s r IH]; intros H; [cbn in H; lia|].
  cbn [filter length] in H. destruct s as [| |e].
  - exists 0. split; [cbn; lia|reflexivity].
  - cbn in H. destruct (IH ltac:(lia)) as [k [H1 H2]]. exists (S k). split; [cbn; lia|exact H2].
  - cbn in H. destruct (IH ltac:(lia)) as [k [H1 H2]]. exists (S k). split; [cbn; lia|exact H2].
Qed.

Definition book (m : idmap) : Prop :=
  NoDup (attrs_of (im_tab m)) /\ count_ne (im_tab m) <= im_num m /\ im_num m <= im_max m /\
  length (im_tab m) = im_size m /\ size_at (im_idx m) = Some (im_size m, im_max m).

Lemma gen_fill : forall k s mx, size_at k = Some (s, mx) -> mx + 1 < s.
Proof.
  intros k s mx H. destruct (table_all (fun p => snd p + 1 <? fst p)%N eq_refl k s mx H) as [p [Hp [-> ->]]].
  apply N.ltb_lt in Hp. lia.
Qed.
Lemma gen_growth : forall k s mx s' mx', size_at k = Some (s, mx) -> size_at (S k) = Some (s', mx') -> 2 * mx < mx'.
Proof.
  intros k s mx s' mx' H H'. unfold size_at in *.
  destruct (nth_error idmap_sizes k) as [[sN mN]|] eqn:E; [|discriminate].
  destruct (nth_error idmap_sizes (S k)) as [[sN' mN']|] eqn:E'; [|discriminate].
  injection H as <- <-. injection H' as <- <-.
  pose proof (adjacent_all (fun a b => 2 * snd a <? snd b)%N idmap_sizes eq_refl k _ _ E E') as Hp.
  apply N.ltb_lt in Hp. cbn [fst snd] in Hp. lia.
Qed.

Lemma book_nodup : forall m, book m -> NoDup (attrs_of (im_tab m)).
Proof. intros m H. exact (proj1 H). Qed.
Lemma book_size_at : forall m, book m -> size_at (im_idx m) = Some (im_size m, im_max m).
Proof. intros m [_ [_ [_ [_ H]]]]. exact H. Qed.

Section Book.
  Variable val : nat -> list N.

  Lemma put_book : forall m e m' n, NoDup (attrs_of (im_tab m)) -> wf val m -> ~ In e (attrs_of (im_tab m)) ->
    im_put val (with_num m n) e = Done m' ->
    NoDup (attrs_of (im_tab m')) /\ (forall x, In x (attrs_of (im_tab m')) <-> x = e \/ In x (attrs_of (im_tab m))) /\
    count_ne (im_tab m') <= S (count_ne (im_tab m)) /\ im_num m' = n /\ im_max m' = im_max m /\ im_size m' = im_size m /\
    im_idx m' = im_idx m /\ length (im_tab m') = im_size m.
  Proof.
    intros m e m' n Hnd [Hl [Hs Hr]] Hne H.
    unfold im_put in H. cbn [with_num im_tab im_size im_num im_max im_idx] in H.
    set (h0 := h0_of (im_size m) (val e)) in *.
    destruct (probe_free (im_tab m) (im_size m) h0 (im_size m) h0) as [k|] eqn:E; [|discriminate].
    injection H as <-. cbn [im_tab im_size im_num im_max im_idx].
    change h0 with (pos (im_size m) h0 0) in E at 2.
    destruct (probe_free_spec _ _ _ _ _ _ E) as [j [_ [Hj [Hp [_ Hfree]]]]].
    assert (Hk : k < length (im_tab m)).
    { rewrite Hl, <- Hp. apply pos_lt; [lia|apply h0_lt; exact Hs]. }
    destruct (put_attrs (im_tab m) k e Hk Hfree) as [A [B C]].
    split; [exact (B Hnd Hne)|]. split; [exact A|]. split; [exact C|].
    repeat split; try reflexivity. rewrite upd_length. exact Hl.
  Qed.

Lemma attrs_repeat : forall n, attrs_of (repeat SEmpty n) = [] /\ count_ne (repeat SEmpty n) = 0.
Proof. induction n as [|n [IH1 IH2]]; [split; reflexivity|]. split; [exact IH1|exact IH2]. Qed.
Lemma attrs_le_count : forall t, length (attrs_of t) <= count_ne t.
Proof.
  unfold attrs_of, count_ne. induction t as [|s r IH]; [cbn; lia|]. cbn [flat_map filter]. rewrite app_length.
  destruct s; cbn [attr_of is_nonempty length]; lia.
Qed.
Lemma book_has_empty : forall m, book m -> has_empty m.
Proof.
  intros m [Hnd [Hc [Hn [Hl Hsz]]]]. pose proof (gen_fill _ _ _ Hsz) as Hf.
  destruct (count_lt_has_empty (im_tab m) ltac:(lia)) as [k [H1 H2]]. exists k. split; [lia|exact H2].
Qed.


  Lemma put_done : forall m n e, book m -> wf val m -> exists m', im_put val (with_num m n) e = Done m'.
  Proof.
    intros m n e Hb Hw.
    pose proof (put_terminates val (with_num m n) e (wf_size val m Hw) (gen_sizes_prime _ _ _ (book_size_at m Hb))) as Ht.
    assert (He : has_empty (with_num m n)) by (destruct (book_has_empty m Hb) as [k Hk]; exists k; exact Hk).
    specialize (Ht He). unfold im_put in *. destruct (probe_free _ _ _ _ _); [eexists; reflexivity|]. exfalso. apply Ht. reflexivity.
  Qed.

  (** one more entry, below the fill limit: the store of add keeps both invariants *)
  Lemma put_step : forall m e, book m -> wf val m -> ~ In e (attrs_of (im_tab m)) -> im_num m < im_max m ->
    exists m', im_put val (with_num m (S (im_num m))) e = Done m' /\ book m' /\ wf val m' /\
      (forall x, In x (attrs_of (im_tab m')) <-> x = e \/ In x (attrs_of (im_tab m))) /\
      im_num m' = S (im_num m) /\ im_max m' = im_max m /\ im_size m' = im_size m /\ im_idx m' = im_idx m.
  Proof.
    intros m e Hb Hw Hne Hlt. pose proof Hb as [Hb1 [Hb2 [Hb3 [Hb4 Hb5]]]].
    destruct (put_done m (S (im_num m)) e Hb Hw) as [m' Hput]. exists m'. split; [exact Hput|].
    destruct (put_book m e m' (S (im_num m)) Hb1 Hw Hne Hput) as [P1 [P2 [P3 [P4 [P5 [P6 [P7 P8]]]]]]].
    destruct (put_wf val (with_num m (S (im_num m))) e m' (with_num_wf val m _ Hw) Hput) as [W1 _].
    split; [|split; [exact W1|split; [exact P2|repeat split; assumption]]].
    split; [exact P1|]. split; [lia|]. split; [lia|]. split; [rewrite P8, P6; reflexivity|]. rewrite P7, P6, P5. exact Hb5.
  Qed.

  Lemma regrow : forall fu s' mx' idx' l acc,
    size_at idx' = Some (s', mx') ->
    im_size acc = s' -> im_max acc = mx' -> im_idx acc = idx' -> book acc -> wf val acc ->
    NoDup (attrs_of l) -> (forall x, In x (attrs_of l) -> ~ In x (attrs_of (im_tab acc))) ->
    im_num acc + length (attrs_of l) < mx' ->
    exists mr, fold_left (restep val (S fu)) l (Done acc) = Done mr /\
      book mr /\ wf val mr /\ im_size mr = s' /\ im_max mr = mx' /\ im_idx mr = idx' /\
      im_num mr = im_num acc + length (attrs_of l) /\
      (forall x, In x (attrs_of (im_tab mr)) <-> In x (attrs_of (im_tab acc)) \/ In x (attrs_of l)).
  Proof.
    intros fu s' mx' idx' l. induction l as [|sl l IH]; intros acc Hsz Es Em Ei Hb Hw Hnd Hdisj Hnum.
    - exists acc. split; [reflexivity|]. split; [exact Hb|]. split; [exact Hw|]. split; [exact Es|]. split; [exact Em|]. split; [exact Ei|].
      split; [cbn; lia|]. intros x. cbn. tauto.
    - unfold attrs_of in Hnd, Hdisj, Hnum. cbn [flat_map] in Hnd, Hdisj, Hnum. fold (attrs_of l) in *.
      destruct sl as [| |e'].
      1-2: cbn [attr_of app] in *; cbn [fold_left restep]; exact (IH acc Hsz Es Em Ei Hb Hw Hnd Hdisj Hnum).
      cbn [attr_of app length] in *. inversion Hnd as [|? ? Hne' Hnd']; subst.
        cbn [fold_left restep im_add].
        assert (Hlt : (im_max acc <=? im_num acc) = false) by (apply Nat.leb_gt; lia). rewrite Hlt.
        destruct (put_step acc e' Hb Hw (Hdisj e' (or_introl eq_refl)) ltac:(lia)) as [acc1 [Hput [Hb' [W1 [P2 [P4 [P5 [P6 P7]]]]]]]].
        rewrite Hput.
        destruct (IH acc1 Hsz ltac:(lia) ltac:(lia) ltac:(congruence) Hb' W1 Hnd') as [mr [F1 [F2 [F3 [F4 [F5 [F6 [F7 F8]]]]]]]].
        * intros x Hx Hin. apply P2 in Hin. destruct Hin as [->|Hin]; [exact (Hne' Hx)|]. exact (Hdisj x (or_intror Hx) Hin).
        * lia.
        * assert (Ea : attrs_of (SAttr e' :: l) = e' :: attrs_of l) by reflexivity. rewrite Ea.
          exists mr. split; [exact F1|]. split; [exact F2|]. split; [exact F3|]. split; [exact F4|]. split; [exact F5|]. split; [exact F6|].
          split; [cbn [length]; lia|]. intros x. rewrite F8, P2. cbn [In]. split; [intros [[->|H]|H]; auto|intros [H|[->|H]]; auto].
  Qed.

  (** add: with or without growTable the invariants survive, the attribute is registered exactly once more, and the
      only way not to finish is the documented NodeIDMap_GrowErr when gPrimes is exhausted *)
  Theorem add_book : forall fu m e, book m -> wf val m -> ~ In e (attrs_of (im_tab m)) ->
    im_add val (S (S fu)) m e = GrowErr \/
    exists m', im_add val (S (S fu)) m e = Done m' /\ book m' /\ wf val m' /\
               (forall x, In x (attrs_of (im_tab m')) <-> x = e \/ In x (attrs_of (im_tab m))).
  Proof.
    intros fu m e Hb Hw Hne. pose proof Hb as [Hb1 [Hb2 [Hb3 [Hb4 Hb5]]]]. cbn [im_add].
    destruct (Nat.leb_spec (im_max m) (im_num m)) as [Hge|Hlt].
    - destruct (size_at (S (im_idx m))) as [[s' mx']|] eqn:Es; [|left; reflexivity]. right.
      pose proof (sizes_ge2 _ _ _ Es) as Hs2. pose proof (gen_growth _ _ _ _ _ Hb5 Es) as Hg.
      set (m0 := {| im_tab := repeat SEmpty s'; im_size := s'; im_idx := S (im_idx m); im_num := im_num m; im_max := mx' |}).
      destruct (empty_wf val s' (S (im_idx m)) (im_num m) mx' Hs2) as [Hw0 _]. fold m0 in Hw0.
      destruct (attrs_repeat s') as [Ea Ec].
      assert (Hb0 : book m0).
      { unfold m0. split; [cbn [im_tab]; rewrite Ea; constructor|]. split; [cbn [im_tab im_num]; rewrite Ec; lia|].
        split; [cbn [im_num im_max]; lia|]. split; [cbn [im_tab im_size]; apply repeat_length|exact Es]. }
      pose proof (attrs_le_count (im_tab m)) as Hal.
      destruct (regrow fu s' mx' (S (im_idx m)) (im_tab m) m0 Es eq_refl eq_refl eq_refl Hb0 Hw0 Hb1) as [m1 [F1 [F2 [F3 [F4 [F5 [F6 [F7 F8]]]]]]]].
      + intros x _ Hin. unfold m0 in Hin. cbn [im_tab] in Hin. rewrite Ea in Hin. destruct Hin.
      + (* re-insertion stays below the new fill limit: entries <= non-empty slots <= fNumEntries <= old limit, and the
           generated limits more than double (Hg) *)
        unfold m0. cbn [im_num]. lia.
      + change (fold_left _ (im_tab m) (Done m0)) with (fold_left (restep val (S fu)) (im_tab m) (Done m0)). rewrite F1.
        assert (Hne1 : ~ In e (attrs_of (im_tab m1))).
        { intros Hin. apply F8 in Hin. destruct Hin as [Hin|Hin]; [unfold m0 in Hin; cbn [im_tab] in Hin; rewrite Ea in Hin; destruct Hin|exact (Hne Hin)]. }
        destruct (put_step m1 e F2 F3 Hne1 ltac:(unfold m0 in F7; cbn [im_num] in F7; lia)) as [m' [Hput [Hb' [W1 [P2 _]]]]].
        exists m'. split; [exact Hput|]. split; [exact Hb'|]. split; [exact W1|].
        intros x. rewrite P2, F8. unfold m0. cbn [im_tab]. rewrite Ea. cbn [In]. tauto.
    - right. destruct (put_step m e Hb Hw Hne Hlt) as [m' [Hput [Hb' [W1 [P2 _]]]]].
      exists m'. split; [exact Hput|]. split; [exact Hb'|]. split; [exact W1|exact P2].
  Qed.

  Theorem remove_book : forall m e, book m -> wf val m ->
    exists m', im_remove val m e = Done m' /\ book m' /\ wf val m' /\
               (forall x, In x (attrs_of (im_tab m')) -> In x (attrs_of (im_tab m))) /\
               (In e (attrs_of (im_tab m)) -> ~ In e (attrs_of (im_tab m'))).
  Proof.
    intros m e Hb Hw. pose proof Hb as [Hb1 [Hb2 [Hb3 [Hb4 Hb5]]]]. pose proof Hw as [Hl [Hs Hr]].
    pose proof (remove_terminates val m e Hs (gen_sizes_prime _ _ _ Hb5) (book_has_empty m Hb)) as Ht.
    destruct (im_remove val m e) as [m'| |] eqn:Er; [|exfalso; apply Ht; reflexivity|].
    - exists m'. split; [reflexivity|]. destruct (remove_wf val m e m' Hw Er) as [W _]. unfold im_remove in Er.
      destruct (probe_attr _ _ _ e _ _) as [[k|]| |] eqn:Ep; try discriminate; injection Er as <-.
      + pose proof (probe_attr_spec _ _ _ _ _ _ _ Ep) as Hk. destruct (del_attrs (im_tab m) k e Hk) as [A [B C]].
        destruct (B Hb1) as [B1 B2]. cbn [im_tab].
        split; [|split; [exact W|split; [exact A|intros _; exact B2]]].
        split; [exact B1|]. split; [cbn [im_tab im_num]; lia|]. split; [exact Hb3|]. split; [cbn [im_tab im_size]; rewrite upd_length; exact Hb4|exact Hb5].
      + split; [exact Hb|]. split; [exact W|]. split; [intros x H; exact H|].
        (* not found although registered: impossible, the entry is reachable *)
        intros Hin. exfalso. apply attrs_in in Hin. destruct Hin as [k0 Hk0]. destruct (Hr k0 e Hk0) as [j [Hj [Hp Hne]]].
        destruct (probe_attr_reach (im_tab m) (im_size m) (h0_of (im_size m) (val e)) e j 0 (im_size m)) as [k Ek];
          [rewrite Hp; exact Hk0|exact Hne|lia|lia|]. cbn [pos] in Ek. rewrite Ek in Ep. discriminate.
    - exfalso. unfold im_remove in Er. destruct (probe_attr _ _ _ e _ _) as [[k|]| |] eqn:Ep; try discriminate.
      exact (probe_attr_no_growerr _ _ _ _ _ _ Ep).
  Qed.

  Theorem find_no_hang : forall m v, book m -> wf val m -> im_find val m v <> Hang.
  Proof.
    intros m v Hb Hw.
    exact (find_terminates val m v (wf_size val m Hw) (gen_sizes_prime _ _ _ (book_size_at m Hb)) (book_has_empty m Hb)).
  Qed.
End Book.
Fixpoint valid_use (s : list nat) (l : list top) : Prop :=
  match l with
  | [] => True
  | TAdd e :: r => ~ In e s /\ valid_use (e :: s) r            (* an attribute is registered only when it is not *)
  | TRemove e :: r => valid_use (filter (fun x => negb (x =? e)) s) r
  end.

Lemma im_new_book : book im_new.
Proof.
  destruct im_new_shape as [k [s [mx [E ->]]]]. destruct (attrs_repeat s) as [Ea Ec]. split; [cbn [im_tab]; rewrite Ea; constructor|].
  split; [cbn [im_tab im_num]; rewrite Ec; lia|]. split; [cbn; lia|]. split; [cbn [im_tab im_size]; apply repeat_length|exact E].
Qed.

Theorem seq_full : forall val fu l m s, book m -> wf val m -> (forall x, In x (attrs_of (im_tab m)) <-> In x s) ->
  valid_use s l ->
  t_run val (S (S fu)) m l = GrowErr \/
  exists m', t_run val (S (S fu)) m l = Done m' /\ book m' /\ wf val m' /\
             (forall x, In x (attrs_of (im_tab m')) <-> In x (spec_set s l)).
Proof.
  intros val fu. induction l as [|[e|e] r IH]; intros m s Hb Hw Hs Hv.
  - right. exists m. split; [reflexivity|]. split; [exact Hb|]. split; [exact Hw|exact Hs].
  - destruct Hv as [Hne Hv]. cbn [t_run spec_set].
    destruct (add_book val fu m e Hb Hw ltac:(rewrite Hs; exact Hne)) as [Hg|[m1 [Ha [Hb1 [Hw1 Hs1]]]]]; [rewrite Hg; left; reflexivity|].
    rewrite Ha. apply (IH m1 (e :: s) Hb1 Hw1); [|exact Hv]. intros x. rewrite Hs1, Hs. cbn [In]. split; intros [H|H]; auto.
  - cbn [t_run spec_set valid_use] in *.
    destruct (remove_book val m e Hb Hw) as [m1 [Hr [Hb1 [Hw1 [Hsub Hgone]]]]]. rewrite Hr.
    apply (IH m1 _ Hb1 Hw1); [|exact Hv]. intros x. rewrite filter_In. split.
    + intros Hx. split; [apply Hs; exact (Hsub x Hx)|]. apply negb_true_iff. apply Nat.eqb_neq. intros ->.
      exact (Hgone (Hsub e Hx) Hx).
    + intros [Hx Hne]. apply negb_true_iff in Hne. apply Nat.eqb_neq in Hne.
      destruct (remove_wf val m e m1 Hw Hr) as [_ [K _]]. apply attrs_in. apply K; [exact Hne|]. apply attrs_in. apply Hs. exact Hx.
Qed.

(** on a table with both invariants find is the specification's lookup in the set A of registered attributes *)
Theorem find_is_lookup : forall val m A, book m -> wf val m -> (forall x, In x (attrs_of (im_tab m)) <-> In x A) ->
  (forall e, In e A -> (forall e', In e' A -> val e' = val e -> e' = e) -> im_find val m (val e) = Done (Some e)) /\
  (forall v, (forall e, In e A -> val e <> v) -> im_find val m v = Done None).
Proof.
  intros val m A Hb Hw Hs. split.
  - intros e He Hd. apply find_complete; [exact Hw|apply attrs_in; apply Hs; exact He|].
    intros e' k' Hk'. apply Hd. apply Hs. apply attrs_in. exists k'. exact Hk'.
  - intros v Hv. destruct (find_absent val m v) as [H|H]; [|exact H|exfalso; exact (find_no_hang val m v Hb Hw H)].
    intros e He. apply Hv. apply Hs. apply attrs_in. exact He.
Qed.

Theorem run_from_new : forall val fu l, valid_use [] l ->
  t_run val (S (S fu)) im_new l = GrowErr \/
  exists m', t_run val (S (S fu)) im_new l = Done m' /\ book m' /\ wf val m' /\
             (forall x, In x (attrs_of (im_tab m')) <-> In x (spec_set [] l)).
Proof.
  intros val fu l Hv. destruct (im_new_wf val) as [W0 P0]. apply (seq_full val fu l im_new [] im_new_book W0); [|exact Hv].
  intros x. split; [intros Hin; apply attrs_in in Hin; exfalso; exact (P0 x Hin)|intros []].
Qed.
