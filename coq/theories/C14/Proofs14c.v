(** C14 -- NodeIterator: the stepping loops of DOMNodeIteratorImpl::nextNode / previousNode return the neighbours
    of the abstract position (reference node, before/after) in the current filtered document order, and move the
    position as DOM Traversal 1.1.1 says.  The pointer walks nextNode(node,true) / previousNode(node) enter as
    hypotheses "one step in the unfiltered document order of the root's subtree" (proved for well-formed forests in
    Nav14.v; decided for a given state by the boolean certificates of Cert14.v, which the last part spells out as these
    hypotheses). *)
From Coq Require Import List NArith Arith Bool Lia.
From XV Require Import C14.Spec14 C14.Hist14 C14.Model14 C14.Cert14 C14.Tree14.
Import ListNotations.

Lemma find_map_ids : forall (p : tree -> bool) (q : nat -> bool) (l : list tree),
  (forall s, In s l -> p s = q (tid s)) ->
  option_map tid (find p l) = find q (ids l).
Proof.
  intros p q l. induction l as [|s r IH]; intros H; [reflexivity|]. cbn.
  rewrite (H s (or_introl eq_refl)). destruct (q (tid s)); [reflexivity|]. apply IH. intros s' Hs. apply H. right. exact Hs.
Qed.
Lemma last_such_map_ids : forall (p : tree -> bool) (q : nat -> bool) (l : list tree),
  (forall s, In s l -> p s = q (tid s)) ->
  option_map tid (last_such p l) = last_such q (ids l).
Proof.
  intros p q l. induction l as [|s r IH]; intros H; [reflexivity|].
  assert (IH' : option_map tid (last_such p r) = last_such q (ids r)) by (apply IH; intros s' Hs; apply H; right; exact Hs).
  change (ids (s :: r)) with (tid s :: ids r). cbn [last_such]. rewrite <- IH'.
  destruct (last_such p r); [reflexivity|]. cbn. rewrite (H s (or_introl eq_refl)). destruct (q (tid s)); reflexivity.
Qed.
Lemma skipn_ids : forall k (l : list tree), ids (skipn k l) = skipn k (ids l).
Proof. intros k l. unfold ids. symmetry. apply skipn_map. Qed.
Lemma firstn_ids : forall k (l : list tree), ids (firstn k l) = firstn k (ids l).
Proof. intros k l. unfold ids. symmetry. apply firstn_map. Qed.

Lemma firstn_S_nth : forall {A} k (l : list A) c, nth_error l k = Some c -> firstn (S k) l = firstn k l ++ [c].
Proof.
  intros A k. induction k as [|k IH]; intros l c H; destruct l as [|x r]; try discriminate.
  - cbn in H. injection H as ->. reflexivity.
  - cbn in H. change (firstn (S (S k)) (x :: r)) with (x :: firstn (S k) r). rewrite (IH r c H). reflexivity.
Qed.
Lemma last_such_app1 : forall {A} (q : A -> bool) l c,
  last_such q (l ++ [c]) = if q c then Some c else last_such q l.
Proof.
  intros A q l c. induction l as [|x r IH]; cbn; [destruct (q c); reflexivity|].
  rewrite IH. destruct (q c); [reflexivity|]. reflexivity.
Qed.
Lemma index_of_nth : forall l k c, NoDup l -> nth_error l k = Some c -> index_of c l = k.
Proof.
  induction l as [|x r IH]; intros k c Hnd H; [destruct k; discriminate|].
  inversion Hnd as [|? ? Hnin Hnd']; subst. destruct k as [|k]; cbn in H.
  - injection H as ->. cbn. rewrite Nat.eqb_refl. reflexivity.
  - cbn. destruct (Nat.eqb_spec x c) as [E|E].
    + subst x. exfalso. apply Hnin. eapply nth_error_In. exact H.
    + f_equal. apply IH; assumption.
Qed.

Lemma find_split : forall {A} (p : A -> bool) l s, find p l = Some s ->
  exists pre post, l = pre ++ s :: post /\ p s = true /\ forall x, In x pre -> p x = false.
Proof.
  intros A p. induction l as [|x l IH]; intros s E; [discriminate|]. cbn in E. destruct (p x) eqn:Ex.
  - injection E as ->. exists [], l. repeat split; [exact Ex|intros y []].
  - destruct (IH s E) as [pre [post [H1 [H2 H3]]]]. exists (x :: pre), post. rewrite H1. repeat split; [exact H2|].
    intros y [<-|Hy]; [exact Ex|exact (H3 y Hy)].
Qed.

Definition abs_it (it : m_iter) : sp_iter :=
  {| si_root := mi_root it; si_what := mi_what it; si_usef := mi_usef it; si_ref := mi_cur it; si_after := mi_fwd it |}.

Section Iter.
  Variable tab : list N.
  Variable f : forest.
  Variable it0 : m_iter.
  Let root := mi_root it0.
  Let trees := it_order f root.
  Let order := ids trees.
  Let accb := fun n => mi_accept tab f it0 n.

  Hypothesis Hnd : NoDup order.
  Hypothesis Hhead : nth_error order 0 = Some root.
  Hypothesis Hfuel : length order <= m_fuel f.
  Hypothesis Hnext : forall k c, nth_error order k = Some c -> mi_next_raw f root (Some c) true = nth_error order (S k).
  Hypothesis Hprev : forall k c, nth_error order (S k) = Some c -> mi_prev_raw f root c = nth_error order k.
  Hypothesis Hprev0 : mi_prev_raw f root root = None.
  (** acceptNode, which looks the node up by its id, gives the verdict of the node that the order lists *)
  Hypothesis Hacc : forall s, In s trees -> it_accepts tab (mi_what it0) (mi_usef it0) s = accb (tid s).

  (** acceptNode reads the iterator's root, whatToShow and filter flag only *)
  Lemma mi_accept_set : forall cur fwd n, mi_accept tab f (mi_set it0 cur fwd) n = accb n.
  Proof. reflexivity. Qed.

  Lemma next_loop_scan : forall fuel k c cur0 b,
    nth_error order k = Some c -> length order - k <= fuel ->
    mi_next_loop tab f (mi_set it0 cur0 b) fuel (Some c) true =
    match find accb (skipn (S k) order) with
    | Some n => (Some n, mi_set it0 (Some n) true)
    | None => (None, mi_set it0 cur0 true)
    end.
  Proof.
    induction fuel as [|fu IH]; intros k c cur0 b Hc Hf.
    - assert (k < length order) by (apply nth_error_Some; rewrite Hc; discriminate). lia.
    - cbn [mi_next_loop negb andb mi_root mi_set mi_cur]. fold root. rewrite (Hnext k c Hc).
      destruct (nth_error order (S k)) as [c'|] eqn:E.
      + rewrite (skipn_nth (S k) order c' E). cbn [find].
        rewrite mi_accept_set.
        destruct (accb c'); [reflexivity|].
        apply (IH (S k) c' cur0 b E). lia.
      + apply nth_error_None in E. rewrite (skipn_all2 order E). reflexivity.
  Qed.

  Theorem next_result : forall cur fwd, (forall c, cur = Some c -> In c order) ->
    mi_next tab f (mi_set it0 cur fwd) =
    match find accb (skipn (gap_of order cur fwd) order) with
    | Some n => (Some n, mi_set it0 (Some n) true)
    | None => (None, mi_set it0 cur true)
    end.
  Proof.
    intros cur fwd Hin. unfold mi_next. cbn [mi_cur mi_fwd mi_set].
    destruct cur as [c|].
    - destruct (In_nth_error order c (Hin c eq_refl)) as [k Hk].
      unfold gap_of. rewrite (index_of_nth order k c Hnd Hk).
      cbn [mi_next_loop is_some mi_root mi_set mi_cur]. fold root.
      destruct fwd; cbn [negb andb].
      + (* the loop has S (m_fuel f) rounds; the other two cases spend the first round on the current node or on the root *)
        replace (k + 1) with (S k) by lia. apply (next_loop_scan (S (m_fuel f)) k c (Some c) true Hk). lia.
      + rewrite Nat.add_0_r. rewrite (skipn_nth k order c Hk). cbn [find].
        rewrite mi_accept_set.
        destruct (accb c); [reflexivity|].
        apply (next_loop_scan (m_fuel f) k c (Some c) false Hk). lia.
    - unfold gap_of.
      cbn [mi_next_loop is_some negb andb mi_root mi_set mi_cur mi_next_raw]. rewrite Bool.andb_false_r.
      fold root. rewrite (skipn_nth 0 order root Hhead). cbn [find].
      rewrite mi_accept_set.
      destruct (accb root); [reflexivity|].
      apply (next_loop_scan (m_fuel f) 0 root None fwd Hhead). lia.
  Qed.

  Lemma prev_loop_scan : forall fuel k c cur0 b,
    nth_error order k = Some c -> k < fuel ->
    mi_prev_loop tab f (mi_set it0 cur0 b) fuel c false =
    match last_such accb (firstn k order) with
    | Some n => (Some n, mi_set it0 (Some n) false)
    | None => (None, mi_set it0 cur0 false)
    end.
  Proof.
    induction fuel as [|fu IH]; intros k c cur0 b Hc Hf; [lia|].
    cbn [mi_prev_loop mi_root mi_set mi_cur]. fold root.
    destruct k as [|k'].
    - rewrite Hhead in Hc. injection Hc as <-. rewrite Hprev0. reflexivity.
    - rewrite (Hprev k' c Hc).
      destruct (nth_error order k') as [c'|] eqn:E.
      + rewrite (firstn_S_nth k' order c' E). rewrite last_such_app1.
        rewrite mi_accept_set.
        destruct (accb c'); [reflexivity|].
        apply (IH k' c' cur0 b E). lia.
      + exfalso. apply nth_error_None in E.
        assert (S k' < length order) by (apply nth_error_Some; rewrite Hc; discriminate). lia.
  Qed.

  Theorem prev_result : forall c fwd, In c order ->
    mi_prev tab f (mi_set it0 (Some c) fwd) =
    match last_such accb (firstn (gap_of order (Some c) fwd) order) with
    | Some n => (Some n, mi_set it0 (Some n) false)
    | None => (None, mi_set it0 (Some c) false)
    end.
  Proof.
    intros c fwd Hin. unfold mi_prev. cbn [mi_cur mi_fwd mi_set].
    destruct (In_nth_error order c Hin) as [k Hk].
    assert (Hkl : k < length order) by (apply nth_error_Some; rewrite Hk; discriminate).
    unfold gap_of. rewrite (index_of_nth order k c Hnd Hk).
    destruct fwd.
    - replace (k + 1) with (S k) by lia. rewrite (firstn_S_nth k order c Hk). rewrite last_such_app1.
      cbn [mi_prev_loop mi_root mi_set mi_cur].
      rewrite mi_accept_set.
      destruct (accb c); [reflexivity|].
      apply (prev_loop_scan (m_fuel f) k c (Some c) true Hk). lia.
    - rewrite Nat.add_0_r. apply (prev_loop_scan (S (m_fuel f)) k c (Some c) false Hk). lia.
  Qed.

  Lemma spec_scan_next : forall g,
    option_map tid (find (it_accepts tab (mi_what it0) (mi_usef it0)) (skipn g trees)) = find accb (skipn g order).
  Proof.
    intros g. unfold order. rewrite <- skipn_ids. apply find_map_ids. intros s Hs. apply Hacc.
    rewrite <- (firstn_skipn g trees). apply in_or_app. right. exact Hs.
  Qed.
  Lemma spec_scan_prev : forall g,
    option_map tid (last_such (it_accepts tab (mi_what it0) (mi_usef it0)) (firstn g trees)) =
    last_such accb (firstn g order).
  Proof.
    intros g. unfold order. rewrite <- firstn_ids. apply last_such_map_ids. intros s Hs. apply Hacc.
    rewrite <- (firstn_skipn g trees). apply in_or_app. left. exact Hs.
  Qed.

  Theorem next_is_spec : forall cur fwd, (forall c, cur = Some c -> In c order) ->
    sp_it_next tab f (abs_it (mi_set it0 cur fwd)) =
    (fst (mi_next tab f (mi_set it0 cur fwd)), abs_it (snd (mi_next tab f (mi_set it0 cur fwd)))).
  Proof.
    intros cur fwd Hin. rewrite (next_result cur fwd Hin).
    unfold sp_it_next, abs_it. cbn [si_root si_what si_usef si_ref si_after mi_root mi_what mi_usef mi_cur mi_fwd mi_set].
    fold root. fold trees. fold order.
    rewrite <- (spec_scan_next (gap_of order cur fwd)).
    destruct (find _ (skipn (gap_of order cur fwd) trees)) as [s|]; reflexivity.
  Qed.

  Theorem prev_is_spec : forall cur fwd, (forall c, cur = Some c -> In c order) ->
    sp_it_prev tab f (abs_it (mi_set it0 cur fwd)) =
    (fst (mi_prev tab f (mi_set it0 cur fwd)), abs_it (snd (mi_prev tab f (mi_set it0 cur fwd)))).
  Proof.
    intros cur fwd Hin. destruct cur as [c|].
    - rewrite (prev_result c fwd (Hin c eq_refl)).
      unfold sp_it_prev, abs_it. cbn [si_root si_what si_usef si_ref si_after mi_root mi_what mi_usef mi_cur mi_fwd mi_set].
      fold root. fold trees. fold order.
      rewrite <- (spec_scan_prev (gap_of order (Some c) fwd)).
      destruct (last_such _ (firstn (gap_of order (Some c) fwd) trees)) as [s|]; reflexivity.
    - reflexivity.
  Qed.
End Iter.

Lemma it_accept_wf : forall f tab it s, wf_forest f -> In s (fnodes f) ->
  it_accepts tab (mi_what it) (mi_usef it) s = mi_accept tab f it (tid s).
Proof.
  intros f tab it s Hwf Hs. unfold it_accepts, view_verdict, mi_accept, m_shown, m_kind, m_filter.
  rewrite (find_node_wf f s Hwf Hs).
  destruct (mi_usef it); destruct (shown (mi_what it) (tkind s)); cbn [andb]; try reflexivity.
Qed.

(** what the two loops need of the state: the navigation facts of the section above, for an iterator as it stands *)
Definition iter_nav (tab : list N) (f : forest) (it : m_iter) : Prop :=
  let root := mi_root it in let order := ids (it_order f root) in
  NoDup order /\ nth_error order 0 = Some root /\ length order <= m_fuel f /\
  (forall k c, nth_error order k = Some c -> mi_next_raw f root (Some c) true = nth_error order (S k)) /\
  (forall k c, nth_error order (S k) = Some c -> mi_prev_raw f root c = nth_error order k) /\
  mi_prev_raw f root root = None /\
  (forall s, In s (it_order f root) -> it_accepts tab (mi_what it) (mi_usef it) s = mi_accept tab f it (tid s)) /\
  (forall c, mi_cur it = Some c -> In c order).
Theorem iter_is_spec : forall tab f it, iter_nav tab f it ->
  sp_it_next tab f (abs_it it) = (fst (mi_next tab f it), abs_it (snd (mi_next tab f it))) /\
  sp_it_prev tab f (abs_it it) = (fst (mi_prev tab f it), abs_it (snd (mi_prev tab f it))).
Proof.
  intros tab f it [Hnd [Hhd [Hlen [Hn [Hp [Hp0 [Ha Hc]]]]]]].
  assert (Eit : it = mi_set it (mi_cur it) (mi_fwd it)) by (destruct it; reflexivity).
  split; rewrite Eit at 1 2 3; [apply (next_is_spec tab f it)|apply (prev_is_spec tab f it)]; assumption.
Qed.

(** what the specification returns is a node of the CURRENT document order of the root's subtree -- never a removed one *)
Lemma sp_next_in_order : forall tab f it r it', sp_it_next tab f it = (Some r, it') ->
  In r (ids (it_order f (si_root it))).
Proof.
  intros tab f it r it' H. unfold sp_it_next in H.
  destruct (find _ (skipn _ (it_order f (si_root it)))) as [s|] eqn:E; [|discriminate].
  injection H as <- _. apply find_some in E. destruct E as [Hin _].
  unfold ids. apply in_map. rewrite <- (firstn_skipn (gap_of (ids (it_order f (si_root it))) (si_ref it) (si_after it)) (it_order f (si_root it))).
  apply in_or_app. right. exact Hin.
Qed.
Lemma last_such_in : forall {A} (p : A -> bool) l x, last_such p l = Some x -> In x l.
Proof.
  intros A p l. induction l as [|y r IH]; intros x H; [discriminate|]. cbn in H.
  destruct (last_such p r) as [z|] eqn:E.
  - injection H as <-. right. apply IH. reflexivity.
  - destruct (p y); [injection H as <-; left; reflexivity|discriminate].
Qed.
Lemma sp_prev_in_order : forall tab f it r it', sp_it_prev tab f it = (Some r, it') ->
  In r (ids (it_order f (si_root it))).
Proof.
  intros tab f it r it' H. unfold sp_it_prev in H. destruct (si_ref it); [|discriminate].
  destruct (last_such _ (firstn _ (it_order f (si_root it)))) as [s|] eqn:E; [|discriminate].
  injection H as <- _. apply last_such_in in E.
  unfold ids. apply in_map. rewrite <- (firstn_skipn (gap_of (ids (it_order f (si_root it))) (Some n) (si_after it)) (it_order f (si_root it))).
  apply in_or_app. left. exact E.
Qed.
Lemma opt_eqb_eq : forall a b, opt_eqb a b = true -> a = b.
Proof.
  intros [x|] [y|] H; cbn in H; try discriminate; [|reflexivity]. apply Nat.eqb_eq in H. subst. reflexivity.
Qed.
Lemma nodupb_NoDup : forall l, nodupb l = true -> NoDup l.
Proof.
  induction l as [|x r IH]; intros H; [constructor|]. cbn in H. apply andb_prop in H. destruct H as [H1 H2].
  constructor; [|apply IH; exact H2]. intros Hin. apply memb_In in Hin. rewrite Hin in H1. discriminate.
Qed.
Lemma forallb_seq : forall (p : nat -> bool) n, forallb p (seq 0 n) = true -> forall k, k < n -> p k = true.
Proof.
  intros p n H k Hk. rewrite forallb_forall in H. apply H. apply in_seq. lia.
Qed.
Lemma succ_cert_sound : forall (g : nat -> option nat) l,
  forallb (fun k => match nth_error l k with Some c => opt_eqb (g c) (nth_error l (S k)) | None => true end) (seq 0 (length l)) = true ->
  forall k c, nth_error l k = Some c -> g c = nth_error l (S k).
Proof.
  intros g l H k c Hk. assert (Hlt : k < length l) by (apply nth_error_Some; rewrite Hk; discriminate).
  pose proof (forallb_seq _ _ H k Hlt) as Hb. cbv beta in Hb. rewrite Hk in Hb. apply opt_eqb_eq. exact Hb.
Qed.
Lemma pred_cert_sound : forall (g : nat -> option nat) l,
  forallb (fun k => match nth_error l (S k) with Some c => opt_eqb (g c) (nth_error l k) | None => true end) (seq 0 (length l)) = true ->
  forall k c, nth_error l (S k) = Some c -> g c = nth_error l k.
Proof.
  intros g l H k c Hk. assert (Hlt : S k < length l) by (apply nth_error_Some; rewrite Hk; discriminate).
  pose proof (forallb_seq _ _ H k ltac:(lia)) as Hb. cbv beta in Hb. rewrite Hk in Hb. apply opt_eqb_eq. exact Hb.
Qed.

Lemma iter_cert_hyps : forall tab f it, iter_cert tab f it = true -> iter_nav tab f it.
Proof.
  intros tab f it H. unfold iter_nav. set (root := mi_root it). set (order := ids (it_order f root)).
  unfold iter_cert in H. fold root in H. fold order in H.
  apply andb_prop in H. destruct H as [H Hcur]. apply andb_prop in H. destruct H as [H Hacc].
  apply andb_prop in H. destruct H as [H Hp0]. apply andb_prop in H. destruct H as [H Hprev].
  apply andb_prop in H. destruct H as [H Hnext]. apply andb_prop in H. destruct H as [H Hfuel].
  apply andb_prop in H. destruct H as [Hnd Hhead].
  split; [exact (nodupb_NoDup _ Hnd)|]. split; [exact (opt_eqb_eq _ _ Hhead)|]. split; [apply Nat.leb_le; exact Hfuel|].
  split; [exact (succ_cert_sound (fun c => mi_next_raw f root (Some c) true) order Hnext)|].
  split; [exact (pred_cert_sound (mi_prev_raw f root) order Hprev)|]. split; [exact (opt_eqb_eq _ _ Hp0)|]. split.
  - intros s Hs. rewrite forallb_forall in Hacc. apply Bool.eqb_prop. apply Hacc. exact Hs.
  - intros c E. rewrite E in Hcur. apply memb_In. exact Hcur.
Qed.
Lemma dl_cert_hyps : forall f root name, dl_cert f root name = true ->
  (forall k c, nth_error (root :: sp_tag_list f root name) k = Some c ->
     md_next_match f root name (m_fuel f) (Some c) = nth_error (root :: sp_tag_list f root name) (S k)) /\
  length (sp_tag_list f root name) < m_fuel f.
Proof.
  intros f root name H. unfold dl_cert in H. apply andb_prop in H. destruct H as [Hn Hf].
  split; [|apply Nat.ltb_lt; exact Hf].
  exact (succ_cert_sound (fun c => md_next_match f root name (m_fuel f) (Some c)) (root :: sp_tag_list f root name) Hn).
Qed.
