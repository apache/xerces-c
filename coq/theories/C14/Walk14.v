(** C14 -- TreeWalker on well-formed forests.  parentNode() of the code is the specification's "closest visible ancestor",
    for the code as it is and as repaired alike (F27 only turns SKIP into REJECT, never into ACCEPT).  firstChild() is
    the head and lastChild() the last element of the specification's visible-children list: the internal walks
    getFirstChild / getNextSibling and getLastChild / getPreviousSibling (descend into skipped nodes, climb out of them,
    prune rejected ones) are the same walk in the two directions; it is characterised by a continuation: the sibling
    step from c = head of "what is visible behind c, in the direction of the walk, inside the nearest non-skipped
    ancestor".  F27 is the defect that a filter REJECT on a node hidden by whatToShow prunes its subtree; the
    statements exclude that class unless the repair flag is set.  At the end [sample_at], the boolean comparison of all
    seven moves of model and specification on a given forest (evaluated in Properties_C14.v). *)
From Coq Require Import List NArith Arith Bool Lia.
From XV Require Import C14.Spec14 C14.Hist14 C14.Model14 C14.Cert14 C14.Tree14.
Import ListNotations.

Definition abs_w (w : m_walker) : sp_walker :=
  {| sw_root := mw_root w; sw_what := mw_what w; sw_usef := mw_usef w; sw_cur := mw_cur w |}.

Lemma is_accept_agrees : forall fx tab f w n s, find_node f n = Some s ->
  is_accept (mw_accept fx tab f w n) = is_accept (view_verdict tab (mw_what w) (mw_usef w) s).
Proof.
  intros fx tab f w n s Hs. unfold mw_accept, view_verdict, m_shown, m_kind, m_filter. rewrite Hs.
  destruct (mw_usef w); destruct (shown (mw_what w) (tkind s)); try reflexivity.
  destruct (fx_wshow fx); [reflexivity|]. destruct (filter_verdict tab s); reflexivity.
Qed.

(** acceptNode is the specification's verdict, unless the F27 class is met: whatToShow hides the node AND the filter
    rejects it AND the code is not repaired *)
Lemma accept_is_verdict : forall fx tab f w s, find_node f (tid s) = Some s ->
  (fx_wshow fx = true \/ shown (mw_what w) (tkind s) = true \/ mw_usef w = false \/ filter_verdict tab s <> VReject) ->
  mw_accept fx tab f w (tid s) = view_verdict tab (mw_what w) (mw_usef w) s.
Proof.
  intros fx tab f w s Hs G. unfold mw_accept, view_verdict, m_shown, m_kind, m_filter. rewrite Hs.
  destruct (mw_usef w); destruct (shown (mw_what w) (tkind s)); try reflexivity.
  destruct (fx_wshow fx); [reflexivity|]. destruct (filter_verdict tab s); try reflexivity.
  exfalso. destruct G as [G|[G|[G|G]]]; [discriminate G|discriminate G|discriminate G|apply G; reflexivity].
Qed.

Section Parent.
  Variable f : forest.
  Hypothesis Hwf : wf_forest f.
  Variable root : nat.

  Lemma find_parent_in : forall i P, find_parent f i = Some P -> In P (fnodes f).
  Proof. intros i P H. unfold find_parent in H. apply find_some in H. exact (proj1 H). Qed.

  Lemma parent_equal_fuel : forall fx tab w F cur,
    mw_get_parent f root (mw_accept fx tab f w) F cur =
    option_map tid (find (fun a => is_accept (view_verdict tab (mw_what w) (mw_usef w) a)) (ancestors f F root cur)).
  Proof.
    intros fx tab w. induction F as [|fu IH]; intros cur; [reflexivity|]. cbn [mw_get_parent ancestors].
    destruct (cur =? root); [reflexivity|]. unfold m_parent.
    destruct (find_parent f cur) as [P|] eqn:EP; [|reflexivity]. cbn [option_map find].
    pose proof (find_node_wf f P Hwf (find_parent_in cur P EP)) as HP.
    pose proof (is_accept_agrees fx tab f w (tid P) P HP) as Ha.
    destruct (view_verdict tab (mw_what w) (mw_usef w) P) eqn:Ev; cbn [is_accept] in Ha |- *;
      destruct (mw_accept fx tab f w (tid P)); try discriminate; try reflexivity; apply IH.
  Qed.

  Lemma ancestors_stable : forall F i X, find_node f i = Some X -> length (fnodes f) < F + length (docorder X) ->
    ancestors f (S F) root i = ancestors f F root i.
  Proof.
    induction F as [|F IH]; intros i X HX Hlen.
    - exfalso. destruct (find_node_in f i X HX) as [HXf _]. pose proof (node_le f X HXf). lia.
    - cbn [ancestors]. destruct (i =? root); [reflexivity|].
      destruct (find_parent f i) as [P|] eqn:EP; [|reflexivity]. f_equal.
      pose proof (find_parent_in i P EP) as HPf.
      apply (IH (tid P) P (find_node_wf f P Hwf HPf)).
      destruct (find_node_in f i X HX) as [HXf HtX].
      unfold find_parent in EP. apply find_some in EP. destruct EP as [_ Hk]. apply has_kid_spec in Hk. destruct Hk as [c [Hc Ec]].
      assert (c = X) by (apply (same_id (fnodes f)); [exact Hwf|exact (kids_in_dnodes f P c HPf Hc)|exact HXf|congruence]).
      subst c. rewrite (docorder_eq P). cbn [length].
      pose proof (len_top (tkids P) X Hc). lia.
  Qed.
  Lemma ancestors_stable_ge : forall F i X, find_node f i = Some X -> m_fuel f <= F ->
    ancestors f F root i = ancestors f (m_fuel f) root i.
  Proof.
    intros F i X HX Hge. induction Hge as [|F Hge IH]; [reflexivity|].
    rewrite <- IH. apply (ancestors_stable F i X HX). destruct (find_node_in f i X HX) as [HXf _].
    assert (1 <= length (docorder X)) by (rewrite docorder_eq; cbn; lia). pose proof (nodes_fuel f). lia.
  Qed.

  Theorem walker_parent_is_spec : forall fx tab w X, mw_root w = root -> find_node f (mw_cur w) = Some X ->
    mw_target fx tab f w WParent = sp_w_target_at tab f (abs_w w) root WParent.
  Proof.
    intros fx tab w X Hr HX. unfold mw_target, sp_w_target_at, abs_w. cbn [sw_cur sw_what sw_usef]. rewrite Hr.
    rewrite parent_equal_fuel. rewrite (ancestors_stable_ge (mw_fuel f) (mw_cur w) X HX) by (unfold mw_fuel; lia).
    destruct (mw_cur w =? root) eqn:E; [|reflexivity].
    unfold m_fuel. cbn [ancestors]. rewrite E. reflexivity.
  Qed.
End Parent.
Section Unfold.
  Variable f : forest.
  Variable root : nat.
  Variable acc : nat -> verdict.

  Notation gfirst := (mw_get_first f root acc).
  Notation gnext := (mw_get_next_sib f root acc).
  Notation glast := (mw_get_last f root acc).
  Notation gprev := (mw_get_prev_sib f root acc).

  (** what the walks do with a candidate c: take it, look into it (a skipped node with children) or go on behind it;
      [gk] / [gs] are the child walk and the sibling walk of the direction *)
  Definition scan_with (gk gs : nat -> nat -> option nat) (fu : nat) (c : nat) : option nat :=
    match acc c with
    | VAccept => Some c
    | VSkip => if m_has_kids f c then gk fu c else gs fu c
    | VReject => gs fu c
    end.
  Notation scan := (scan_with gfirst gnext).
  Notation scanl := (scan_with glast gprev).

  Lemma gfirst_unfold : forall fu n, gfirst (S fu) n = match m_first_child f n with None => None | Some c => scan fu c end.
  Proof. intros fu n. unfold scan_with. cbn [mw_get_first]. destruct (m_first_child f n) as [c|]; [|reflexivity]. destruct (acc c); reflexivity. Qed.
  Lemma gnext_unfold : forall fu n, gnext (S fu) n =
    if n =? root then None else
    match m_next_sibling f n with
    | Some s => scan fu s
    | None => match m_parent f n with Some p => (match acc p with VSkip => gnext fu p | _ => None end) | None => None end
    end.
  Proof.
    intros fu n. unfold scan_with. cbn [mw_get_next_sib]. destruct (n =? root); [reflexivity|].
    destruct (m_next_sibling f n) as [s|]; [|reflexivity]. destruct (acc s); try reflexivity.
    (* skipped sibling: getFirstChild first; without children it is None and the walk goes on behind it *)
    unfold m_has_kids. destruct fu as [|fu'].
    - cbn. destruct (is_nil (m_kids f s)); reflexivity.
    - cbn [mw_get_first]. unfold m_first_child. destruct (m_kids f s) as [|c0 r0]; cbn [hd_error is_nil negb]; [reflexivity|].
      destruct (match acc c0 with VAccept => Some c0 | VReject => _ | VSkip => _ end); reflexivity.
  Qed.

  Lemma glast_unfold : forall fu n, glast (S fu) n = match m_last_child f n with None => None | Some c => scanl fu c end.
  Proof. intros fu n. unfold scan_with. cbn [mw_get_last]. destruct (m_last_child f n) as [c|]; [|reflexivity]. destruct (acc c); reflexivity. Qed.
  Lemma gprev_unfold : forall fu n, gprev (S fu) n =
    if n =? root then None else
    match m_prev_sibling f n with
    | Some s => scanl fu s
    | None => match m_parent f n with Some p => (match acc p with VSkip => gprev fu p | _ => None end) | None => None end
    end.
  Proof.
    intros fu n. unfold scan_with. cbn [mw_get_prev_sib]. destruct (n =? root); [reflexivity|].
    destruct (m_prev_sibling f n) as [s|]; [|reflexivity]. destruct (acc s); try reflexivity.
    unfold m_has_kids. destruct fu as [|fu'].
    - cbn. destruct (is_nil (m_kids f s)); reflexivity.
    - cbn [mw_get_last]. unfold m_last_child. destruct (m_kids f s) as [|c0 r0] eqn:Ek; cbn [is_nil negb]; [reflexivity|].
      destruct (rev (c0 :: r0)) as [|cl rl] eqn:Er; [exfalso; apply (f_equal (@length nat)) in Er; rewrite rev_length in Er; discriminate|].
      cbn [hd_error]. destruct (match acc cl with VAccept => Some cl | VReject => _ | VSkip => _ end); reflexivity.
  Qed.
End Unfold.

(** the walks in either direction *)
Section Scan.
  Variable f : forest.
  Hypothesis Hwf : wf_forest f.
  Variable root : nat.
  Variable acc : nat -> verdict.
  Variable vv : tree -> verdict.
  Hypothesis Hacc : forall s, In s (fnodes f) -> acc (tid s) = vv s.
  Variable back : bool.                           (* false: first child / next sibling; true: last child / previous sibling *)

  (** fuel for the child walk below t: every node of the subtree is entered at most once and left at most once *)
  Definition walk_fuel (t : tree) : nat := 2 * length (docorder t) - 1.
  Definition tailK (t : tree) (K : list nat) : list nat := if is_skip (vv t) && negb (tid t =? root) then K else [].

  Lemma vtop_eq : forall t, vtop vv t = match vv t with VAccept => [tid t] | VSkip => vkids vv t | VReject => [] end.
  Proof. intros [i k v ks]. cbn. destruct (vv (Node i k v ks)); reflexivity. Qed.

  (** lists in the direction of the scan *)
  Definition dir {A} (l : list A) : list A := if back then rev l else l.
  Lemma dir_in : forall {A} (l : list A) x, In x (dir l) -> In x l.
  Proof. intros A l x. unfold dir. destruct back; [apply in_rev|exact (fun H => H)]. Qed.
  Lemma dir_ids : forall l : list tree, ids (dir l) = dir (ids l).
  Proof. intros l. unfold dir, ids. destruct back; [apply map_rev|reflexivity]. Qed.
  Lemma dir_flat_map : forall {A B} (g : A -> list B) l, dir (flat_map g l) = flat_map (fun a => dir (g a)) (dir l).
  Proof.
    intros A B g l. unfold dir. destruct back; [|reflexivity]. induction l as [|a l IH]; [reflexivity|].
    cbn [flat_map rev]. rewrite rev_app_distr, IH, flat_map_app. cbn [flat_map]. rewrite app_nil_r. reflexivity.
  Qed.
  Lemma dir_length : forall {A B} (g : A -> list B) l, length (flat_map g (dir l)) = length (flat_map g l).
  Proof.
    intros A B g l. unfold dir. destruct back; [|reflexivity]. induction l as [|a l IH]; [reflexivity|].
    cbn [flat_map rev]. rewrite flat_map_app, !app_length, IH. cbn [flat_map]. rewrite app_nil_r. lia.
  Qed.

  Definition gkid := if back then mw_get_last f root acc else mw_get_first f root acc.
  Definition gsib := if back then mw_get_prev_sib f root acc else mw_get_next_sib f root acc.
  Definition kid1 (n : nat) := if back then m_last_child f n else m_first_child f n.
  Definition sib (n : nat) := if back then m_prev_sibling f n else m_next_sibling f n.
  Notation gscan := (scan_with f acc gkid gsib).
  Lemma gkid_unfold : forall fu n, gkid (S fu) n = match kid1 n with None => None | Some c => gscan fu c end.
  Proof. intros fu n. unfold gkid, gsib, kid1. destruct back; [apply glast_unfold|apply gfirst_unfold]. Qed.
  Lemma gsib_unfold : forall fu n, gsib (S fu) n =
    if n =? root then None else
    match sib n with
    | Some s => gscan fu s
    | None => match m_parent f n with Some p => (match acc p with VSkip => gsib fu p | _ => None end) | None => None end
    end.
  Proof. intros fu n. unfold gkid, gsib, sib. destruct back; [apply gprev_unfold|apply gnext_unfold]. Qed.
  Lemma gsib_zero : forall n, gsib 0 n = None.
  Proof. intros n. unfold gsib. destruct back; reflexivity. Qed.
  Lemma kid1_wf : forall t, In t (fnodes f) -> kid1 (tid t) = hd_error (ids (dir (tkids t))).
  Proof.
    intros t Ht. rewrite dir_ids. unfold kid1, dir. destruct back; [exact (last_child_wf f Hwf t Ht)|exact (first_child_wf f Hwf t Ht)].
  Qed.
  Lemma sib_wf : forall p pre c r, In p (fnodes f) -> dir (tkids p) = pre ++ c :: r -> sib (tid c) = hd_error (ids r).
  Proof.
    intros p pre c r Hp E. unfold sib, dir in *. destruct back; [|exact (m_next_sibling_wf f p pre c r Hwf Hp E)].
    apply (f_equal (@rev tree)) in E. rewrite rev_involutive, rev_app_distr in E. cbn [rev] in E. rewrite <- app_assoc in E.
    rewrite (m_prev_sibling_wf f Hwf p (rev r) c (rev pre) Hp E). unfold last_error, ids. rewrite map_rev, rev_involutive. reflexivity.
  Qed.

  Lemma dir_vtop : forall t, dir (vtop vv t) = match vv t with VAccept => [tid t] | VSkip => dir (vkids vv t) | VReject => [] end.
  Proof. intros t. rewrite vtop_eq. unfold dir. destruct back; destruct (vv t); reflexivity. Qed.

  (** the child walk from t (with children) finds the head of t's visible children in the direction of the walk, or, if there
      is none and t is skipped and not the root, what the sibling walk from t finds.  K = the visible nodes that follow t in
      that direction inside the nearest non-skipped ancestor, given by the hypothesis about gsib (it matters only through
      [tailK t K]); g = the fuel that hypothesis needs; the child walk needs walk_fuel t more. *)
  Definition kid_statement (t : tree) : Prop :=
    ~ In root (ids (dnodes (tkids t))) -> tkids t <> [] ->
    forall K g,
    (is_skip (vv t) && negb (tid t =? root) = true -> forall fuel, g <= fuel -> gsib fuel (tid t) = hd_error K) ->
    forall fuel, g + walk_fuel t <= fuel -> gkid fuel (tid t) = hd_error (dir (vkids vv t) ++ tailK t K).

  (** over the children of T in scan order, back to front: the sibling step of each child c, and the value of scanning from
      it, given [kid_statement] for the children.  fu_c = the fuel the caller keeps (g), one step, and two per node of the
      siblings r' still to be scanned behind c *)
  Lemma kids_scan : forall T K g, In T (fnodes f) -> ~ In root (ids (dnodes (tkids T))) ->
    (is_skip (vv T) && negb (tid T =? root) = true -> forall fuel, g <= fuel -> gsib fuel (tid T) = hd_error K) ->
    (forall c, In c (tkids T) -> kid_statement c) ->
    forall r pre, dir (tkids T) = pre ++ r ->
    forall c r', r = c :: r' ->
    let fu_c := g + 1 + 2 * length (dnodes r') in
    (forall fu, fu_c <= fu -> gsib fu (tid c) = hd_error (flat_map (fun a => dir (vtop vv a)) r' ++ tailK T K)) /\
    (forall fu, fu_c + walk_fuel c <= fu -> gscan fu (tid c) = hd_error (flat_map (fun a => dir (vtop vv a)) r ++ tailK T K)).
  Proof.
    intros T K g Ht HR HN Hsub. induction r as [|c0 r0 IHr]; intros pre E c r' Er; [discriminate|]. injection Er as <- <-.
    assert (Hc : In c0 (tkids T)) by (apply dir_in; rewrite E; apply in_or_app; right; left; reflexivity).
    assert (Hcf : In c0 (fnodes f)) by exact (kids_in_dnodes f T c0 Ht Hc).
    destruct (below_kid root (tkids T) c0 Hc HR) as [HcR HRc].
    cbv zeta.
    assert (HN0 : forall fu, g + 1 + 2 * length (dnodes r0) <= fu -> gsib fu (tid c0) = hd_error (flat_map (fun a => dir (vtop vv a)) r0 ++ tailK T K)).
    { intros fu Hfu. destruct fu as [|fu]; [lia|]. rewrite gsib_unfold.
      destruct (Nat.eqb_spec (tid c0) root) as [E1|_]; [exfalso; exact (HcR E1)|].
      rewrite (sib_wf T pre c0 r0 Ht E).
      destruct r0 as [|c1 r1]; cbn [ids map hd_error].
      - (* last child in scan order: climb *)
        rewrite (m_parent_wf f T c0 Hwf Ht Hc). rewrite (Hacc T Ht). cbn [flat_map app]. unfold tailK.
        destruct (vv T) eqn:Ev; cbn [is_skip andb]; try reflexivity.
        destruct (Nat.eqb_spec (tid T) root) as [Ei|Ei]; cbn [negb].
        + destruct fu as [|fu']; [apply gsib_zero|]. rewrite gsib_unfold. rewrite Ei, Nat.eqb_refl. reflexivity.
        + apply HN; [cbn [is_skip andb]; destruct (Nat.eqb_spec (tid T) root); [contradiction|reflexivity]|].
          cbn [dnodes flat_map length] in Hfu. lia.
      - (* a sibling follows: scan it *)
        destruct (IHr (pre ++ [c0]) ltac:(rewrite <- app_assoc; exact E) c1 r1 eq_refl) as [_ Hscan].
        cbv zeta in Hscan. apply Hscan. rewrite dnodes_cons, app_length in Hfu. unfold walk_fuel.
        assert (1 <= length (docorder c1)) by (rewrite docorder_eq; cbn; lia). lia. }
    split; [exact HN0|].
    intros fu Hfu. unfold scan_with. rewrite (Hacc c0 Hcf). cbn [flat_map]. rewrite dir_vtop.
    destruct (vv c0) eqn:Ev.
    - reflexivity.
    - apply HN0. unfold walk_fuel in Hfu. lia.
    - rewrite (has_kids_wf f Hwf c0 Hcf).
      destruct (tkids c0) as [|k0 kr] eqn:Ek; cbn [is_nil negb].
      + unfold vkids. rewrite Ek. cbn [flat_map]. replace (@dir nat []) with (@nil nat) by (unfold dir; destruct back; reflexivity).
        cbn [app]. apply HN0. unfold walk_fuel in Hfu. lia.
      + rewrite <- Ek in HRc.
        rewrite (Hsub c0 Hc HRc ltac:(rewrite Ek; discriminate) (flat_map (fun a => dir (vtop vv a)) r0 ++ tailK T K) (g + 1 + 2 * length (dnodes r0))).
        * unfold tailK at 1. rewrite Ev. cbn [is_skip andb].
          destruct (Nat.eqb_spec (tid c0) root) as [E1|_]; [exfalso; exact (HcR E1)|]. cbn [negb]. rewrite <- app_assoc. reflexivity.
        * intros _ fu' Hfu'. apply HN0. exact Hfu'.
        * exact Hfu.
  Qed.

  Lemma kid_of_tree : forall t, In t (fnodes f) -> kid_statement t.
  Proof.
    intros t. induction t as [i k v ks IH] using tree_ind2. intros Ht HR Hne K g HN fuel Hfuel. set (T := Node i k v ks) in *.
    assert (Hsub : forall c, In c (tkids T) -> kid_statement c)
      by (intros c Hc; rewrite Forall_forall in IH; exact (IH c Hc (kids_in_dnodes f T c Ht Hc))).
    destruct fuel as [|fu]; [unfold walk_fuel in Hfuel; rewrite (docorder_eq T) in Hfuel; cbn [length] in Hfuel; lia|].
    rewrite gkid_unfold, (kid1_wf T Ht). unfold vkids. rewrite dir_flat_map.
    pose proof (dir_length docorder (tkids T)) as Hlen. fold (dnodes (dir (tkids T))) in Hlen. fold (dnodes (tkids T)) in Hlen.
    pose proof (kids_scan T K g Ht HR HN Hsub) as Hkids.
    destruct (dir (tkids T)) as [|c1 r1] eqn:Ed.
    { exfalso. apply Hne. destruct (tkids T) as [|y l]; [reflexivity|]. rewrite dnodes_cons, app_length, (docorder_eq y) in Hlen. cbn in Hlen. lia. }
    cbn [ids map hd_error].
    destruct (Hkids (c1 :: r1) [] eq_refl c1 r1 eq_refl) as [_ Hscan]. cbv zeta in Hscan. apply Hscan.
    assert (1 <= length (docorder c1)) by (rewrite docorder_eq; cbn; lia).
    unfold walk_fuel in *. rewrite (docorder_eq T) in Hfuel. cbn [length] in Hfuel. rewrite dnodes_cons, app_length in Hlen. lia.
  Qed.
End Scan.

(** T14_walker, firstChild (back = false) and lastChild (back = true): for a current node that is the root or not skipped
    (what the walker can stand on), on a forest free of the F27 class unless the code is repaired *)
Theorem walker_kid_is_spec : forall (back : bool) f fx tab w X, wf_forest f ->
  (forall s, In s (fnodes f) ->
     fx_wshow fx = true \/ shown (mw_what w) (tkind s) = true \/ mw_usef w = false \/ filter_verdict tab s <> VReject) ->
  find_node f (mw_cur w) = Some X ->
  is_skip (view_verdict tab (mw_what w) (mw_usef w) X) && negb (tid X =? mw_root w) = false ->
  ~ In (mw_root w) (ids (dnodes (tkids X))) ->
  mw_target fx tab f w (if back then WLast else WFirst) = sp_w_target_at tab f (abs_w w) (mw_root w) (if back then WLast else WFirst).
Proof.
  intros back f fx tab w X Hwf Hok HX Hns HR. set (vv := view_verdict tab (mw_what w) (mw_usef w)) in *.
  assert (Hacc : forall s, In s (fnodes f) -> mw_accept fx tab f w (tid s) = vv s)
    by (intros s Hs; apply accept_is_verdict; [exact (find_node_wf f s Hwf Hs)|exact (Hok s Hs)]).
  assert (Hm : mw_target fx tab f w (if back then WLast else WFirst) = gkid f (mw_root w) (mw_accept fx tab f w) back (mw_fuel f) (mw_cur w))
    by (destruct back; reflexivity).
  assert (Hsp : sp_w_target_at tab f (abs_w w) (mw_root w) (if back then WLast else WFirst) = hd_error (dir back (vkids vv X)))
    by (unfold sp_w_target_at, abs_w; cbn [sw_cur sw_what sw_usef]; rewrite HX; destruct back; reflexivity).
  rewrite Hm, Hsp. destruct (find_node_in f _ X HX) as [HXf HtX]. rewrite <- HtX.
  destruct (tkids X) as [|c0 r0] eqn:Ek.
  - replace (mw_fuel f) with (S (2 * m_fuel f + 1)) by (unfold mw_fuel; lia).
    rewrite gkid_unfold, (kid1_wf f Hwf back X HXf). unfold vkids. rewrite Ek. unfold dir. destruct back; reflexivity.
  - rewrite <- Ek in HR.
    rewrite (kid_of_tree f Hwf (mw_root w) (mw_accept fx tab f w) vv Hacc back X HXf HR ltac:(rewrite Ek; discriminate) [] 0).
    + unfold tailK. fold vv in Hns. rewrite Hns. rewrite app_nil_r. reflexivity.
    + intros Hc. fold vv in Hns. rewrite Hns in Hc. discriminate.
    + pose proof (node_fuel f X HXf). unfold walk_fuel, mw_fuel. lia.
Qed.
(** * all seven moves, as a boolean to be evaluated: from every node of ids 1..6 that is in the view of a walker with root 1,
      model and specification give the same target.  Without the filter the table is never read: both sides reduce to terms that
      do not mention it. *)
Definition sample_at (fx : fixes) (f : forest) (tab : list N) (what : N) (usef : bool) : bool :=
  forallb (fun cur =>
    let w := {| sw_root := 1; sw_what := what; sw_usef := usef; sw_cur := cur |} in
    let mw := {| mw_root := 1; mw_what := what; mw_usef := usef; mw_cur := cur |} in
    if in_view (view_verdict tab what usef) f 1 cur then
      forallb (fun m => opt_eqb (sp_w_target_at tab f w 1 m) (mw_target fx tab f mw m))
              [WParent; WFirst; WLast; WPrevSib; WNextSib; WNext; WPrev]
    else true) [1; 2; 3; 4; 5; 6].
Lemma sample_at_no_filter : forall fx f tab what, sample_at fx f tab what false = sample_at fx f [] what false.
Proof. reflexivity. Qed.
