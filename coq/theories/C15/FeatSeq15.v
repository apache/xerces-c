(** C15 -- the settings that are derived from SEVERAL features.
    SAX2XMLReaderImpl keeps two booleans (fValidation, fAutoValidation: features "validation" and "validation/dynamic") and
    derives the scanner's ValSchemes from the pair in BOTH setFeature branches; DOMLSParserImpl keeps only the scheme and
    answers getParameter("validate") / ("validate-if-schema") from it.  Model: the setFeature / setParameter branches as
    they are in parsers/SAX2XMLReaderImpl.cpp and parsers/DOMLSParserImpl.cpp; theorems: after ANY sequence of calls the
    scheme is the function [scheme_of] of the values getFeature reports, so it depends on the final feature values only. *)
From Coq Require Import List Bool.
Import ListNotations.

Inductive scheme := Val_Never | Val_Always | Val_Auto.

Record sax2 := { fValidation : bool; fAutoValidation : bool; sch : scheme }.
Definition sax2_init : sax2 := {| fValidation := false; fAutoValidation := false; sch := Val_Never |}.
Inductive s2op := SetValidation (b : bool) | SetDynamic (b : bool) | OtherFeature.

Definition scheme_of (validation dynamic : bool) : scheme :=
  if validation then (if dynamic then Val_Auto else Val_Always) else Val_Never.

Definition s2step (s : sax2) (o : s2op) : sax2 :=
  match o with
  | SetValidation b => {| fValidation := b; fAutoValidation := fAutoValidation s;
                          sch := if b then (if fAutoValidation s then Val_Auto else Val_Always) else Val_Never |}
  | SetDynamic b => {| fValidation := fValidation s; fAutoValidation := b;
                       sch := if fValidation s then (if b then Val_Auto else Val_Always) else Val_Never |}
  | OtherFeature => s
  end.
Definition s2run (ops : list s2op) (s : sax2) : sax2 := fold_left s2step ops s.

(** getFeature(validation) = fValidation, getFeature(validation/dynamic) = fAutoValidation *)
Definition s2inv (s : sax2) : Prop := sch s = scheme_of (fValidation s) (fAutoValidation s).

Lemma s2inv_step : forall o s, s2inv s -> s2inv (s2step s o).
Proof. intros o s I. destruct o; unfold s2inv, scheme_of in *; cbn; try exact I; reflexivity. Qed.

Theorem s2inv_run : forall ops s, s2inv s -> s2inv (s2run ops s).
Proof. induction ops as [|o l IH]; intros s I; [exact I|]. apply IH. apply s2inv_step; exact I. Qed.

(** a "dynamic" branch that leaves the scheme alone when validation is on and dynamic goes off *)
Definition s2step_bad (s : sax2) (o : s2op) : sax2 :=
  match o with
  | SetDynamic b => {| fValidation := fValidation s; fAutoValidation := b;
                       sch := if fValidation s then (if b then Val_Auto else sch s) else Val_Never |}
  | _ => s2step s o
  end.
Example sax2_bad_branch_refuted :
  let s := fold_left s2step_bad [SetValidation true; SetDynamic true; SetDynamic false] sax2_init in
  fValidation s = true /\ fAutoValidation s = false /\ sch s = Val_Auto /\ scheme_of true false = Val_Always.
Proof. cbn. repeat split. Qed.

(** ---- DOMLSParser: the scheme is the only state; the two parameters are read back from it ---- *)
Inductive lsop := SetValidate (b : bool) | SetValidateIfSchema (b : bool).
Definition lsstep (s : scheme) (o : lsop) : scheme :=
  match o with
  | SetValidate true => match s with Val_Never => Val_Always | _ => s end
  | SetValidate false => Val_Never
  | SetValidateIfSchema true => Val_Auto
  | SetValidateIfSchema false => Val_Never
  end.
Definition get_validate (s : scheme) : bool := match s with Val_Never => false | _ => true end.
Definition get_validate_if_schema (s : scheme) : bool := match s with Val_Auto => true | _ => false end.

(** a scheme is determined by what getParameter reports *)
Lemma ls_readback_inj : forall x y, get_validate x = get_validate y -> get_validate_if_schema x = get_validate_if_schema y -> x = y.
Proof. intros x y; destruct x, y; cbn; intros; try reflexivity; discriminate. Qed.
