(** C15 -- model of the DOM parsers' document ownership pool (parsers/AbstractDOMParser.cpp: reset, resetPool,
    adoptDocument) and of the progressive-scan token check (internal/XMLScanner.cpp: scanFirst, scanNext,
    scanReset(token), isLegalToken).  Documents are numbers; [freed] collects the documents the parser destroyed. *)
From Coq Require Import List Arith Bool Lia.
Import ListNotations.

Record dstate := {
  cur : option nat;        (* fDocument *)
  flag : bool;             (* fDocumentAdoptedByUser *)
  vec : list nat;          (* fDocumentVector: documents of earlier parses, owned by the parser *)
  freed : list nat;        (* documents released by the parser so far *)
  adopted : list nat;      (* documents handed to the user by adoptDocument *)
  next : nat               (* next fresh document *)
}.
Definition dinit : dstate := {| cur := None; flag := false; vec := []; freed := []; adopted := []; next := 0 |}.

Inductive dop := DParse | DResetPool | DAdopt.

(** AbstractDOMParser::reset (called at the start of every parse) *)
Definition d_reset (s : dstate) : dstate :=
  {| cur := None; flag := false;
     vec := match cur s with Some d => if flag s then vec s else d :: vec s | None => vec s end;
     freed := freed s; adopted := adopted s; next := next s |}.

Definition dstep (s : dstate) (o : dop) : dstate :=
  match o with
  | DParse => let s1 := d_reset s in
              {| cur := Some (next s1); flag := false; vec := vec s1; freed := freed s1; adopted := adopted s1; next := S (next s1) |}
  | DResetPool =>   (* resetPool: the vector's documents are deleted, the current one released unless adopted *)
      {| cur := None; flag := flag s; vec := [];
         freed := vec s ++ (match cur s with Some d => if flag s then [] else [d] | None => [] end) ++ freed s;
         adopted := adopted s; next := next s |}
  | DAdopt => {| cur := cur s; flag := true; vec := vec s; freed := freed s;
                 adopted := match cur s with Some d => d :: adopted s | None => adopted s end; next := next s |}
  end.
Definition drun (ops : list dop) (s : dstate) : dstate := fold_left dstep ops s.

(** the current document while it is the parser's to release: what reset moves into the vector and resetPool deletes *)
Definition own (s : dstate) : list nat := match cur s with Some c => if flag s then [] else [c] | None => [] end.
(** everything the parser will release or has released *)
Definition pside (s : dstate) : list nat := own s ++ vec s ++ freed s.

Lemma reset_vec : forall s, vec (d_reset s) = own s ++ vec s.
Proof. intros s. unfold d_reset, own. cbn [vec]. destruct (cur s); [destruct (flag s)|]; reflexivity. Qed.

(** adopted documents are not on the parser's side; every document met so far is below [next]; the current one is
    neither in the vector nor released *)
Definition dinv (s : dstate) : Prop :=
  (forall d, In d (adopted s) -> ~ In d (pside s)) /\
  (forall d, In d (adopted s) \/ In d (pside s) \/ cur s = Some d -> d < next s) /\
  (forall d, cur s = Some d -> ~ In d (vec s ++ freed s)).

Lemma dinv_init : dinv dinit.
Proof. repeat split; cbn; intros d H; try discriminate; intuition discriminate. Qed.

(** after a parse, vector and released documents are exactly the former parser's side *)
Lemma parse_vec_freed : forall s, vec (dstep s DParse) ++ freed (dstep s DParse) = pside s.
Proof.
  intros s. change (vec (dstep s DParse)) with (vec (d_reset s)). change (freed (dstep s DParse)) with (freed s).
  rewrite reset_vec, <- app_assoc. reflexivity.
Qed.

Lemma dinv_step : forall o s, dinv s -> dinv (dstep s o).
Proof.
  intros o s (J1 & J2 & J3). destruct o; unfold dinv.
  - (* parse: the fresh document joins the parser's side *)
    assert (P : forall d, In d (pside (dstep s DParse)) <-> d = next s \/ In d (pside s)).
    { intros d. unfold pside at 1. change (own (dstep s DParse)) with [next s]. rewrite parse_vec_freed. cbn [In app].
      split; (intros [E|H]; [left; symmetry; exact E|right; exact H]). }
    assert (Fr : ~ In (next s) (pside s)) by (intros H; pose proof (J2 _ (or_intror (or_introl H))); lia).
    repeat split.
    + intros d A H. apply P in H. destruct H as [->|H]; [pose proof (J2 _ (or_introl A)); lia|exact (J1 d A H)].
    + intros d H. rewrite P in H. cbn [dstep cur adopted next d_reset] in *.
      assert (d = next s \/ d < next s); [|lia].
      destruct H as [A|[[E|H]|E]]; [right; apply J2; left; exact A|left; exact E|right; apply J2; right; left; exact H|].
      left. injection E as <-. reflexivity.
    + intros d E H. injection E as <-. apply Fr. rewrite parse_vec_freed in H. exact H.
  - (* resetPool: the parser's side is released *)
    assert (P : forall d, In d (pside (dstep s DResetPool)) <-> In d (pside s)).
    { intros d. unfold pside, dstep, own. cbn [cur flag vec freed app]. fold (own s). rewrite !in_app_iff. tauto. }
    repeat split.
    + intros d A H. apply P in H. exact (J1 d A H).
    + intros d H. rewrite P in H. cbn [dstep cur adopted next] in *. apply J2. destruct H as [A|[H|E]]; [tauto|tauto|discriminate].
    + intros d E. discriminate.
  - (* adopt: the current document changes sides *)
    assert (A' : forall d, In d (adopted (dstep s DAdopt)) -> cur s = Some d \/ In d (adopted s)).
    { intros d H. cbn [dstep adopted] in H. destruct (cur s) as [c|]; [destruct H as [->|H]|]; tauto. }
    assert (P : forall d, In d (pside (dstep s DAdopt)) -> In d (vec s ++ freed s) /\ In d (pside s)).
    { intros d. unfold pside, dstep, own. cbn [cur flag vec freed]. destruct (cur s); cbn [app]; rewrite !in_app_iff; tauto. }
    repeat split.
    + intros d A H. apply P in H. destruct (A' d A) as [C|B]; [exact (J3 d C (proj1 H))|exact (J1 d B (proj2 H))].
    + intros d H. cbn [dstep cur next] in *. apply J2. destruct H as [A|[H|E]]; [|right; left; exact (proj2 (P d H))|tauto].
      destruct (A' d A); tauto.
    + exact J3.
Qed.

Theorem dinv_run : forall ops s, dinv s -> dinv (drun ops s).
Proof. induction ops as [|o ops IH]; intros s I; [exact I|]. apply IH. apply dinv_step; exact I. Qed.

Lemma adopted_mono_step : forall o s d, In d (adopted s) -> In d (adopted (dstep s o)).
Proof. intros o s d A. destruct o; cbn; try exact A. destruct (cur s); [right; exact A|exact A]. Qed.

(** progressive-scan tokens: (scanner id, sequence id) *)
Record tstate := { scanner_id : nat; seq : nat }.
Inductive top := TScanFirst | TScanDocument | TScanReset.   (* each bumps fSequenceId *)
Definition tstep (s : tstate) (o : top) : tstate := {| scanner_id := scanner_id s; seq := S (seq s) |}.
Definition issue (s : tstate) : nat * nat := (scanner_id s, seq s).          (* toFill.set(fScannerId, fSequenceId) *)
Definition legal (s : tstate) (t : nat * nat) : bool := Nat.eqb (fst t) (scanner_id s) && Nat.eqb (snd t) (seq s).

(** scanFirst / scanDocument / scanReset never lower the sequence id and never touch the scanner id *)
Lemma tsteps_seq : forall l t, seq t <= seq (fold_left tstep l t) /\ scanner_id (fold_left tstep l t) = scanner_id t.
Proof.
  induction l as [|a l IH]; intros t; cbn [fold_left]; [split; [lia|reflexivity]|].
  destruct (IH (tstep t a)) as [A B]. cbn [tstep seq scanner_id] in *. split; [lia|exact B].
Qed.
