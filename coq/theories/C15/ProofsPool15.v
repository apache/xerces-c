(** C15 -- proofs about the grammar pool / resolver model (Pool15.v) *)
From Coq Require Import List NArith Bool.
From XV Require Import C15.Pool15.
Import ListNotations.
Local Open Scope N_scope.

Lemma lookup_remove_same : forall t k, lookup (remove t k) k = None.
Proof.
  induction t as [|[k' g] r IH]; intros k; cbn [remove lookup]; [reflexivity|].
  destruct (N.eqb k' k) eqn:E; [apply IH|]. cbn [lookup]. rewrite E. apply IH.
Qed.
Lemma lookup_remove_other : forall t k k', k' <> k -> lookup (remove t k) k' = lookup t k'.
Proof.
  induction t as [|[a g] r IH]; intros k k' H; cbn [remove lookup]; [reflexivity|].
  destruct (N.eqb a k) eqn:E.
  - apply N.eqb_eq in E; subst a. destruct (N.eqb k k') eqn:E2; [apply N.eqb_eq in E2; congruence|]. apply IH; exact H.
  - cbn [lookup]. destruct (N.eqb a k'); [reflexivity|apply IH; exact H].
Qed.
Lemma lookup_put_same : forall t k g, lookup (put t k g) k = Some g.
Proof. intros. unfold put. cbn [lookup]. rewrite N.eqb_refl. reflexivity. Qed.
Lemma lookup_put_other : forall t k g k', k' <> k -> lookup (put t k g) k' = lookup t k'.
Proof.
  intros t k g k' H. unfold put. cbn [lookup]. destruct (N.eqb k k') eqn:E; [apply N.eqb_eq in E; congruence|].
  apply lookup_remove_other; exact H.
Qed.

Lemma pool_cache_locked : forall s k g, locked s = true -> pool_cache s k g = (false, s).
Proof. intros s k g H. unfold pool_cache. rewrite H. reflexivity. Qed.
Lemma pool_orphan_locked : forall s k, locked s = true -> pool_orphan s k = (Some None, s).
Proof. intros s k H. unfold pool_orphan. rewrite H. reflexivity. Qed.
Lemma pool_clear_locked : forall s, locked s = true -> pool_clear s = (false, s).
Proof. intros s H. unfold pool_clear. rewrite H. reflexivity. Qed.

Lemma cache_all_locked : forall keys s, locked s = true -> cache_all keys s = s.
Proof.
  induction keys as [|k rest IH]; intros s H; cbn [cache_all]; [reflexivity|].
  destruct (lookup (bucket s) k); [|apply IH; exact H].
  rewrite pool_cache_locked by exact H. apply IH; exact H.
Qed.

Lemma res_get_reg : forall s k, reg (snd (res_get s k)) = reg s /\ locked (snd (res_get s k)) = locked s.
Proof.
  intros s k. unfold res_get. destruct (lookup (bucket s) k); [split; reflexivity|].
  destruct (usecached s); [|split; reflexivity]. destruct (lookup (frompool s) k); [split; reflexivity|].
  destruct (lookup (reg s) k); split; reflexivity.
Qed.

(** on a locked pool every mutator is the identity; what an operation still changes is the bucket, the
    referenced-from-pool table, the flags and the serial number *)
Lemma locked_step_inv : forall o s, locked s = true ->
  reg (snd (pstep s o)) = reg s /\ (o <> PUnlock -> locked (snd (pstep s o)) = true).
Proof.
  intros o s H. destruct o; cbn [pstep];
    rewrite ?pool_cache_locked, ?pool_orphan_locked, ?pool_clear_locked, ?cache_all_locked by exact H;
    try (split; [reflexivity|intros _; exact H]).
  - (* PLock *) split; reflexivity.
  - (* PUnlock *) split; [reflexivity|intros Hne; contradiction].
  - (* RPut *) destruct (cacheg s); split; try reflexivity; intros _; exact H.
  - (* RGet *) destruct (res_get_reg s k) as [A B]. destruct (res_get s k) as [g s1].
    split; [exact A|intros _; rewrite <- H; exact B].
  - (* ROrphan *) destruct (cacheg s); [|destruct (lookup (bucket s) k)]; split; try reflexivity; intros _; exact H.
Qed.

(** what the resolver remembers as taken from the pool is still in the pool, with the same grammar *)
Definition fp_sound (s : pstate) : Prop := forall k g, lookup (frompool s) k = Some g -> lookup (reg s) k = Some g.

Lemma pool_cache_sound : forall s k g, fp_sound s -> fp_sound (snd (pool_cache s k g)).
Proof.
  intros s k g Hs. unfold pool_cache. destruct (locked s); [exact Hs|].
  destruct (has (reg s) k) eqn:Hh; [exact Hs|].
  intros k' g' L. cbn [snd frompool reg] in *.
  assert (k' <> k).
  { intro E; subst k'. pose proof (Hs k g' L) as R. unfold has in Hh. rewrite R in Hh. discriminate. }
  rewrite lookup_put_other by assumption. apply Hs; exact L.
Qed.

Lemma cache_all_sound : forall keys s, fp_sound s -> fp_sound (cache_all keys s).
Proof.
  induction keys as [|k rest IH]; intros s Hs; cbn [cache_all]; [exact Hs|].
  destruct (lookup (bucket s) k) as [g|]; [|apply IH; exact Hs].
  pose proof (pool_cache_sound s k g Hs) as A.
  destruct (pool_cache s k g) as [ok s1]. apply IH. destruct ok; exact A.
Qed.

Lemma pool_orphan_cases : forall s k, locked s = false ->
  (lookup (reg s) k = None /\ pool_orphan s k = (None, s)) \/
  (exists g s1, lookup (reg s) k = Some g /\ pool_orphan s k = (Some (Some g), s1) /\ reg s1 = remove (reg s) k /\
                frompool s1 = frompool s).
Proof.
  intros s k H. unfold pool_orphan. rewrite H. destruct (lookup (reg s) k) as [g|].
  - right. eexists; eexists. repeat split.
  - left. split; reflexivity.
Qed.

(** The registry loses a key only through orphanGrammar and clear.  Through the resolver both also drop the key from
    the referenced-from-pool table (ROrphan) or empty that table (RResetCached); called on the pool directly (POrphan,
    PClear, the operations [mediated] excludes) they would leave a stale reference behind.  cacheGrammar adds absent
    keys only, so it cannot change what an existing reference finds. *)
Theorem fp_sound_step : forall o s, mediated o = true -> fp_sound s -> fp_sound (snd (pstep s o)).
Proof.
  intros o s M Hs. destruct o; cbn [mediated] in M; try discriminate; cbn [pstep].
  - (* PCache *) pose proof (pool_cache_sound s k (serial s) Hs) as A. destruct (pool_cache s k (serial s)) as [ok s1]. exact A.
  - (* PGet *) exact Hs.
  - (* PLock *) exact Hs.
  - (* PUnlock *) exact Hs.
  - (* RPut *) destruct (cacheg s).
    + pose proof (pool_cache_sound s k (serial s) Hs) as A. destruct (pool_cache s k (serial s)) as [ok s1].
      destruct ok; exact A.
    + exact Hs.
  - (* RGet *) unfold res_get. destruct (lookup (bucket s) k); [exact Hs|]. destruct (usecached s); [|exact Hs].
    destruct (lookup (frompool s) k); [exact Hs|]. destruct (lookup (reg s) k) as [g|] eqn:R; [|exact Hs].
    intros k' g' L. unfold set_frompool in *. cbn [snd frompool reg] in *. destruct (N.eq_dec k' k) as [E|E].
    + subst k'. rewrite lookup_put_same in L. inversion L; subst. exact R.
    + rewrite lookup_put_other in L by exact E. apply Hs; exact L.
  - (* RCacheAll *) apply cache_all_sound; exact Hs.
  - (* ROrphan *) destruct (cacheg s).
    2:{ destruct (lookup (bucket s) k); exact Hs. }
    destruct (locked s) eqn:Lk.
    + rewrite pool_orphan_locked by exact Lk. exact Hs.
    + destruct (pool_orphan_cases s k Lk) as [[R E]|[g [s1 [R [E [A B]]]]]]; rewrite E.
      * exact Hs.
      * intros k' g' L. unfold set_frompool in *. cbn [snd frompool reg] in *. rewrite B in L.
        destruct (N.eq_dec k' k) as [Q|Q].
        -- subst k'. rewrite lookup_remove_same in L. discriminate.
        -- rewrite lookup_remove_other in L by exact Q. rewrite A. rewrite lookup_remove_other by exact Q. apply Hs; exact L.
  - (* RReset *) exact Hs.
  - (* RResetCached *) destruct (pool_clear s) as [ok s1]. intros k' g' L. cbn in L. discriminate.
  - (* RCacheFromParse *) exact Hs.
  - (* RUseCached *) exact Hs.
Qed.

Theorem fp_sound_run : forall ops s, forallb mediated ops = true -> fp_sound s -> fp_sound (prun ops s).
Proof.
  induction ops as [|o ops IH]; intros s M Hs; [exact Hs|].
  cbn [forallb] in M. apply andb_true_iff in M. destruct M as [Mo Mr].
  unfold prun. cbn [fold_left]. apply IH; [exact Mr|]. apply fp_sound_step; assumption.
Qed.

Lemma fp_sound_init : fp_sound pinit.
Proof. intros k g L. cbn in L. discriminate. Qed.

Theorem res_get_transparent : forall s k, fp_sound s -> fst (res_get s k) = spec_get s k.
Proof.
  intros s k Hs. unfold res_get, spec_get. destruct (lookup (bucket s) k); [reflexivity|].
  destruct (usecached s); [|reflexivity].
  destruct (lookup (frompool s) k) as [g|] eqn:F; [cbn [fst]; symmetry; apply Hs; exact F|].
  destruct (lookup (reg s) k); reflexivity.
Qed.

Lemma cache_all_keeps_reg : forall keys s k g, lookup (reg s) k = Some g -> lookup (reg (cache_all keys s)) k = Some g.
Proof.
  induction keys as [|a rest IH]; intros s k g L; cbn [cache_all]; [exact L|].
  destruct (lookup (bucket s) a) as [ga|]; [|apply IH; exact L].
  unfold pool_cache. destruct (locked s); [apply IH; exact L|].
  destruct (has (reg s) a) eqn:Hh; [apply IH; exact L|].
  assert (k <> a). { intro E; subst a. unfold has in Hh. rewrite L in Hh. discriminate. }
  apply IH. unfold set_bucket. cbn [reg]. rewrite lookup_put_other by assumption. exact L.
Qed.
