(** C15 -- lemmas about the reset model.  If the generated obligation [reset_check] holds for an inventory, the state at
    the start of a parse is, on every observable member, a function of the configuration alone; hence it is the same
    after any history as on a fresh parser with the same configuration calls ([reset_obs], [history_at_parse]).
    Then: the obligation of an inventory looked up by name in a table ([reset_check_find]); the form in which the
    obligation is evaluated ([reset_check_fast]); what the model driver's body and difference list do when nothing is
    excepted; the row and the history of finding F21. *)
From Coq Require Import String List NArith Bool.
From XV Require Import Gen.GenScannerFields C15.Classify15 C15.Model15.
Import ListNotations.
Local Open Scope string_scope.

Lemma find_row_some : forall inv m r, find_row inv m = Some r -> In r inv /\ row_name r = m.
Proof.
  induction inv as [|a rest IH]; intros m r H; [discriminate|].
  cbn [find_row] in H. destruct (String.eqb (row_name a) m) eqn:E.
  - inversion H; subst. split; [left; reflexivity|]. apply String.eqb_eq; exact E.
  - destruct (IH _ _ H) as [Hin Hn]. split; [right; exact Hin|exact Hn].
Qed.

Lemma reset_check_row : forall sc inv r, reset_check sc inv = true -> In r inv ->
  verdict_ok (row_verdict sc inv r) = true.
Proof.
  intros sc inv r H Hin. unfold reset_check in H. apply andb_true_iff in H. destruct H as [_ H].
  rewrite forallb_forall in H. exact (H r Hin).
Qed.

Section Agree.
  Variable sc : string.
  Variable inv : inventory.

  Definition cfg_agree (s1 s2 : state) : Prop := forall m, is_config sc inv m = true -> s1 m = s2 m.

  Lemma eval_agree : forall e s1 s2, cfg_agree s1 s2 -> expr_ok sc inv e = true -> eval e s1 = eval e s2.
  Proof.
    induction e; intros s1 s2 A H; cbn [eval expr_ok] in *; try reflexivity; try discriminate.
    - f_equal. apply A; exact H.
    - rewrite (IHe s1 s2 A H); reflexivity.
    - apply andb_true_iff in H; destruct H as [H1 H2]. rewrite (IHe1 s1 s2 A H1), (IHe2 s1 s2 A H2); reflexivity.
    - apply andb_true_iff in H; destruct H as [H1 H2]. rewrite (IHe1 s1 s2 A H1), (IHe2 s1 s2 A H2); reflexivity.
    - apply andb_true_iff in H; destruct H as [H1 H2]. rewrite (IHe1 s1 s2 A H1), (IHe2 s1 s2 A H2); reflexivity.
    - apply andb_true_iff in H; destruct H as [H H3]. apply andb_true_iff in H; destruct H as [H1 H2].
      rewrite (IHe1 s1 s2 A H1), (IHe2 s1 s2 A H2), (IHe3 s1 s2 A H3); reflexivity.
  Qed.

  Hypothesis Hcheck : reset_check sc inv = true.

  (** what the obligation says of the row of a member that is not an exception *)
  Lemma checked_row : forall m r, find_row inv m = Some r -> excepted sc m = false ->
    match class_of sc (row_decl r) m with
    | None => False
    | Some Config => row_kind r = RNo
    | Some PerParse => row_kind r = RCall \/ exists e, row_kind r = RAssign e /\ expr_ok sc inv e = true
    | Some _ => True
    end.
  Proof.
    intros m r F Ex. destruct (find_row_some _ _ _ F) as [Hin <-].
    pose proof (reset_check_row sc inv r Hcheck Hin) as V. unfold row_verdict in V. rewrite Ex in V.
    destruct (class_of sc (row_decl r) (row_name r)) as [[]|]; try exact I; try discriminate;
      destruct (row_kind r) as [|e|]; try discriminate; [reflexivity| |left; reflexivity].
    right. exists e. split; [reflexivity|]. destruct (expr_ok sc inv e); [reflexivity|discriminate].
  Qed.

  Lemma reset_keeps_config : forall init s m, is_config sc inv m = true -> reset_model inv init s m = s m.
  Proof.
    intros init s m H. unfold reset_model. unfold is_config, class_in in H.
    destruct (find_row inv m) as [r|] eqn:F; [|reflexivity].
    destruct (class_of sc (row_decl r) m) as [[]|] eqn:C; try discriminate. apply negb_true_iff in H.
    pose proof (checked_row m r F H) as K. rewrite C in K. rewrite K. reflexivity.
  Qed.

  Lemma reset_obs : forall init s1 s2, cfg_agree s1 s2 -> forall m, observable sc inv m = true ->
    reset_model inv init s1 m = reset_model inv init s2 m.
  Proof.
    intros init s1 s2 A m O. unfold reset_model. unfold observable, class_in in O.
    destruct (find_row inv m) as [r|] eqn:F; [|discriminate].
    destruct (class_of sc (row_decl r) m) as [[]|] eqn:C; try discriminate; apply negb_true_iff in O;
      pose proof (checked_row m r F O) as K; rewrite C in K.
    - rewrite K. cbn [reset_member]. apply A. unfold is_config, class_in. rewrite F, C, O. reflexivity.
    - destruct K as [K|[e [K Ke]]]; rewrite K; [reflexivity|].
      pose proof (eval_agree e s1 s2 A Ke) as EA.
      (* [reset_member] takes [EIncr] apart before it evaluates; [expr_ok] rules it out *)
      destruct e; cbn [reset_member]; try reflexivity; try discriminate; rewrite EA; reflexivity.
  Qed.

  Variable init : state.
  Variable D : Type.
  Variable body : D -> nat -> state -> state.
  Hypothesis body_cfg : forall d k s m, is_config sc inv m = true -> body d k s m = s m.

  Lemma upd_agree : forall s1 s2 m v, cfg_agree s1 s2 -> cfg_agree (upd s1 m v) (upd s2 m v).
  Proof. intros s1 s2 m v A x Hx. unfold upd. destruct (String.eqb x m); [reflexivity|apply A; exact Hx]. Qed.

  Lemma run_agree : forall h s1 s2, cfg_agree s1 s2 ->
    cfg_agree (run sc inv init D body h s1) (run sc inv init D body (filter (is_set D) h) s2).
  Proof.
    induction h as [|o h IH]; intros s1 s2 A; [exact A|].
    destruct o as [m v|d k|]; cbn [run fold_left filter is_set step].
    - apply IH. destruct (is_cfg_class sc inv m); [apply upd_agree; exact A|exact A].
    - apply IH. intros x Hx. rewrite body_cfg by exact Hx. rewrite reset_keeps_config by exact Hx. apply A; exact Hx.
    - apply IH; exact A.
  Qed.

  Theorem history_at_parse : forall h m, observable sc inv m = true ->
    at_parse sc inv init D body h m = at_parse_fresh sc inv init D body h m.
  Proof.
    intros h m O. unfold at_parse, at_parse_fresh. apply reset_obs; [|exact O].
    apply run_agree. intros x _; reflexivity.
  Qed.

End Agree.

Lemma reset_check_find : forall (invs : list (string * inventory)) sc,
  forallb (fun p => reset_check (fst p) (snd p)) invs = true -> In sc (map fst invs) ->
  reset_check sc (match find (fun p => String.eqb (fst p) sc) invs with Some p => snd p | None => [] end) = true.
Proof.
  intros invs sc H Hin. rewrite forallb_forall in H.
  destruct (find (fun p => String.eqb (fst p) sc) invs) as [p|] eqn:F.
  - destruct (find_some _ _ F) as [Hp E]. apply String.eqb_eq in E. subst sc. exact (H p Hp).
  - apply in_map_iff in Hin. destruct Hin as [p [E Hp]]. pose proof (find_none _ _ F p Hp) as Hno. cbn beta in Hno.
    rewrite E, String.eqb_refl in Hno. discriminate.
Qed.

(** The obligation in a form that is cheap to evaluate: [class_of] compares the declaring class of every entry of
    [base_class] in full for every row; [class_by] looks a member up among the entries of its declaring class, extracted
    once per inventory.  [reset_check_by] is [reset_check] with classification and exception test as parameters. *)
Section By.
  Variable cls : string -> string -> option mclass.       (* declaring class, member *)
  Variable exc : string -> bool.
  Variable inv : inventory.

  Definition is_config_by (m : string) : bool :=
    match (match find_row inv m with Some r => cls (row_decl r) m | None => None end) with
    | Some Config => negb (exc m)
    | _ => false
    end.

  Fixpoint expr_ok_by (e : rexpr) : bool :=
    match e with
    | EOpaque => true
    | EIncr => false
    | EConst _ => true
    | ESym _ => true
    | EVar m => is_config_by m
    | ENot a => expr_ok_by a
    | EAnd a b | EOr a b | EEq a b => expr_ok_by a && expr_ok_by b
    | EIf c a b => expr_ok_by c && expr_ok_by a && expr_ok_by b
    end.

  Definition row_verdict_by (r : string * string * rkind) : verdict :=
    if exc (row_name r) then VOk else
    match cls (row_decl r) (row_name r) with
    | None => VUnclassified
    | Some Config => match row_kind r with RNo => VOk | _ => VConfigWritten end
    | Some PerParse => match row_kind r with
                       | RNo => VNotReset
                       | RCall => VOk
                       | RAssign e => if expr_ok_by e then VOk else VResetReadsState
                       end
    | Some Cache | Some Infra => VOk
    end.

  Definition reset_check_by : bool :=
    nodup_names (map row_name inv) && forallb (fun r => verdict_ok (row_verdict_by r)) inv.
End By.

Lemma forallb_ext : forall (A : Type) (f g : A -> bool) l, (forall x, f x = g x) -> forallb f l = forallb g l.
Proof. intros A f g l H. induction l as [|x l IH]; cbn [forallb]; [reflexivity|]. rewrite H, IH. reflexivity. Qed.

Lemma reset_check_by_eq : forall sc cls inv, (forall d m, cls d m = class_of sc d m) ->
  reset_check_by cls (excepted sc) inv = reset_check sc inv.
Proof.
  intros sc cls inv H.
  assert (E : forall e, expr_ok_by cls (excepted sc) inv e = expr_ok sc inv e).
  { induction e; cbn [expr_ok_by expr_ok]; try reflexivity; try congruence.
    unfold is_config_by, is_config, class_in. destruct (find_row inv m); [rewrite H|]; reflexivity. }
  unfold reset_check_by, reset_check. f_equal. apply forallb_ext. intros r. unfold row_verdict_by, row_verdict. rewrite H.
  destruct (class_of sc (row_decl r) (row_name r)) as [[]|]; try reflexivity.
  destruct (row_kind r); try reflexivity. rewrite E. reflexivity.
Qed.

Definition select {A} (a : string) (l : list (string * string * A)) : list (string * A) :=
  flat_map (fun e => if String.eqb (fst (fst e)) a then [(snd (fst e), snd e)] else []) l.
Fixpoint lookup1 {A} (b : string) (l : list (string * A)) : option A :=
  match l with [] => None | (y, v) :: rest => if String.eqb y b then Some v else lookup1 b rest end.

Lemma lookup2_select : forall (A : Type) a b (l : list (string * string * A)), lookup2 a b l = lookup1 b (select a l).
Proof.
  intros A a b l. induction l as [|[[x y] v] l IH]; [reflexivity|].
  cbn [lookup2 select flat_map fst snd]. destruct (String.eqb x a); cbn [andb app lookup1]; [|exact IH].
  destruct (String.eqb y b); [reflexivity|exact IH].
Qed.

Definition class_by (ov : list (string * mclass)) (tbls : list (string * list (string * mclass))) (decl m : string)
  : option mclass :=
  match lookup1 m ov with
  | Some c => Some c
  | None => lookup1 m (match lookup1 decl tbls with Some t => t | None => select decl base_class end)
  end.

Fixpoint decls (inv : inventory) : list string :=
  match inv with
  | [] => []
  | r :: rest => let ds := decls rest in if existsb (String.eqb (row_decl r)) ds then ds else row_decl r :: ds
  end.

Definition reset_check_fast (sc : string) (inv : inventory) : bool :=
  reset_check_by (class_by (select sc overrides) (map (fun d => (d, select d base_class)) (decls inv))) (excepted sc) inv.

Lemma class_by_eq : forall sc (ds : list string) d m,
  class_by (select sc overrides) (map (fun d => (d, select d base_class)) ds) d m = class_of sc d m.
Proof.
  intros sc ds d m. unfold class_by, class_of. rewrite !lookup2_select.
  destruct (lookup1 m (select sc overrides)); [reflexivity|]. f_equal.
  induction ds as [|a ds IH]; [reflexivity|]. cbn [map lookup1].
  destruct (String.eqb a d) eqn:E; [apply String.eqb_eq in E; subst a; reflexivity|exact IH].
Qed.

Lemma reset_check_fast_eq : forall sc inv, reset_check_fast sc inv = reset_check sc inv.
Proof. intros sc inv. exact (reset_check_by_eq sc _ inv (class_by_eq sc (decls inv))). Qed.

Lemma faithful_body_cfg : forall sc inv d k s m, is_config sc inv m = true -> faithful_body sc inv d k s m = s m.
Proof.
  intros sc inv d k s m H. unfold faithful_body. unfold is_config in H.
  destruct (class_in sc inv m) as [c|]; [|reflexivity]. destruct c; try discriminate. reflexivity.
Qed.

Lemma diff_rows_nil : forall sc inv a b l,
  (forall m, observable sc inv m = true -> a m = b m) ->
  (forall r, In r l -> excepted sc (row_name r) = false) ->
  flat_map (diff_row sc inv a b) l = [].
Proof.
  intros sc inv a b l Hobs. induction l as [|r l IH]; intros Hex; [reflexivity|].
  cbn [flat_map]. rewrite IH by (intros r' Hr'; apply Hex; right; exact Hr').
  rewrite app_nil_r. unfold diff_row.
  assert (Er : excepted sc (row_name r) = false) by (apply Hex; left; reflexivity).
  destruct (class_in sc inv (row_name r)) as [c|] eqn:C; [|reflexivity].
  assert (O : match c with Config | PerParse => observable sc inv (row_name r) = true | _ => True end).
  { unfold observable. rewrite C, Er. destruct c; exact I || reflexivity. }
  destruct c; try reflexivity; rewrite (Hobs _ O), N.eqb_refl; reflexivity.
Qed.

(** Finding F21: IGXMLScanner::scanReset executed  fSkipDTDValidation = fSkipDTDValidation && fDoSchema.  The row the
    scan gives for that statement, and a history after which the member differs from that of a fresh parser
    (evaluated on a two-row inventory in Properties_C15.T15_skipdtd_refuted). *)
Definition f21_row : string * string * rkind :=
  ("XMLScanner", "fSkipDTDValidation", RAssign (EAnd (EVar "fSkipDTDValidation") (EVar "fDoSchema"))).

Definition f21_history (D : Type) (d : D) : list (op D) :=
  [OSet D "fSkipDTDValidation" 1%N; OSet D "fDoSchema" 0%N; OParse D d 0; OSet D "fDoSchema" 1%N].
