(** C15 -- the two SchemaInfo tables of IG/SGXMLScanner and the grammars they stand for.
    fSchemaInfoList      (transient)  is cleared by every scanReset, like the GrammarResolver's per-parse bucket;
    fCachedSchemaInfoList (cached)    is cleared by resetCachedGrammar only, like the grammar pool.
    resolveSchemaGrammar skips loading a schema whose (location, namespace) entry it finds ("already seen"); that is
    only sound if the grammar the entry stands for is still reachable.  Where new entries are stored is selected in
    the source by a flag; the selection is a parameter [sel use tocache] here and is read off the source by translator/c15_scan.py
    (GenScannerFields.cache_list_uses).  The pool is assumed to accept grammars (unlocked); the locked case is finding F15k of known-findings.d/C15.json. *)
From Coq Require Import String List Bool NArith.
From XV Require Import Gen.GenScannerFields.
Import ListNotations.
Local Open Scope string_scope.

Record sstate := {
  cachedL : list N;    (* keys in fCachedSchemaInfoList *)
  transL : list N;     (* keys in fSchemaInfoList *)
  poolG : list N;      (* grammars in the grammar pool *)
  bucketG : list N     (* grammars in the per-parse bucket *)
}.
Definition sinit : sstate := {| cachedL := []; transL := []; poolG := []; bucketG := [] |}.
Definition memN (k : N) (l : list N) : bool := existsb (N.eqb k) l.

Inductive sop : Type :=
| SReset                                  (* scanReset: fSchemaInfoList->removeAll, resolver reset (bucket) *)
| SLoad (k : N) (use tocache : bool)      (* resolveSchemaGrammar for schema k under the two flags *)
| SResetCached.                           (* resetCachedGrammar: pool cleared, fCachedSchemaInfoList cleared *)

Section Sel.
  Variable sel : bool -> bool -> bool.    (* does a new SchemaInfo go into the cached table?  (use, tocache) *)

  Definition seen (s : sstate) (k : N) (use tocache : bool) : bool :=
    (use && memN k (cachedL s)) || (negb tocache && memN k (transL s)).

  Definition sstep (s : sstate) (o : sop) : sstate :=
    match o with
    | SReset => {| cachedL := cachedL s; transL := []; poolG := poolG s; bucketG := [] |}
    | SResetCached => {| cachedL := []; transL := transL s; poolG := []; bucketG := bucketG s |}
    | SLoad k use tocache =>
      if seen s k use tocache then s
      else {| cachedL := if sel use tocache then k :: cachedL s else cachedL s;
              transL := if sel use tocache then transL s else k :: transL s;
              poolG := if tocache then k :: poolG s else poolG s;          (* GrammarResolver::putGrammar *)
              bucketG := if tocache then bucketG s else k :: bucketG s |}
    end.
  Definition srun (ops : list sop) (s : sstate) : sstate := fold_left sstep ops s.

  (** every "already seen" entry stands for a grammar that is still there *)
  Definition sinv (s : sstate) : Prop :=
    (forall k, memN k (cachedL s) = true -> memN k (poolG s) = true) /\
    (forall k, memN k (transL s) = true -> memN k (bucketG s) = true).

  Hypothesis sel_ok : forall use tocache, sel use tocache = tocache.

  Lemma memN_cons_mono : forall a l1 l2, (forall k, memN k l1 = true -> memN k l2 = true) ->
    forall k, memN k (a :: l1) = true -> memN k (a :: l2) = true.
  Proof.
    intros a l1 l2 H k. unfold memN. cbn [existsb]. rewrite !orb_true_iff. intros [E|E]; [left; exact E|right; apply H; exact E].
  Qed.

  Lemma sinv_step : forall o s, sinv s -> sinv (sstep s o).
  Proof.
    intros o s [I1 I2]. destruct o as [|k use tocache|]; cbn [sstep].
    - split; cbn [cachedL transL poolG bucketG]; [exact I1|intros k H; discriminate].
    - destruct (seen s k use tocache); [split; assumption|]. rewrite sel_ok.
      destruct tocache; split; cbn [cachedL transL poolG bucketG];
        [apply memN_cons_mono, I1|exact I2|exact I1|apply memN_cons_mono, I2].
    - split; cbn [cachedL transL poolG bucketG]; [intros k H; discriminate|exact I2].
  Qed.

  Theorem sinv_run : forall ops s, sinv s -> sinv (srun ops s).
  Proof. induction ops as [|o l IH]; intros s I; [exact I|]. apply IH. apply sinv_step; exact I. Qed.

  Lemma sinv_init : sinv sinit.
  Proof. split; intros k H; discriminate. Qed.

End Sel.

(** the selection a source row denotes *)
Definition sel_of_flag (f : string) (use tocache : bool) : option bool :=
  if String.eqb f "fToCacheGrammar" || String.eqb f "toCache" then Some tocache
  else if String.eqb f "fUseCachedGrammar" then Some use
  else if String.eqb f "always" then Some true
  else if String.eqb f "never" then Some false
  else None.

Definition all_flags : list (bool * bool) := [(false, false); (false, true); (true, false); (true, true)].
Definition in_list (f : string) (l : list string) : bool := existsb (String.eqb f) l.

(** generated obligation over GenScannerFields.cache_list_uses *)
Definition cache_row_ok (r : string * string * lslot * string) : bool :=
  match r with
  | (_, _, LStore, f) => forallb (fun ut => match sel_of_flag f (fst ut) (snd ut) with
                                            | Some b => Bool.eqb b (snd ut) | None => false end) all_flags
  | (_, _, LLookup, f) => in_list f ["fUseCachedGrammar"; "always"]
  | (_, _, LSeenCached, f) => in_list f ["fUseCachedGrammar"; "always"; "nsUri&&*nsUri"]
  | (_, _, LSeenTransient, f) => in_list f ["!importSchemaInfo&&!fToCacheGrammar"]
  end.
Definition is_store (r : string * string * lslot * string) : bool := match r with (_, _, LStore, _) => true | _ => false end.
Definition cache_lists_check : bool :=
  forallb cache_row_ok cache_list_uses &&
  forallb (fun sc => Nat.leb 4 (length (filter (fun r => is_store r && String.eqb (fst (fst (fst r))) sc) cache_list_uses)))
          ["IGXMLScanner"; "SGXMLScanner"].
Definition cache_list_offenders : list (string * string * string) :=
  flat_map (fun r => if cache_row_ok r then [] else [(fst (fst (fst r)), snd (fst (fst r)), snd r)]) cache_list_uses.
