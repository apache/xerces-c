(** C20 lemmas, part d: attributes and xml:base values ([drop_base_attr], [set_base_attr], [elem_base]; clean references written
    out and read back); the simulation [sim] between model nodes and Spec nodes, which the two xml:base fix-ups establish;
    the pre-order walk of the repaired model computes [xi_spec] (tree, base URIs, errors). *)
From Coq Require Import NArith List Bool Lia Arith.
Import ListNotations.
From XV Require Import C20.Spec20 C20.Model20 C20.Hyps20 C20.Proofs20a C20.Proofs20c.
Local Open Scope N_scope.

Lemma clean_ref_good : forall v, clean_ref v = true -> good_ref (split_slash v).
Proof.
  intros v H. unfold clean_ref in H. apply andb_true_iff in H. destruct H as [H1 H2].
  destruct v as [|c v']; [discriminate|]. apply negb_true_iff in H1. apply negb_true_iff in H2.
  destruct (split_segs (c :: v')) as [F NE]. split; [exact F|]. split; [apply head_nonempty_split; exact H1|].
  exists (removelast (split_slash (c :: v'))), (last (split_slash (c :: v')) []). split; [|exact H2].
  apply app_removelast_last. exact NE.
Qed.

Lemma clean_doc_spec : forall top,
  clean_doc top = true -> forallb clean_node top = true /\ (count_elem_nodes top <= 1)%nat.
Proof. intros top H. apply andb_true_iff in H. rewrite Nat.leb_le in H. exact H. Qed.
Lemma lookup_clean : forall fs t top, clean_fs fs = true -> lookup fs t = Some (FDoc top) -> clean_doc top = true.
Proof.
  induction fs as [|[q f] fs IH]; intros t top C L; cbn [lookup] in L; [discriminate|].
  cbn [clean_fs forallb] in C. apply andb_true_iff in C. destruct C as [C1 C2].
  destruct (path_eqb t q); [|exact (IH t top C2 L)]. inversion L; subst. exact C1.
Qed.

Lemma get_attr_drop : forall ns nm a, (ns =? NS_XML) = false -> get_attr ns nm (drop_base_attr a) = get_attr ns nm a.
Proof.
  intros ns nm a H. induction a as [|[[n m] v] a IH]; [reflexivity|]. cbn [drop_base_attr filter is_base_attr].
  destruct ((n =? NS_XML) && str_eqb m s_base) eqn:B; cbn [negb].
  - cbn [get_attr]. apply andb_true_iff in B. destruct B as [B1 _]. apply N.eqb_eq in B1. subst n.
    rewrite N.eqb_sym, H. cbn [andb]. exact IH.
  - cbn [get_attr]. destruct ((n =? ns) && str_eqb m nm); [reflexivity|exact IH].
Qed.
Lemma get_attr_of_drop_eq : forall nm a b, drop_base_attr a = drop_base_attr b ->
  get_attr NS_NONE nm a = get_attr NS_NONE nm b.
Proof. intros nm a b H. rewrite <- (get_attr_drop NS_NONE nm a), <- (get_attr_drop NS_NONE nm b), H; reflexivity. Qed.
Lemma drop_base_idem : forall a, drop_base_attr (drop_base_attr a) = drop_base_attr a.
Proof.
  induction a as [|x a IH]; [reflexivity|]. cbn [drop_base_attr filter]. destruct (negb (is_base_attr x)) eqn:E.
  - cbn [filter]. rewrite E. f_equal. exact IH.
  - exact IH.
Qed.
Lemma drop_base_set : forall a v, drop_base_attr (set_base_attr a v) = drop_base_attr a.
Proof.
  intros a v. unfold set_base_attr. cbn [drop_base_attr filter is_base_attr]. rewrite N.eqb_refl.
  change (str_eqb s_base s_base) with true. cbn [andb negb]. apply drop_base_idem.
Qed.
Lemma get_base_set : forall a v, get_base_attr (set_base_attr a v) = Some v.
Proof.
  intros a v. unfold get_base_attr, set_base_attr. cbn [get_attr]. rewrite N.eqb_refl.
  change (str_eqb s_base s_base) with true. reflexivity.
Qed.
Lemma get_attr_set : forall nm a v, get_attr NS_NONE nm (set_base_attr a v) = get_attr NS_NONE nm a.
Proof.
  intros nm a v. rewrite <- (get_attr_drop NS_NONE nm (set_base_attr a v)) by reflexivity.
  rewrite drop_base_set. apply get_attr_drop. reflexivity.
Qed.
Lemma elem_base_none : forall base a, get_base_attr a = None -> elem_base base a = base.
Proof. intros base a H. unfold elem_base. rewrite H. reflexivity. Qed.
Lemma elem_base_some : forall base a c v, get_base_attr a = Some (c :: v) ->
  elem_base base a = resolve base (split_slash (c :: v)).
Proof. intros base a c v H. unfold elem_base. rewrite H. reflexivity. Qed.
Lemma elem_base_clean : forall base a v, get_base_attr a = Some v -> clean_ref v = true ->
  elem_base base a = resolve base (split_slash v).
Proof. intros base a [|c v] H C; [discriminate|]. apply elem_base_some. exact H. Qed.

Lemma hd_noslash_first : forall p, head_nonempty p -> Forall noslash p -> exists c v, join_slash p = c :: v /\ (c =? SLASH) = false.
Proof.
  intros [|[|c s] r] H F; try destruct H. inversion F as [|x l Fx Fl]; subst. inversion Fx; subst.
  destruct r as [|t r]; cbn [join_slash app]; eexists; eexists; split; try reflexivity; assumption.
Qed.
Lemma clean_ref_join : forall p, good_ref p -> clean_ref (join_slash p) = true.
Proof.
  intros p H. destruct H as [F [Hd [p' [l [E D]]]]]. unfold clean_ref.
  destruct (hd_noslash_first p Hd F) as [c [v [EJ Hc]]]. rewrite EJ. rewrite Hc. cbn [negb andb].
  rewrite <- EJ. rewrite split_join; [|subst p; destruct p'; discriminate|exact F].
  subst p. rewrite last_last. rewrite D. reflexivity.
Qed.

Lemma elem_base_set : forall base a p, good_ref p -> elem_base base (set_base_attr a (join_slash p)) = resolve base p.
Proof.
  intros base a p H. rewrite (elem_base_clean _ _ _ (get_base_set a _) (clean_ref_join p H)).
  rewrite split_join; [reflexivity|apply good_ref_nonempty; exact H|exact (proj1 H)].
Qed.

Lemma clean_node_elem : forall ns nm a k, clean_node (Elem ns nm a k) = true ->
  match get_base_attr a with Some v => clean_ref v = true | None => True end /\
  match get_attr NS_NONE s_href a with Some v => clean_ref v = true | None => True end /\
  (is_fallback ns nm = true -> get_base_attr a = None) /\ forallb clean_node k = true.
Proof.
  intros ns nm a k H. cbn [clean_node] in H. apply andb_true_iff in H. destruct H as [H H3].
  apply andb_true_iff in H. destruct H as [H1 H2]. unfold clean_attrs in H1. apply andb_true_iff in H1.
  destruct H1 as [H1 H1']. repeat split.
  - destruct (get_base_attr a); [exact H1|exact I].
  - destruct (get_attr NS_NONE s_href a); [exact H1'|exact I].
  - intros HF. rewrite HF in H2. destruct (get_base_attr a); [discriminate|reflexivity].
  - exact H3.
Qed.

(** model node [m] (base URI at its parent: [bm]) stands for the source node [s] of the Spec (base [bs]) *)
Definition sim (bm : path) (m : node) (bs : path) (s : node) : Prop :=
  match m, s with
  | Elem ns nm am km, Elem ns' nm' as_ ks =>
    ns = ns' /\ nm = nm' /\ km = ks /\ drop_base_attr am = drop_base_attr as_ /\
    elem_base bm am = elem_base bs as_ /\ clean_node s = true /\
    match get_base_attr am with Some v => clean_ref v = true | None => True end
  | Text a, Text b => a = b
  | Comment a, Comment b => a = b
  | _, _ => False
  end.

Lemma sim_refl : forall b n, clean_node n = true -> sim b n b n.
Proof.
  intros b [ns nm a k|s|s] H; cbn [sim]; auto. destruct (clean_node_elem _ _ _ _ H) as [Cb _]. repeat split; auto.
Qed.

Lemma sim_refl_list : forall b l, forallb clean_node l = true -> Forall2 (fun m s => sim b m b s) l l.
Proof.
  induction l as [|n l IH]; intros H; [constructor|]. cbn [forallb] in H. apply andb_true_iff in H.
  destruct H as [H1 H2]. constructor; [apply sim_refl; exact H1|apply IH; exact H2].
Qed.

Definition has_fatal (e : list err) : bool := existsb is_fatal e.
Definition good_res (bm : path) (res : list node * list err) (t : list snode) : Prop :=
  has_fatal (snd res) = false /\ map (annot bm) (fst res) = t.
(** the XMLErrs code that the Spec's error class must show up as *)
Definition reports (x : xerr) (e : list err) : Prop :=
  match x with
  | XE_Loop => In E_CircularInclusionLoop e \/ In E_CircularInclusionDocIncludesSelf e
  | XE_NoHref => In E_NoHref e
  | XE_XPointer => In E_XPointerNotSupported e
  | XE_BadParse => In E_InvalidParseVal e
  | XE_MultiFallback => In E_MultipleFallbackElems e
  | XE_DisallowedChild => In E_DisallowedChild e
  | XE_OrphanFallback => In E_OrphanFallback e
  | XE_NoFallback => In E_IncludeFailedNoFallback e
  | XE_RootShape => In E_HierarchyExc e
  | XE_Fuel => In E_Fuel e
  end.
(** what the model's answer must be, given the Spec's answer *)
Definition agrees (bm : path) (res : list node * list err) (sp : sres) : Prop :=
  match sp with
  | inr t => good_res bm res t
  | inl x => reports x (snd res)
  end.

Lemma reports_incl : forall x a b, incl a b -> reports x a -> reports x b.
Proof. intros x a b I. destruct x; cbn [reports]; try apply I. intros [H|H]; [left|right]; apply I; exact H. Qed.
Lemma reports_app_l : forall x a b, reports x a -> reports x (a ++ b).
Proof. intros x a b. apply reports_incl, incl_appl, incl_refl. Qed.
Lemma reports_app_r : forall x a b, reports x b -> reports x (a ++ b).
Proof. intros x a b. apply reports_incl, incl_appr, incl_refl. Qed.
Lemma reports_fatal : forall x e, reports x e -> has_fatal e = true.
Proof.
  intros x e H. unfold has_fatal. apply existsb_exists.
  destruct x; cbn [reports] in H; try (eexists; split; [exact H|reflexivity]).
  destruct H as [H|H]; eexists; (split; [exact H|reflexivity]).
Qed.

Lemma has_fatal_app : forall a b, has_fatal (a ++ b) = has_fatal a || has_fatal b.
Proof. intros. unfold has_fatal. apply existsb_app. Qed.

Lemma agrees_list : forall (F : node -> sres) (G : node -> list node * list err) bm (R : node -> node -> Prop) lm ls,
  (forall m s, R m s -> agrees bm (G m) (F s)) -> Forall2 R lm ls ->
  agrees bm (walk_list G lm) (smap F ls).
Proof.
  intros F G bm R lm ls HR H. induction H as [|m s lm ls Hms Hrest IH]; [split; reflexivity|].
  apply HR in Hms. rewrite walk_list_cons. cbn [smap]. unfold agrees in Hms. destruct (F s) as [e|a].
  - apply reports_app_l. exact Hms.
  - destruct Hms as [Hm1 Hm2]. unfold agrees in IH. destruct (smap F ls) as [e|b].
    + apply reports_app_r. exact IH.
    + destruct IH as [I1 I2]. split; cbn [fst snd].
      * rewrite has_fatal_app, Hm1, I1. reflexivity.
      * rewrite map_app, Hm2, I2. reflexivity.
Qed.

Lemma sim_nonelem_list : forall bm bs r, count_elem_nodes r = O -> Forall2 (fun m s => sim bm m bs s) r r.
Proof.
  induction r as [|n r IH]; intros H; [constructor|]. destruct n; cbn [count_elem_nodes] in H; [discriminate| |];
    (constructor; [cbn [sim]; reflexivity|apply IH; exact H]).
Qed.

Lemma sim_set_base : forall bm b ns nm a k p, good_ref p -> clean_node (Elem ns nm a k) = true ->
  resolve bm p = elem_base b a -> sim bm (Elem ns nm (set_base_attr a (join_slash p)) k) b (Elem ns nm a k).
Proof.
  intros bm b ns nm a k p OP C E. cbn [sim]. repeat split; trivial.
  - apply drop_base_set.
  - rewrite elem_base_set; assumption.
  - rewrite get_base_set. apply clean_ref_join. exact OP.
Qed.

(** [b] is the base URI that the xml:base value [ib] of an xi:include element gives it where [bm] is in force *)
Definition own_base (bm : path) (ib : option str) (b : path) : Prop :=
  match ib with
  | None => b = bm
  | Some v => clean_ref v = true /\ b = resolve bm (split_slash v)
  end.
Lemma own_base_intro : forall bm ib b, (ib = None -> b = bm) ->
  (forall v, ib = Some v -> clean_ref v = true /\ b = resolve bm (split_slash v)) -> own_base bm ib b.
Proof. intros bm [v|] b HN HS; [exact (HS v eq_refl)|exact (HN eq_refl)]. Qed.

Lemma fix_fb_sim : forall bm b ib fkids,
  forallb clean_node fkids = true -> own_base bm ib b ->
  Forall2 (fun m s => sim bm m b s) (map (fix_fb_child true (negb (path_eqb bm b)) ib) fkids) fkids.
Proof.
  intros bm b ib fkids HC OB. induction fkids as [|c fkids IH]; [constructor|].
  cbn [forallb] in HC. apply andb_true_iff in HC. destruct HC as [Hc HC]. cbn [map]. constructor; [|apply IH; exact HC].
  destruct (path_eqb bm b) eqn:E; cbn [negb].
  { apply path_eqb_eq in E. subst b. destruct c; apply sim_refl; exact Hc. }
  destruct c as [cns cnm cat ck|t|t]; cbn [fix_fb_child]; try reflexivity.
  destruct ib as [v|]; cbn [own_base] in OB; [|rewrite OB, path_eqb_refl in E; discriminate].
  destruct OB as [Cv Eb]. pose proof (clean_ref_good v Cv) as Ov.
  destruct (clean_node_elem _ _ _ _ Hc) as [Cb _].
  unfold prepend_path, rm_dotdot. destruct (get_base_attr cat) as [w|] eqn:GB; apply sim_set_base; trivial.
  - apply good_ref_pp; [exact Ov|apply clean_ref_good; exact Cb].
  - rewrite (resolve_pp true bm _ _ (proj2 (proj2 Ov))), <- Eb. symmetry. apply elem_base_clean; assumption.
  - apply good_ref_norm_pinned. exact Ov.
  - rewrite resolve_norm_pinned, <- Eb. symmetry. apply elem_base_none. exact GB.
Qed.

Lemma fix_root_sim : forall bm b target ib href top,
  clean_doc top = true -> clean_ref href = true -> target = resolve b (split_slash href) -> own_base bm ib b ->
  Forall2 (fun m s => sim bm m target s) (fix_root true true true bm b target ib href top) top.
Proof.
  intros bm b target ib href top CD Ch Et OB. destruct (clean_doc_spec top CD) as [HC HL].
  pose proof (clean_ref_good href Ch) as Oh.
  (* the written-out reference to the included document resolves to it at the including place *)
  assert (OX : good_ref (prepend_path true ib href) /\ resolve bm (prepend_path true ib href) = target).
  { unfold prepend_path. destruct ib as [v|]; cbn [own_base] in OB.
    - destruct OB as [Cv Eb]. pose proof (clean_ref_good v Cv) as Ov. split; [apply good_ref_pp; assumption|].
      rewrite (resolve_pp true bm _ _ (proj2 (proj2 Ov))), <- Eb. symmetry. exact Et.
    - split; [exact Oh|]. rewrite <- OB. symmetry. exact Et. }
  destruct OX as [OX RX].
  induction top as [|n top IH]; [constructor|].
  cbn [forallb] in HC. apply andb_true_iff in HC. destruct HC as [Hn HC].
  destruct n as [ns nm rat k|t|t]; cbn [fix_root]; [|constructor; [reflexivity|apply IH; assumption]..].
  cbn [count_elem_nodes] in HL. constructor; [|apply sim_nonelem_list; lia].
  destruct (clean_node_elem _ _ _ _ Hn) as [Cb _].
  unfold fix_root_attrs. destruct (path_eqb bm target) eqn:E.
  { apply path_eqb_eq in E. rewrite <- E. apply sim_refl. exact Hn. }
  destruct (get_base_attr rat) as [r|] eqn:GB; apply sim_set_base; trivial.
  - apply good_ref_pp; [exact OX|apply clean_ref_good; exact Cb].
  - rewrite (resolve_pp true bm _ _ (proj2 (proj2 OX))), RX. symmetry. apply elem_base_clean; assumption.
  - rewrite RX. symmetry. apply elem_base_none. exact GB.
Qed.

Section Sim.
Variable fs : fsys.
Variable docuri : path.
Hypothesis CFS : clean_fs fs = true.
Notation Wr := (walk fs docuri true true true).

(** an xi:include that met a resource error: the fallback children, fixed up, are walked where the Spec processes the
    originals *)
Lemma agrees_failed : forall f hist bm b ib fb ns nm am ks e0,
  (forall m s, sim bm m b s -> agrees bm (Wr f false hist bm m) (xi_spec fs f (hist ++ [docuri]) b s)) ->
  scan_fallback ks None = FS_ok fb -> forallb clean_node ks = true -> own_base bm ib b -> has_fatal e0 = false ->
  agrees bm (walk_inc (fun hist' => Wr f false hist' bm) false ns nm am ks (inc_failed true hist bm b ib fb e0))
         (match fb with
          | None => inl XE_NoFallback
          | Some (fat, fkids) => smap (xi_spec fs f (hist ++ [docuri]) (elem_base b fat)) fkids
          end).
Proof.
  intros f hist bm b ib fb ns nm am ks e0 IH SF Ckids OB He0.
  destruct fb as [[fat fkids]|]; [|apply reports_app_r; right; left; reflexivity].
  destruct (scan_fallback_elem _ _ _ _ SF) as [|(fns & fnm & FIn & FIs)]; [discriminate|].
  rewrite forallb_forall in Ckids. destruct (clean_node_elem _ _ _ _ (Ckids _ FIn)) as (_ & _ & FNB & FK).
  unfold walk_inc, inc_failed. cbn [andb]. rewrite (elem_base_none b fat (FNB FIs)).
  pose proof (agrees_list _ _ bm _ _ _ IH (fix_fb_sim bm b ib fkids FK OB)) as AL.
  destruct (walk_list _ _) as [r e2]. unfold agrees in *.
  destruct (smap _ fkids) as [e|t]; [apply reports_app_r; exact AL|]. destruct AL as [A1 A2].
  split; [|exact A2]. cbn [fst snd] in *. rewrite !has_fatal_app, He0, A1. reflexivity.
Qed.
Lemma loop_reported : forall rec hist bm b ib fb ns nm am ks e0, reports XE_Loop e0 ->
  reports XE_Loop (snd (walk_inc rec false ns nm am ks (inc_failed true hist bm b ib fb e0))).
Proof.
  intros rec hist bm b ib fb ns nm am ks e0 He0. unfold walk_inc, inc_failed. destruct fb as [[fat fkids]|]; cbn [andb snd].
  - apply reports_app_l, reports_app_l. exact He0.
  - apply reports_app_l. exact He0.
Qed.

(** the xi:include case of [sim_walk], given the claim for everything that is walked with the fuel [f] *)
Lemma sim_include : forall f hist bm bs ns nm am as_ ks,
  (forall hist bm m bs s, sim bm m bs s -> agrees bm (Wr f false hist bm m) (xi_spec fs f (hist ++ [docuri]) bs s)) ->
  sim bm (Elem ns nm am ks) bs (Elem ns nm as_ ks) -> is_include ns nm = true ->
  agrees bm (walk_inc (fun hist' => Wr f false hist' bm) false ns nm am ks (inc_resolve fs docuri true true true hist bm am ks))
         (xi_spec fs (S f) (hist ++ [docuri]) bs (Elem ns nm as_ ks)).
Proof.
  intros f hist bm bs ns nm am as_ ks IH HS II. destruct HS as (_ & _ & _ & HD & HB & HCs & HCb).
  destruct (clean_node_elem _ _ _ _ HCs) as (_ & Chref & _ & Ckids). cbn [xi_spec]. rewrite II.
  (* [inc_resolve] and the Spec look at the same attributes in the same order *)
  rewrite inc_resolve_unfold. cbv zeta.
  rewrite (get_attr_of_drop_eq s_href am as_ HD), (get_attr_of_drop_eq s_xpointer am as_ HD),
    (get_attr_of_drop_eq s_parse am as_ HD), (get_attr_of_drop_eq s_encoding am as_ HD).
  destruct (scan_fallback ks None) as [fb| |] eqn:SF; try (left; reflexivity).
  destruct (get_attr NS_NONE s_href as_) as [href|] eqn:GH; [|left; reflexivity].
  destruct (get_attr NS_NONE s_xpointer as_); [left; reflexivity|].
  rewrite HB. set (b := elem_base bs as_) in *.
  set (parse := match get_attr NS_NONE s_parse as_ with Some p => p | None => s_xml end).
  set (target := resolve b (split_slash href)).
  assert (OB : own_base bm (get_base_attr am) b).
  { unfold own_base. destruct (get_base_attr am) as [v|] eqn:GB; rewrite <- HB.
    - split; [exact HCb|]. apply elem_base_clean; assumption.
    - apply elem_base_none. exact GB. }
  pose proof (fun e0 => agrees_failed f hist bm b _ fb ns nm am ks e0 (fun m0 s0 => IH hist bm m0 b s0) SF Ckids OB) as FB.
  destruct (str_eqb parse s_xml).
  - (* the Spec has the top document last on its path; the code tests it apart, after the history *)
    rewrite path_mem_snoc. destruct (path_mem target hist); [apply loop_reported; left; left; reflexivity|].
    destruct (path_eqb target docuri); [apply loop_reported; right; left; reflexivity|].
    rewrite fetch_fixed. fold target. destruct (lookup fs target) as [[top|t|]|] eqn:LK; try (apply FB; reflexivity).
    pose proof (agrees_list _ _ bm _ _ _ (fun m0 s0 => IH (target :: hist) bm m0 target s0)
                            (fix_root_sim bm b target (get_base_attr am) href top (lookup_clean fs target top CFS LK)
                                          Chref eq_refl OB)) as AL.
    unfold walk_inc. cbn [andb app orb]. destruct (walk_list _ _) as [r e2]. exact AL.
  - destruct (str_eqb parse s_text); [|left; reflexivity].
    destruct (negb (encoding_ok (get_attr NS_NONE s_encoding as_))); [apply FB; reflexivity|].
    rewrite fetch_fixed. fold target. destruct (lookup fs target) as [[top|t|]|] eqn:LK; try (apply FB; reflexivity).
    unfold walk_inc. cbn [andb]. rewrite walk_list_cons, walk_leaf by reflexivity. split; reflexivity.
Qed.

Lemma sim_walk : forall fuel hist bm m bs s, sim bm m bs s ->
  agrees bm (Wr fuel false hist bm m) (xi_spec fs fuel (hist ++ [docuri]) bs s).
Proof.
  induction fuel as [|f IH]; intros hist bm m bs s HS;
    (destruct m as [ns nm am km|a|a], s as [ns' nm' as_ ks|a'|a']; cbn [sim] in HS; try (destruct HS; fail);
     try (subst; split; reflexivity)); [left; reflexivity|].
  (* what is left of the 2 x 9 pairs of shapes: unrelated shapes by [HS], leaves by computation, an element without fuel
     by the fuel error on both sides; now an element with fuel *)
  destruct HS as (<- & <- & -> & HD & HB & HCs & HCb).
  destruct (clean_node_elem _ _ _ _ HCs) as (_ & Chref & CFB & Ckids).
  rewrite walk_S_elem. destruct (is_include ns nm) eqn:II; [|cbn [xi_spec]; rewrite II].
  - apply sim_include; [exact IH| |exact II]. cbn [sim]. repeat split; assumption.
  - destruct (is_fallback ns nm); [left; reflexivity|].
    rewrite HB. set (b := elem_base bs as_) in *.
    pose proof (agrees_list _ _ b _ _ _ (fun m0 s0 => IH hist b m0 b s0) (sim_refl_list b ks Ckids)) as AL.
    destruct (walk_list _ ks) as [r e]. unfold agrees in *.
    destruct (smap _ ks) as [e'|t]; [exact AL|]. destruct AL as [A1 A2]. split; [exact A1|].
    cbn [fst map annot]. rewrite HB, HD. cbn [fst] in A2. rewrite A2. reflexivity.
Qed.

Lemma sim_walk_list : forall fuel hist bm bs lm ls, Forall2 (fun m s => sim bm m bs s) lm ls ->
  agrees bm (walk_list (Wr fuel false hist bm) lm) (smap (xi_spec fs fuel (hist ++ [docuri]) bs) ls).
Proof. intros fuel hist bm bs lm ls. apply agrees_list. intros m s. apply sim_walk. Qed.
End Sim.
