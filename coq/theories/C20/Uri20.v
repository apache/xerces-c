(** C20: XMLUri accepts every character that RFC 2396 allows unescaped in a path segment.  The tables come from
    /repo's XMLUri.cpp on every run (Gen/GenUri20.v); the predicates are those of XMLUri.hpp:
      isUnreservedCharacter c = isAlphaNum c || c in MARK_CHARACTERS,   isPathCharacter c = c in PATH_CHARACTERS,
    and the path scan of XMLUri (initializePath / isURIString) accepts c iff isUnreservedCharacter c || isPathCharacter c
    (besides '%' HEX HEX). *)
From Coq Require Import NArith List Bool.
Import ListNotations.
From XV Require Import Gen.GenUri20.
Local Open Scope N_scope.

Definition memN (c : N) (l : list N) : bool := existsb (N.eqb c) l.
Definition is_alnum (c : N) : bool :=
  ((48 <=? c) && (c <=? 57)) || ((65 <=? c) && (c <=? 90)) || ((97 <=? c) && (c <=? 122)).
Definition xmluri_unreserved (c : N) : bool := is_alnum c || memN c uri_mark_characters.
Definition xmluri_accepts_in_path (c : N) : bool := xmluri_unreserved c || memN c uri_path_characters.

(** RFC 2396: pchar = unreserved | escaped | ":" | "@" | "&" | "=" | "+" | "$" | ",";
    unreserved = alphanum | mark;  mark = "-" | "_" | "." | "!" | "~" | "*" | "'" | "(" | ")" *)
Definition rfc_mark : list N := [45; 95; 46; 33; 126; 42; 39; 40; 41].
Definition rfc_pchar_extra : list N := [58; 64; 38; 61; 43; 36; 44].
Definition rfc_alnum : list N := map N.of_nat (seq 48 10 ++ seq 65 26 ++ seq 97 26).
Definition rfc_pchar_unescaped : list N := rfc_alnum ++ rfc_mark ++ rfc_pchar_extra.
(** reserved = ";" | "/" | "?" | ":" | "@" | "&" | "=" | "+" | "$" | "," *)
Definition rfc_reserved : list N := [59; 47; 63; 58; 64; 38; 61; 43; 36; 44].
(** scheme = alpha *( alpha | digit | "+" | "-" | "." ) *)
Definition rfc_scheme_extra : list N := [43; 45; 46].

Definition uri_tables_ok : bool :=
  forallb xmluri_accepts_in_path rfc_pchar_unescaped &&
  forallb (fun c => memN c uri_mark_characters) rfc_mark && forallb (fun c => memN c rfc_mark) uri_mark_characters &&
  forallb (fun c => memN c uri_reserved_characters) rfc_reserved &&
  forallb (fun c => memN c uri_scheme_characters) rfc_scheme_extra &&
  (* ';' and '/' separate segments / parameters and must be path characters as well *)
  memN 59 uri_path_characters && memN 47 uri_path_characters &&
  (* and nothing outside RFC 2396's uric set is accepted in a path *)
  forallb (fun c => memN c (rfc_reserved ++ rfc_mark)) uri_path_characters.
