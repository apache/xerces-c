(** C20 lemmas, part b: the scan for xi:fallback children of one xi:include element (two of them are an error); the
    predicates in which T20_loop_iff is stated. *)
From Coq Require Import NArith List Bool.
Import ListNotations.
From XV Require Import C20.Spec20 C20.Model20.
Local Open Scope N_scope.

Section One.
Variable fs : fsys.
Variable docuri : path.
Variables fixb fixn fixc : bool.
Notation IR := (inc_resolve fs docuri fixb fixn fixc).

Lemma err_multi : forall hist base at_ kids, scan_fallback kids None = FS_multi ->
  IR hist base at_ kids = (IR_fail, [E_MultipleFallbackElems]).
Proof. intros. unfold inc_resolve. rewrite H. reflexivity. Qed.
Lemma err_disallowed : forall hist base at_ kids, scan_fallback kids None = FS_disallowed ->
  IR hist base at_ kids = (IR_fail, [E_DisallowedChild]).
Proof. intros. unfold inc_resolve. rewrite H. reflexivity. Qed.

(** two xi:fallback children (nothing from the XInclude namespace before the second one) *)
Definition notxi (n : node) : Prop := match n with Elem ns _ _ _ => (ns =? NS_XI) = false | _ => True end.
Lemma scan_skip : forall pre rest found, Forall notxi pre -> scan_fallback (pre ++ rest) found = scan_fallback rest found.
Proof.
  induction pre as [|n pre IH]; intros rest found H; [reflexivity|]. inversion H as [|n' l Hn Hl]; subst.
  cbn [app scan_fallback]. destruct n as [ns nm a k|t|t]; try (apply IH; exact Hl).
  cbn [notxi] in Hn. unfold is_fallback. rewrite Hn. cbn [andb]. apply IH. exact Hl.
Qed.
Lemma scan_two_fallbacks : forall pre a1 k1 mid a2 k2 post, Forall notxi pre -> Forall notxi mid ->
  scan_fallback (pre ++ Elem NS_XI s_fallback a1 k1 :: mid ++ Elem NS_XI s_fallback a2 k2 :: post) None = FS_multi.
Proof.
  intros. rewrite scan_skip by assumption. cbn [scan_fallback]. change (is_fallback NS_XI s_fallback) with true.
  cbv iota. rewrite scan_skip by assumption. cbn [scan_fallback]. change (is_fallback NS_XI s_fallback) with true. reflexivity.
Qed.

(** loop detection at one xi:include: the loop codes are reported exactly when a valid parse="xml" include
    designates a document that is on the history stack or is the document being processed *)
Definition is_loop_err (e : err) : bool :=
  match e with E_CircularInclusionLoop | E_CircularInclusionDocIncludesSelf => true | _ => false end.
Definition loop_condition (hist : list path) (base : path) (at_ : list attr) (kids : list node) : bool :=
  match scan_fallback kids None, get_attr NS_NONE s_href at_, get_attr NS_NONE s_xpointer at_ with
  | FS_ok _, Some h, None =>
    str_eqb (match get_attr NS_NONE s_parse at_ with Some p => p | None => s_xml end) s_xml &&
    (path_mem (resolve (elem_base base at_) (split_slash h)) hist ||
     path_eqb (resolve (elem_base base at_) (split_slash h)) docuri)
  | _, _, _ => false
  end.
End One.
