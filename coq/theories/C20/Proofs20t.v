(** C20 lemmas, part t: the read / transcode loop [Text20.text_rounds] on one given file.  What the loop holds depends
    only on how many bytes it has read, not on how they were cut into reads: for a given file that is a table of states
    by position with a check of every pass from every position ([passes_ok]), and every schedule of non-empty reads
    walks through the table to the end of the file ([rounds_ok_any_schedule]).  Only the table is ever evaluated. *)
From Coq Require Import NArith List Bool Arith Lia.
Import ListNotations.
From XV Require Import C20.Text20.
Local Open Scope N_scope.

Lemma list_beq_eq : forall a b, list_beq a b = true <-> a = b.
Proof.
  induction a as [|x a IH]; destruct b as [|y b]; cbn [list_beq]; try (split; (reflexivity || discriminate)).
  rewrite andb_true_iff, N.eqb_eq, IH. split; [intros [-> ->]; reflexivity|intros [= -> ->]; split; reflexivity].
Qed.

Lemma skipn_add : forall (l : list N) p n, skipn n (skipn p l) = skipn (p + n) l.
Proof.
  intros l p. revert l. induction p as [|p IH]; intros l n; [reflexivity|].
  destruct l as [|x l]; [rewrite !skipn_nil; reflexivity|apply IH].
Qed.

Section Rounds.
Variables (e : tenc) (room : nat) (file : list N).
(** [st]: at index [p] what the loop holds once the first [p] bytes have been read: the text so far and the bytes
    the transcoder left over *)
Variable st : list (list N * list N).
Definition at_pos (p : nat) : list N * list N := nth p st ([], []).

(** the pass through the loop body that reads [n] more bytes at position [p] does not break off and leads to the
    state tabulated for [p + n] *)
Definition pass_ok (p n : nat) : bool :=
  let buf := snd (at_pos p) ++ firstn n (skipn p file) in
  match decode_block e (2 * room) buf with
  | Some (out, eaten) =>
    negb (Nat.eqb eaten 0 && Nat.eqb (length buf) room) &&
    list_beq (fst (at_pos p) ++ out) (fst (at_pos (p + n))) && list_beq (skipn eaten buf) (snd (at_pos (p + n)))
  | None => false
  end.
Definition passes_ok : bool :=
  Nat.leb 1 room &&
  forallb (fun p => let held := length (snd (at_pos p)) in
                    Nat.ltb held room && forallb (pass_ok p) (seq 1 (Nat.min (room - held) (length file - p))))
          (seq 0 (length file)) &&
  match at_pos 0, decode_whole e file with
  | ([], []), Some whole => list_beq (fst (at_pos (length file))) whole
  | _, _ => false
  end.

Hypothesis OK : passes_ok = true.

Lemma passes_ok_spec :
  (1 <= room)%nat /\
  (forall p, (p < length file)%nat ->
     (length (snd (at_pos p)) < room)%nat /\
     forall n, (1 <= n <= Nat.min (room - length (snd (at_pos p))) (length file - p))%nat -> pass_ok p n = true) /\
  match at_pos 0, decode_whole e file with
  | ([], []), Some whole => list_beq (fst (at_pos (length file))) whole
  | _, _ => false
  end = true.
Proof.
  pose proof OK as A. unfold passes_ok in A. rewrite !andb_true_iff, Nat.leb_le, forallb_forall in A.
  destruct A as [[R A] B]. split; [exact R|]. split; [|exact B]. intros p Hp. specialize (A p). cbv zeta in A.
  rewrite in_seq, andb_true_iff, Nat.ltb_lt, forallb_forall in A. destruct (A ltac:(lia)) as [A1 A2].
  split; [exact A1|]. intros n Hn. apply A2. apply in_seq. lia.
Qed.

Lemma pass_spec : forall p n, (p < length file)%nat -> (1 <= n <= Nat.min (room - length (snd (at_pos p))) (length file - p))%nat ->
  let buf := snd (at_pos p) ++ firstn n (skipn p file) in
  exists out eaten, decode_block e (2 * room) buf = Some (out, eaten) /\
                    Nat.eqb eaten 0 && Nat.eqb (length buf) room = false /\
                    fst (at_pos p) ++ out = fst (at_pos (p + n)) /\ skipn eaten buf = snd (at_pos (p + n)).
Proof.
  intros p n Hp Hn buf. destruct passes_ok_spec as (_ & A & _). destruct (A p Hp) as [_ A2]. specialize (A2 n Hn).
  unfold pass_ok in A2. fold buf in A2. destruct (decode_block e (2 * room) buf) as [[out eaten]|]; [|discriminate].
  rewrite !andb_true_iff, negb_true_iff, !list_beq_eq in A2. exists out, eaten. tauto.
Qed.
Lemma carry_fits : forall p, (p < length file)%nat -> (length (snd (at_pos p)) < room)%nat.
Proof. intros p Hp. destruct passes_ok_spec as (_ & A & _). exact (proj1 (A p Hp)). Qed.

Lemma rounds_from : forall sched p,
  Forall (fun w => 1 <= w)%nat sched -> (p <= length file)%nat ->
  exists q, text_rounds e room sched (skipn p file) (snd (at_pos p)) (fst (at_pos p)) = Some (fst (at_pos q)) /\
            (q <= length file)%nat /\ (q = length file \/ p + length sched <= q)%nat.
Proof.
  induction sched as [|w rest IH]; intros p Hw Hp.
  - exists p. cbn [text_rounds length]. repeat split; trivial. right. lia.
  - inversion Hw as [|w' r' W1 W2]; subst. cbn [text_rounds]. rewrite skipn_length.
    set (n := Nat.min (Nat.min w (room - length (snd (at_pos p)))) (length file - p)).
    destruct (Nat.eq_dec p (length file)) as [E|NE].
    + replace n with O by lia. exists p. repeat split; trivial. left; exact E.
    + pose proof (carry_fits p ltac:(lia)) as CF.
      assert (Bn : (1 <= n <= Nat.min (room - length (snd (at_pos p))) (length file - p))%nat) by (unfold n; lia).
      clearbody n. destruct (pass_spec p n ltac:(lia) Bn) as (out & eaten & -> & -> & -> & ->).
      destruct (Nat.eqb n 0) eqn:N0; [apply Nat.eqb_eq in N0; lia|]. rewrite skipn_add.
      destruct (IH (p + n)%nat W2 ltac:(lia)) as (q & R & Q1 & Q2).
      exists q. repeat split; trivial. cbn [length]. lia.
Qed.

Theorem rounds_ok_any_schedule : forall sched, Forall (fun w => 1 <= w)%nat sched -> rounds_ok e room file sched = true.
Proof.
  intros sched Hs. destruct passes_ok_spec as (R & _ & B).
  destruct (rounds_from (sched ++ repeat room (S (length file))) 0) as (q & T & Q1 & Q2).
  - apply Forall_app. split; [exact Hs|]. apply Forall_forall. intros w Hw. apply repeat_spec in Hw. lia.
  - lia.
  - assert (q = length file). { rewrite app_length, repeat_length in Q2. lia. } subst q.
    unfold rounds_ok. cbn [skipn] in T. destruct (at_pos 0) as [[|] [|]]; try discriminate. cbn [fst snd] in T. rewrite T.
    destruct (decode_whole e file); [exact B|discriminate].
Qed.
End Rounds.

(** the table: the states the loop goes through when it is given one byte at a time *)
Fixpoint trace (e : tenc) (room : nat) (file carry acc : list N) : list (list N * list N) :=
  (acc, carry) :: match file with
                  | [] => []
                  | b :: r => match decode_block e (2 * room) (carry ++ [b]) with
                              | Some (out, eaten) => trace e room r (skipn eaten (carry ++ [b])) (acc ++ out)
                              | None => []
                              end
                  end.

Lemma schedules_pos : forall k n s, In s (schedules k n) -> Forall (fun w => 1 <= w)%nat s.
Proof.
  induction n as [|n IH]; intros s H; cbn [schedules] in H.
  - destruct H as [<-|[]]. constructor.
  - apply in_flat_map in H. destruct H as (r & Hr & H). apply in_map_iff in H. destruct H as (w & <- & _).
    constructor; [lia|exact (IH r Hr)].
Qed.

Lemma sweep_ok : forall e room file k n,
  passes_ok e room file (trace e room file [] []) = true -> forallb (rounds_ok e room file) (schedules k n) = true.
Proof.
  intros e room file k n OK. apply forallb_forall. intros s H.
  exact (rounds_ok_any_schedule e room file _ OK s (schedules_pos k n s H)).
Qed.
