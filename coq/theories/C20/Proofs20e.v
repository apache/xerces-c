(** C20 lemmas, part e: whole documents.  [xi_docproc] is the document-level walk of the document element; unless
    that walk meets the DOMException it is the plain walk and hands back a legal Document child list.  The parser-driven
    (end-tag, post-order) processing of the repaired code coincides with the pre-order walk on documents whose
    xi:include elements have only xi:fallback element children. *)
From Coq Require Import NArith List Bool Lia Arith.
Import ListNotations.
From XV Require Import C20.Spec20 C20.Model20 C20.Hyps20 C20.Proofs20a C20.Proofs20d.
Local Open Scope N_scope.

Lemma count_elem_app : forall a b, count_elem_nodes (a ++ b) = (count_elem_nodes a + count_elem_nodes b)%nat.
Proof. induction a as [|n a IH]; intros b; [reflexivity|]. destruct n; cbn [app count_elem_nodes]; rewrite IH; reflexivity. Qed.
Lemma has_text_app : forall a b, has_text_node (a ++ b) = has_text_node a || has_text_node b.
Proof.
  induction a as [|n a IH]; intros b; [reflexivity|]. destruct n; cbn [app has_text_node]; auto.
  rewrite IH, orb_assoc. reflexivity.
Qed.
Lemma doc_kids_ok_spec : forall l, doc_kids_ok l = true <-> has_text_node l = false /\ (count_elem_nodes l <= 1)%nat.
Proof. intros l. unfold doc_kids_ok. rewrite andb_true_iff, negb_true_iff, Nat.leb_le. tauto. Qed.

Lemma split_root_spec : forall l acc pre root post, split_root acc l = Some (pre, root, post) ->
  rev acc ++ l = pre ++ [root] ++ post /\ count_elem_nodes pre = count_elem_nodes (rev acc).
Proof.
  induction l as [|n l IH]; intros acc pre root post H; cbn [split_root] in H; [discriminate|].
  destruct n as [ns nm a k|t|t]; [inversion H; subst; split; reflexivity| |];
    apply IH in H; cbn [rev] in H; rewrite <- app_assoc, count_elem_app, Nat.add_0_r in H; exact H.
Qed.
Lemma doc_parts : forall top pre ns nm a k post,
  split_root [] top = Some (pre, Elem ns nm a k, post) -> has_text_node top = false -> (count_elem_nodes top <= 1)%nat ->
  top = pre ++ [Elem ns nm a k] ++ post /\ count_elem_nodes pre = O /\ count_elem_nodes post = O /\
  has_text_node pre = false /\ has_text_node post = false.
Proof.
  intros top pre ns nm a k post SR HT CL. destruct (split_root_spec _ _ _ _ _ SR) as [ET CP]. cbn [rev app] in ET, CP.
  rewrite ET, !has_text_app in HT. rewrite ET, !count_elem_app in CL. cbn [has_text_node count_elem_nodes] in HT, CL.
  apply orb_false_iff in HT. destruct HT as [HT1 HT2]. repeat split; trivial; lia.
Qed.
Lemma split_root_in : forall top pre root post, split_root [] top = Some (pre, root, post) -> In root top.
Proof.
  intros top pre root post SR. apply split_root_spec in SR. cbn [rev app] in SR. rewrite (proj1 SR).
  apply in_or_app. right. left. reflexivity.
Qed.

Lemma cut_at_exc_spec : forall l,
  incl (fst (cut_at_exc l)) l /\
  if snd (cut_at_exc l) then In E_HierarchyExc l else fst (cut_at_exc l) = l /\ ~ In E_HierarchyExc l.
Proof.
  induction l as [|x l [I1 I2]]; [split; [apply incl_refl|split; [reflexivity|intros []]]|]. cbn [cut_at_exc].
  (* the marker itself: nothing is kept and it is in the list; any other code is kept and the claim passes to the tail *)
  destruct x; try (split; [intros y []|left; reflexivity]);
    (destruct (cut_at_exc l) as [a b]; cbn [fst snd] in *;
     split; [apply incl_cons; [left; reflexivity|apply incl_tl; exact I1]|]; destruct b; [right; exact I2|];
     destruct I2 as [-> N]; split; [reflexivity|intros [E|E]; [discriminate|exact (N E)]]).
Qed.
Lemma finish_cases : forall d e,
  (In E_HierarchyExc e /\ finish (d, e) = (D_hierarchy_exc, fst (cut_at_exc e))) \/
  (~ In E_HierarchyExc e /\ finish (d, e) = (d, e)).
Proof.
  intros d e. unfold finish. cbn [snd]. destruct (cut_at_exc_spec e) as [_ C].
  destruct (cut_at_exc e) as [es [|]]; cbn [fst snd] in *; [left|right]; tauto.
Qed.
Lemma finish_exc : forall d e, In E_HierarchyExc e -> finish (d, e) = (D_hierarchy_exc, fst (cut_at_exc e)).
Proof. intros d e H. destruct (finish_cases d e) as [[_ E]|[N _]]; [exact E|destruct (N H)]. Qed.
Lemma finish_sub : forall r x, In x (snd (finish r)) -> In x (snd r).
Proof.
  intros [d e] x. destruct (finish_cases d e) as [[_ ->]|[_ ->]]; [|trivial]. apply (proj1 (cut_at_exc_spec e)).
Qed.

Section Doc.
Variable fs : fsys.
Variable docuri : path.
Variables fixb fixn fixc : bool.
Notation W := (walk fs docuri fixb fixn fixc).

Lemma walk_no_exc : forall fuel hist base n, ~ In E_HierarchyExc (snd (W fuel false hist base n)).
Proof.
  induction fuel as [|f IH]; intros hist base n; (destruct n as [ns nm a k|s|s]; [|intros []..]).
  - cbn. intuition discriminate.
  - rewrite walk_S_elem. destruct (is_include ns nm).
    + pose proof (fun HI => proj2 (inc_resolve_errs fs docuri fixb fixn fixc hist base a k E_HierarchyExc HI) eq_refl) as NE.
      unfold walk_inc. destruct (inc_resolve fs docuri fixb fixn fixc hist base a k) as [[|nodes h'] e]; cbn [snd andb] in *; [exact NE|].
      rewrite in_app_iff, in_walk_list. intros [HI|(c & _ & HI)]; [exact (NE HI)|exact (IH _ _ _ HI)].
    + destruct (is_fallback ns nm); cbn [snd]; [cbn; intuition discriminate|].
      rewrite in_walk_list. intros (c & _ & HI). exact (IH _ _ _ HI).
Qed.

Lemma walk_doc_elem : forall f hist base ns nm a k, is_include ns nm = false ->
  W f true hist base (Elem ns nm a k) = W f false hist base (Elem ns nm a k) /\
  count_elem_nodes (fst (W f false hist base (Elem ns nm a k))) = 1%nat.
Proof.
  intros f hist base ns nm a k NI. destruct f; [split; reflexivity|]. rewrite !walk_S_elem, NI.
  destruct (is_fallback ns nm); split; reflexivity.
Qed.

Lemma walk_list_shape : forall (g : node -> list node * list err) l,
  has_text_node l = false ->
  (forall c, In c l -> match c with
                       | Elem _ _ _ _ => doc_kids_ok (fst (g c)) = true
                       | _ => g c = ([c], [])
                       end) ->
  has_text_node (fst (walk_list g l)) = false /\
  (count_elem_nodes (fst (walk_list g l)) <= count_elem_nodes l)%nat.
Proof.
  intros g l. induction l as [|n l IH]; intros HT H; [split; [reflexivity|cbn; lia]|].
  rewrite walk_list_cons. cbn [fst]. rewrite has_text_app, count_elem_app.
  pose proof (H n (or_introl eq_refl)) as Hn. change (n :: l) with ([n] ++ l) in HT. rewrite has_text_app in HT.
  apply orb_false_iff in HT. destruct HT as [HW HT']. destruct (IH HT' (fun c Hc => H c (or_intror Hc))) as [I1 I2].
  destruct n as [ns nm a k|s|s]; [apply doc_kids_ok_spec in Hn; destruct Hn as [A B]; rewrite A|rewrite Hn; cbn [fst]; rewrite HW..];
    cbn [count_elem_nodes orb]; (split; [exact I1|lia]).
Qed.

(** at the document level the only difference is the DOMException: without it the walk is the plain walk, and
    what replaces a document-level node is a document-level list *)
Lemma walk_at_doc : forall f hist base n,
  ~ In E_HierarchyExc (snd (W f true hist base n)) ->
  W f true hist base n = W f false hist base n /\
  match n with
  | Elem _ _ _ _ => doc_kids_ok (fst (W f false hist base n)) = true
  | _ => W f false hist base n = ([n], [])
  end.
Proof.
  induction f as [|f IH]; intros hist base n H; (destruct n as [ns nm a k|s|s]; [|split; reflexivity..]); [split; reflexivity|].
  rewrite !walk_S_elem in *. destruct (is_include ns nm); [|destruct (is_fallback ns nm); split; reflexivity].
  unfold walk_inc in *. destruct (inc_resolve fs docuri fixb fixn fixc hist base a k) as [[|nodes h'] e]; [split; reflexivity|].
  cbn [andb] in *. destruct (doc_kids_ok nodes) eqn:DK; cbn [negb fst snd] in *; rewrite in_app_iff in H.
  2:{ exfalso. apply H. right. left. reflexivity. }
  assert (E : walk_list (W f true h' base) nodes = walk_list (W f false h' base) nodes).
  { symmetry. apply (walk_list_agree _ _ E_HierarchyExc); [|tauto]. intros c _ Hc. symmetry. apply IH. exact Hc. }
  rewrite E in *. split; [reflexivity|]. apply doc_kids_ok_spec in DK. destruct DK as [D1 D2]. apply doc_kids_ok_spec.
  destruct (walk_list_shape (W f false h' base) nodes D1) as [S1 S2]; [|split; [exact S1|lia]].
  intros c Hc. rewrite <- E in H. destruct (IH h' base c) as [_ SH]; [|exact SH].
  intro HI. apply H. right. apply in_walk_list. eauto.
Qed.
End Doc.

Lemma top_fuel_ok : forall fs fixb fixn fixc uri top atdoc base c, In c top ->
  ~ In E_Fuel (snd (walk fs uri fixb fixn fixc (enough_fuel fs top) atdoc [] base c)).
Proof.
  intros fs fixb fixn fixc uri top atdoc base c Hc. apply in_nodes_size in Hc.
  pose proof (max_size_top fs top). pose proof (files_left_le fs []).
  apply (walk_fuel_ok fs uri fixb fixn fixc top); [lia|]. unfold enough_fuel. nia.
Qed.

Lemma docproc_as_walk : forall fs fixb fixn fixc uri top pre ns nm a k post,
  split_root [] top = Some (pre, Elem ns nm a k, post) ->
  xi_docproc fs fixb fixn fixc uri top =
  finish (D_ok (pre ++ fst (walk fs uri fixb fixn fixc (enough_fuel fs top) true [] uri (Elem ns nm a k)) ++ post),
          snd (walk fs uri fixb fixn fixc (enough_fuel fs top) true [] uri (Elem ns nm a k))).
Proof.
  intros fs fixb fixn fixc uri top pre ns nm a k post SR.
  pose proof (walk_more_fuel _ _ _ _ _ _ _ _ _ _ (top_fuel_ok fs fixb fixn fixc uri top true uri _ (split_root_in _ _ _ _ SR))) as MONO.
  unfold xi_docproc. rewrite SR. set (F := enough_fuel fs top) in *. unfold root_step.
  destruct (is_include ns nm) eqn:II; [|destruct (walk _ _ _ _ _ F true [] uri _); reflexivity].
  rewrite <- MONO, walk_S_elem, II. unfold walk_inc. cbn [fst snd app].
  destruct (inc_resolve fs uri fixb fixn fixc [] uri a k) as [[|nodes h'] e]; [reflexivity|].
  cbn [andb]. destruct (doc_kids_ok nodes); cbn [negb fst snd].
  - destruct (walk_list _ nodes); reflexivity.
  - rewrite !finish_exc by (apply in_or_app; right; left; reflexivity). reflexivity.
Qed.

Lemma docproc_cases : forall fs fixb fixn fixc uri top pre ns nm a k post,
  split_root [] top = Some (pre, Elem ns nm a k, post) ->
  let w := walk fs uri fixb fixn fixc (enough_fuel fs top) in
  (In E_HierarchyExc (snd (w true [] uri (Elem ns nm a k))) /\ fst (xi_docproc fs fixb fixn fixc uri top) = D_hierarchy_exc) \/
  (xi_docproc fs fixb fixn fixc uri top =
   (D_ok (pre ++ fst (w false [] uri (Elem ns nm a k)) ++ post), snd (w false [] uri (Elem ns nm a k))) /\
   doc_kids_ok (fst (w false [] uri (Elem ns nm a k))) = true).
Proof.
  intros fs fixb fixn fixc uri top pre ns nm a k post SR w. rewrite (docproc_as_walk _ _ _ _ _ _ _ _ _ _ _ _ SR). fold w.
  destruct (finish_cases (D_ok (pre ++ fst (w true [] uri (Elem ns nm a k)) ++ post)) (snd (w true [] uri (Elem ns nm a k))))
    as [[HX ->]|[NX ->]]; [left; split; [exact HX|reflexivity]|right].
  destruct (walk_at_doc _ _ _ _ _ _ _ _ _ NX) as [WF SH]. unfold w in *. rewrite WF. split; [reflexivity|exact SH].
Qed.

Lemma annot_counts : forall base l,
  count_elems (map (annot base) l) = count_elem_nodes l /\
  (has_text_node l = false -> has_text (map (annot base) l) = false).
Proof.
  intros base. induction l as [|n l [I1 I2]]; [split; reflexivity|].
  destruct n; cbn [map annot count_elems count_elem_nodes has_text has_text_node]; split; auto.
  intros H. apply orb_false_iff in H. destruct H as [H1 H2]. rewrite (I2 H2).
  apply negb_false_iff in H1. destruct s; [discriminate|]. cbn [doc_text_ok] in H1. rewrite H1. reflexivity.
Qed.

Lemma annot_doc : forall uri pre r post,
  count_elem_nodes pre = O -> count_elem_nodes post = O -> has_text_node pre = false -> has_text_node post = false ->
  has_text_node r = false ->
  has_text (map (annot uri) (pre ++ r ++ post)) = false /\
  count_elems (map (annot uri) (pre ++ r ++ post)) = count_elem_nodes r.
Proof.
  intros uri pre r post CP CPost T1 T2 TR. destruct (annot_counts uri (pre ++ r ++ post)) as [C1 C2].
  rewrite C1, C2, !count_elem_app, CP, CPost; [split; [reflexivity|lia]|]. rewrite !has_text_app, T1, T2, TR. reflexivity.
Qed.

Lemma walk_list_nonelem : forall fs docuri fixb fixn fixc fuel atdoc hist base l, count_elem_nodes l = O ->
  walk_list (walk fs docuri fixb fixn fixc fuel atdoc hist base) l = (l, []).
Proof.
  intros fs docuri fixb fixn fixc fuel atdoc hist base. induction l as [|n l IH]; intros H; [reflexivity|].
  rewrite walk_list_cons. destruct n as [ns nm a k|t|t]; cbn [count_elem_nodes] in H; [discriminate| |];
    rewrite (IH H), walk_leaf; reflexivity.
Qed.

Lemma walk_list_doc : forall fs docuri fixb fixn fixc fuel atdoc hist base pre root post,
  count_elem_nodes pre = O -> count_elem_nodes post = O ->
  walk_list (walk fs docuri fixb fixn fixc fuel atdoc hist base) (pre ++ [root] ++ post) =
  (pre ++ fst (walk fs docuri fixb fixn fixc fuel atdoc hist base root) ++ post,
   snd (walk fs docuri fixb fixn fixc fuel atdoc hist base root)).
Proof.
  intros fs docuri fixb fixn fixc fuel atdoc hist base pre root post CP CPost.
  rewrite !walk_list_app, (walk_list_nonelem _ _ _ _ _ _ _ _ _ pre CP), (walk_list_nonelem _ _ _ _ _ _ _ _ _ post CPost), walk_list_cons.
  cbn [fst snd walk_list fold_right]. rewrite !app_nil_r. reflexivity.
Qed.

Lemma top_agrees : forall fs uri top pre ns nm a k post,
  clean_fs fs = true -> forallb clean_node top = true ->
  top = pre ++ [Elem ns nm a k] ++ post -> count_elem_nodes pre = O -> count_elem_nodes post = O ->
  let w := walk fs uri true true true (enough_fuel fs top) false [] uri in
  agrees uri (pre ++ fst (w (Elem ns nm a k)) ++ post, snd (w (Elem ns nm a k)))
         (smap (xi_spec fs (enough_fuel fs top) [uri] uri) top).
Proof.
  intros fs uri top pre ns nm a k post CFS CN ET CP CPost w. unfold w.
  rewrite <- (walk_list_doc _ _ _ _ _ _ _ _ _ pre _ post CP CPost), <- ET.
  exact (sim_walk_list fs uri CFS (enough_fuel fs top) [] uri uri top top (sim_refl_list uri top CN)).
Qed.

(** the plain walk of the document element, when it gives a legal child list, against [xi_spec_doc] *)
Lemma root_vs_spec : forall fs uri top pre ns nm a k post,
  clean_fs fs = true -> clean_doc top = true -> has_text_node top = false ->
  split_root [] top = Some (pre, Elem ns nm a k, post) ->
  let w := walk fs uri true true true (enough_fuel fs top) false [] uri (Elem ns nm a k) in
  doc_kids_ok (fst w) = true ->
  match xi_spec_doc fs (enough_fuel fs top) uri top with
  | inr t => existsb is_fatal (snd w) = false /\ map (annot uri) (pre ++ fst w ++ post) = t
  | inl x => x <> XE_Fuel /\
             (reports x (snd w) \/ x = XE_RootShape /\ count_elem_nodes (pre ++ fst w ++ post) = O)
  end.
Proof.
  intros fs uri top pre ns nm a k post CFS CD HT SR w DK. destruct (clean_doc_spec top CD) as [CN CL].
  destruct (doc_parts _ _ _ _ _ _ _ SR HT CL) as (ET & CP & CPost & HT1 & HT2).
  pose proof (top_fuel_ok fs true true true uri top false uri _ (split_root_in _ _ _ _ SR)) as NF.
  pose proof (top_agrees fs uri top pre ns nm a k post CFS CN ET CP CPost) as AL. cbv zeta in AL. fold w in NF, AL.
  unfold xi_spec_doc. destruct (smap (xi_spec fs _ [uri] uri) top) as [x|l].
  - split; [intros ->; exact (NF AL)|left; exact AL].
  - destruct AL as [A1 A2]. apply doc_kids_ok_spec in DK. cbn [fst snd] in A1, A2.
    destruct (annot_doc uri pre _ post CP CPost HT1 HT2 (proj1 DK)) as [T C]. rewrite A2 in T, C. rewrite T, C. cbn [orb].
    destruct (Nat.eqb _ 1) eqn:C1; cbn [negb]; [split; assumption|]. split; [discriminate|]. right. split; [reflexivity|].
    rewrite !count_elem_app, CP, CPost. apply Nat.eqb_neq in C1. lia.
Qed.

Section NodeInd.
Variable P : node -> Prop.
Hypothesis HE : forall ns nm a k, Forall P k -> P (Elem ns nm a k).
Hypothesis HT : forall s, P (Text s).
Hypothesis HC : forall s, P (Comment s).
Fixpoint node_ind' (n : node) : P n :=
  match n with
  | Elem ns nm a k =>
    HE ns nm a k ((fix go (l : list node) : Forall P l :=
                     match l with [] => Forall_nil P | x :: r => Forall_cons x (node_ind' x) (go r) end) k)
  | Text s => HT s
  | Comment s => HC s
  end.
End NodeInd.

Lemma fallback_not_include : forall ns nm, is_fallback ns nm = true -> is_include ns nm = false.
Proof.
  intros ns nm H. unfold is_fallback, is_include in *. apply andb_true_iff in H. destruct H as [H1 H2].
  apply str_eqb_eq in H2. subst nm. rewrite H1. reflexivity.
Qed.

Section TW.
Variable fs : fsys.
Variable docuri : path.
Variables fixb fixn fixc : bool.
Notation W := (walk fs docuri fixb fixn fixc).
Notation TWK := (top_walk fs docuri fixb fixn fixc true).

(** the children loop of [top_walk] is [walk_list] *)
Lemma go_walk_list : forall (g : node -> list node * list err) l,
  (fix go (l : list node) : list node * list err :=
     match l with
     | [] => ([], [])
     | k :: r => let (a, ea) := g k in let (b, eb) := go r in (a ++ b, ea ++ eb)
     end) l = walk_list g l.
Proof.
  intros g l. induction l as [|n l IH]; [reflexivity|]. rewrite walk_list_cons, IH.
  destruct (g n), (walk_list g l). reflexivity.
Qed.

Lemma top_walk_unfold : forall F pns base ns nm a k,
  TWK F pns base (Elem ns nm a k) =
  (let kr := if true && is_fallback ns nm then (k, []) else walk_list (TWK F ns (elem_base base a)) k in
   if is_include ns nm then
     let r := walk_inc (fun hist' => W F false hist' base) false ns nm a (fst kr)
                       (inc_resolve fs docuri fixb fixn fixc [] base a (fst kr)) in
     (fst r, snd kr ++ snd r)
   else if is_fallback ns nm && negb (pns =? NS_XI) then ([Elem ns nm a (fst kr)], snd kr ++ [E_OrphanFallback])
   else ([Elem ns nm a (fst kr)], snd kr)).
Proof.
  intros. cbn [top_walk]. rewrite go_walk_list. cbv zeta. destruct (is_include ns nm); [|reflexivity]. unfold walk_inc.
  destruct (inc_resolve _ _ _ _ _ _ _ _ _) as [[|nodes h'] e]; [reflexivity|]. destruct (walk_list _ nodes); reflexivity.
Qed.

Lemma top_walk_leafkids : forall F base k, forallb fb_or_leaf k = true ->
  walk_list (TWK F NS_XI base) k = (k, []).
Proof.
  intros F base k. induction k as [|c k IH]; intros H; [reflexivity|]. cbn [forallb] in H.
  apply andb_true_iff in H. destruct H as [Hc Hk]. rewrite walk_list_cons, (IH Hk).
  destruct c as [cns cnm ca ck|s|s]; [|reflexivity|reflexivity]. cbn [fb_or_leaf] in Hc.
  rewrite top_walk_unfold. rewrite Hc, (fallback_not_include _ _ Hc). cbn. reflexivity.
Qed.

(** on a [simple] node the end-tag driven processing does what the pre-order walk does with one unit of fuel less
    per level, which makes no difference once the walk has fuel enough *)
Lemma top_walk_eq : forall n, simple n = true -> forall F pns base,
  (match n with Elem ns nm _ _ => is_fallback ns nm = true -> (pns =? NS_XI) = false | _ => True end) ->
  ~ In E_Fuel (snd (W F false [] base n)) ->
  TWK F pns base n = W F false [] base n.
Proof.
  induction n as [ns nm a k IHk|s|s] using node_ind'; intros SI F pns base HP NF;
    [|destruct F; reflexivity..].
  destruct F as [|f]; [exfalso; apply NF; left; reflexivity|].
  rewrite top_walk_unfold. cbn [simple] in SI. rewrite walk_S_elem in NF |- *. destruct (is_include ns nm) eqn:II.
  - assert (NFB : is_fallback ns nm = false).
    { destruct (is_fallback ns nm) eqn:E; [|reflexivity]. rewrite (fallback_not_include _ _ E) in II. discriminate. }
    assert (XI : ns = NS_XI) by (apply andb_true_iff in II; apply N.eqb_eq; exact (proj1 II)).
    subst ns. rewrite NFB. cbn [andb]. rewrite (top_walk_leafkids (S f) (elem_base base a) k SI). cbn [fst snd app].
    unfold walk_inc in *. destruct (inc_resolve fs docuri fixb fixn fixc [] base a k) as [[|nodes h'] e]; [reflexivity|].
    cbn [andb fst snd] in *. rewrite in_app_iff in NF.
    rewrite (walk_list_agree _ _ E_Fuel nodes (fun c _ => walk_more_fuel _ _ _ _ _ f false h' base c)); tauto.
  - destruct (is_fallback ns nm) eqn:IF; cbn [andb fst snd app]; [rewrite (HP eq_refl); reflexivity|].
    apply andb_true_iff in SI. destruct SI as [S1 S2]. apply negb_true_iff in S1. cbn [snd] in NF.
    rewrite (walk_list_agree (TWK (S f) ns (elem_base base a)) (W f false [] (elem_base base a)) E_Fuel k); [reflexivity| |exact NF].
    intros c Hc NFc. rewrite Forall_forall in IHk. rewrite forallb_forall in S2.
    rewrite (IHk c Hc (S2 c Hc) (S f) ns (elem_base base a)); [apply walk_more_fuel; exact NFc| |rewrite walk_more_fuel; exact NFc].
    destruct c; [intros _; exact S1|exact I|exact I].
Qed.

Lemma inc_resolve_unused_fallback : forall hist base a kids kids' fb fb' r,
  scan_fallback kids None = FS_ok fb -> scan_fallback kids' None = FS_ok fb' ->
  inc_resolve fs docuri fixb fixn fixc hist base a kids = (r, []) ->
  inc_resolve fs docuri fixb fixn fixc hist base a kids' = (r, []).
Proof.
  intros hist base a kids kids' fb fb' r S1 S2 H. rewrite inc_resolve_unfold in *. rewrite S1 in H. rewrite S2.
  destruct (get_attr NS_NONE s_href a) as [href|]; [|discriminate].
  destruct (get_attr NS_NONE s_xpointer a); [discriminate|]. cbv zeta in *.
  (* the fallback is consulted only after a resource error, which leaves a diagnostic *)
  assert (FB : forall e0 (x : inc_result * list err),
             inc_failed fixn hist base (elem_base base a) (get_base_attr a) fb e0 = (r, []) -> x = (r, [])).
  { intros e0 x HF. exfalso. destruct fb as [[? ?]|]; inversion HF as [[A B]]; destruct e0; discriminate. }
  destruct (str_eqb _ s_xml).
  - destruct (path_mem _ hist); [eapply FB; exact H|].
    destruct (path_eqb _ docuri); [eapply FB; exact H|].
    destruct (fetch fs fixn _ _) as [[?|?|]|]; try (eapply FB; exact H). exact H.
  - destruct (str_eqb _ s_text); [|discriminate].
    destruct (negb _); [eapply FB; exact H|].
    destruct (fetch fs fixn _ _) as [[?|?|]|]; try (eapply FB; exact H). exact H.
Qed.
End TW.

(** XercesDOMParser / DOMLSParser with the repaired end-tag rule = XIncludeDOMDocumentProcessor; below an xi:include as
    document element there is nothing for the end-tag pass to do *)
Lemma parser_eq_docproc : forall fs fixb fixn fixc uri top pre ns nm a k post,
  split_root [] top = Some (pre, Elem ns nm a k, post) -> simple (Elem ns nm a k) = true ->
  xi_parser fs fixb fixn fixc true uri top = xi_docproc fs fixb fixn fixc uri top.
Proof.
  intros fs fixb fixn fixc uri top pre ns nm a k post SR SI. unfold xi_parser, xi_docproc. rewrite SR. f_equal.
  unfold root_step. destruct (is_include ns nm) eqn:II.
  - cbn [simple] in SI. rewrite II in SI. apply andb_true_iff in II. destruct II as [II _]. apply N.eqb_eq in II. subst ns.
    rewrite (top_walk_leafkids _ _ _ _ _ _ _ k SI). reflexivity.
  - rewrite (proj1 (walk_doc_elem fs uri fixb fixn fixc _ [] uri ns nm a k II)).
    rewrite (top_walk_eq fs uri fixb fixn fixc _ SI _ NS_NONE uri (fun _ => eq_refl)
                         (top_fuel_ok fs fixb fixn fixc uri top false uri _ (split_root_in _ _ _ _ SR))).
    reflexivity.
Qed.
