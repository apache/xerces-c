(** C20 lemmas, part a: decidable equalities, sizes and the fuel measure, the ways one xi:include can come out,
    termination of the pre-order walk. *)
From Coq Require Import NArith List Bool Lia Arith.
Import ListNotations.
From XV Require Import C20.Spec20 C20.Model20.
Local Open Scope N_scope.

Lemma str_eqb_eq : forall a b, str_eqb a b = true <-> a = b.
Proof.
  induction a as [|x a IH]; destruct b as [|y b]; cbn [str_eqb]; split; intro H; try reflexivity; try discriminate.
  - apply andb_true_iff in H. destruct H as [H1 H2]. apply N.eqb_eq in H1. apply IH in H2. subst; reflexivity.
  - inversion H; subst. rewrite N.eqb_refl. cbn [andb]. apply IH. reflexivity.
Qed.
Lemma path_eqb_eq : forall a b, path_eqb a b = true <-> a = b.
Proof.
  induction a as [|x a IH]; destruct b as [|y b]; cbn [path_eqb]; split; intro H; try reflexivity; try discriminate.
  - apply andb_true_iff in H. destruct H as [H1 H2]. apply str_eqb_eq in H1. apply IH in H2. subst; reflexivity.
  - inversion H; subst. apply andb_true_iff. split; [apply str_eqb_eq|apply IH]; reflexivity.
Qed.
Lemma path_eqb_refl : forall a, path_eqb a a = true.
Proof. intros a. apply path_eqb_eq. reflexivity. Qed.
Lemma path_mem_In : forall p l, path_mem p l = true <-> In p l.
Proof.
  intros p l. induction l as [|q l IH]; cbn [path_mem In]; [split; [discriminate|tauto]|].
  rewrite orb_true_iff, IH, path_eqb_eq. split; intros [H|H]; auto.
Qed.
Lemma path_mem_snoc : forall t l d, path_mem t (l ++ [d]) = path_mem t l || path_eqb t d.
Proof.
  intros t l d. induction l as [|q l IH]; cbn [app path_mem]; [rewrite orb_false_r; reflexivity|].
  rewrite IH, orb_assoc. reflexivity.
Qed.


Lemma node_size_pos : forall n, (1 <= node_size n)%nat.
Proof. destruct n; cbn [node_size]; lia. Qed.
Lemma node_size_elem : forall ns nm a k, node_size (Elem ns nm a k) = S (S (nodes_size k)).
Proof. reflexivity. Qed.
Lemma nodes_size_cons : forall n l, nodes_size (n :: l) = (node_size n + nodes_size l)%nat.
Proof. reflexivity. Qed.
Lemma in_nodes_size : forall c l, In c l -> (node_size c <= nodes_size l)%nat.
Proof.
  induction l as [|x l IH]; intros H; [destruct H|]. rewrite nodes_size_cons. destruct H as [H|H].
  - subst. lia.
  - specialize (IH H). lia.
Qed.
Lemma fix_fb_child_size : forall fixn d ib n, node_size (fix_fb_child fixn d ib n) = node_size n.
Proof.
  intros fixn d ib n. destruct n as [ns nm a k| |]; cbn [fix_fb_child]; try reflexivity.
  destruct d; [|reflexivity]. destruct (get_base_attr a); reflexivity.
Qed.
Lemma fix_root_size : forall fixb fixn fixc pb ib tg b h top, nodes_size (fix_root fixb fixn fixc pb ib tg b h top) = nodes_size top.
Proof.
  intros fixb fixn fixc pb ib tg b h top. induction top as [|n top IH]; [reflexivity|].
  destruct n as [ns nm a k| |]; cbn [fix_root]; rewrite !nodes_size_cons; try (rewrite IH; reflexivity).
  reflexivity.
Qed.

Lemma scan_fallback_elem : forall kids found fat fkids,
  scan_fallback kids found = FS_ok (Some (fat, fkids)) ->
  found = Some (fat, fkids) \/ exists ns nm, In (Elem ns nm fat fkids) kids /\ is_fallback ns nm = true.
Proof.
  induction kids as [|k kids IH]; intros found fat fkids H; cbn [scan_fallback] in H; [left; congruence|].
  assert (R : forall found', scan_fallback kids found' = FS_ok (Some (fat, fkids)) ->
              found' = Some (fat, fkids) \/ exists ns nm, In (Elem ns nm fat fkids) (k :: kids) /\ is_fallback ns nm = true).
  { intros found' H'. destruct (IH _ _ _ H') as [E|(ns' & nm' & HI & HF)]; [left; exact E|].
    right. exists ns', nm'. split; [right; exact HI|exact HF]. }
  destruct k as [ns nm a kk| |]; try (apply R; exact H).
  destruct (is_fallback ns nm) eqn:IF.
  - destruct found; [discriminate|]. destruct (R _ H) as [E|E]; [|right; exact E].
    inversion E; subst. right. exists ns, nm. split; [left; reflexivity|exact IF].
  - destruct (ns =? NS_XI); [discriminate|]. apply R; exact H.
Qed.

Lemma lookup_size : forall fs top0 t top, lookup fs t = Some (FDoc top) -> (nodes_size top <= max_size fs top0)%nat.
Proof.
  induction fs as [|[q f] fs IH]; intros top0 t top H; cbn [lookup] in H; [discriminate|].
  unfold max_size. cbn [fold_right snd]. fold (max_size fs top0). destruct (path_eqb t q).
  - inversion H; subst. cbn [file_size snd]. lia.
  - specialize (IH top0 t top H). lia.
Qed.
Lemma max_size_top : forall fs top0, (nodes_size top0 <= max_size fs top0)%nat.
Proof.
  induction fs as [|[q f] fs IH]; intros top0; unfold max_size; cbn [fold_right]; [lia|].
  fold (max_size fs top0). specialize (IH top0). lia.
Qed.

(** the measure: files not on the history stack *)
Definition files_left (fs : fsys) (hist : list path) : nat :=
  length (filter (fun pf => negb (path_mem (fst pf) hist)) fs).

Lemma files_left_le : forall fs hist, (files_left fs hist <= length fs)%nat.
Proof.
  intros fs hist. unfold files_left. induction fs as [|x l IH]; cbn [filter length]; [lia|].
  destruct (negb _); cbn [length]; lia.
Qed.

Lemma filter_len_mono : forall (A : Type) (P Q : A -> bool) l,
  (forall x, P x = true -> Q x = true) -> (length (filter P l) <= length (filter Q l))%nat.
Proof.
  intros A P Q l H. induction l as [|x l IH]; cbn [filter]; [lia|].
  destruct (P x) eqn:Px.
  - rewrite (H x Px). cbn [length]. lia.
  - destruct (Q x); cbn [length]; lia.
Qed.

Lemma files_left_push : forall fs hist t f, lookup fs t = Some f -> path_mem t hist = false ->
  (files_left fs (t :: hist) < files_left fs hist)%nat.
Proof.
  intros fs hist t f. unfold files_left. induction fs as [|[q f0] fs IH]; intros Hl Hm; cbn [lookup] in Hl; [discriminate|].
  cbn [filter fst path_mem].
  assert (Hmono : (length (filter (fun pf => negb (path_mem (fst pf) (t :: hist))) fs) <=
                   length (filter (fun pf => negb (path_mem (fst pf) hist)) fs))%nat).
  { apply filter_len_mono. intros x Hx. cbn [path_mem] in Hx. apply negb_true_iff in Hx.
    apply orb_false_iff in Hx. destruct Hx as [_ Hx]. rewrite Hx. reflexivity. }
  destruct (path_eqb t q) eqn:Etq.
  - apply path_eqb_eq in Etq. subst q. rewrite path_eqb_refl. cbn [orb negb]. rewrite Hm. cbn [negb length]. cbn [path_mem] in *. lia.
  - specialize (IH Hl Hm). destruct (path_eqb q t) eqn:Eqt.
    + apply path_eqb_eq in Eqt. subst q. rewrite path_eqb_refl in Etq. discriminate.
    + cbn [orb]. cbn [path_mem] in *. destruct (path_mem q hist); cbn [negb length]; lia.
Qed.

Lemma walk_list_cons : forall rec n l,
  walk_list rec (n :: l) = (fst (rec n) ++ fst (walk_list rec l), snd (rec n) ++ snd (walk_list rec l)).
Proof. intros rec n l. unfold walk_list. cbn [fold_right]. destruct (rec n). reflexivity. Qed.
Lemma walk_list_fst : forall rec l, fst (walk_list rec l) = flat_map (fun c => fst (rec c)) l.
Proof. intros rec l. induction l as [|n l IH]; [reflexivity|]. rewrite walk_list_cons. cbn [fst flat_map]. rewrite IH. reflexivity. Qed.
Lemma walk_list_snd : forall rec l, snd (walk_list rec l) = flat_map (fun c => snd (rec c)) l.
Proof. intros rec l. induction l as [|n l IH]; [reflexivity|]. rewrite walk_list_cons. cbn [snd flat_map]. rewrite IH. reflexivity. Qed.
Lemma walk_list_app : forall rec a b,
  walk_list rec (a ++ b) = (fst (walk_list rec a) ++ fst (walk_list rec b), snd (walk_list rec a) ++ snd (walk_list rec b)).
Proof.
  intros rec a b. rewrite (surjective_pairing (walk_list rec (a ++ b))), !walk_list_fst, !walk_list_snd, !flat_map_app. reflexivity.
Qed.
Lemma in_walk_list : forall rec l x, In x (snd (walk_list rec l)) <-> exists c, In c l /\ In x (snd (rec c)).
Proof. intros rec l x. rewrite walk_list_snd. apply in_flat_map. Qed.
Lemma walk_list_agree : forall (g h : node -> list node * list err) x l,
  (forall c, In c l -> ~ In x (snd (h c)) -> g c = h c) -> ~ In x (snd (walk_list h l)) -> walk_list g l = walk_list h l.
Proof.
  intros g h x l. induction l as [|n l IH]; intros H NI; [reflexivity|]. rewrite !walk_list_cons in *. cbn [snd] in NI.
  rewrite in_app_iff in NI. rewrite (H n), IH; cbn [In]; try tauto. intros c Hc. apply H. right. exact Hc.
Qed.

(** what [walk] does with the answer [res] of [inc_resolve]; [rec hist'] walks a replacement node *)
Definition walk_inc (rec : list path -> node -> list node * list err) (atdoc : bool) ns nm a k
           (res : inc_result * list err) : list node * list err :=
  match res with
  | (IR_fail, e) => ([Elem ns nm (attrs_after a k) k], e)
  | (IR_repl nodes hist', e) =>
    if atdoc && negb (doc_kids_ok nodes) then ([Elem ns nm a k], e ++ [E_HierarchyExc])
    else (fst (walk_list (rec hist') nodes), e ++ snd (walk_list (rec hist') nodes))
  end.

Section Fuel.
Variable fs : fsys.
Variable docuri : path.
Variable fixb : bool.
Variable fixn : bool.
Variable fixc : bool.
Notation IR := (inc_resolve fs docuri fixb fixn fixc).
Notation W := (walk fs docuri fixb fixn fixc).

Lemma walk_S_elem : forall f atdoc hist base ns nm a k,
  W (S f) atdoc hist base (Elem ns nm a k) =
  (if is_include ns nm then walk_inc (fun hist' => W f atdoc hist' base) atdoc ns nm a k (IR hist base a k)
   else if is_fallback ns nm then ([Elem ns nm a k], [E_OrphanFallback])
   else ([Elem ns nm a (fst (walk_list (W f false hist (elem_base base a)) k))],
         snd (walk_list (W f false hist (elem_base base a)) k))).
Proof.
  intros. cbn [walk]. unfold walk_inc. destruct (is_include ns nm).
  - destruct (IR hist base a k) as [[|nodes h'] e]; [reflexivity|]. destruct (atdoc && _); [reflexivity|].
    destruct (walk_list _ nodes); reflexivity.
  - destruct (is_fallback ns nm); [reflexivity|]. destruct (walk_list _ k); reflexivity.
Qed.

(** on a node that is no element [walk] answers at once, but does not reduce while the fuel is a variable *)
Lemma walk_leaf : forall f atdoc hist base n, count_elem_nodes [n] = O -> W f atdoc hist base n = ([n], []).
Proof. intros f atdoc hist base [ns nm a k|s|s] H; [discriminate|destruct f; reflexivity..]. Qed.

Lemma fetch_lookup : forall incbase href f, fetch fs fixn incbase href = Some f -> lookup fs (resolve incbase href) = Some f.
Proof.
  intros incbase href f H. unfold fetch in H. destruct fixn; [exact H|].
  destruct (os_walk fs [] (dir incbase ++ href)); [|discriminate]. destruct (path_eqb _ _); [exact H|discriminate].
Qed.

(** the answer to a resource error (the local [failed] of [inc_resolve]) after the diagnostics [e] *)
Definition inc_failed (hist : list path) (base incbase : path) (ib : option str) (fb : option (list attr * list node))
           (e : list err) : inc_result * list err :=
  match fb with
  | Some (fat, fkids) =>
    (IR_repl (map (fix_fb_child fixn (negb (path_eqb base (elem_base incbase fat))) ib) fkids) hist,
     e ++ [E_IncludeFailedResourceError])
  | None => (IR_fail, e ++ [E_IncludeFailedResourceError; E_IncludeFailedNoFallback])
  end.

Definition xml_err (x : err) : Prop := x <> E_Fuel /\ x <> E_HierarchyExc.

Lemma existsb_inc_failed : forall (P : err -> bool) hist base incbase ib fb e,
  P E_IncludeFailedResourceError = false -> P E_IncludeFailedNoFallback = false ->
  existsb P (snd (inc_failed hist base incbase ib fb e)) = existsb P e.
Proof.
  intros P hist base incbase ib fb e H1 H2. destruct fb as [[fat fkids]|]; cbn [inc_failed snd];
    rewrite existsb_app; cbn [existsb]; rewrite H1, ?H2; apply orb_false_r.
Qed.

Lemma inc_resolve_unfold : forall hist base at_ kids,
  IR hist base at_ kids =
  match scan_fallback kids None with
  | FS_multi => (IR_fail, [E_MultipleFallbackElems])
  | FS_disallowed => (IR_fail, [E_DisallowedChild])
  | FS_ok fb =>
    match get_attr NS_NONE s_href at_, get_attr NS_NONE s_xpointer at_ with
    | None, _ => (IR_fail, [E_NoHref])
    | Some _, Some _ => (IR_fail, [E_XPointerNotSupported])
    | Some href, None =>
      let incbase := elem_base base at_ in
      let target := resolve incbase (split_slash href) in
      let failed := inc_failed hist base incbase (get_base_attr at_) fb in
      let parse := match get_attr NS_NONE s_parse at_ with Some p => p | None => s_xml end in
      if str_eqb parse s_xml then
        if path_mem target hist then failed [E_CircularInclusionLoop]
        else if path_eqb target docuri then failed [E_CircularInclusionDocIncludesSelf]
        else match fetch fs fixn incbase (split_slash href) with
             | Some (FDoc top) =>
               (IR_repl (fix_root fixb fixn fixc base incbase target (get_base_attr at_) href top) (target :: hist), [])
             | _ => failed []
             end
      else if str_eqb parse s_text then
        if negb (encoding_ok (get_attr NS_NONE s_encoding at_)) then failed [E_CannotOpenFile]
        else match fetch fs fixn incbase (split_slash href) with
             | Some (FText s) => (IR_repl [Text s] hist, [])
             | _ => failed [E_CannotOpenFile]
             end
      else (IR_fail, [E_InvalidParseVal])
    end
  end.
Proof. reflexivity. Qed.

Inductive inc_outcome (hist : list path) (base : path) (at_ : list attr) (kids : list node) : inc_result * list err -> Prop :=
| IO_usage : forall e, xml_err e -> inc_outcome hist base at_ kids (IR_fail, [e])
| IO_failed : forall fb e, scan_fallback kids None = FS_ok fb -> Forall xml_err e ->
    inc_outcome hist base at_ kids (inc_failed hist base (elem_base base at_) (get_base_attr at_) fb e)
| IO_doc : forall href target top, target = resolve (elem_base base at_) (split_slash href) ->
    path_mem target hist = false -> path_eqb target docuri = false -> lookup fs target = Some (FDoc top) ->
    inc_outcome hist base at_ kids
      (IR_repl (fix_root fixb fixn fixc base (elem_base base at_) target (get_base_attr at_) href top) (target :: hist), [])
| IO_text : forall s, inc_outcome hist base at_ kids (IR_repl [Text s] hist, []).

Lemma inc_resolve_outcome : forall hist base at_ kids, inc_outcome hist base at_ kids (IR hist base at_ kids).
Proof.
  intros hist base at_ kids. rewrite inc_resolve_unfold.
  destruct (scan_fallback kids None) as [fb| |] eqn:SF; try (apply IO_usage; split; discriminate).
  destruct (get_attr NS_NONE s_href at_) as [href|]; [|apply IO_usage; split; discriminate].
  destruct (get_attr NS_NONE s_xpointer at_); [apply IO_usage; split; discriminate|]. cbv zeta.
  pose proof (fun e He => IO_failed hist base at_ kids fb e SF He) as FB.
  destruct (str_eqb _ s_xml).
  - destruct (path_mem _ hist) eqn:PM; [apply FB; repeat constructor; discriminate|].
    destruct (path_eqb _ docuri) eqn:PE; [apply FB; repeat constructor; discriminate|].
    destruct (fetch fs fixn _ _) as [[top|s|]|] eqn:LK; try (apply FB; constructor).
    apply fetch_lookup in LK. apply IO_doc; trivial.
  - destruct (str_eqb _ s_text); [|apply IO_usage; split; discriminate].
    destruct (negb (encoding_ok _)); [apply FB; repeat constructor; discriminate|].
    destruct (fetch fs fixn _ _) as [[top|s|]|]; try (apply FB; repeat constructor; discriminate). apply IO_text.
Qed.

Lemma inc_resolve_errs : forall hist base at_ kids x, In x (snd (IR hist base at_ kids)) -> xml_err x.
Proof.
  intros hist base at_ kids x. destruct (inc_resolve_outcome hist base at_ kids) as [e He|fb e _ He| |]; cbn [snd]; [| |intros []..].
  - intros [<-|[]]. exact He.
  - assert (F : Forall xml_err (e ++ [E_IncludeFailedResourceError; E_IncludeFailedNoFallback])).
    { apply Forall_app. split; [exact He|]. repeat constructor; discriminate. }
    rewrite Forall_forall in F. destruct fb as [[fat fkids]|]; cbn [inc_failed snd]; intros HI; apply F; [|exact HI].
    rewrite in_app_iff in *. cbn [In] in *. tauto.
Qed.

Lemma inc_resolve_repl : forall hist base at_ kids nodes h' e,
  IR hist base at_ kids = (IR_repl nodes h', e) ->
  (h' = hist /\ forall c, In c nodes -> (node_size c <= S (nodes_size kids))%nat) \/
  (exists target top, h' = target :: hist /\ path_mem target hist = false /\ path_eqb target docuri = false /\
                      lookup fs target = Some (FDoc top) /\
                      forall c, In c nodes -> (node_size c <= nodes_size top)%nat).
Proof.
  intros hist base at_ kids nodes h' e H. pose proof (inc_resolve_outcome hist base at_ kids) as O. rewrite H in O.
  inversion O as [|fb e0 SF _ E|href target top _ PM PE LK|s]; subst.
  - destruct fb as [[fat fkids]|]; inversion E; subst. left. split; [reflexivity|]. intros c Hc.
    apply in_map_iff in Hc. destruct Hc as (c0 & <- & Hc0). rewrite fix_fb_child_size. apply in_nodes_size in Hc0.
    destruct (scan_fallback_elem _ _ _ _ SF) as [|(fns & fnm & FI & _)]; [discriminate|].
    apply in_nodes_size in FI. rewrite node_size_elem in FI. lia.
  - right. exists target, top. repeat split; trivial. intros c Hc. apply in_nodes_size in Hc. rewrite fix_root_size in Hc. exact Hc.
  - (* included text: one node of size 1, the reason for the S in the first bound *)
    left. split; [reflexivity|]. intros c [<-|[]]. cbn [node_size]. lia.
Qed.

Variable top0 : list node.
Let M := max_size fs top0.

Lemma walk_fuel_ok : forall fuel atdoc hist base n,
  (node_size n <= M)%nat -> (files_left fs hist * (M + 1) + node_size n <= fuel)%nat ->
  ~ In E_Fuel (snd (W fuel atdoc hist base n)).
Proof.
  induction fuel as [|f IH]; intros atdoc hist base n HM HF; (destruct n as [ns nm at_ kids|s|s]; [|intros []..]);
    rewrite node_size_elem in HM, HF; [lia|].
  rewrite walk_S_elem. destruct (is_include ns nm).
  - pose proof (fun HI => proj1 (inc_resolve_errs hist base at_ kids E_Fuel HI) eq_refl) as NE.
    unfold walk_inc. destruct (IR hist base at_ kids) as [[|nodes h'] e] eqn:R; cbn [snd] in *; [exact NE|].
    destruct (atdoc && _); cbn [snd]; rewrite in_app_iff; [cbn [In]; intuition discriminate|].
    intros [HI|HI]; [exact (NE HI)|]. apply in_walk_list in HI. destruct HI as (c & Hc & HI). revert HI.
    destruct (inc_resolve_repl _ _ _ _ _ _ _ R) as [[-> Hs]|(target & top & -> & PM & _ & LK & Hs)]; specialize (Hs c Hc).
    + apply IH; lia.
    + pose proof (lookup_size fs top0 _ _ LK) as LS. fold M in LS. pose proof (files_left_push fs hist target _ LK PM) as KP.
      (* entering a file takes it from [files_left]: that pays M + 1, and no node of the file is larger than M *)
      apply IH; [lia|nia].
  - destruct (is_fallback ns nm); cbn [snd]; [cbn [In]; intuition discriminate|].
    intros HI. apply in_walk_list in HI. destruct HI as (c & Hc & HI). revert HI. apply in_nodes_size in Hc. apply IH; lia.
Qed.
End Fuel.

Lemma fetch_fixed : forall fs incbase href, fetch fs true incbase href = lookup fs (resolve incbase href).
Proof. reflexivity. Qed.

Lemma walk_more_fuel : forall fs docuri fixb fixn fixc f atdoc hist base n,
  ~ In E_Fuel (snd (walk fs docuri fixb fixn fixc f atdoc hist base n)) ->
  walk fs docuri fixb fixn fixc (S f) atdoc hist base n = walk fs docuri fixb fixn fixc f atdoc hist base n.
Proof.
  intros fs docuri fixb fixn fixc. induction f as [|f IH]; intros atdoc hist base n H; (destruct n as [ns nm a k|s|s]; [|reflexivity..]).
  - exfalso. apply H. left. reflexivity.
  - rewrite (walk_S_elem _ _ _ _ _ (S f)). rewrite walk_S_elem in H |- *. destruct (is_include ns nm).
    + unfold walk_inc in *. destruct (inc_resolve _ _ _ _ _ hist base a k) as [[|nodes h'] e]; [reflexivity|].
      destruct (atdoc && _); [reflexivity|].
      cbn [snd] in H. rewrite in_app_iff in H. rewrite (walk_list_agree _ _ E_Fuel nodes (fun c _ => IH atdoc h' base c)); tauto.
    + destruct (is_fallback ns nm); [reflexivity|]. cbn [snd] in H.
      rewrite (walk_list_agree _ _ E_Fuel k (fun c _ => IH false hist (elem_base base a) c)); tauto.
Qed.
