(** C20 lemmas, part c: path algebra ("seg/.." removal, directory, split/join of '/'-separated strings). *)
From Coq Require Import NArith List Bool.
Import ListNotations.
From XV Require Import C20.Spec20 C20.Model20 C20.Hyps20.
Local Open Scope N_scope.


Definition push (stk : list str) (s : str) : list str :=
  if is_dd s then
    match stk with
    | t :: stk' => if is_dd t then s :: stk else stk'
    | [] => s :: stk
    end
  else s :: stk.
Definition run (stk : list str) (p : path) : list str := fold_left push p stk.

Lemma norm_go_run : forall p stk, norm_go stk p = rev (run stk p).
Proof.
  induction p as [|s p IH]; intros stk; cbn [norm_go run fold_left]; [reflexivity|].
  fold (run (push stk s) p). unfold push, is_dd.
  destruct (str_eqb s dotdot); [|apply IH].
  destruct stk as [|t stk']; [apply IH|]. destruct (str_eqb t dotdot); apply IH.
Qed.
Lemma norm_run : forall p, norm p = rev (run [] p).
Proof. intros p. apply norm_go_run. Qed.

Lemma run_app : forall p q stk, run stk (p ++ q) = run (run stk p) q.
Proof. intros. unfold run. apply fold_left_app. Qed.
Lemma run_snoc : forall p s stk, run stk (p ++ [s]) = push (run stk p) s.
Proof. intros. rewrite run_app. reflexivity. Qed.

(** normalising a part first does not change the result *)
Lemma run_norm : forall r stk, run stk (rev (run [] r)) = run stk r.
Proof.
  induction r as [|s r' IH] using rev_ind; intros stk; [reflexivity|].
  rewrite !run_snoc. rewrite <- (IH stk). set (T := run [] r').
  unfold push at 1. destruct (is_dd s) eqn:Ds.
  - destruct T as [|t T'] eqn:ET.
    + cbn [rev app run fold_left]. reflexivity.
    + destruct (is_dd t) eqn:Dt.
      * change (rev (s :: t :: T')) with (rev (t :: T') ++ [s]). rewrite run_snoc. reflexivity.
      * change (rev (t :: T')) with (rev T' ++ [t]). rewrite run_snoc.
        unfold push at 2. rewrite Dt. unfold push. rewrite Ds, Dt. reflexivity.
  - change (rev (s :: T)) with (rev T ++ [s]). rewrite run_snoc. reflexivity.
Qed.

Lemma run_norm_app : forall b c stk, run stk (norm b ++ c) = run stk (b ++ c).
Proof. intros b c stk. rewrite !run_app, norm_run, run_norm. reflexivity. Qed.
Lemma run_norm_pinned_app : forall b c stk, run stk (norm_pinned b ++ c) = run stk (b ++ c).
Proof.
  intros [|b0 br] c stk; [reflexivity|]. cbn [norm_pinned app run fold_left].
  fold (run (push stk b0) (norm br ++ c)). fold (run (push stk b0) (br ++ c)). apply run_norm_app.
Qed.
Lemma norm_norm_pinned_app : forall a b c, norm (a ++ norm_pinned b ++ c) = norm (a ++ b ++ c).
Proof.
  intros a b c. rewrite !norm_run. f_equal. rewrite (run_app a (norm_pinned b ++ c)), (run_app a (b ++ c)).
  apply run_norm_pinned_app.
Qed.
Lemma norm_norm_app : forall b c, norm (norm b ++ c) = norm (b ++ c).
Proof. intros b c. rewrite (norm_run (norm b ++ c)), (norm_run (b ++ c)). f_equal. apply run_norm_app. Qed.

Lemma run_snoc_name : forall p l stk, is_dd l = false -> run stk (p ++ [l]) = l :: run stk p.
Proof. intros p l stk H. rewrite run_snoc. unfold push. rewrite H. reflexivity. Qed.
Lemma norm_snoc_name : forall p l, is_dd l = false -> norm (p ++ [l]) = norm p ++ [l].
Proof. intros p l H. rewrite !norm_run, run_snoc_name by exact H. reflexivity. Qed.
Lemma dir_snoc : forall (p : path) l, dir (p ++ [l]) = p.
Proof. intros. unfold dir. apply removelast_last. Qed.

Definition endname (p : path) : Prop := exists p' l, p = p' ++ [l] /\ is_dd l = false.

(** the key fact: resolving [h] against the result of resolving a clean [ib] = concatenating the directory of [ib] *)
Lemma resolve_resolve : forall base ib h, endname ib ->
  resolve (resolve base ib) h = norm (dir base ++ dir ib ++ h).
Proof.
  intros base ib h [i' [l [E Dl]]]. subst ib. unfold resolve. rewrite dir_snoc.
  rewrite app_assoc, norm_snoc_name by exact Dl. rewrite dir_snoc. rewrite norm_norm_app, app_assoc. reflexivity.
Qed.

Lemma norm_pinned_snoc_name : forall p l, is_dd l = false -> norm_pinned (p ++ [l]) = norm_pinned p ++ [l].
Proof.
  intros [|p0 pr] l H; [reflexivity|]. cbn [app norm_pinned]. rewrite norm_snoc_name by exact H. reflexivity.
Qed.
Lemma endname_norm_pinned : forall p, endname p -> endname (norm_pinned p).
Proof.
  intros p [p' [l [E D]]]. subst p. rewrite (norm_pinned_snoc_name p' l D). exists (norm_pinned p'), l. split; [reflexivity|exact D].
Qed.
Lemma dir_norm_pinned : forall p, endname p -> dir (norm_pinned p) = norm_pinned (dir p).
Proof. intros p [p' [l [E D]]]. subst p. rewrite (norm_pinned_snoc_name p' l D), !dir_snoc. reflexivity. Qed.
Lemma endname_app : forall a b, endname b -> endname (a ++ b).
Proof. intros a b [p' [l [E D]]]. subst b. exists (a ++ p'), l. rewrite app_assoc. split; [reflexivity|exact D]. Qed.

Lemma resolve_norm_pinned : forall base b, resolve base (norm_pinned b) = resolve base b.
Proof.
  intros base b. unfold resolve. pose proof (norm_norm_pinned_app (dir base) b []) as H.
  rewrite !app_nil_r in H. exact H.
Qed.

Lemma resolve_pp : forall fixn base b ref, endname b ->
  resolve base (pp fixn b ref) = resolve (resolve base b) ref.
Proof.
  intros fixn base b ref Hb. rewrite (resolve_resolve base b ref Hb). unfold pp.
  assert (E : resolve base (dir (norm_pinned b) ++ ref) = norm (dir base ++ dir b ++ ref)).
  { unfold resolve. rewrite (dir_norm_pinned b Hb). apply norm_norm_pinned_app. }
  destruct fixn; [rewrite resolve_norm_pinned|]; exact E.
Qed.
Lemma endname_pp : forall fixn b ref, endname ref -> endname (pp fixn b ref).
Proof.
  intros fixn b ref H. unfold pp. destruct fixn; [apply endname_norm_pinned|]; apply endname_app; exact H.
Qed.

Definition noslash (s : str) : Prop := Forall (fun c => (c =? SLASH) = false) s.

Lemma split_go_noslash : forall s cur, noslash s -> split_go cur s = [rev cur ++ s].
Proof.
  induction s as [|c s IH]; intros cur H; cbn [split_go]; [rewrite app_nil_r; reflexivity|].
  inversion H as [|c' s' Hc Hs]; subst. rewrite Hc. rewrite IH by exact Hs. cbn [rev]. rewrite <- app_assoc. reflexivity.
Qed.
Lemma split_go_app_slash : forall s cur rest, noslash s ->
  split_go cur (s ++ SLASH :: rest) = (rev cur ++ s) :: split_go [] rest.
Proof.
  induction s as [|c s IH]; intros cur rest H; cbn [split_go app].
  - rewrite N.eqb_refl, app_nil_r. reflexivity.
  - inversion H as [|c' s' Hc Hs]; subst. rewrite Hc. rewrite IH by exact Hs. cbn [rev]. rewrite <- app_assoc. reflexivity.
Qed.
Lemma split_join : forall p, p <> [] -> Forall noslash p -> split_slash (join_slash p) = p.
Proof.
  induction p as [|s p IH]; intros NE H; [congruence|]. inversion H as [|s' p' Hs Hp]; subst.
  destruct p as [|t p].
  - cbn [join_slash]. unfold split_slash. rewrite split_go_noslash by exact Hs. reflexivity.
  - change (join_slash (s :: t :: p)) with (s ++ SLASH :: join_slash (t :: p)). unfold split_slash.
    rewrite split_go_app_slash by exact Hs. cbn [rev app]. f_equal. apply IH; [discriminate|exact Hp].
Qed.
Lemma split_go_segs : forall s cur, noslash cur -> Forall noslash (split_go cur s) /\ split_go cur s <> [].
Proof.
  induction s as [|c s IH]; intros cur H; cbn [split_go].
  - split; [|discriminate]. constructor; [|constructor]. unfold noslash in *. apply Forall_rev. exact H.
  - destruct (c =? SLASH) eqn:Ec.
    + destruct (IH [] (Forall_nil _)) as [F N]. split; [|discriminate]. constructor; [|exact F].
      unfold noslash in *. apply Forall_rev. exact H.
    + apply IH. constructor; [exact Ec|exact H].
Qed.
Lemma split_segs : forall s, Forall noslash (split_slash s) /\ split_slash s <> [].
Proof. intros s. apply split_go_segs. constructor. Qed.

(** normalisation only drops or keeps segments *)
Lemma run_forall : forall (P : str -> Prop) p stk, Forall P stk -> Forall P p -> Forall P (run stk p).
Proof.
  intros P p. induction p as [|s p IH]; intros stk Hs Hp; cbn [run fold_left]; [exact Hs|].
  inversion Hp as [|s' p' H1 H2]; subst. apply IH; [|exact H2]. unfold push.
  destruct (is_dd s); [|constructor; assumption].
  destruct stk as [|t stk']; [constructor; assumption|].
  destruct (is_dd t); [constructor; assumption|]. inversion Hs; assumption.
Qed.
Lemma norm_forall : forall (P : str -> Prop) p, Forall P p -> Forall P (norm p).
Proof. intros P p H. rewrite norm_run. apply Forall_rev. apply run_forall; [constructor|exact H]. Qed.
Lemma norm_pinned_forall : forall (P : str -> Prop) p, Forall P p -> Forall P (norm_pinned p).
Proof.
  intros P [|p0 pr] H; [constructor|]. inversion H; subst. cbn [norm_pinned]. constructor; [assumption|].
  apply norm_forall. assumption.
Qed.
Lemma dir_forall : forall (P : str -> Prop) (p : path), Forall P p -> Forall P (dir p).
Proof.
  intros P p H. unfold dir. induction p as [|s p IH]; [constructor|]. inversion H; subst.
  destruct p as [|t p]; [constructor|]. cbn [removelast]. constructor; [assumption|]. apply IH. assumption.
Qed.
Lemma pp_forall : forall (P : str -> Prop) fixn b ref, Forall P b -> Forall P ref -> Forall P (pp fixn b ref).
Proof.
  intros P fixn b ref Hb Hr. unfold pp.
  assert (F : Forall P (dir (norm_pinned b) ++ ref)).
  { apply Forall_app. split; [apply dir_forall, norm_pinned_forall; exact Hb|exact Hr]. }
  destruct fixn; [apply norm_pinned_forall|]; exact F.
Qed.

Definition head_nonempty (p : path) : Prop := match p with (_ :: _) :: _ => True | _ => False end.
Lemma head_nonempty_norm_pinned : forall p, head_nonempty p -> head_nonempty (norm_pinned p).
Proof. intros [|[|c s] r] H; try destruct H. exact I. Qed.
Lemma head_nonempty_app : forall a b, head_nonempty b -> (a = [] \/ head_nonempty a) -> head_nonempty (a ++ b).
Proof. intros a b Hb [Ha|Ha]; [subst; exact Hb|]. destruct a as [|[|c s] r]; try destruct Ha. exact I. Qed.
Lemma head_nonempty_dir : forall (p : path), head_nonempty p -> dir p = [] \/ head_nonempty (dir p).
Proof.
  intros [|[|c s] r] H; try destruct H. unfold dir. destruct r as [|t r]; [left; reflexivity|right; exact I].
Qed.
Lemma head_nonempty_pp : forall fixn b ref, head_nonempty b -> head_nonempty ref -> head_nonempty (pp fixn b ref).
Proof.
  intros fixn b ref Hb Hr. unfold pp.
  assert (H : head_nonempty (dir (norm_pinned b) ++ ref)).
  { apply head_nonempty_app; [exact Hr|]. apply head_nonempty_dir, head_nonempty_norm_pinned, Hb. }
  destruct fixn; [apply head_nonempty_norm_pinned|]; exact H.
Qed.
Lemma split_go_hd : forall s cur, exists x r, split_go cur s = (rev cur ++ x) :: r.
Proof.
  induction s as [|c s IH]; intros cur; cbn [split_go]; [exists [], []; rewrite app_nil_r; reflexivity|].
  destruct (c =? SLASH); [exists [], (split_go [] s); rewrite app_nil_r; reflexivity|].
  destruct (IH (c :: cur)) as (x & r & ->). exists (c :: x), r. cbn [rev]. rewrite <- app_assoc. reflexivity.
Qed.
Lemma head_nonempty_split : forall c s, (c =? SLASH) = false -> head_nonempty (split_slash (c :: s)).
Proof.
  intros c s H. unfold split_slash. cbn [split_go]. rewrite H. destruct (split_go_hd s [c]) as (x & r & ->). exact I.
Qed.

(** a well-behaved reference path: what [split_slash] gives for a clean string, and what the fix-up builds *)
Definition good_ref (p : path) : Prop := Forall noslash p /\ head_nonempty p /\ endname p.

Lemma good_ref_pp : forall fixn b ref, good_ref b -> good_ref ref -> good_ref (pp fixn b ref).
Proof.
  intros fixn b ref [B1 [B2 B3]] [R1 [R2 R3]]. split; [apply pp_forall; assumption|].
  split; [apply head_nonempty_pp; assumption|apply endname_pp; assumption].
Qed.
Lemma good_ref_norm_pinned : forall p, good_ref p -> good_ref (norm_pinned p).
Proof.
  intros p [A [B C]]. split; [apply norm_pinned_forall; exact A|]. split; [apply head_nonempty_norm_pinned; exact B|].
  apply endname_norm_pinned; exact C.
Qed.
Lemma good_ref_nonempty : forall p, good_ref p -> p <> [].
Proof. intros p [_ [H _]] E. subst. exact H. Qed.
