(** C01: buffer bounds of the intrinsic transcoder models of C05/Model05.v that C05 itself does not state. *)
From XV Require Import C05.Spec05 C05.Model05 C05.Proofs05a C05.Proofs05e.
From Coq Require Import Lia ZArith ZifyBool ZifyN ZifyNat.
Local Open Scope N_scope.

Lemma u16_from_bounds : forall sw src m, (length (u16_from sw src m) <= m)%nat /\ (2 * length (u16_from sw src m) <= length src)%nat.
Proof.
  intros sw src m. revert src. induction m as [|m IH]; intros src.
  - destruct src as [|b0 [|b1 r]]; cbn [u16_from length]; lia.
  - destruct src as [|b0 [|b1 r]]; cbn [u16_from length]; try lia. specialize (IH r). lia.
Qed.
Lemma u16_to_bounds : forall sw src m, (length (u16_to sw src m) <= 2 * m)%nat /\ (length (u16_to sw src m) <= 2 * length src)%nat.
Proof.
  intros sw src m. revert src. induction m as [|m IH]; intros src.
  - destruct src as [|u r]; cbn [u16_to length]; lia.
  - destruct src as [|u r]; cbn [u16_to length]; [lia|]. rewrite app_length. specialize (IH r).
    destruct sw; cbn [length]; lia.
Qed.

Lemma filter_len : forall (A : Type) (f : A -> bool) l, (length (filter f l) <= length l)%nat.
Proof. induction l as [|a l IH]; cbn; [lia|]. destruct (f a); cbn; lia. Qed.
Lemma ascii_go_len : forall l d o, ascii_go l d = Ok o -> (length o <= length l)%nat.
Proof.
  induction l as [|b r IH]; intros d o H; cbn [ascii_go] in H.
  - inversion H. cbn. lia.
  - destruct (b <? 0x80).
    + destruct (ascii_go r (S d)) as [o'|] eqn:E; [|discriminate]. inversion H; subst. apply IH in E. cbn [length]. lia.
    + destruct (Nat.ltb 32 d); [|discriminate]. inversion H. cbn. lia.
Qed.
Lemma ascii_from_bounds : forall src m o, ascii_from src m = Ok o -> (length o <= m)%nat /\ (length o <= length src)%nat.
Proof. intros src m o H. unfold ascii_from in H. apply ascii_go_len in H. rewrite firstn_length in H. lia. Qed.
Lemma l1_from_bounds : forall src m, (length (l1_from src m) <= m)%nat /\ (length (l1_from src m) <= length src)%nat.
Proof. intros src m. unfold l1_from. rewrite firstn_length. lia. Qed.

Lemma firstn_eq_len : forall (A : Type) n (l l' : list A), firstn n l = l' -> length l' = n -> (n <= length l)%nat.
Proof. intros A n l l' H L. rewrite <- H, firstn_length in L. lia. Qed.
Lemma u4_loop_bounds : forall fuel sw src room o s e, bytes src -> u4_loop fuel sw src room = Ok (o, s, e) ->
  (length o <= room)%nat /\ length s = length o /\ (e <= length src)%nat.
Proof.
  induction fuel as [|f IH]; intros sw src room o s e Hb H; [discriminate|].
  cbn [u4_loop] in H. destruct (u4_step sw src room) as [| | er | u n] eqn:Es; try discriminate.
  - inversion H; subst. cbn. lia.
  - inversion H; subst. cbn. lia.
  - destruct (u4_loop f sw (skipn n src) (room - length u)) as [[[o' s'] e']|er] eqn:El; [|discriminate].
    inversion H; subst. clear H.
    destruct (u4_step_sound _ _ _ _ _ Hb Es) as (c & Hc & Hf & Hu & Hn & Hr).
    pose proof (utf16_enc_len c) as L16. rewrite <- Hu in L16.
    assert (Hn4 : (4 <= length src)%nat).
    { subst n. apply (firstn_eq_len _ 4%nat src (ucs4_enc sw c) Hf). unfold ucs4_enc. destruct sw; reflexivity. }
    destruct (IH _ _ _ _ _ _ (Forall_skipn _ _ n src Hb) El) as (A & B & C). rewrite skipn_length in C.
    rewrite !app_length, (sizes_of_len u n L16). lia.
Qed.

Lemma ucs4_bytes_len : forall sw v, length (ucs4_bytes sw v) = 4%nat.
Proof. intros sw v. unfold ucs4_bytes. destruct sw; reflexivity. Qed.
Lemma u4_to_step_out : forall sw src room bs used, u4_to_step sw src room = TOut bs used ->
  length bs = 4%nat /\ (1 <= room)%nat /\ (1 <= used <= length src)%nat.
Proof.
  intros sw src room bs used H. unfold u4_to_step in H. destruct src as [|u rest]; [discriminate|].
  destruct (Nat.eqb_spec room 0); [discriminate|].
  destruct ((0xD800 <=? u) && (u <=? 0xDBFF)).
  - destruct rest as [|t r]; [discriminate|]. destruct (negb ((0xDC00 <=? t) && (t <=? 0xDFFF))); [discriminate|].
    injection H as <- <-. rewrite ucs4_bytes_len. cbn [length]. lia.
  - injection H as <- <-. rewrite ucs4_bytes_len. cbn [length]. lia.
Qed.
Lemma u4_to_loop_bounds : forall fuel sw src room bs e, u4_to_loop fuel sw src room = Ok (bs, e) ->
  (length bs <= 4 * room)%nat /\ (e <= length src)%nat.
Proof.
  induction fuel as [|f IH]; intros sw src room bs e H; [discriminate|].
  cbn [u4_to_loop] in H. destruct (u4_to_step sw src room) as [| er | b1 used] eqn:Es; try discriminate.
  - inversion H; subst. cbn. lia.
  - destruct (u4_to_loop f sw (skipn used src) (room - 1)) as [[o' e']|er] eqn:El; [|discriminate].
    inversion H; subst. clear H. destruct (u4_to_step_out _ _ _ _ _ Es) as (A & B & C).
    destruct (IH _ _ _ _ _ El) as (D & E). rewrite skipn_length in E. rewrite app_length. lia.
Qed.
