(** C01, growable containers: every element access of the modelled operations is inside the (re-)allocated array,
    for every operation sequence, every start state satisfying the class invariant, every argument. *)
From XV Require Import C01.Model01g.
From Coq Require Import Lia ZArith ZifyBool ZifyN ZifyNat.
Local Open Scope N_scope.
(* [lia] with the truncating divisions of the growth factors; set for this file and its one importer Properties_C01.v *)
Ltac Zify.zify_post_hook ::= Z.div_mod_to_equations.

(** the lemmas below hold for the generated tests, factors and sizes (x * 5 / 4, x + x / 2, 3 / 4 and 2 m + 1, x * 3 / 2, 256),
    not for arbitrary ones: [unf] puts the values in, so that a changed constant in Gen/GenC01Grow.v breaks the proof it matters to *)
Ltac unf := cbv [cmpc vvGrowTest vvMinTest vvGrowNum vvGrowDen vvAddExtra vvInsExtra vvInsTest
                 rvKeepTest rvMinTest rvGrowDiv rvAddExtra htLoadTest htLoadNum htLoadDen htRehashMul htRehashAdd
                 spGrowTest spGrowNum spGrowDen spInitCap spInitId nipGrowTest nipTestAdd nipGrowNum nipGrowDen nipDefault] in *.

Lemma vv_ensure_ok : forall cur mx len, cur <= mx -> cur + len <= vv_ensure cur mx len /\ mx <= vv_ensure cur mx len.
Proof.
  intros cur mx len H. unfold vv_ensure. unf.
  destruct (N.ltb_spec mx (cur + len)); [|lia].
  destruct (N.ltb_spec (cur + len) (cur * 5 / 4)); lia.
Qed.

Lemma vv_step_ok : forall cur mx op cur' mx' need thr, cur <= mx -> vv_step cur mx op = (cur', mx', need, thr) ->
  need <= mx' /\ cur' <= mx' /\ mx <= mx'.
Proof.
  intros cur mx op cur' mx' need thr H E. destruct op as [|a|a|n|]; unfold vv_step in E.
  - pose proof (vv_ensure_ok cur mx vvAddExtra H) as P. unf. inversion E; subst. lia.
  - destruct (N.eqb_spec a cur).
    + pose proof (vv_ensure_ok cur mx vvAddExtra H) as P. unf. inversion E; subst. lia.
    + destruct (cmpc vvInsTest a cur).
      * inversion E; subst. lia.
      * pose proof (vv_ensure_ok cur mx vvInsExtra H) as P. unf. inversion E; subst. lia.
  - destruct (N.leb_spec cur a); inversion E; subst; lia.
  - pose proof (vv_ensure_ok cur mx n H) as P. inversion E; subst. lia.
  - inversion E; subst. lia.
Qed.

Lemma rv_ensure_ok : forall cur mx len, cur <= mx -> cur + len <= rv_ensure cur mx len /\ mx <= rv_ensure cur mx len.
Proof.
  intros cur mx len H. unfold rv_ensure. unf.
  destruct (N.leb_spec (cur + len) mx); [lia|].
  destruct (N.ltb_spec (cur + len) (mx + mx / 2)); lia.
Qed.

Lemma rv_step_ok : forall cur mx op cur' mx' need thr, cur <= mx -> rv_step cur mx op = (cur', mx', need, thr) ->
  need <= mx' /\ cur' <= mx' /\ mx <= mx'.
Proof.
  intros cur mx op cur' mx' need thr H E. destruct op as [|a|a|n|]; unfold rv_step in E.
  - pose proof (rv_ensure_ok cur mx rvAddExtra H) as P. unf. inversion E; subst. lia.
  - destruct (N.eqb_spec a cur).
    + pose proof (rv_ensure_ok cur mx rvAddExtra H) as P. unf. inversion E; subst. lia.
    + destruct (N.ltb_spec cur a).
      * inversion E; subst. lia.
      * pose proof (rv_ensure_ok cur mx 1 H) as P. inversion E; subst. lia.
  - destruct (N.leb_spec cur a); inversion E; subst; lia.
  - pose proof (rv_ensure_ok cur mx n H) as P. inversion E; subst. lia.
  - inversion E; subst. lia.
Qed.

(** hash table: the modulus stays positive and never shrinks, so hash % fHashModulus is defined and < the bucket count *)
Lemma ht_put_ok : forall cnt md c' m', 1 <= md -> ht_put cnt md = (c', m') -> 1 <= m' /\ md <= m' /\ c' = cnt + 1.
Proof.
  intros cnt md c' m' H E. unfold ht_put in E. unf.
  destruct (N.leb_spec (md * 3 / 4) cnt); inversion E; subst; lia.
Qed.
Theorem ht_run_ok : forall n cnt md, 1 <= md -> Forall (fun m => md <= m) (ht_run cnt md n).
Proof.
  induction n as [|k IH]; intros cnt md H; [constructor|].
  cbn [ht_run]. destruct (ht_put cnt md) as [c' m'] eqn:E. destruct (ht_put_ok _ _ _ _ H E) as [A [B C]].
  constructor; [exact B|]. specialize (IH c' m' A). eapply Forall_impl; [|exact IH]. cbv beta. intros; lia.
Qed.
Theorem ht_bucket_ok : forall h md, 1 <= md -> ht_bucket h md < md.
Proof. intros h md H. unfold ht_bucket. apply N.mod_lt. lia. Qed.
(** after a put the load stays below the modulus (count <= modulus), given it did before: chains exist but no
    arithmetic of the table depends on it; recorded because rehash is the only place the bucket array is re-sized *)
Theorem ht_load_ok : forall cnt md c' m', 1 <= md -> cnt <= md -> ht_put cnt md = (c', m') -> c' <= m'.
Proof.
  intros cnt md c' m' H L E. unfold ht_put in E. unf.
  destruct (N.leb_spec (md * 3 / 4) cnt); inversion E; subst; lia.
Qed.

(** string pool: id <= capacity and capacity >= 2 are invariant; the store at fIdMap[fCurId] is inside the map *)
Lemma sp_add_ok : forall id cap id' cap' need, id <= cap -> 2 <= cap -> sp_add id cap = (id', cap', need) ->
  need <= cap' /\ id' <= cap' /\ 2 <= cap'.
Proof.
  intros id cap id' cap' need H1 H2 E. unfold sp_add in E. unf.
  destruct (N.eqb_spec id cap); inversion E; subst; lia.
Qed.
Theorem sp_run_safe : forall n id cap, id <= cap -> 2 <= cap -> fst (sp_run id cap n) = true.
Proof.
  induction n as [|k IH]; intros id cap H1 H2; [reflexivity|].
  cbn [sp_run]. destruct (sp_add id cap) as [[id' cap'] need] eqn:E.
  destruct (sp_add_ok _ _ _ _ _ H1 H2 E) as [A [B C]]. specialize (IH id' cap' B C).
  destruct (sp_run id' cap' k) as [ok st]. cbn [fst] in *. subst ok.
  apply andb_true_intro. split; [apply N.leb_le; exact A|reflexivity].
Qed.

(** name/id pool: fIdCounter + 1 <= fIdPtrsCount and fIdPtrsCount >= 2 are invariant *)
Lemma nip_put_ok : forall ctr cnt ctr' cnt' need, ctr + 1 <= cnt -> 2 <= cnt -> nip_put ctr cnt = (ctr', cnt', need) ->
  need <= cnt' /\ ctr' + 1 <= cnt' /\ 2 <= cnt'.
Proof.
  intros ctr cnt ctr' cnt' need H1 H2 E. unfold nip_put in E. unf.
  destruct (N.eqb_spec (ctr + 1) cnt); inversion E; subst; lia.
Qed.
Theorem nip_run_safe : forall n ctr cnt, ctr + 1 <= cnt -> 2 <= cnt -> fst (nip_run ctr cnt n) = true.
Proof.
  induction n as [|k IH]; intros ctr cnt H1 H2; [reflexivity|].
  cbn [nip_run]. destruct (nip_put ctr cnt) as [[ctr' cnt'] need] eqn:E.
  destruct (nip_put_ok _ _ _ _ _ H1 H2 E) as [A [B C]]. specialize (IH ctr' cnt' B C).
  destruct (nip_run ctr' cnt' k) as [ok st]. cbn [fst] in *. subst ok.
  apply andb_true_intro. split; [apply N.leb_le; exact A|reflexivity].
Qed.
