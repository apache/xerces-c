(** Property C01 -- arbitrary input never causes memory errors, UB or hangs: the part that is decided by proof, on the
    models of the reader (C04/Model04.v, repaired getName look-ahead; the statement is false for getName as it was
    written, finding F1), of the growth arithmetic and of the intrinsic transcoders.  Everything else of C01 (allocator,
    lifetimes, DTD/schema code) is exploration under ASan/UBSan, see checks/C01.py. *)
From XV Require Import C04.Spec04 C04.Model04 C04.Contract04 C04.Proofs04a C04.Proofs04c C04.Proofs04d
                       C04.Proofs04g C04.Inst04 C01.Model01 C01.Model01g C01.Proofs01g C01.Proofs01x.
From XV Require Import C05.Spec05 C05.Model05 C05.Proofs05c C05.Proofs05e C05.Proofs05f.
From Coq Require Import Lia ZArith ZifyBool ZifyN ZifyNat.
Local Open Scope N_scope.
(* [lia] with the truncating divisions of the growth factors (x * 5 / 4, x * 3 / 2) *)
Ltac Zify.zify_post_hook ::= Z.div_mod_to_equations.

Theorem T01_reader_inv : forall step maxSeq c chunks ops fuel,
  xcontract step (X c) maxSeq -> sizes_ok c maxSeq -> safename c = true ->
  Forall (fun ch => ch <> []) chunks -> (4 * length (concat chunks) + 2 <= fuel)%nat ->
  match run_ops c fuel (mk_reader chunks) ops with
  | (_, Some Fault, _) | (_, Some FuelOut, _) => False
  | (_, _, rf) => good c rf
  end.
Proof.
  intros step maxSeq c chunks ops fuel HC HS Hsafe Hne Hf.
  (* fuel: at most 2 chars per byte decoded ([Dec_len]), and [run_ops_safe] asks for 2 per char plus 2 *)
  destruct (Dec_total step (X c) maxSeq HC (concat chunks)) as [cs [st D]].
  pose proof (St_init step c chunks cs st Hne D) as H0.
  pose proof (Dec_len step maxSeq c HC (concat chunks) cs st D) as HL.
  pose proof (run_ops_safe step maxSeq c HC HS Hsafe ops fuel (mk_reader chunks) cs st H0 ltac:(lia)) as HR.
  destruct (run_ops c fuel (mk_reader chunks) ops) as [[l [[| |e]|]] rf]; auto. now destruct HR.
Qed.
Print Assumptions T01_reader_inv.

(** instantiated: UTF-8, UTF-16 (either byte order) and ISO-8859-1 with the buffer sizes of XMLReader.hpp *)
Theorem T01_reader_inv_real : forall enc v11 lw fill chunks ops fuel, (enc = 0 \/ enc = 1 \/ enc = 2 \/ enc = 3) ->
  Forall (fun ch => ch <> []) chunks -> (4 * length (concat chunks) + 2 <= fuel)%nat ->
  match run_ops (real_cfg enc v11 lw fill true) fuel (mk_reader chunks) ops with
  | (_, Some Fault, _) | (_, Some FuelOut, _) => False
  | (_, _, rf) => good (real_cfg enc v11 lw fill true) rf
  end.
Proof.
  intros enc v11 lw fill chunks ops fuel He Hne Hf.
  assert (HS : forall m, (1 <= m <= 6)%nat -> sizes_ok (real_cfg enc v11 lw fill true) m).
  { intros m Hm. apply real_sizes_ok. unfold kRawBufSize. lia. }
  (* maxSeq: a step that asks for more input has fewer than maxSeq bytes in hand ([xc_need]): 6 for UTF-8 (first bytes
     FC..FD announce five more), 2 for UTF-16, 1 for ISO-8859-1 *)
  destruct He as [E|[E|[E|E]]]; subst enc.
  - exact (T01_reader_inv step_utf8 6 (real_cfg 0 v11 lw fill true) chunks ops fuel utf8_contract (HS 6%nat ltac:(lia)) eq_refl Hne Hf).
  - exact (T01_reader_inv (step_utf16 false) 2 (real_cfg 1 v11 lw fill true) chunks ops fuel (utf16_contract false) (HS 2%nat ltac:(lia)) eq_refl Hne Hf).
  - exact (T01_reader_inv (step_utf16 true) 2 (real_cfg 2 v11 lw fill true) chunks ops fuel (utf16_contract true) (HS 2%nat ltac:(lia)) eq_refl Hne Hf).
  - exact (T01_reader_inv step_latin1 1 (real_cfg 3 v11 lw fill true) chunks ops fuel latin1_contract (HS 1%nat ltac:(lia)) eq_refl Hne Hf).
Qed.
Print Assumptions T01_reader_inv_real.

(** F1 on the as-written model: getName reads beyond fCharsAvail *)
Theorem T01_getName_refuted :
  exists c chunks ops, safename c = false /\ sizes_ok c 2 /\
    snd (fst (run_ops c 64 (mk_reader chunks) ops)) = Some Fault.
Proof.
  exists (mk_cfg 1 false 8 16 2 false false), [[0x40; 0xD8; 0x00; 0xDC; 0x3C; 0x00; 0x40; 0xD8]],
         [OName true; OSkipChar 0x3C; OName false].
  split; [reflexivity|]. split; [unfold sizes_ok; cbn; lia|]. vm_compute. reflexivity.
Qed.

Theorem T01_grow_buf_append1 : forall idx cap w idx' cap', idx <= cap -> buf_append1 idx cap = (w, idx', cap') ->
  w < cap' + 1 /\ idx' <= cap' /\ cap <= cap'.
Proof.
  intros idx cap w idx' cap' H E. unfold buf_append1, buf_ensure, xmlbufGrowFactor in E.
  destruct (N.eqb_spec idx cap); destruct (N.ltb_spec cap ((idx + 1) * 2)); inversion E; subst; lia.
Qed.
Print Assumptions T01_grow_buf_append1.

Theorem T01_grow_buf_appendn : forall idx cap count e cap', idx <= cap -> buf_appendn idx cap count = (e, cap') ->
  e <= cap' /\ cap <= cap'.
Proof.
  intros idx cap count e cap' H E. unfold buf_appendn, buf_ensure, xmlbufGrowFactor in E.
  destruct (N.leb_spec cap (idx + count)); destruct (N.ltb_spec cap ((idx + count) * 2)); inversion E; subst; lia.
Qed.
Print Assumptions T01_grow_buf_appendn.

(** the 25% step strictly grows from capacity 4 on ... *)
Theorem T01_grow_stack_strict : forall cap, 4 <= cap -> cap < stack_expand cap.
Proof.
  intros cap H. unfold stack_expand, grow54, elemStackGrowNum, elemStackGrowDen. lia.
Qed.
(** ... and every capacity reachable from the initial ones is at least the initial one, so expandStack / expandMap
    always make room for the element stored at index [top = old capacity] *)
Theorem T01_grow_stack_reachable : forall n, elemStackInitCap <= iter_grow stack_expand n elemStackInitCap /\
  iter_grow stack_expand n elemStackInitCap < stack_expand (iter_grow stack_expand n elemStackInitCap).
Proof.
  assert (A : forall n, elemStackInitCap <= iter_grow stack_expand n elemStackInitCap).
  { induction n as [|n IH]; cbn [iter_grow]; [lia|].
    unfold elemStackInitCap in *. pose proof (T01_grow_stack_strict (iter_grow stack_expand n 32) ltac:(lia)). lia. }
  intros n. split; [apply A|]. apply T01_grow_stack_strict. specialize (A n). unfold elemStackInitCap in *. lia.
Qed.
Lemma map_expand_step : forall x, x = 0 \/ elemGrowInitMin <= x -> elemGrowInitMin <= map_expand x /\ x < map_expand x.
Proof.
  intros x H. unfold map_expand, grow54, elemGrowInitMin, elemStackGrowNum, elemStackGrowDen in *.
  destruct (N.eqb_spec x 0) as [E|E]; lia.
Qed.
Theorem T01_grow_map_reachable : forall n, iter_grow map_expand n 0 < map_expand (iter_grow map_expand n 0) /\
  (n <> O -> elemGrowInitMin <= iter_grow map_expand n 0).
Proof.
  assert (A : forall n, iter_grow map_expand n 0 = 0 \/ elemGrowInitMin <= iter_grow map_expand n 0).
  { induction n as [|n IH]; [left; reflexivity|]. right. cbn [iter_grow]. apply map_expand_step. exact IH. }
  intros n. split; [apply map_expand_step; apply A|].
  intros Hn. destruct n as [|n']; [congruence|]. cbn [iter_grow]. apply map_expand_step. apply A.
Qed.
Print Assumptions T01_grow_map_reachable.

(** DFAContentModel::buildDFA: with the grow-if-full test as written in the source (regenerated: ==), every state is
    stored inside the arrays and room for the next one is made in time; the initial size 4 x leafCount holds the first
    state.  (With the test weakened to ">" the statement is false: T01_grow_dfa_late_test_refuted.) *)
Theorem T01_grow_dfa : forall cur size w cur' size', cur < size -> 2 <= size ->
  dfa_add_state cur size = (w, cur', size') -> w < size /\ cur' < size' /\ 2 <= size' /\ size <= size'.
Proof.
  intros cur size w cur' size' H1 H2 E. unfold dfa_add_state, dfa_full, dfaGrowTest, dfaGrowNum, dfaGrowDen in E.
  cbn [N.eqb] in E. destruct (N.eqb_spec (cur + 1) size); inversion E; subst; lia.
Qed.
Print Assumptions T01_grow_dfa.
Theorem T01_grow_dfa_init : forall leaves, 1 <= leaves -> 1 < leaves * dfaInitFactor /\ 2 <= leaves * dfaInitFactor.
Proof. intros leaves H. unfold dfaInitFactor. lia. Qed.
Theorem T01_grow_dfa_late_test_refuted :
  exists cur size, cur < size /\ 2 <= size /\
    let cur' := cur + 1 in let size' := (if size <? cur' then size * 3 / 2 else size) in ~ (cur' < size').
Proof. exists 79, 80. vm_compute. split; [reflexivity|]. split; [discriminate|]. discriminate. Qed.

(** per-depth element state arrays of the schema-aware scanners: after the resize LOOP the index written is inside
    the array whatever the depth at which the schema grammar becomes active (64 doublings cover every 32-bit depth);
    a single doubling from the initial 16 is not enough from depth 32 on (finding F30) *)
Lemma elemstate_ensure_ok : forall fuel depth size, 1 <= size -> depth < size * 2 ^ (N.of_nat fuel) ->
  depth < elemstate_ensure fuel depth size.
Proof.
  induction fuel as [|f IH]; intros depth size H1 H2.
  - cbn in *. lia.
  - cbn [elemstate_ensure]. destruct (N.leb_spec size depth) as [Hle|Hgt]; [|exact Hgt].
    apply IH; [lia|]. rewrite Nat2N.inj_succ, N.pow_succ_r' in H2. lia.
Qed.
Theorem T01_grow_elemstate : forall depth, depth < 2 ^ 32 -> depth < elemstate_ensure 64 depth 16.
Proof.
  intros depth H. apply elemstate_ensure_ok; [lia|].
  assert (E : 2 ^ 32 <= 16 * 2 ^ N.of_nat 64) by (vm_compute; discriminate). lia.
Qed.
Print Assumptions T01_grow_elemstate.
Theorem T01_grow_elemstate_once_refuted : exists depth, ~ (depth < elemstate_once depth 16).
Proof. exists 32. vm_compute. discriminate. Qed.

Example T01_nonvacuous_ops :
  fst (run_ops (mk_cfg 1 true 4 8 2 true true) 64 (mk_reader [[0x3C; 0]; [0x61; 0; 0x0D]; [0; 0x0A; 0; 0x40; 0xD8; 0x00; 0xDC; 0x3E; 0]])
               [OSkipChar 0x3C; OName false; OSkipSpaces; OPeekStr [0xD840; 0xDC00]; OName true; OGet; OGet])
  = ([RBool true; RName true [0x61]; RBool2 true true; RBool true; RName true [0xD840; 0xDC00]; RCh (Some 0x3E); RCh None], None).
Proof. vm_compute. reflexivity. Qed.
Example T01_nonvacuous_grow : buf_append1 1023 1023 = (1023, 1024, 2048) /\ stack_expand 32 = 40 /\ map_expand 0 = 16 /\ map_expand 16 = 20 /\
  dfa_add_state 79 80 = (79, 80, 120).
Proof. vm_compute. auto. Qed.

(** the growable containers of util/ -- for EVERY sequence of operations
    from every state satisfying the class invariant, every element index read or written is inside the (re-)allocated
    array.  Tests, operators, factors and initial sizes are regenerated from the source on every run (Gen/GenC01Grow.v). *)
Theorem T01_grow_vv : forall ops cur mx, cur <= mx -> fst (vv_run cur mx ops) = true.
Proof.
  induction ops as [|op r IH]; intros cur mx H; [reflexivity|].
  cbn [vv_run]. destruct (vv_step cur mx op) as [[[cur' mx'] need] thr] eqn:E.
  destruct (vv_step_ok _ _ _ _ _ _ _ H E) as [A [B C]].
  specialize (IH cur' mx' B). destruct (vv_run cur' mx' r) as [ok tr]. cbn [fst] in *. subst ok.
  apply andb_true_intro. split; [apply N.leb_le; exact A|reflexivity].
Qed.
Print Assumptions T01_grow_vv.
Theorem T01_grow_vv_ensure : forall cur mx len, cur <= mx -> cur + len <= vv_ensure cur mx len /\ mx <= vv_ensure cur mx len.
Proof. exact vv_ensure_ok. Qed.
Theorem T01_grow_rv : forall ops cur mx, cur <= mx -> fst (rv_run cur mx ops) = true.
Proof.
  induction ops as [|op r IH]; intros cur mx H; [reflexivity|].
  cbn [rv_run]. destruct (rv_step cur mx op) as [[[cur' mx'] need] thr] eqn:E.
  destruct (rv_step_ok _ _ _ _ _ _ _ H E) as [A [B C]].
  specialize (IH cur' mx' B). destruct (rv_run cur' mx' r) as [ok tr]. cbn [fst] in *. subst ok.
  apply andb_true_intro. split; [apply N.leb_le; exact A|reflexivity].
Qed.
Print Assumptions T01_grow_rv.
Theorem T01_grow_rv_ensure : forall cur mx len, cur <= mx -> cur + len <= rv_ensure cur mx len /\ mx <= rv_ensure cur mx len.
Proof. exact rv_ensure_ok. Qed.
(** RefHashTableOf: for any number of puts from any positive modulus the modulus stays positive and never shrinks, hence
    every bucket index hash % fHashModulus is inside the bucket array allocated with fHashModulus entries *)
Theorem T01_grow_ht : forall n cnt md h, 1 <= md -> Forall (fun m => md <= m /\ ht_bucket h m < m) (ht_run cnt md n).
Proof.
  intros n cnt md h H. eapply Forall_impl; [|exact (ht_run_ok n cnt md H)].
  cbv beta. intros m Hm. split; [exact Hm|]. apply ht_bucket_ok. lia.
Qed.
Print Assumptions T01_grow_ht.
(** XMLStringPool from its constructor state (fCurId 1, fMapCapacity 64): any number of new entries *)
Theorem T01_grow_sp : forall n, fst (sp_run spInitId spInitCap n) = true.
Proof. intros n. apply sp_run_safe; unfold spInitId, spInitCap; lia. Qed.
Print Assumptions T01_grow_sp.
(** NameIdPool: any number of puts, for every initial size other than 1 (0 selects the default 256) ... *)
Theorem T01_grow_nip : forall n initSize, initSize <> 1 -> fst (nip_run 0 (nip_init initSize) n) = true.
Proof.
  intros n initSize H. unfold nip_init, nipDefault.
  destruct (N.eqb_spec initSize 0); apply nip_run_safe; lia.
Qed.
Print Assumptions T01_grow_nip.
(** ... which covers every NameIdPool the parser constructs (call sites regenerated from the source) ... *)
Theorem T01_grow_nip_callsites : Forall (fun s => s <> 1) nipCallSizes.
Proof. unfold nipCallSizes. repeat constructor; discriminate. Qed.
(** ... but NOT initSize = 1: (XMLSize_t)(1 * 1.5) = 1 does not grow, the first put stores at index 1 of a 1-element array.
    No parser path constructs such a pool (T01_grow_nip_callsites; the grammar deserialiser passes a stored size), so this
    is an API-level observation outside the property's quantifier, not a finding of C01. *)
Theorem T01_grow_nip_init1_refuted : exists n, fst (nip_run 0 (nip_init 1) n) = false.
Proof. exists 1%nat. vm_compute. reflexivity. Qed.

(** the intrinsic transcoders (models of C05, both directions) never produce more output elements
    than the room the caller passed, produce one charSizes entry per output char, and never report more source elements
    eaten than the source holds -- for every source, room and option.  [bytes src] / [Forall u16 src] only say that the
    elements are XMLByte / XMLCh values.  Stated on C05's functional models (lists); an index-carrying model with
    explicit src[i] reads is NOT built (see checks/meta/C01.json). *)
Theorem T01_xcode_bounds_utf8_from : forall src maxChars out sizes eaten, bytes src ->
  x8_from src maxChars = Ok (out, sizes, eaten) ->
  (length out <= maxChars)%nat /\ length sizes = length out /\ (eaten <= length src)%nat.
Proof.
  intros src maxChars out sizes eaten Hb H.
  destruct (x8_from_sound src maxChars out sizes eaten Hb H) as (cps & _ & _ & _ & _ & A & B & C). auto.
Qed.
Print Assumptions T01_xcode_bounds_utf8_from.
Theorem T01_xcode_bounds_utf8_to : forall src maxBytes throw bs n, Forall u16 src ->
  x8_to src maxBytes throw = Ok (bs, n) -> (length bs <= maxBytes)%nat /\ (n <= length src)%nat.
Proof.
  intros src maxBytes throw bs n Hsrc H. exact (proj2 (x8_to_sound _ _ _ _ _ Hsrc H)).
Qed.
Print Assumptions T01_xcode_bounds_utf8_to.
Theorem T01_xcode_bounds_ucs4_from : forall sw src maxChars out sizes eaten, bytes src ->
  u4_from sw src maxChars = Ok (out, sizes, eaten) ->
  (length out <= maxChars)%nat /\ length sizes = length out /\ (eaten <= length src)%nat.
Proof. intros sw src maxChars out sizes eaten Hb H. exact (u4_loop_bounds _ _ _ _ _ _ _ Hb H). Qed.
Print Assumptions T01_xcode_bounds_ucs4_from.
Theorem T01_xcode_bounds_ucs4_to : forall sw src maxBytes bs e, u4_to sw src maxBytes = Ok (bs, e) ->
  (length bs <= maxBytes)%nat /\ (e <= length src)%nat.
Proof.
  intros sw src maxBytes bs e H. unfold u4_to in H. apply u4_to_loop_bounds in H. destruct H as [A B].
  split; [|exact B]. pose proof (Nat.div_mod maxBytes 4 ltac:(lia)). lia.
Qed.
Print Assumptions T01_xcode_bounds_ucs4_to.
Theorem T01_xcode_bounds_utf16 : forall sw src m,
  ((length (u16_from sw src m) <= m)%nat /\ (2 * length (u16_from sw src m) <= length src)%nat) /\
  ((length (u16_to sw src m) <= 2 * m)%nat /\ (length (u16_to sw src m) <= 2 * length src)%nat).
Proof. intros sw src m. split; [apply u16_from_bounds|apply u16_to_bounds]. Qed.
Print Assumptions T01_xcode_bounds_utf16.
Theorem T01_xcode_bounds_table_from : forall from src m o e, tab_from from src m = (o, e) ->
  (length o <= m)%nat /\ (e <= m)%nat /\ (e <= length src)%nat /\ (length o <= e)%nat.
Proof.
  intros from src m o e H. unfold tab_from in H. inversion H; subst. clear H.
  pose proof (filter_len _ (fun c => negb (c =? 0xFFFF)) (map (tbl from) (firstn (Nat.min (length src) m) src))) as F.
  rewrite map_length, firstn_length in F. lia.
Qed.
Theorem T01_xcode_bounds_table_to : forall t sz src m throw o e, tab_to t sz src m throw = Ok (o, e) ->
  (length o <= m)%nat /\ (e <= length src)%nat /\ length o = e.
Proof.
  intros t sz src m throw o e H. destruct (tab_to_spec _ _ _ _ _ _ _ H) as [He Ho]. subst o.
  rewrite map_length, firstn_length. lia.
Qed.
Print Assumptions T01_xcode_bounds_table_to.
Theorem T01_xcode_bounds_ascii_latin1 : forall src m,
  (forall o, ascii_from src m = Ok o -> (length o <= m)%nat /\ (length o <= length src)%nat) /\
  ((length (l1_from src m) <= m)%nat /\ (length (l1_from src m) <= length src)%nat).
Proof. intros src m. split; [intros o; apply ascii_from_bounds|apply l1_from_bounds]. Qed.
Print Assumptions T01_xcode_bounds_ascii_latin1.

Example T01_nonvacuous_grow4 :
  vv_run 0 0 [VAdd; VAdd; VIns 1; VIns 7; VEnsure 10; VRem 0; VClear]
    = (true, [(1, 1, false); (2, 2, false); (3, 3, false); (3, 3, true); (3, 13, false); (2, 13, false); (0, 13, false)]) /\
  rv_run 0 2 [VAdd; VAdd; VAdd; VAdd] = (true, [(1, 2, false); (2, 2, false); (3, 3, false); (4, 4, false)]) /\
  ht_run 0 3 4 = [3; 3; 7; 7] /\ sp_run 63 64 2 = (true, (65, 96)) /\ nip_run 10 12 2 = (true, (12, 18)).
Proof. vm_compute. auto. Qed.
Example T01_nonvacuous_xcode : x8_to [0x41; 0xD800; 0xDF48; 0x20AC] 5 true = Ok ([0x41; 0xF0; 0x90; 0x8D; 0x88], 3%nat) /\
  u4_to false [0x41; 0xD800; 0xDF48] 9 = Ok ([0x41; 0; 0; 0; 0x48; 0x03; 0x01; 0], 3%nat).
Proof. vm_compute. auto. Qed.
