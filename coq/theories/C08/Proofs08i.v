(** C08 lemmas, part i: attribute wildcards.  attWildCardIntersection / attWildCardUnion against 3.10.6,
    checkAttDerivationOK / isWildCardSubset against Derivation Valid (Restriction, Complex) clauses 2-4. *)
From XV Require Import C08.Spec08 C08.Model08 C08.Proofs08a.

Lemma mem_uri_filter (f : uri -> bool) x l : mem_uri x (filter f l) = f x && mem_uri x l.
Proof.
  unfold mem_uri. induction l as [|y l IH]; cbn [filter existsb]; [rewrite andb_false_r; reflexivity|].
  destruct (f y) eqn:Ey; cbn [existsb]; rewrite IH; destruct (N.eqb_spec x y) as [->|Hne]; cbn [orb]; rewrite ?Ey;
    reflexivity.
Qed.

Lemma mem_uri_app x a b : mem_uri x (a ++ b) = mem_uri x a || mem_uri x b.
Proof. unfold mem_uri. apply existsb_app. Qed.

Lemma wc_inter_sound r c w : m_wc_inter r c = Some w -> is_wc_intersection w r c.
Proof.
  unfold is_wc_intersection. destruct r as [|u|lr], c as [|v|lc]; cbn [m_wc_inter]; intros E x;
    try (injection E as <-); rewrite ?allows_not; cbn [wildcard_allows]; try rewrite andb_true_r; try reflexivity.
  - destruct (N.eqb_spec u v) as [->|Huv].
    + injection E as <-. rewrite allows_not. destruct (negb (x =? v)%N && negb (x =? 1)%N); reflexivity.
    + destruct (N.eqb_spec u 1) as [->|Hu1].
      * injection E as <-. rewrite allows_not. destruct (x =? v)%N, (x =? 1)%N; reflexivity.
      * destruct (N.eqb_spec v 1) as [->|Hv1]; [|discriminate E].
        injection E as <-. rewrite allows_not. destruct (x =? u)%N, (x =? 1)%N; reflexivity.
  - rewrite mem_uri_filter. reflexivity.
  - rewrite mem_uri_filter. apply andb_comm.
  - rewrite mem_uri_filter. reflexivity.
Qed.

Lemma wc_inter_none r c : m_wc_inter r c = None <-> inter_not_expressible r c.
Proof.
  unfold inter_not_expressible. split.
  - destruct r as [|u|lr], c as [|v|lc]; cbn [m_wc_inter]; try discriminate.
    destruct (N.eqb_spec u v); [discriminate|]. destruct (N.eqb_spec u 1); [discriminate|].
    destruct (N.eqb_spec v 1); [discriminate|]. intros _. exists u, v. rewrite absent_1. auto.
  - intros (u & v & -> & -> & Huv & Hu & Hv). cbn [m_wc_inter]. rewrite absent_1 in *.
    destruct (N.eqb_spec u v); [contradiction|]. destruct (N.eqb_spec u 1); [contradiction|].
    destruct (N.eqb_spec v 1); [contradiction|]. reflexivity.
Qed.

(** not(u) and a list (3.10.6 Union clause 5): compared at x = u, at x = absent and elsewhere *)
Lemma wc_union_not_set u l w : m_wc_union (NsNot u) (NsSet l) = Some w ->
  forall x, wildcard_allows w x = wildcard_allows (NsNot u) x || mem_uri x l.
Proof.
  cbn [m_wc_union]. intros E x. rewrite allows_not.
  destruct (N.eqb_spec u 1) as [->|Hu].
  - destruct (mem_uri 1%N l) eqn:M1; injection E as <-; rewrite ?allows_not; cbn [wildcard_allows];
      destruct (N.eqb_spec x 1) as [->|]; rewrite ?M1; reflexivity.
  - destruct (mem_uri 1%N l) eqn:M1, (mem_uri u l) eqn:Mu; try discriminate E; injection E as <-;
      rewrite ?allows_not; cbn [wildcard_allows];
      destruct (N.eqb_spec x u) as [Eu|Eu], (N.eqb_spec x 1) as [E1|E1]; try congruence; subst; rewrite ?M1, ?Mu;
      reflexivity.
Qed.

Lemma wc_union_sound r c w : m_wc_union r c = Some w -> is_wc_union w r c.
Proof.
  unfold is_wc_union. destruct r as [|u|lr], c as [|v|lc]; intros E x;
    try (injection E as <-; cbn [wildcard_allows]; rewrite ?orb_true_r; reflexivity).
  - cbn [m_wc_union] in E. destruct (N.eqb_spec u v) as [->|Huv]; injection E as <-; rewrite !allows_not.
    + destruct (negb (x =? v)%N && negb (x =? 1)%N); reflexivity.
    + destruct (N.eqb_spec x u), (N.eqb_spec x v), (N.eqb_spec x 1); cbn; try reflexivity; congruence.
  - apply (wc_union_not_set u lc w E).
  - rewrite orb_comm. apply (wc_union_not_set v lr w E).
  - injection E as <-. cbn [wildcard_allows]. rewrite mem_uri_app, mem_uri_filter.
    destruct (mem_uri x lr), (mem_uri x lc); reflexivity.
Qed.

Lemma union_not_expressible_sym a b : union_not_expressible a b -> union_not_expressible b a.
Proof. intros (u & l & [[-> ->]|[-> ->]] & H); exists u, l; tauto. Qed.
Lemma wc_union_none_not_set u l :
  m_wc_union (NsNot u) (NsSet l) = None <-> union_not_expressible (NsNot u) (NsSet l).
Proof.
  assert (T : m_wc_union (NsNot u) (NsSet l) = None <-> u <> absent /\ In absent l /\ ~ In u l).
  { cbn [m_wc_union]. rewrite absent_1, <- !mem_uri_In. destruct (N.eqb_spec u 1) as [->|Hu].
    - destruct (mem_uri 1%N l); split; [discriminate|tauto|discriminate|tauto].
    - destruct (mem_uri 1%N l), (mem_uri u l); split; intuition congruence. }
  rewrite T. split.
  - intros H. exists u, l. auto.
  - intros (u' & l' & [[E1 E2]|[E1 E2]] & H); [injection E1 as <-; injection E2 as <-; exact H|discriminate].
Qed.
Lemma wc_union_none r c : m_wc_union r c = None <-> union_not_expressible r c.
Proof.
  destruct r as [|u|lr], c as [|v|lc];
    try (split; [discriminate|intros (? & ? & [[? ?]|[? ?]] & _); discriminate]).
  - split; [cbn [m_wc_union]; destruct (u =? v)%N; discriminate|intros (? & ? & [[? ?]|[? ?]] & _); discriminate].
  - apply wc_union_none_not_set.
  - change (m_wc_union (NsSet lr) (NsNot v)) with (m_wc_union (NsNot v) (NsSet lr)). rewrite wc_union_none_not_set.
    split; apply union_not_expressible_sym.
Qed.

(** the restriction declares no prohibited attribute that the base type does not have *)
Definition no_stray_prohibited (base decls : list adecl) : bool :=
  forallb (fun r => match ad_use r, find_adecl (ad_name r) base with UProhibited, None => false | _, _ => true end) decls.
(** excluded: a base wildcard not(ns) with a derived list wildcard that contains absent *)
Definition no_absent_under_not (bw dw : option nsc) : bool :=
  match bw, dw with Some (NsNot _), Some (NsSet l) => negb (mem_uri absent l) | _, _ => true end.

Definition not_stray_prohibited (base : list adecl) (r : adecl) : bool :=
  match ad_use r, find_adecl (ad_name r) base with UProhibited, None => false | _, _ => true end.
Lemma no_stray_prohibited_In base decls :
  no_stray_prohibited base decls = true <-> forall r, In r decls -> not_stray_prohibited base r = true.
Proof. apply forallb_forall. Qed.

Lemma m_adecl_check_spec tder base bw r :
  not_stray_prohibited base r = true -> m_adecl_check tder base bw r = adecl_ok tder base bw r.
Proof.
  unfold not_stray_prohibited, m_adecl_check, adecl_ok. destruct (find_adecl (ad_name r) base) as [b|].
  - intros _. destruct (ad_use r); cbn [is_required negb andb orb];
      destruct (is_required (ad_use b)); cbn [negb andb orb]; try reflexivity;
      try (rewrite andb_true_r; reflexivity).
  - destruct (ad_use r); intros H; try reflexivity. discriminate H.
Qed.

Lemma m_wc_subset_spec wb wd : no_absent_under_not (Some wb) (Some wd) = true -> m_wc_subset wb wd = wc_subset wd wb.
Proof.
  unfold no_absent_under_not, m_wc_subset, wc_subset. destruct wb as [|v|lb], wd as [|u|l]; intros H; try reflexivity.
  rewrite H, andb_true_r. reflexivity.
Qed.

