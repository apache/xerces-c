(** C08 lemmas, part a: names, the language algebra of occurrence ranges, correctness of the derivative-based
    decider [rmatch]/[pmatch] with respect to [Lr]/[Lp]. *)
From XV Require Import C08.Spec08.
From Coq Require Import Setoid Morphisms.

Lemma existsb_eqb_In {T} (eqb : T -> T -> bool) x l :
  (forall a b, eqb a b = true <-> a = b) -> (existsb (eqb x) l = true <-> In x l).
Proof.
  intros Heq. rewrite existsb_exists. split.
  - intros (y & Hy & E). apply Heq in E. subst; auto.
  - intros H. exists x. split; auto. apply Heq. reflexivity.
Qed.

Lemma qname_eqb_eq a b : qname_eqb a b = true <-> a = b.
Proof.
  unfold qname_eqb. rewrite andb_true_iff, !N.eqb_eq. destruct a, b; cbn. split; [intros [-> ->]; auto|].
  intros E; injection E; auto.
Qed.
Lemma qname_eqb_refl a : qname_eqb a a = true.
Proof. apply qname_eqb_eq; auto. Qed.
Lemma qname_eqb_sym a b : qname_eqb a b = qname_eqb b a.
Proof. unfold qname_eqb. rewrite (N.eqb_sym (fst a)), (N.eqb_sym (snd a)). reflexivity. Qed.

Lemma mem_uri_In u l : mem_uri u l = true <-> In u l.
Proof. apply existsb_eqb_In, N.eqb_eq. Qed.

(** the Spec writes [absent] for "no namespace", the model its id 1 *)
Lemma allows_not u x : wildcard_allows (NsNot u) x = negb (x =? u)%N && negb (x =? 1)%N.
Proof. reflexivity. Qed.
Lemma absent_1 : absent = 1%N.
Proof. reflexivity. Qed.

Lemma forallb_ext_in {T} (f g : T -> bool) l : (forall x, In x l -> f x = g x) -> forallb f l = forallb g l.
Proof.
  induction l as [|a l IH]; intros H; cbn [forallb]; [reflexivity|].
  rewrite (H a (or_introl eq_refl)), IH; [reflexivity|]. intros x Hx. apply H. right. exact Hx.
Qed.

Implicit Types A B C dA : lang.
Implicit Types k i j m : nat.
Implicit Types w u v : list qname.

Definition leq (A B : lang) : Prop := forall w, A w <-> B w.
Infix "==" := leq (at level 70).

Lemma leq_refl A : A == A. Proof. intro; tauto. Qed.
Lemma leq_sym A B : A == B -> B == A. Proof. intros H w; symmetry; apply H. Qed.
Lemma leq_trans A B C : A == B -> B == C -> A == C.
Proof. intros H1 H2 w. rewrite (H1 w). apply H2. Qed.

Lemma l_cat_ext A A' B B' : A == A' -> B == B' -> l_cat A B == l_cat A' B'.
Proof.
  intros HA HB w; split; intros (u & v & E & H1 & H2); exists u, v; repeat split; auto;
    try (apply HA; auto); try (apply HB; auto).
Qed.
Lemma l_alt_ext A A' B B' : A == A' -> B == B' -> l_alt A B == l_alt A' B'.
Proof. intros HA HB w; unfold l_alt; rewrite (HA w), (HB w); tauto. Qed.
Lemma l_pow_ext A A' k : A == A' -> l_pow A k == l_pow A' k.
Proof. intros H; induction k; cbn [l_pow]; [apply leq_refl|apply l_cat_ext; auto]. Qed.
Lemma l_rep_ext A A' m n : A == A' -> l_rep m n A == l_rep m n A'.
Proof.
  intros H w; split; intros (k & H1 & H2 & H3); exists k; repeat split; auto; eapply l_pow_ext; eauto.
  apply leq_sym; auto.
Qed.

#[export] Instance leq_equiv : Equivalence leq.
Proof. split; [exact leq_refl|exact leq_sym|exact leq_trans]. Qed.
#[export] Instance l_cat_proper : Proper (leq ==> leq ==> leq) l_cat.
Proof. intros A A' HA B B' HB. apply l_cat_ext; assumption. Qed.
#[export] Instance l_alt_proper : Proper (leq ==> leq ==> leq) l_alt.
Proof. intros A A' HA B B' HB. apply l_alt_ext; assumption. Qed.

Lemma l_cat_eps_l A : l_cat l_eps A == A.
Proof.
  intro w; split.
  - intros (u & v & E & Hu & Hv). unfold l_eps in Hu. subst. exact Hv.
  - intro H. exists [], w. repeat split; auto.
Qed.
Lemma l_cat_eps_r A : l_cat A l_eps == A.
Proof.
  intro w; split.
  - intros (u & v & E & Hu & Hv). unfold l_eps in Hv. subst. rewrite app_nil_r. exact Hu.
  - intro H. exists w, []. rewrite app_nil_r. repeat split; auto.
Qed.
Lemma l_cat_assoc A B C : l_cat (l_cat A B) C == l_cat A (l_cat B C).
Proof.
  intro w; split.
  - intros (uv & x & E & (u & v & E' & Hu & Hv) & Hx). subst. exists u, (v ++ x). rewrite app_assoc.
    repeat split; auto. exists v, x; auto.
  - intros (u & vx & E & Hu & (v & x & E' & Hv & Hx)). subst. exists (u ++ v), x. rewrite app_assoc.
    repeat split; auto. exists u, v; auto.
Qed.
Lemma l_cat_cons A B x w :
  l_cat A B (x :: w) <-> l_cat (fun u => A (x :: u)) B w \/ (A [] /\ B (x :: w)).
Proof.
  split.
  - intros (u & v & E & Hu & Hv). destruct u as [|y u]; cbn in E.
    + subst v. right. auto.
    + injection E as <- ->. left. exists u, v. auto.
  - intros [(u & v & -> & Hu & Hv)|[Hu Hv]]; [exists (x :: u), v|exists [], (x :: w)]; auto.
Qed.
Lemma l_cat_void_l A : l_cat l_void A == l_void.
Proof. intro w; split; [intros (u & v & _ & [] & _)|intros []]. Qed.
Lemma l_cat_alt_l A B C : l_cat (l_alt A B) C == l_alt (l_cat A C) (l_cat B C).
Proof.
  intro w; split.
  - intros (u & v & E & [H|H] & Hv); [left|right]; exists u, v; auto.
  - intros [(u & v & E & H & Hv)|(u & v & E & H & Hv)]; exists u, v; repeat split; auto; [left|right]; auto.
Qed.

Lemma l_alt_assoc A B C : l_alt (l_alt A B) C == l_alt A (l_alt B C).
Proof. intro w; unfold l_alt; tauto. Qed.
Lemma l_alt_void_r A : l_alt A l_void == A.
Proof. intro w; unfold l_alt, l_void; tauto. Qed.

Lemma l_sym_ext (P Q : qname -> bool) : (forall q, P q = Q q) -> l_sym P == l_sym Q.
Proof. intros E w; split; intros (q & -> & Hq); exists q; split; auto; [rewrite <- E|rewrite E]; exact Hq. Qed.
Lemma l_sym_alt (P Q : qname -> bool) : l_alt (l_sym P) (l_sym Q) == l_sym (fun q => P q || Q q).
Proof.
  intro w; split.
  - intros [(q & -> & H)|(q & -> & H)]; exists q; rewrite H; auto using orb_true_r.
  - intros (q & -> & H). apply orb_true_iff in H. destruct H; [left|right]; exists q; auto.
Qed.

Lemma l_pow_add A i j : l_cat (l_pow A i) (l_pow A j) == l_pow A (i + j).
Proof.
  induction i; cbn [l_pow plus].
  - apply l_cat_eps_l.
  - rewrite l_cat_assoc, IHi. reflexivity.
Qed.
Lemma l_pow_1 A : l_pow A 1 == A.
Proof. cbn [l_pow]. apply l_cat_eps_r. Qed.
Lemma l_pow_snoc A k : l_cat (l_pow A k) A == l_pow A (S k).
Proof. rewrite <- (l_pow_1 A) at 2. rewrite l_pow_add, Nat.add_1_r. reflexivity. Qed.

Lemma l_pow_pad A k w : A [] -> l_pow A k w -> l_pow A (S k) w.
Proof. intros H0 H. cbn [l_pow]. exists [], w. auto. Qed.
Lemma l_pow_pad_n A k j w : A [] -> l_pow A k w -> l_pow A (j + k) w.
Proof. intros H0 H. induction j; cbn [plus]; auto. apply l_pow_pad; auto. Qed.
Lemma l_pow_nil A k : A [] -> l_pow A k [].
Proof. intros H. induction k; cbn [l_pow]; [reflexivity|]. exists [], []. auto. Qed.
Lemma l_pow_nil_inv A k : l_pow A (S k) [] -> A [].
Proof.
  cbn [l_pow]. intros (u & v & E & Hu & _). symmetry in E. apply app_eq_nil in E. destruct E; subst; auto.
Qed.

(** the first non-empty piece of a word of A^k; when empty pieces were skipped (S j < k) A has the empty word, so
    [l_rep_cons] can pad the rest back to k - 1 pieces *)
Lemma l_pow_cons A k x w : l_pow A k (x :: w) ->
  exists u v, w = u ++ v /\ A (x :: u) /\ exists j, j < k /\ l_pow A j v /\ (S j < k -> A []).
Proof.
  induction k; cbn [l_pow].
  - intros H; discriminate H.
  - intros (u & v & E & Hu & Hv). destruct u as [|y u].
    + cbn in E. subst v. destruct (IHk Hv) as (u' & v' & E' & Hx & j & Hj & Hp & Hn).
      exists u', v'. repeat split; auto. exists j. repeat split; auto.
    + cbn in E. injection E as -> ->. exists u, v. repeat split; auto. exists k. repeat split; auto.
      intro; lia.
Qed.

Lemma l_rep_nil A m n : l_rep m n A [] <-> m = 0 \/ (A [] /\ le_bound m n).
Proof.
  split.
  - intros (k & H1 & H2 & H3). destruct k.
    + left; lia.
    + right. split; [eapply l_pow_nil_inv; eauto|]. destruct n; cbn in *; auto. lia.
  - intros [->|[H0 Hb]].
    + exists 0. repeat split; auto. destruct n; cbn; lia.
    + exists m. repeat split; auto. apply l_pow_nil; auto.
Qed.

Lemma l_pow_eps k : l_pow l_eps k == l_eps.
Proof. induction k; cbn [l_pow]; [reflexivity|]. rewrite l_cat_eps_l. exact IHk. Qed.
Lemma l_rep_eps m n : le_bound m n -> l_rep m n l_eps == l_eps.
Proof.
  intros Hb w. split.
  - intros (k & _ & _ & H). apply (l_pow_eps k). exact H.
  - intros H. exists m. repeat split; auto. apply l_pow_eps. exact H.
Qed.

Lemma l_rep_cons A (dA : lang) x m n w :
  (forall u, dA u <-> A (x :: u)) ->
  (l_rep m n A (x :: w) <-> n <> Some 0 /\ l_cat dA (l_rep (pred m) (pred_bound n) A) w).
Proof.
  intros Hd. split.
  - intros (k & H1 & H2 & H3). split.
    + intros ->. cbn in H2. assert (k = 0) by lia. subst k. discriminate H3.
    + destruct (l_pow_cons _ _ _ _ H3) as (u & v & E & Hu & j & Hj & Hp & Hn).
      exists u, v. repeat split; auto. { apply Hd; auto. }
      destruct k; [lia|]. exists k. repeat split; [lia| |].
      * destruct n; cbn in *; auto. lia.
      * destruct (Nat.eq_dec j k) as [->|Hne]; auto.
        assert (H0 : A []) by (apply Hn; lia). (* pad the j pieces found back to k *)
        replace k with ((k - j) + j) by lia. apply l_pow_pad_n; auto.
  - intros (Hn & u & v & E & Hu & (k & H1 & H2 & H3)). subst w.
    exists (S k). repeat split; [lia| |].
    + destruct n as [[|n]|]; cbn in *; auto; [congruence|lia].
    + cbn [l_pow]. exists (x :: u), v. repeat split; auto. apply Hd; auto.
Qed.

Lemma leb_bound_spec k n : leb_bound k n = true <-> le_bound k n.
Proof. destruct n; cbn; [apply Nat.leb_le|tauto]. Qed.

Lemma nullable_correct r : nullable r = true <-> Lr r [].
Proof.
  induction r; cbn [nullable Lr].
  - split; [discriminate|intros []].
  - split; reflexivity.
  - split; [discriminate|]. intros (q & E & _). discriminate E.
  - rewrite andb_true_iff, IHr1, IHr2. split.
    + intros [H1 H2]. exists [], []. auto.
    + intros (u & v & E & Hu & Hv). symmetry in E. apply app_eq_nil in E. destruct E; subst; auto.
  - rewrite orb_true_iff, IHr1, IHr2. reflexivity.
  - rewrite l_rep_nil, orb_true_iff, andb_true_iff, Nat.eqb_eq, IHr, leb_bound_spec. reflexivity.
Qed.

Lemma deriv_correct r x w : Lr (deriv x r) w <-> Lr r (x :: w).
Proof.
  revert w. induction r; intros w; cbn [deriv Lr].
  - split; intros [].
  - split; [intros []|intro H; discriminate H].
  - destruct (sym_match s x) eqn:E; cbn [Lr].
    + split.
      * intros ->. exists x. auto.
      * intros (q & E' & _). injection E' as -> ->. reflexivity.
    + split; [intros []|]. intros (q & E' & Hq). injection E' as -> ->. congruence.
  - rewrite l_cat_cons, <- nullable_correct, <- IHr2.
    assert (Hd : l_cat (Lr (deriv x r1)) (Lr r2) w <-> l_cat (fun u => Lr r1 (x :: u)) (Lr r2) w).
    { apply l_cat_ext; [exact IHr1|apply leq_refl]. }
    destruct (nullable r1); cbn [Lr]; unfold l_alt; rewrite Hd; intuition discriminate.
  - unfold l_alt. rewrite IHr1, IHr2. reflexivity.
  - rewrite (l_rep_cons (Lr r) (Lr (deriv x r)) x m n w IHr).
    destruct n as [[|n]|]; cbn [Lr]; [split; [intros []|intros [H _]; congruence]| |];
      (split; [intros H; split; [congruence|exact H]|intros [_ H]; exact H]).
Qed.

Lemma rmatch_correct r w : rmatch r w = true <-> Lr r w.
Proof.
  revert r. induction w as [|x w IH]; intros r; cbn [rmatch].
  - apply nullable_correct.
  - rewrite IH. apply deriv_correct.
Qed.

Section PInd.
  Variable P : particle -> Prop.
  Hypothesis HE : forall m n q, P (Elem m n q).
  Hypothesis HW : forall m n c, P (Wild m n c).
  Hypothesis HS : forall m n ps, Forall P ps -> P (Seq m n ps).
  Hypothesis HC : forall m n ps, Forall P ps -> P (Choice m n ps).
  Fixpoint particle_ind' (p : particle) : P p :=
    match p with
    | Elem m n q => HE m n q
    | Wild m n c => HW m n c
    | Seq m n ps => HS m n ps ((fix go (ps : list particle) : Forall P ps :=
                                  match ps with [] => Forall_nil P | x :: r => Forall_cons x (particle_ind' x) (go r) end) ps)
    | Choice m n ps => HC m n ps ((fix go (ps : list particle) : Forall P ps :=
                                  match ps with [] => Forall_nil P | x :: r => Forall_cons x (particle_ind' x) (go r) end) ps)
    end.
End PInd.

Lemma go_fold {X Y} (F : X -> Y) (op : Y -> Y -> Y) (e : Y) l :
  (fix go (l : list X) : Y := match l with [] => e | x :: r => op (F x) (go r) end) l = fold_right op e (map F l).
Proof. induction l as [|x l IH]; cbn [map fold_right]; [reflexivity|]. rewrite IH. reflexivity. Qed.

Lemma Lp_Seq m n ps : Lp (Seq m n ps) = l_rep m n (l_seq (map Lp ps)).
Proof. cbn [Lp]. rewrite (go_fold Lp l_cat l_eps). reflexivity. Qed.
Lemma Lp_Choice m n ps : Lp (Choice m n ps) = l_rep m n (l_choice (map Lp ps)).
Proof. cbn [Lp]. rewrite (go_fold Lp l_alt l_void). reflexivity. Qed.

Lemma p2re_correct p : Lr (p2re p) == Lp p.
Proof.
  induction p using particle_ind'.
  - apply leq_refl.
  - apply leq_refl.
  - rewrite Lp_Seq. cbn [p2re Lr]. apply l_rep_ext.
    induction H; cbn [map l_seq Lr]; [apply leq_refl|]. apply l_cat_ext; auto.
  - rewrite Lp_Choice. cbn [p2re Lr]. apply l_rep_ext.
    induction H; cbn [map l_choice Lr]; [apply leq_refl|]. apply l_alt_ext; auto.
Qed.

