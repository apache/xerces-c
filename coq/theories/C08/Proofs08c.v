(** C08 lemmas, part c: traverseAny / traverseChoiceSequence + convertContentSpecTree ([convert]) preserve the
    language of well-formed particles; the wildcard decision table; [cmatch] reads the converted tree;
    AllContentModel::validateContent. *)
From XV Require Import C08.Spec08 C08.Model08 C08.Proofs08a C08.Proofs08b.

Implicit Types A B C : lang.

Definition node_match (x : uri) (c : csn) : bool := match c with CAny k u => any_match k u x | _ => false end.
(** does some leaf produced by traverseAny accept namespace x (DFAContentModel::validateContent) *)
Definition wild_decide (c : nsc) (x : uri) : bool := existsb (node_match x) (any_nodes c).

Lemma dedup_In u l seen : In u (dedup l seen) <-> In u l /\ ~ In u seen.
Proof.
  revert seen. induction l as [|y l IH]; intros seen; cbn [dedup].
  - cbn. tauto.
  - destruct (mem_uri y seen) eqn:E.
    + apply mem_uri_In in E. rewrite IH. cbn. split; [tauto|]. intros [[->|H] Hn]; [contradiction|tauto].
    + assert (Hn : ~ In y seen) by (intro H; apply mem_uri_In in H; congruence).
      cbn [In]. rewrite IH. cbn [In]. split.
      * intros [->|[H1 H2]]; [tauto|]. tauto.
      * intros [[->|H] Hs]; [tauto|]. destruct (N.eq_dec y u) as [->|Hne]; [tauto|]. right. split; auto.
        intros [E'|H']; [congruence|tauto].
Qed.

Definition leaf_nsc (k : anykind) (u : uri) : nsc :=
  match k with KAny => NsAny | KOther => NsNot u | KNS => NsSet [u] end.
Lemma c2re_CAny k u : c2re (CAny k u) = RSym (SW (leaf_nsc k u)).
Proof. destruct k; reflexivity. Qed.
Lemma any_match_allows k u x : any_match k u x = wildcard_allows (leaf_nsc k u) x.
Proof.
  destruct k; cbn [any_match leaf_nsc wildcard_allows mem_uri existsb].
  - reflexivity.
  - apply andb_comm.
  - rewrite orb_false_r. apply N.eqb_sym.
Qed.

Lemma wild_decide_correct c x : c <> NsSet [] -> wild_decide c x = wildcard_allows c x.
Proof.
  intros Hc. unfold wild_decide. destruct c as [|u|l]; cbn [any_nodes existsb node_match].
  - reflexivity.
  - rewrite orb_false_r. apply (any_match_allows KOther).
  - destruct l as [|y l]; [congruence|]. set (l' := y :: l).
    apply eq_true_iff_eq. rewrite existsb_exists. cbn [wildcard_allows]. rewrite mem_uri_In. split.
    + intros (n & Hin & Hm). apply in_map_iff in Hin. destruct Hin as (u & <- & Hu).
      cbn [node_match any_match] in Hm. apply N.eqb_eq in Hm. subst. apply dedup_In in Hu. tauto.
    + intros Hin. exists (CAny KNS x). split.
      * apply in_map. apply dedup_In. split; auto.
      * cbn [node_match any_match]. apply N.eqb_refl.
Qed.

Lemma wild_decide_empty_list_refuted : wild_decide (NsSet []) 2%N = true /\ wildcard_allows (NsSet []) 2%N = false.
Proof. split; reflexivity. Qed.

Lemma any_nodes_any c nd : In nd (any_nodes c) -> exists k u, nd = CAny k u.
Proof.
  destruct c as [|v|[|y l]]; cbn [any_nodes]; try (intros [<-|[]]; eauto).
  intros H. apply in_map_iff in H. destruct H as (u & <- & _). eauto.
Qed.
Lemma any_nodes_not_loop c : Forall not_loop (any_nodes c).
Proof. apply Forall_forall. intros x Hx. destruct (any_nodes_any c x Hx) as (k & u & ->). exact I. Qed.
Lemma any_nodes_nonempty c : any_nodes c <> [].
Proof. destruct c as [| |[|y l]]; discriminate. Qed.

Lemma Lc_any_nodes c : c <> NsSet [] ->
  l_choice (map Lc (any_nodes c)) == l_sym (fun x => wildcard_allows c (fst x)).
Proof.
  intros Hc. apply leq_trans with (l_sym (fun x => wild_decide c (fst x))).
  2:{ apply l_sym_ext. intros q. apply wild_decide_correct. exact Hc. }
  unfold wild_decide. pose proof (any_nodes_any c) as Hany.
  induction (any_nodes c) as [|nd l IH]; cbn [map l_choice existsb].
  - intro w; split; [intros []|intros (q & _ & H); discriminate H].
  - destruct (Hany nd (or_introl eq_refl)) as (k & u & ->).
    eapply leq_trans; [apply l_alt_ext; [apply leq_refl|apply IH; intros; apply Hany; right; assumption]|].
    apply l_sym_alt.
Qed.

Lemma Lc_fold mk (op : lang -> lang -> lang) e :
  (forall a b, Lc (mk a b) = op (Lc a) (Lc b)) -> (forall A B C, op (op A B) C == op A (op B C)) ->
  (forall A, op A e == A) -> forall r c, Lc (fold_left mk r c) == op (Lc c) (fold_right op e (map Lc r)).
Proof.
  intros Hmk Hassoc He. induction r as [|y r IH]; intros c; cbn [fold_left map fold_right].
  - symmetry. apply He.
  - rewrite IH, Hmk. apply Hassoc.
Qed.
Lemma Lc_fold_seq r c : Lc (fold_left CSeq r c) == l_cat (Lc c) (l_seq (map Lc r)).
Proof. apply (Lc_fold CSeq l_cat l_eps); [reflexivity|apply l_cat_assoc|apply l_cat_eps_r]. Qed.
Lemma Lc_fold_choice r c : Lc (fold_left CChoice r c) == l_alt (Lc c) (l_choice (map Lc r)).
Proof. apply (Lc_fold CChoice l_alt l_void); [reflexivity|apply l_alt_assoc|apply l_alt_void_r]. Qed.

Definition Lco (o : option csn) : lang := match o with None => l_eps | Some c => Lc c end.

(** what [convert] does with the nodes [cs] of the children of a group, or of a wildcard *)
Definition convert_group (mk : csn -> csn -> csn) (cs : list csn) (m : nat) (n : option nat) (b : bool) : option csn :=
  match nest mk cs with Some t => Some (expand t m n b) | None => None end.
Definition onot_loop (o : option csn) : Prop := match o with Some c => not_loop c | None => True end.

Lemma convert_group_nil mk m n b : convert_group mk [] m n b = None.
Proof. reflexivity. Qed.
Lemma convert_group_cons mk c r m n b : convert_group mk (c :: r) m n b = Some (expand (fold_left mk r c) m n b).
Proof. reflexivity. Qed.

Lemma fold_left_not_loop (mk : csn -> csn -> csn) r c :
  (forall x y, not_loop (mk x y)) -> not_loop c -> not_loop (fold_left mk r c).
Proof. intros Hmk. revert c. induction r; intros c Hc; cbn [fold_left]; auto. Qed.

Lemma convert_group_not_loop mk cs m n b :
  (forall x y, not_loop (mk x y)) -> Forall not_loop cs -> onot_loop (convert_group mk cs m n b).
Proof.
  intros Hmk Hcs. destruct Hcs as [|c r Hc _]; [exact I|]. rewrite convert_group_cons.
  apply expand_not_loop, fold_left_not_loop; assumption.
Qed.
Lemma convert_group_some mk cs m n b : cs <> [] -> convert_group mk cs m n b <> None.
Proof. destruct cs; [congruence|rewrite convert_group_cons; discriminate]. Qed.

Lemma Lco_group_seq cs m n b : Forall not_loop cs -> le_bound m n -> n <> Some 0 ->
  Lco (convert_group CSeq cs m n b) == l_rep m n (l_seq (map Lc cs)).
Proof.
  intros Hcs Hb Hn. destruct Hcs as [|c r Hc _]; [rewrite convert_group_nil|rewrite convert_group_cons]; cbn [Lco map l_seq].
  - apply leq_sym, l_rep_eps. exact Hb.
  - rewrite expand_correct; auto; [apply l_rep_ext, Lc_fold_seq|apply fold_left_not_loop; [intros; exact I|exact Hc]].
Qed.
Lemma Lco_group_choice cs m n b : cs <> [] -> Forall not_loop cs -> le_bound m n -> n <> Some 0 ->
  Lco (convert_group CChoice cs m n b) == l_rep m n (l_choice (map Lc cs)).
Proof.
  intros Hne Hcs Hb Hn. destruct Hcs as [|c r Hc _]; [congruence|]. rewrite convert_group_cons. cbn [Lco map l_choice].
  rewrite expand_correct; auto; [apply l_rep_ext, Lc_fold_choice|apply fold_left_not_loop; [intros; exact I|exact Hc]].
Qed.

(** well-formed particles: ranges with min <= max and max >= 1, no empty namespace list, and every member of a
    choice produces a node (no empty model group directly inside a choice) *)
Definition okb (m : nat) (n : option nat) : bool :=
  leb_bound m n && match n with Some 0 => false | _ => true end.
Fixpoint wfb (p : particle) : bool :=
  match p with
  | Elem m n _ => okb m n
  | Wild m n c => okb m n && match c with NsSet [] => false | _ => true end
  | Seq m n ps => okb m n && (fix go (ps : list particle) : bool :=
                                match ps with [] => true | p :: r => wfb p && go r end) ps
  | Choice m n ps => okb m n && match ps with [] => false | _ => true end &&
                     (fix go (ps : list particle) : bool :=
                        match ps with [] => true | p :: r => wfb p && has_node p && go r end) ps
  end.

Lemma okb_spec m n : okb m n = true -> le_bound m n /\ n <> Some 0.
Proof.
  unfold okb. rewrite andb_true_iff, leb_bound_spec. intros [H1 H2]. split; auto. intros ->. discriminate H2.
Qed.

Lemma wfb_Wild_inv m n c : wfb (Wild m n c) = true -> le_bound m n /\ n <> Some 0 /\ c <> NsSet [].
Proof.
  cbn [wfb]. rewrite andb_true_iff. intros [Hok Hc]. apply okb_spec in Hok. destruct Hok. repeat split; auto.
  intros ->. discriminate Hc.
Qed.
Lemma wfb_Seq_inv m n ps :
  wfb (Seq m n ps) = true -> le_bound m n /\ n <> Some 0 /\ Forall (fun p => wfb p = true) ps.
Proof.
  change (wfb (Seq m n ps)) with (okb m n && forallb wfb ps). rewrite andb_true_iff, forallb_forall, <- Forall_forall.
  intros [Hok Hall]. apply okb_spec in Hok. tauto.
Qed.
Lemma wfb_Choice_inv m n ps : wfb (Choice m n ps) = true ->
  le_bound m n /\ n <> Some 0 /\ ps <> [] /\ Forall (fun p => wfb p = true /\ has_node p = true) ps.
Proof.
  change (wfb (Choice m n ps)) with
    (okb m n && match ps with [] => false | _ => true end && forallb (fun p => wfb p && has_node p) ps).
  rewrite !andb_true_iff, forallb_forall, <- Forall_forall. intros [[Hok Hne] Hall]. apply okb_spec in Hok.
  repeat split; try tauto.
  - intros ->. discriminate Hne.
  - apply Forall_forall. intros p Hp. rewrite Forall_forall in Hall. apply andb_true_iff, Hall, Hp.
Qed.
Lemma has_node_group ps :
  (fix go (ps : list particle) : bool := match ps with [] => false | p :: r => has_node p || go r end) ps =
  existsb has_node ps.
Proof. reflexivity. Qed.

Definition convert_kids (b : bool) (ps : list particle) : list csn := filter_some (map (convert b) ps).
Lemma convert_kids_cons b p ps :
  convert_kids b (p :: ps) = match convert b p with Some c => c :: convert_kids b ps | None => convert_kids b ps end.
Proof. unfold convert_kids. cbn [map filter_some]. destruct (convert b p); reflexivity. Qed.
Lemma convert_Seq b m n ps : convert b (Seq m n ps) = convert_group CSeq (convert_kids b ps) m n b.
Proof. reflexivity. Qed.
Lemma convert_Choice b m n ps : convert b (Choice m n ps) = convert_group CChoice (convert_kids b ps) m n b.
Proof. reflexivity. Qed.
Lemma convert_Wild b m n c : n <> Some 0 -> convert b (Wild m n c) = convert_group CChoice (any_nodes c) m n b.
Proof. destruct n as [[|n]|]; [congruence|reflexivity|reflexivity]. Qed.

Lemma convert_kids_Forall (P : csn -> Prop) b ps :
  Forall (fun p => match convert b p with Some c => P c | None => True end) ps -> Forall P (convert_kids b ps).
Proof.
  induction 1 as [|p ps Hp _ IH]; [constructor|]. rewrite convert_kids_cons. destruct (convert b p); auto.
Qed.

Lemma convert_not_loop b p : onot_loop (convert b p).
Proof.
  induction p as [m n q|m n c|m n ps IH|m n ps IH] using particle_ind'.
  - apply expand_not_loop. exact I.
  - destruct n as [[|n]|]; [exact I| |]; rewrite convert_Wild by discriminate;
      (apply convert_group_not_loop; [intros; exact I|apply any_nodes_not_loop]).
  - rewrite convert_Seq. apply convert_group_not_loop; [intros; exact I|]. apply convert_kids_Forall, IH.
  - rewrite convert_Choice. apply convert_group_not_loop; [intros; exact I|]. apply convert_kids_Forall, IH.
Qed.
Lemma convert_kids_not_loop b ps : Forall not_loop (convert_kids b ps).
Proof. apply convert_kids_Forall, Forall_forall. intros p _. apply convert_not_loop. Qed.

Lemma convert_kids_nonempty b ps : Forall (fun p => has_node p = true -> convert b p <> None) ps ->
  existsb has_node ps = true -> convert_kids b ps <> [].
Proof.
  induction 1 as [|p ps Hp _ IH]; cbn [existsb]; [discriminate|]. rewrite convert_kids_cons.
  destruct (convert b p); [discriminate|]. destruct (has_node p); [destruct (Hp eq_refl eq_refl)|exact IH].
Qed.
Lemma has_node_convert b p : has_node p = true -> convert b p <> None.
Proof.
  induction p as [m n q|m n c|m n ps IH|m n ps IH] using particle_ind'; cbn [has_node].
  - discriminate.
  - intros Hn. rewrite convert_Wild by (intros ->; discriminate Hn). apply convert_group_some, any_nodes_nonempty.
  - rewrite has_node_group, convert_Seq. intros Hex. apply convert_group_some, convert_kids_nonempty; assumption.
  - rewrite has_node_group, convert_Choice. intros Hex. apply convert_group_some, convert_kids_nonempty; assumption.
Qed.

(** a child without a node counts as [l_eps]; in a choice every child has a node *)
Lemma l_seq_kids b ps : Forall (fun p => Lco (convert b p) == Lp p) ps ->
  l_seq (map Lc (convert_kids b ps)) == l_seq (map Lp ps).
Proof.
  induction 1 as [|p ps Hp _ IH]; [apply leq_refl|]. rewrite convert_kids_cons.
  destruct (convert b p); cbn [Lco map l_seq] in *.
  - apply l_cat_ext; assumption.
  - eapply leq_trans; [apply leq_sym, l_cat_eps_l|]. apply l_cat_ext; assumption.
Qed.
Lemma l_choice_kids b ps : Forall (fun p => Lco (convert b p) == Lp p /\ convert b p <> None) ps ->
  l_choice (map Lc (convert_kids b ps)) == l_choice (map Lp ps) /\ (ps <> [] -> convert_kids b ps <> []).
Proof.
  induction 1 as [|p ps [Hp Hs] _ [IH _]]; [split; [apply leq_refl|congruence]|]. rewrite convert_kids_cons.
  destruct (convert b p); [|congruence]. cbn [map l_choice Lco] in *. split; [|discriminate]. apply l_alt_ext; assumption.
Qed.

Lemma c2re_correct : forall c, Lr (c2re c) == Lc c.
Proof.
  (* [Lc] and [c2re] look through CStar / CPlus at a CLoop below: the hypothesis is needed two levels down *)
  fix IH 1. intros c. destruct c as [q|k u|a b|a b|a|a|a|a m n]; rewrite ?c2re_CAny; cbn [c2re Lr Lc].
  - apply leq_refl.
  - apply l_sym_ext. intros q. symmetry. apply any_match_allows.
  - apply l_cat_ext; apply IH.
  - apply l_alt_ext; apply IH.
  - apply l_alt_ext; [apply leq_refl|apply IH].
  - pose proof (IH a) as Ha.
    destruct a as [q|k u|a1 a2|a1 a2|a1|a1|a1|a1 m n]; cbn [Lr];
      try (apply l_rep_ext; exact Ha).
    apply l_alt_ext; [apply leq_refl|]. apply l_rep_ext. apply IH.
  - pose proof (IH a) as Ha.
    destruct a as [q|k u|a1 a2|a1 a2|a1|a1|a1|a1 m n]; cbn [Lr];
      try (apply l_rep_ext; exact Ha).
    apply l_rep_ext. apply IH.
  - apply l_rep_ext. apply IH.
Qed.

Lemma cmatch_correct o w : cmatch o w = true <-> Lco o w.
Proof.
  destruct o as [c|]; cbn [cmatch Lco].
  - rewrite rmatch_correct. apply c2re_correct.
  - destruct w; unfold l_eps; split; congruence.
Qed.

Definition memq (x : qname) (l : list qname) : bool := existsb (qname_eqb x) l.
Lemma memq_In x l : memq x l = true <-> In x l.
Proof. apply existsb_eqb_In, qname_eqb_eq. Qed.
Lemma memq_false x l : memq x l = false <-> ~ In x l.
Proof. rewrite <- memq_In. symmetry. apply not_true_iff_false. Qed.

Lemma find_index_S x l k : find_index x l (S k) = option_map S (find_index x l k).
Proof. revert k. induction l as [|y l IH]; intros k; cbn [find_index]; [reflexivity|]. destruct (qname_eqb y x); auto. Qed.
Lemma find_index_cons x y l :
  find_index x (y :: l) 0 = if qname_eqb y x then Some 0 else option_map S (find_index x l 0).
Proof. cbn [find_index]. rewrite find_index_S. reflexivity. Qed.

Lemma find_index_none x l : find_index x l 0 = None <-> ~ In x l.
Proof.
  induction l as [|y l IH]; [cbn; tauto|]. rewrite find_index_cons. cbn [In].
  destruct (qname_eqb y x) eqn:E.
  - apply qname_eqb_eq in E. split; [discriminate|tauto].
  - assert (y <> x) by (intros ->; rewrite qname_eqb_refl in E; discriminate).
    destruct (find_index x l 0) as [j|]; cbn [option_map].
    + split; [discriminate|]. intros Hn. assert (Some j = None) by (apply IH; tauto). discriminate.
    + split; [|reflexivity]. intros _. assert (~ In x l) by (apply IH; reflexivity). tauto.
Qed.

Lemma find_index_nth {T} (key : T -> qname) (f : T -> bool) x l i :
  find_index x (map key l) 0 = Some i -> exists a, In a l /\ key a = x /\ nth i (map f l) false = f a.
Proof.
  revert i. induction l as [|a l IH]; intros i; [discriminate|]. cbn [map]. rewrite find_index_cons.
  destruct (qname_eqb (key a) x) eqn:E.
  - intros [= <-]. apply qname_eqb_eq in E. exists a. cbn; auto.
  - destruct (find_index x (map key l) 0) as [j|]; [|discriminate]. intros [= <-].
    destruct (IH j eq_refl) as (b & Hb & Eb & Hn). exists b. cbn [In nth]; auto.
Qed.

(** the seen-bitmap as a function of the names seen so far; names are distinct *)
Lemma set_nth_seen {T} (key : T -> qname) x W l i : NoDup (map key l) ->
  find_index x (map key l) 0 = Some i ->
  set_nth i (map (fun a => memq (key a) W) l) = map (fun a => memq (key a) (x :: W)) l.
Proof.
  revert i. induction l as [|a l IH]; intros i Hnd; [discriminate|]. cbn [map] in *. rewrite find_index_cons.
  apply NoDup_cons_iff in Hnd. destruct Hnd as [Ha Hnd].
  destruct (qname_eqb (key a) x) eqn:E.
  - intros [= <-]. apply qname_eqb_eq in E. subst x. cbn [set_nth memq existsb]. rewrite qname_eqb_refl. f_equal.
    apply map_ext_in. intros b Hb. destruct (qname_eqb (key b) (key a)) eqn:Eb; [|reflexivity].
    apply qname_eqb_eq in Eb. destruct Ha. rewrite <- Eb. apply in_map, Hb.
  - destruct (find_index x (map key l) 0) as [j|]; [|discriminate]. intros [= <-]. cbn [set_nth memq existsb].
    rewrite E, (IH j Hnd eq_refl). reflexivity.
Qed.

Lemma NoDup_fst_unique {T U} (l : list (T * U)) a b b' :
  NoDup (map fst l) -> In (a, b) l -> In (a, b') l -> b = b'.
Proof.
  induction l as [|m l IH]; cbn [map In]; [tauto|]. intros Hn. apply NoDup_cons_iff in Hn. destruct Hn as [Hn Hl].
  intros [->|H1] [E|H2].
  - injection E; auto.
  - destruct Hn. apply (in_map fst _ _ H2).
  - subst m. destruct Hn. apply (in_map fst _ _ H1).
  - auto.
Qed.
Lemma NoDup_map_filter {T U} (f : T -> U) p l : NoDup (map f l) -> NoDup (map f (filter p l)).
Proof.
  induction l as [|a l IH]; cbn [map filter]; [auto|]. intros Hn. apply NoDup_cons_iff in Hn. destruct Hn as [Hn Hl].
  destruct (p a); auto. cbn [map]. constructor; auto.
  intros H. apply Hn. apply in_map_iff in H. destruct H as (b & <- & Hb). apply filter_In in Hb. apply in_map. tauto.
Qed.

Definition all_char (g : allgroup) (w : list qname) : Prop :=
  (w = [] /\ ag_optional g = true) \/
  (NoDup w /\ (forall x, In x w -> In x (map fst (ag_members g))) /\
   (forall q, In (q, true) (ag_members g) -> In q w)).

Section AllLoop.
  Variable g : allgroup.
  Hypothesis Hnd : NoDup (map fst (ag_members g)).
  Let cm := all_build g.
  Let ms := ag_members g.
  Let names := map fst ms.

  Definition all_required : list qname := map fst (filter (fun m => snd m) (ag_members g)).
  Definition all_reqb (x : qname) : bool := memq x all_required.
  Definition all_count_req (w : list qname) : nat := length (filter all_reqb w).

  Lemma all_required_In q : In q all_required <-> In (q, true) ms.
  Proof.
    unfold all_required. rewrite in_map_iff. split.
    - intros ([q' r] & <- & H). apply filter_In in H. destruct H as [H E]. cbn in E. subst r. exact H.
    - intros H. exists (q, true). split; [reflexivity|]. apply filter_In. auto.
  Qed.
  Lemma all_reqb_member q r : In (q, r) ms -> all_reqb q = r.
  Proof.
    intros Hm. destruct r.
    - apply memq_In, all_required_In, Hm.
    - apply memq_false. rewrite all_required_In. intros Ht. discriminate (NoDup_fst_unique ms q false true Hnd Hm Ht).
  Qed.

  (** [W]: the names seen so far, [k]: how many of them are required *)
  Lemma all_loop_char w : forall W k k', NoDup W ->
    (all_loop cm w (map (fun m => memq (fst m) W) ms) k = Some k' <->
     incl w names /\ NoDup (w ++ W) /\ k' = k + all_count_req w).
  Proof.
    induction w as [|x w IH]; intros W k k' HW; cbn [all_loop].
    - rewrite Nat.add_0_r. split; [intros [= <-]; repeat split; [intros ? []|exact HW]|intros (_ & _ & ->); reflexivity].
    - change (ac_children cm) with (map fst ms). destruct (find_index x (map fst ms) 0) as [i|] eqn:Ei.
      + (* of the two members found only their name x is used *)
        destruct (find_index_nth fst (fun m => memq (fst m) W) x ms i Ei) as (a & Ha & Ea & ->).
        destruct (find_index_nth fst (fun m => negb (snd m)) x ms i Ei) as ([q r] & Hb & Eb & Ho).
        cbn [fst snd] in Eb, Ho. subst q. change (ac_optional cm) with (map (fun m => negb (snd m)) ms). rewrite Ho, Ea.
        assert (Hx : In x names) by (rewrite <- Ea; apply in_map, Ha).
        assert (Hc : all_count_req (x :: w) = (if r then 1 else 0) + all_count_req w).
        { unfold all_count_req. cbn [filter]. rewrite (all_reqb_member x r Hb). destruct r; reflexivity. }
        destruct (memq x W) eqn:EW.
        * apply memq_In in EW. split; [discriminate|]. intros (_ & Hn & _). cbn [app] in Hn.
          apply NoDup_cons_iff in Hn. destruct Hn as [Hn _]. destruct Hn. apply in_or_app. auto.
        * apply memq_false in EW. rewrite (set_nth_seen fst x W ms i Hnd Ei), IH by (constructor; assumption).
          rewrite Hc. cbn [app]. split; intros (H1 & H2 & ->).
          -- repeat split.
             ++ intros y [<-|Hy]; auto.
             ++ constructor; [apply (NoDup_remove_2 _ _ _ H2)|apply (NoDup_remove_1 _ _ _ H2)].
             ++ destruct r; cbn [negb]; lia.
          -- repeat split.
             ++ intros y Hy. apply H1. right. exact Hy.
             ++ apply (Permutation_NoDup (Permutation_middle w W x)). exact H2.
             ++ destruct r; cbn [negb]; lia.
      + apply find_index_none in Ei. split; [discriminate|]. intros (H & _). destruct Ei. apply H. left. reflexivity.
  Qed.

  Lemma all_loop_some w W k : NoDup W -> incl w names -> NoDup (w ++ W) ->
    all_loop cm w (map (fun m => memq (fst m) W) ms) k = Some (k + all_count_req w).
  Proof. intros HW Hin Hnd'. apply all_loop_char; auto. Qed.

  Lemma all_count_req_complete w : NoDup w ->
    (all_count_req w = ac_numRequired cm <-> forall q, In (q, true) ms -> In q w).
  Proof.
    intros Hw. set (R := filter all_reqb w).
    assert (HR : ac_numRequired cm = length all_required) by (symmetry; apply map_length).
    assert (HRnd : NoDup all_required) by apply (NoDup_map_filter fst _ _ Hnd).
    assert (Hfnd : NoDup R) by (apply NoDup_filter; exact Hw).
    assert (Hincl : incl R all_required).
    { intros x Hx. apply filter_In in Hx. apply memq_In. tauto. }
    unfold all_count_req. fold R. rewrite HR. split.
    - intros Hlen q Hq. apply all_required_In in Hq.
      apply (NoDup_length_incl Hfnd) in Hincl; [|lia]. apply Hincl, filter_In in Hq. tauto.
    - intros Hall. assert (Hi : incl all_required R).
      { intros x Hx. apply filter_In. split; [apply Hall, all_required_In, Hx|apply memq_In, Hx]. }
      pose proof (NoDup_incl_length HRnd Hi). pose proof (NoDup_incl_length Hfnd Hincl). lia.
  Qed.

  Lemma all_validate_correct w : all_validate g w = true <-> all_char g w.
  Proof.
    unfold all_validate, all_validate_cm, all_char. fold cm ms. destruct w as [|x w].
    - change (ac_hasOptional cm) with (ag_optional g).
      pose proof (all_count_req_complete [] (NoDup_nil _)) as Hc. change (all_count_req []) with 0 in Hc.
      destruct (ag_optional g); cbn [orb].
      + split; auto.
      + destruct (Nat.eqb_spec (ac_numRequired cm) 0) as [E|E].
        * split; [intros _; right|reflexivity]. repeat split; [constructor|intros ? []|apply Hc; auto].
        * rewrite Nat.eqb_eq. split; [intros H; destruct E; auto|].
          intros [[_ H]|(_ & _ & H)]; [discriminate H|apply Hc, H].
    - set (w' := x :: w). change (ac_children cm) with (map fst ms). rewrite map_map.
      change (map (fun _ => false) ms) with (map (fun m => memq (fst m) []) ms).
      destruct (all_loop cm w' _ 0) as [k|] eqn:E.
      + apply all_loop_char in E; [|constructor]. destruct E as (Hin & Hw & ->). rewrite app_nil_r in Hw.
        rewrite Nat.eqb_eq, (all_count_req_complete w' Hw). split; [right; auto|].
        intros [[H _]|(_ & _ & H)]; [discriminate H|exact H].
      + split; [discriminate|]. intros [[H _]|(Hw & Hin & _)]; [discriminate H|].
        rewrite all_loop_some in E; [discriminate E|constructor|exact Hin|rewrite app_nil_r; exact Hw].
  Qed.
End AllLoop.

Lemma sub_required_props ms s : sub_required ms s ->
  (forall x, In x s -> In x (map fst ms)) /\ (forall q, In (q, true) ms -> In q s) /\
  (NoDup (map fst ms) -> NoDup s).
Proof.
  induction 1 as [|q b ms w H (IH1 & IH2 & IH3)|q ms w H (IH1 & IH2 & IH3)]; cbn [map fst In].
  - repeat split; [tauto|tauto|constructor].
  - repeat split.
    + intros x [->|Hx]; auto.
    + intros q' [E|Hq]; [injection E as -> _; auto|right; auto].
    + intros Hnd. inversion Hnd; subst. constructor; auto.
  - repeat split.
    + intros x Hx; auto.
    + intros q' [E|Hq]; [discriminate E|auto].
    + intros Hnd. inversion Hnd; subst. auto.
Qed.

Lemma sub_required_filter ms (w : list qname) : (forall q, In (q, true) ms -> In q w) ->
  sub_required ms (filter (fun x => memq x w) (map fst ms)).
Proof.
  induction ms as [|[q r] ms IH]; intros Hreq; cbn [map filter fst]; [constructor|].
  assert (IH' : sub_required ms (filter (fun x => memq x w) (map fst ms))) by (apply IH; intros; apply Hreq; right; auto).
  destruct (memq q w) eqn:E.
  - constructor; auto.
  - destruct r.
    + exfalso. assert (In q w) by (apply Hreq; left; auto). apply memq_In in H. congruence.
    + constructor; auto.
Qed.

Lemma L_all_char g w : NoDup (map fst (ag_members g)) -> (L_all g w <-> all_char g w).
Proof.
  intros Hnd. unfold L_all, all_char. split.
  - intros [H|(s & Hs & Hp)]; [left; auto|right].
    destruct (sub_required_props _ _ Hs) as (H1 & H2 & H3). repeat split.
    + eapply Permutation_NoDup; eauto.
    + intros x Hx. apply H1. eapply Permutation_in; [apply Permutation_sym|]; eauto.
    + intros q Hq. eapply Permutation_in; eauto.
  - intros [H|(H1 & H2 & H3)]; [left; auto|right].
    exists (filter (fun x => memq x w) (map fst (ag_members g))). split; [apply sub_required_filter; auto|].
    apply NoDup_Permutation; auto; [apply NoDup_filter; auto|].
    intros x. rewrite filter_In, memq_In. split; [tauto|]. intros Hx. split; auto.
Qed.
