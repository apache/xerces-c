(** C08 lemmas, part b: ComplexTypeInfo::expandContentModel preserves the language. *)
From XV Require Import C08.Spec08 C08.Model08 C08.Proofs08a.

Implicit Types A B C : lang.

Definition add_bound (k : nat) (n : option nat) : option nat := option_map (fun x => k + x) n.

Lemma l_rep_cat_pow A m i n : l_cat (l_pow A m) (l_rep i n A) == l_rep (m + i) (add_bound m n) A.
Proof.
  intro w; split.
  - intros (u & v & E & Hu & (k & H1 & H2 & H3)). exists (m + k). repeat split; [lia| |].
    + destruct n; cbn in *; auto. lia.
    + apply l_pow_add. exists u, v; auto.
  - intros (k & H1 & H2 & H3). replace k with (m + (k - m)) in H3 by lia.
    apply l_pow_add in H3. destruct H3 as (u & v & E & Hu & Hv). exists u, v. repeat split; auto.
    exists (k - m). repeat split; auto; [lia|]. destruct n; cbn in *; auto. lia.
Qed.

Lemma l_rep_pow_cat A m i n : l_cat (l_rep i n A) (l_pow A m) == l_rep (i + m) (add_bound m n) A.
Proof.
  intro w; split.
  - intros (u & v & E & (k & H1 & H2 & H3) & Hv). exists (k + m). repeat split; [lia| |].
    + destruct n; cbn in *; auto. lia.
    + apply l_pow_add. exists u, v; auto.
  - intros (k & H1 & H2 & H3). replace k with ((k - m) + m) in H3 by lia.
    apply l_pow_add in H3. destruct H3 as (u & v & E & Hu & Hv). exists u, v. repeat split; auto.
    exists (k - m). repeat split; auto; [lia|]. destruct n; cbn in *; auto. lia.
Qed.

Lemma l_pow_opt A k : l_pow (l_alt l_eps A) k == l_rep 0 (Some k) A.
Proof.
  induction k.
  - intro w; split.
    + intro H. exists 0. repeat split; cbn; auto.
    + intros (j & _ & H2 & H3). cbn in H2. assert (j = 0) by lia. subst. exact H3.
  - cbn [l_pow]. intro w; split.
    + intros (u & v & E & [Hu|Hu] & Hv); apply IHk in Hv; destruct Hv as (j & _ & H2 & H3); cbn in H2.
      * unfold l_eps in Hu. subst. exists j. repeat split; cbn; auto; lia.
      * exists (S j). repeat split; cbn; [lia|lia|]. exists u, v; auto.
    + intros (j & _ & H2 & H3). cbn in H2. destruct j.
      * cbn in H3. unfold l_eps in H3. subst. exists [], []. repeat split; [left; reflexivity|].
        apply IHk. exists 0. repeat split; cbn; auto; lia.
      * cbn [l_pow] in H3. destruct H3 as (u & v & E & Hu & Hv). exists u, v. repeat split; auto; [right; auto|].
        apply IHk. exists j. repeat split; cbn; auto; lia.
Qed.

Lemma l_rep_exact A m : l_pow A m == l_rep m (Some m) A.
Proof.
  intro w; split.
  - intro H. exists m. repeat split; cbn; auto.
  - intros (k & H1 & H2 & H3). cbn in H2. assert (k = m) by lia. subst; auto.
Qed.
Lemma l_rep_11 A : l_rep 1 (Some 1) A == A.
Proof. rewrite <- l_rep_exact. apply l_pow_1. Qed.
Lemma l_rep_01 A : l_alt l_eps A == l_rep 0 (Some 1) A.
Proof. rewrite <- l_pow_opt. symmetry. apply l_pow_1. Qed.

Lemma l_rep_0_alt A n : l_alt l_eps (l_rep 1 n A) == l_rep 0 n A.
Proof.
  intro w; split.
  - intros [H|(k & H1 & H2 & H3)].
    + exists 0. repeat split; auto. destruct n; cbn; lia.
    + exists k. repeat split; auto. lia.
  - intros (k & H1 & H2 & H3). destruct k.
    + left. exact H3.
    + right. exists (S k). repeat split; auto. lia.
Qed.
Lemma l_rep_eps_alt A m n : 1 <= m \/ n <> Some 0 -> le_bound m n ->
  (m = 0 -> l_alt l_eps (l_rep 1 n A) == l_rep 0 n A).
Proof. intros _ _ _. apply l_rep_0_alt. Qed.

Lemma Lc_seq_left r s k : Lc (seq_left r s k) == l_cat (Lc r) (l_pow (Lc s) k).
Proof.
  revert r. induction k; intros r; cbn [seq_left l_pow].
  - rewrite l_cat_eps_r. reflexivity.
  - rewrite IHk. cbn [Lc]. apply l_cat_assoc.
Qed.

Lemma Lc_seq_right s r k : Lc (seq_right s r k) == l_cat (l_pow (Lc s) k) (Lc r).
Proof.
  revert r. induction k; intros r; cbn [seq_right].
  - rewrite l_cat_eps_l. reflexivity.
  - rewrite IHk. cbn [Lc]. rewrite <- l_cat_assoc, l_pow_snoc. reflexivity.
Qed.

(** a node that is not a bare Loop (expand never returns one, and is never applied to one) *)
Definition not_loop (c : csn) : Prop := match c with CLoop _ _ _ => False | _ => True end.

Lemma Lc_star c : not_loop c -> Lc (CStar c) == l_rep 0 None (Lc c).
Proof. destruct c; cbn [not_loop]; intros H; try contradiction; reflexivity. Qed.
Lemma Lc_plus c : not_loop c -> Lc (CPlus c) == l_rep 1 None (Lc c).
Proof. destruct c; cbn [not_loop]; intros H; try contradiction; reflexivity. Qed.

Lemma seq_left_not_loop r s k : not_loop r -> not_loop (seq_left r s k).
Proof. revert r; induction k; intros r Hr; cbn [seq_left]; auto. apply IHk. exact I. Qed.
Lemma seq_right_not_loop s r k : not_loop r -> not_loop (seq_right s r k).
Proof. revert r; induction k; intros r Hr; cbn [seq_right]; auto. apply IHk. exact I. Qed.

Lemma expand_not_loop c m n b : not_loop c -> not_loop (expand c m n b).
Proof.
  intros Hc. unfold expand.
  destruct m as [|[|m]]; destruct n as [[|[|n]]|]; try exact Hc; try exact I;
    destruct (b && is_leafish c); cbn [Nat.eqb]; try exact I; cbv zeta;
    repeat match goal with |- not_loop (if ?x then _ else _) => destruct x end;
    try apply seq_left_not_loop; try apply seq_right_not_loop; try exact Hc; exact I.
Qed.

Lemma expand_unbounded c m : 1 <= m -> not_loop c ->
  Lc (seq_right c (CPlus c) (m - 1)) == l_rep m None (Lc c).
Proof.
  intros Hm Hc. rewrite Lc_seq_right, Lc_plus, l_rep_cat_pow by exact Hc. cbn [add_bound option_map].
  replace (m - 1 + 1) with m by lia. reflexivity.
Qed.

Lemma expand_opt_chain c n : 1 <= n ->
  Lc (seq_left (COpt c) (COpt c) (n - 1)) == l_rep 0 (Some n) (Lc c).
Proof.
  intros Hn. rewrite Lc_seq_left. cbn [Lc]. rewrite <- (l_pow_1 (l_alt l_eps (Lc c))) at 1.
  rewrite l_pow_add. replace (1 + (n - 1)) with n by lia. apply l_pow_opt.
Qed.

Lemma expand_min_chain c m : 1 <= m ->
  Lc (if 1 <? m then seq_left (CSeq c c) c (m - 2) else c) == l_pow (Lc c) m.
Proof.
  intros Hm. destruct (Nat.ltb_spec 1 m).
  - rewrite Lc_seq_left. cbn [Lc]. rewrite <- (l_pow_1 (Lc c)) at 1 2. rewrite !l_pow_add.
    replace (1 + 1 + (m - 2)) with m by lia. reflexivity.
  - assert (m = 1) by lia. subst. symmetry. apply l_pow_1.
Qed.

Lemma expand_bounded c m n : 1 <= m -> m <= n ->
  Lc (let r := if 1 <? m then seq_left (CSeq c c) c (m - 2) else c in
      if 0 <? n - m then seq_left (CSeq r (COpt c)) (COpt c) (n - m - 1) else r) == l_rep m (Some n) (Lc c).
Proof.
  intros Hm Hn. cbv zeta. destruct (Nat.ltb_spec 0 (n - m)).
  - rewrite Lc_seq_left. cbn [Lc]. rewrite l_cat_assoc, expand_min_chain by exact Hm.
    rewrite <- (l_pow_1 (l_alt l_eps (Lc c))) at 1. rewrite l_pow_add, l_pow_opt, l_rep_cat_pow.
    cbn [add_bound option_map]. replace (m + 0) with m by lia. replace (m + (1 + (n - m - 1))) with n by lia.
    reflexivity.
  - assert (n = m) by lia. subst n. rewrite expand_min_chain by exact Hm. apply l_rep_exact.
Qed.

Lemma l_rep_max1 A m n : 1 <= m -> n <> Some 0 -> l_rep m (max1 n) A == l_rep m n A.
Proof.
  intros Hm Hn.
  assert (Hmax : forall k, 1 <= k -> (le_bound k (max1 n) <-> le_bound k n)).
  { intros k Hk. destruct n as [n|]; cbn; [|tauto]. destruct n; [congruence|]. lia. }
  intro w; split; intros (k & H1 & H2 & H3); exists k; (split; [exact H1|split; [|exact H3]]);
    apply (Hmax k); auto; lia.
Qed.

Lemma expand_compact c m n : n <> Some 0 ->
  Lc (if m =? 0 then CStar (CLoop c m n) else CPlus (CLoop c m n)) == l_rep m n (Lc c).
Proof.
  intros Hn. destruct (Nat.eqb_spec m 0) as [->|Hm]; cbn [Lc].
  - change (Nat.max 1 0) with 1. rewrite l_rep_max1 by auto. apply l_rep_0_alt.
  - replace (Nat.max 1 m) with m by lia. apply l_rep_max1; [lia|exact Hn].
Qed.

Lemma expand_general c m n b : not_loop c -> le_bound m n -> n <> Some 0 -> (n = None -> 1 <= m) ->
  Lc (if b && is_leafish c then (if m =? 0 then CStar (CLoop c m n) else CPlus (CLoop c m n))
      else match n with
           | None => seq_right c (CPlus c) (m - 1)
           | Some n =>
               if m =? 0 then seq_left (COpt c) (COpt c) (n - 1)
               else let r := if 1 <? m then seq_left (CSeq c c) c (m - 2) else c in
                    let counter := n - m in
                    if 0 <? counter then seq_left (CSeq r (COpt c)) (COpt c) (counter - 1) else r
           end) == l_rep m n (Lc c).
Proof.
  intros Hc Hb Hn Hm. destruct (b && is_leafish c); [apply expand_compact, Hn|].
  destruct n as [n|]; [|apply expand_unbounded; auto]. cbn [le_bound] in Hb.
  destruct (Nat.eqb_spec m 0) as [->|Hm0].
  - apply expand_opt_chain. destruct n; [congruence|lia].
  - apply expand_bounded; lia.
Qed.

Lemma expand_correct c m n b : not_loop c -> le_bound m n -> n <> Some 0 ->
  Lc (expand c m n b) == l_rep m n (Lc c).
Proof.
  intros Hc Hb Hn. unfold expand.
  destruct m as [|[|m]]; destruct n as [[|[|n]]|]; try congruence; cbn [le_bound] in Hb; try lia.
  - cbn [Lc]. apply l_rep_01.
  - apply (expand_general c 0 (Some (S (S n))) b); auto; discriminate.
  - apply Lc_star; auto.
  - apply leq_sym, l_rep_11.
  - apply (expand_general c 1 (Some (S (S n))) b); auto; discriminate.
  - apply Lc_plus; auto.
  - apply (expand_general c (S (S m)) (Some (S (S n))) b); auto; discriminate.
  - apply (expand_general c (S (S m)) None b); auto; lia.
Qed.
