(** Specification side of C08: XML Schema 1.0 Structures, the part that decides element-content and
    attribute validity.  Nothing here mentions the C++ code.

    - particles (3.9): element declarations, wildcards, sequence and choice groups, each with an
      occurrence range (min, max | unbounded); the language [Lp] of child-name sequences a particle
      accepts (3.9.4 Element Sequence Valid): [Lp (p{m,n}) = U_{m<=k<=n} (L p)^k];
    - wildcards (3.10.4 Wildcard allows Namespace Name);
    - all-groups (3.8.4): some permutation of a sub-multiset of the members that contains every
      required member, or nothing at all when the group itself is optional;
    - attribute uses (3.4.4 Element Locally Valid (Complex Type), clauses 3 and 4; 3.5.4). *)
From Coq Require Export List Bool Arith NArith Lia Permutation.
Export ListNotations.

(** * Names *)
(** namespace names and local names are numbered by the generator; [absent] is "no namespace" *)
Definition uri := N.
Definition absent : uri := 1%N.
Definition qname := (uri * N)%type.
Definition qname_eqb (a b : qname) : bool := (fst a =? fst b)%N && (snd a =? snd b)%N.

(** * Wildcards *)
(** {namespace constraint}: any | not (namespace name or absent) | a set of (namespace name or absent) *)
Inductive nsc := NsAny | NsNot (u : uri) | NsSet (l : list uri).

Definition mem_uri (u : uri) (l : list uri) : bool := existsb (N.eqb u) l.

(** 3.10.4 Wildcard allows Namespace Name *)
Definition wildcard_allows (c : nsc) (u : uri) : bool :=
  match c with
  | NsAny => true
  | NsNot v => negb (u =? v)%N && negb (u =? absent)%N
  | NsSet l => mem_uri u l
  end.

(** the [namespace] attribute of <any>/<anyAttribute> and its mapping to a constraint (3.10.2) *)
Inductive nstok := TokUri (u : uri) | TokTarget | TokLocal.
Inductive nsattr := AttrAny | AttrOther | AttrList (l : list nstok).
Definition tok_uri (tns : uri) (t : nstok) : uri :=
  match t with TokUri u => u | TokTarget => tns | TokLocal => absent end.
Definition constraint_of (tns : uri) (a : nsattr) : nsc :=
  match a with
  | AttrAny => NsAny
  | AttrOther => NsNot tns
  | AttrList l => NsSet (map (tok_uri tns) l)
  end.

(** * Particles *)
(** maximum: [None] = unbounded *)
Definition le_bound (k : nat) (n : option nat) : Prop := match n with None => True | Some n => k <= n end.

Inductive particle :=
| Elem (m : nat) (n : option nat) (q : qname)
| Wild (m : nat) (n : option nat) (c : nsc)
| Seq (m : nat) (n : option nat) (ps : list particle)
| Choice (m : nat) (n : option nat) (ps : list particle).

Definition lang := list qname -> Prop.
Definition l_eps : lang := fun w => w = [].
Definition l_void : lang := fun _ => False.
Definition l_cat (A B : lang) : lang := fun w => exists u v, w = u ++ v /\ A u /\ B v.
Definition l_alt (A B : lang) : lang := fun w => A w \/ B w.
Fixpoint l_pow (A : lang) (k : nat) : lang :=
  match k with O => l_eps | S k => l_cat A (l_pow A k) end.
(** [A{m,n}]: between m and n consecutive pieces, each in A *)
Definition l_rep (m : nat) (n : option nat) (A : lang) : lang :=
  fun w => exists k, m <= k /\ le_bound k n /\ l_pow A k w.
Definition l_sym (P : qname -> bool) : lang := fun w => exists q, w = [q] /\ P q = true.

Fixpoint l_seq (ls : list lang) : lang := match ls with [] => l_eps | A :: r => l_cat A (l_seq r) end.
Fixpoint l_choice (ls : list lang) : lang := match ls with [] => l_void | A :: r => l_alt A (l_choice r) end.

(** 3.9.4 Element Sequence Valid / 3.8.4 Element Sequence Valid (groups) *)
Fixpoint Lp (p : particle) : lang :=
  match p with
  | Elem m n q => l_rep m n (l_sym (qname_eqb q))
  | Wild m n c => l_rep m n (l_sym (fun x => wildcard_allows c (fst x)))
  | Seq m n ps => l_rep m n ((fix go (ps : list particle) : lang :=
                                match ps with [] => l_eps | p :: r => l_cat (Lp p) (go r) end) ps)
  | Choice m n ps => l_rep m n ((fix go (ps : list particle) : lang :=
                                   match ps with [] => l_void | p :: r => l_alt (Lp p) (go r) end) ps)
  end.

(** * A decider for [Lp]: derivatives with occurrence counters *)
Inductive sym := SQ (q : qname) | SW (c : nsc).
Definition sym_match (s : sym) (x : qname) : bool :=
  match s with SQ q => qname_eqb q x | SW c => wildcard_allows c (fst x) end.

Inductive re :=
| RVoid | REps | RSym (s : sym) | RCat (a b : re) | RAlt (a b : re)
| ROcc (m : nat) (n : option nat) (a : re).

Fixpoint Lr (r : re) : lang :=
  match r with
  | RVoid => l_void
  | REps => l_eps
  | RSym s => l_sym (sym_match s)
  | RCat a b => l_cat (Lr a) (Lr b)
  | RAlt a b => l_alt (Lr a) (Lr b)
  | ROcc m n a => l_rep m n (Lr a)
  end.

Definition leb_bound (k : nat) (n : option nat) : bool := match n with None => true | Some n => k <=? n end.
Definition pred_bound (n : option nat) : option nat := option_map pred n.

Fixpoint nullable (r : re) : bool :=
  match r with
  | RVoid => false
  | REps => true
  | RSym _ => false
  | RCat a b => nullable a && nullable b
  | RAlt a b => nullable a || nullable b
  | ROcc m n a => (m =? 0) || (nullable a && leb_bound m n)
  end.

Fixpoint deriv (x : qname) (r : re) : re :=
  match r with
  | RVoid => RVoid
  | REps => RVoid
  | RSym s => if sym_match s x then REps else RVoid
  | RCat a b => if nullable a then RAlt (RCat (deriv x a) b) (deriv x b) else RCat (deriv x a) b
  | RAlt a b => RAlt (deriv x a) (deriv x b)
  | ROcc m n a =>
      match n with
      | Some O => RVoid
      | _ => RCat (deriv x a) (ROcc (pred m) (pred_bound n) a)
      end
  end.

Fixpoint rmatch (r : re) (w : list qname) : bool :=
  match w with [] => nullable r | x :: w' => rmatch (deriv x r) w' end.

Fixpoint p2re (p : particle) : re :=
  match p with
  | Elem m n q => ROcc m n (RSym (SQ q))
  | Wild m n c => ROcc m n (RSym (SW c))
  | Seq m n ps => ROcc m n ((fix go (ps : list particle) : re :=
                               match ps with [] => REps | p :: r => RCat (p2re p) (go r) end) ps)
  | Choice m n ps => ROcc m n ((fix go (ps : list particle) : re :=
                                  match ps with [] => RVoid | p :: r => RAlt (p2re p) (go r) end) ps)
  end.

(** the decider used as oracle; proved equal to [Lp] in T08_pmatch *)
Definition pmatch (p : particle) (w : list qname) : bool := rmatch (p2re p) w.

(** * All-groups (3.8.4 clause 3 with the restrictions of 3.8.6: members are element particles with
    max = 1 and min in {0,1}; the group itself has max = 1 and min in {0,1}) *)
Record allgroup := { ag_optional : bool; ag_members : list (qname * bool) (* name, required *) }.

(** some sub-list of the members, containing every required one, in some order *)
Inductive sub_required : list (qname * bool) -> list qname -> Prop :=
| SR_nil : sub_required [] []
| SR_take : forall q b ms w, sub_required ms w -> sub_required ((q, b) :: ms) (q :: w)
| SR_skip : forall q ms w, sub_required ms w -> sub_required ((q, false) :: ms) w.

Definition L_all (g : allgroup) : lang :=
  fun w => (w = [] /\ ag_optional g = true) \/ exists s, sub_required (ag_members g) s /\ Permutation s w.

(** * Attribute uses *)
Inductive use := UOptional | URequired | UProhibited.
Inductive vc := VNone | VDefault (v : list N) | VFixed (v : list N).
Record attruse := { au_name : qname; au_use : use; au_vc : vc }.
Inductive pcmode := PcSkip | PcLax | PcStrict.
Record attrdecls := { ad_uses : list attruse; ad_wild : option (nsc * pcmode) (* anyAttribute *) }.

Definition str_eqb (a b : list N) : bool :=
  (length a =? length b) && forallb (fun p => (fst p =? snd p)%N) (combine a b).

Fixpoint find_use (q : qname) (us : list attruse) : option attruse :=
  match us with [] => None | u :: r => if qname_eqb (au_name u) q then Some u else find_use q r end.
Fixpoint find_attr (q : qname) (atts : list (qname * list N)) : option (list N) :=
  match atts with [] => None | (n, v) :: r => if qname_eqb n q then Some v else find_attr q r end.

(** 3.10.4 Item Valid (Wildcard): the namespace is allowed, and under strict processing the attribute has a
    top-level declaration ([declared]); attribute values are xs:string here, so nothing else can fail *)
Definition wild_item_ok (d : attrdecls) (declared : qname -> bool) (q : qname) : bool :=
  match ad_wild d with
  | Some (c, pc) => wildcard_allows c (fst q) && match pc with PcStrict => declared q | _ => true end
  | None => false
  end.

(** 3.4.4 clause 3: every attribute information item is matched by an attribute use and valid with respect to it
    (fixed value), or else by the attribute wildcard.  A declaration with use = prohibited is no attribute use. *)
Definition attr_item_ok (d : attrdecls) (declared : qname -> bool) (a : qname * list N) : bool :=
  match find_use (fst a) (ad_uses d) with
  | Some u =>
      match au_use u with
      | UProhibited => wild_item_ok d declared (fst a)
      | _ => match au_vc u with VFixed v => str_eqb v (snd a) | _ => true end
      end
  | None => wild_item_ok d declared (fst a)
  end.
(** 3.4.4 clause 4: every required attribute use is matched *)
Definition required_present (d : attrdecls) (atts : list (qname * list N)) : bool :=
  forallb (fun u => match au_use u with
                    | URequired => match find_attr (au_name u) atts with Some _ => true | None => false end
                    | _ => true end) (ad_uses d).
Definition attrs_valid (d : attrdecls) (declared : qname -> bool) (atts : list (qname * list N)) : bool :=
  forallb (attr_item_ok d declared) atts && required_present d atts.

(** the attributes of the post-schema-validation infoset: the specified ones followed by the defaulted ones
    (3.4.5: an attribute use with a default or fixed value constraint and no matching item) *)
Definition defaulted (d : attrdecls) (atts : list (qname * list N)) : list (qname * list N) :=
  flat_map (fun u => match au_use u, find_attr (au_name u) atts with
                     | UProhibited, _ => []
                     | _, Some _ => []
                     | _, None => match au_vc u with VDefault v | VFixed v => [(au_name u, v)] | VNone => [] end
                     end) (ad_uses d).

(** * xsi:type (3.3.4 Element Locally Valid (Element) clause 4.3, 3.4.6 Type Derivation OK (Complex)) *)
Inductive dmethod := DExt | DRestr.
(** {disallowed substitutions} of the element declaration / {prohibited substitutions} of its declared type *)
Record blockset := { bk_ext : bool; bk_restr : bool }.
Definition blocked (b : blockset) (m : dmethod) : bool := match m with DExt => bk_ext b | DRestr => bk_restr b end.
(** the ancestry of the type named by xsi:type: that type first, then its base type, and so on; each with the
    {derivation method} by which it is derived from the next one *)
Definition ancestry := list (N * dmethod).
(** the type named by xsi:type may be used for an element with declared type [d] iff it is not abstract and it is [d]
    itself or derived from [d] by a chain of steps none of which uses a method blocked by the element declaration
    ([eb]) or by the declared type ([tb]) *)
Definition xsitype_ok (d : N) (eb tb : blockset) (abstract : bool) (up : ancestry) : Prop :=
  abstract = false /\
  exists pre m post, up = pre ++ (d, m) :: post /\ ~ In d (map fst pre) /\
    forall t s, In (t, s) pre -> blocked eb s = false /\ blocked tb s = false.
(** a decider for [xsitype_ok] (T08_xsitype_dec): the derivation steps from the xsi:type up to [d] *)
Fixpoint steps_to (d : N) (up : ancestry) : option (list dmethod) :=
  match up with
  | [] => None
  | (t, m) :: r => if (t =? d)%N then Some [] else option_map (cons m) (steps_to d r)
  end.
Definition xsitype_okb (d : N) (eb tb : blockset) (abstract : bool) (up : ancestry) : bool :=
  negb abstract &&
  match steps_to d up with
  | Some steps => forallb (fun m => negb (blocked eb m || blocked tb m)) steps
  | None => false
  end.

(** * Substitution groups (3.3.6 Substitution Group OK (Transitive)) *)
(** {disallowed substitutions} of an element declaration: extension / restriction / substitution *)
Record eblock := { eb_types : blockset; eb_subst : bool }.
(** the ancestry of the member's type: that type first; each entry = type, its {derivation method}, its
    {prohibited substitutions} *)
Definition typechain := list (N * dmethod * blockset).
Definition tc_id (e : N * dmethod * blockset) : N := fst (fst e).
Definition tc_method (e : N * dmethod * blockset) : dmethod := snd (fst e).
Definition tc_block (e : N * dmethod * blockset) : blockset := snd e.
(** element [member] may substitute for [head] (whose {disallowed substitutions} are [hb] and whose type is [ht]) iff
    they are the same declaration, or: [hb] does not contain substitution; [head] is on the chain [affil] of
    {substitution group affiliation}s of [member]; and no {derivation method} used on the way from the member's type up
    to [ht] is contained in [hb], in the {prohibited substitutions} of [ht] or in those of an intermediate type *)
Definition subst_ok (member head : N) (affil : list N) (hb : eblock) (ht : N) (up : typechain) : Prop :=
  member = head \/
  (eb_subst hb = false /\ In head affil /\
   exists pre e post, up = pre ++ e :: post /\ tc_id e = ht /\ ~ In ht (map tc_id pre) /\
     forall x, In x pre ->
       blocked (eb_types hb) (tc_method x) = false /\
       forall y, In y (tl pre ++ [e]) -> blocked (tc_block y) (tc_method x) = false).

(** * Attribute wildcards: intersection and union (3.10.6), specified by what they must allow *)
Definition is_wc_intersection (w a b : nsc) : Prop :=
  forall x, wildcard_allows w x = wildcard_allows a x && wildcard_allows b x.
Definition is_wc_union (w a b : nsc) : Prop :=
  forall x, wildcard_allows w x = wildcard_allows a x || wildcard_allows b x.
(** 3.10.6 Attribute Wildcard Intersection clause 5 / Union clause 5.3: the cases declared "not expressible" *)
Definition inter_not_expressible (a b : nsc) : Prop :=
  exists u v, a = NsNot u /\ b = NsNot v /\ u <> v /\ u <> absent /\ v <> absent.
Definition union_not_expressible (a b : nsc) : Prop :=
  exists u l, ((a = NsNot u /\ b = NsSet l) \/ (a = NsSet l /\ b = NsNot u)) /\
              u <> absent /\ In absent l /\ ~ In u l.
(** a combination of wildcards: the complete wildcard of attribute groups and a local <anyAttribute> (intersection),
    extension of a base type (union) *)
Inductive wexpr := WLeaf (c : nsc) | WInter (a b : wexpr) | WUnion (a b : wexpr).
Fixpoint wexpr_allows (e : wexpr) (x : uri) : bool :=
  match e with
  | WLeaf c => wildcard_allows c x
  | WInter a b => wexpr_allows a x && wexpr_allows b x
  | WUnion a b => wexpr_allows a x || wexpr_allows b x
  end.
(** a decider for [subst_ok] (T08_subst_dec) *)
Fixpoint tc_split (ht : N) (up : typechain) : option (typechain * (N * dmethod * blockset)) :=
  match up with
  | [] => None
  | e :: r => if (tc_id e =? ht)%N then Some ([], e)
              else match tc_split ht r with Some (pre, x) => Some (e :: pre, x) | None => None end
  end.
Definition subst_okb (member head : N) (affil : list N) (hb : eblock) (ht : N) (up : typechain) : bool :=
  (member =? head)%N ||
  (negb (eb_subst hb) && mem_uri head affil &&
   match tc_split ht up with
   | None => false
   | Some (pre, e) =>
       forallb (fun x => negb (blocked (eb_types hb) (tc_method x)) &&
                         forallb (fun y => negb (blocked (tc_block y) (tc_method x))) (tl pre ++ [e])) pre
   end).

(** * Derivation Valid (Restriction, Complex) 3.4.6, clauses 2-4: attribute uses and attribute wildcard *)
(** an <attribute> of the restriction / an attribute use of the base type; [ad_type] numbers the simple type *)
Record adecl := { ad_name : qname; ad_use : use; ad_vc : vc; ad_type : N }.
Fixpoint find_adecl (q : qname) (l : list adecl) : option adecl :=
  match l with [] => None | d :: r => if qname_eqb (ad_name d) q then Some d else find_adecl q r end.
Definition is_required (u : use) : bool := match u with URequired => true | _ => false end.
(** clause 2.1.3: the base's value constraint is absent or default, or both are fixed with the same value *)
Definition vc_fixed_ok (b r : vc) : bool :=
  match b with VFixed v => match r with VFixed w => str_eqb v w | _ => false end | _ => true end.
(** 3.10.6 Wildcard Subset (second edition) *)
Definition wc_subset (sub super : nsc) : bool :=
  match super with
  | NsAny => true
  | NsNot v => match sub with
               | NsNot u => (u =? v)%N
               | NsSet l => negb (mem_uri v l) && negb (mem_uri absent l)
               | NsAny => false
               end
  | NsSet ls => match sub with NsSet l => forallb (fun x => mem_uri x ls) l | _ => false end
  end.
(** one <attribute> of the restriction against the base's attribute uses [base] (none prohibited) and wildcard [bw];
    [tder r b] = type r is validly derived from type b.  A prohibited declaration removes the use: not allowed when
    the base requires the attribute (clause 3), otherwise nothing to check *)
Definition adecl_ok (tder : N -> N -> bool) (base : list adecl) (bw : option nsc) (r : adecl) : bool :=
  match ad_use r with
  | UProhibited => match find_adecl (ad_name r) base with Some b => negb (is_required (ad_use b)) | None => true end
  | _ =>
      match find_adecl (ad_name r) base with
      | Some b => (negb (is_required (ad_use b)) || is_required (ad_use r)) &&
                  tder (ad_type r) (ad_type b) && vc_fixed_ok (ad_vc b) (ad_vc r)
      | None => match bw with Some w => wildcard_allows w (fst (ad_name r)) | None => false end
      end
  end.
Definition attr_restriction_ok (tder : N -> N -> bool) (base : list adecl) (bw : option nsc)
                               (decls : list adecl) (dw : option nsc) : bool :=
  forallb (adecl_ok tder base bw) decls &&
  match dw with
  | None => true
  | Some wd => match bw with Some wb => wc_subset wd wb | None => false end
  end.
