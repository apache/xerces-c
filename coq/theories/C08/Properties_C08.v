(** Property C08 -- XML Schema structure validation accepts exactly the schema-valid instances.
    Claim: the decision core (occurrence expansion, conversion of groups and wildcards into the content-spec tree,
    all-groups, wildcards, attributes, xsi:type, substitution groups, element content, process contents, leaf
    overlap) is proved.  What schema component a given <xs:complexType>
    denotes (TraverseSchema) and the construction of DFAContentModel from the converted tree (including the counting
    states used for the compact Loop form, whose intended semantics is the clause for [CLoop] in [Lc]) are tied to
    the code by the correspondence run only. *)
From XV Require Import C08.Spec08 C08.Model08 C08.ModelDfa08 C08.Proofs08a C08.Proofs08b C08.Proofs08c C08.Proofs08e C08.Proofs08i C08.SpecElem08 C08.ModelElem08 C08.Proofs08j.

(* u1 is [absent], the id of "no namespace" *)
Notation u1 := 1%N. Notation u2 := 2%N. Notation u3 := 3%N. Notation u4 := 4%N.

(** the oracle of the correspondence decides the specification language, for every particle and child sequence *)
Theorem T08_pmatch : forall p w, pmatch p w = true <-> Lp p w.
Proof. intros p w. unfold pmatch. rewrite rmatch_correct. apply p2re_correct. Qed.
Print Assumptions T08_pmatch.

(** ComplexTypeInfo::expandContentModel: the tree built for an occurrence range m..n (n = None: unbounded) of the node
    c -- in the expanded form and in the compact Loop form -- denotes exactly the m..n-fold repetitions of L(c),
    for all c, all 0 <= m <= n and n >= 1 (see T08_expand_max0_refuted for n = 0) *)
Theorem T08_expand : forall c m n compact, not_loop c -> le_bound m n -> n <> Some 0 ->
  forall w, Lc (expand c m n compact) w <-> l_rep m n (Lc c) w.
Proof. exact expand_correct. Qed.
Print Assumptions T08_expand.

Example T08_expand_nonvacuous :
  let c := CSeq (CLeaf (2, 1)%N) (COpt (CLeaf (2, 2)%N)) in
  not_loop c /\ le_bound 2 (Some 5) /\ Some 5 <> Some 0 /\
  cmatch (Some (expand c 2 (Some 5) false)) [(2,1);(2,2);(2,1);(2,1)]%N = true /\
  cmatch (Some (expand c 2 (Some 5) false)) [(2,1)]%N = false /\
  cmatch (Some (expand (CLeaf (2, 1)%N) 2 (Some 3) true)) [(2,1);(2,1);(2,1)]%N = true /\
  cmatch (Some (expand (CLeaf (2, 1)%N) 2 (Some 3) true)) [(2,1);(2,1);(2,1);(2,1)]%N = false.
Proof. cbv zeta. repeat split; try exact I; try discriminate; cbn; try lia; vm_compute; reflexivity. Qed.

(** known finding C08-max0, on the model: for minOccurs = maxOccurs = 0 the expansion is an optional node *)
Theorem T08_expand_max0_refuted : exists c w, Lc (expand c 0 (Some 0) false) w /\ ~ l_rep 0 (Some 0) (Lc c) w.
Proof.
  exists (CLeaf (2, 1)%N), [(2, 1)%N]. split.
  - cbn [expand Nat.eqb andb seq_left Nat.sub Lc]. right. exists (2, 1)%N. split; reflexivity.
  - intros (k & _ & H2 & H3). cbn in H2. assert (k = 0) by lia. subst. discriminate H3.
Qed.
Print Assumptions T08_expand_max0_refuted.

(** traverseAny / traverseChoiceSequence + convertContentSpecTree: for every well-formed particle ([wfb]) the tree
    handed to the content model denotes exactly Lp, whichever of the two forms useRepeatingLeafNodes selects *)
Theorem T08_convert : forall compact p, wfb p = true -> forall w, Lco (convert compact p) w <-> Lp p w.
Proof.
  intros b p. change (wfb p = true -> Lco (convert b p) == Lp p).
  induction p as [m n q|m n c|m n ps IH|m n ps IH] using particle_ind'; intros Hwf.
  - cbn [wfb] in Hwf. apply okb_spec in Hwf. destruct Hwf. apply expand_correct; auto. exact I.
  - apply wfb_Wild_inv in Hwf. destruct Hwf as (Hb & Hn & Hc).
    rewrite convert_Wild, Lco_group_choice by auto using any_nodes_nonempty, any_nodes_not_loop.
    apply l_rep_ext, Lc_any_nodes, Hc.
  - apply wfb_Seq_inv in Hwf. destruct Hwf as (Hb & Hn & Hall).
    rewrite convert_Seq, Lco_group_seq, Lp_Seq by auto using convert_kids_not_loop. apply l_rep_ext, l_seq_kids.
    rewrite Forall_forall in *. auto.
  - apply wfb_Choice_inv in Hwf. destruct Hwf as (Hb & Hn & Hps & Hall).
    destruct (l_choice_kids b ps) as [Hkids Hnn].
    { rewrite Forall_forall in *. intros p Hp. destruct (Hall p Hp). auto using has_node_convert. }
    rewrite convert_Choice, Lco_group_choice, Lp_Choice by auto using convert_kids_not_loop. apply l_rep_ext, Hkids.
Qed.
Print Assumptions T08_convert.

Theorem T08_content_model : forall p w, wfb p = true -> (model_valid p w = true <-> Lp p w).
Proof.
  intros p w H. unfold model_valid, content_tree. rewrite cmatch_correct. apply T08_convert. exact H.
Qed.
Print Assumptions T08_content_model.

Definition ex_particle : particle :=
  Seq 2 (Some 3) [Choice 1 (Some 1) [Elem 1 None (2, 1)%N; Wild 0 (Some 2) (NsSet [3; 4; 3]%N)];
                  Seq 0 (Some 1) [Elem 2 (Some 2) (1, 2)%N]; Seq 1 (Some 1) []].
Example T08_convert_nonvacuous :
  wfb ex_particle = true /\ use_repeating ex_particle = false /\
  model_valid ex_particle [(2,1);(2,1);(1,2);(1,2);(3,9);(4,9)]%N = true /\
  model_valid ex_particle [(2,1);(1,2)]%N = false /\
  use_repeating (Seq 1 (Some 1) [Elem 2 (Some 4) (2, 1)%N; Wild 1 (Some 3) (NsNot 2%N)]) = true.
Proof. repeat split; vm_compute; reflexivity. Qed.

(** known finding C08-emptychoice: an empty group inside a choice is dropped: the empty content is
    in the language of choice(a, sequence()) but the model -- like the library -- rejects it *)
Theorem T08_emptychoice_refuted :
  let p := Choice 1 (Some 1) [Elem 1 (Some 1) (2, 1)%N; Seq 1 (Some 1) []] in
  Lp p [] /\ model_valid p [] = false.
Proof. cbv zeta. split; [apply T08_pmatch|]; vm_compute; reflexivity. Qed.
Print Assumptions T08_emptychoice_refuted.

(** wildcards: the test performed on the leaves produced by traverseAny equals 3.10.4 Wildcard allows Namespace
    Name, for every form of the namespace attribute except the empty list *)
Theorem T08_wildcard : forall tns a x, a <> AttrList [] ->
  wild_decide (constraint_of tns a) x = wildcard_allows (constraint_of tns a) x.
Proof.
  intros tns a x Ha. apply wild_decide_correct. destruct a as [| |l]; cbn [constraint_of]; try discriminate.
  destruct l; [congruence|discriminate].
Qed.
Print Assumptions T08_wildcard.

Example T08_wildcard_nonvacuous :
  wild_decide (constraint_of u2 (AttrList [TokLocal; TokUri u3; TokTarget; TokUri u3])) u1 = true /\
  wild_decide (constraint_of u2 (AttrList [TokLocal; TokUri u3; TokTarget; TokUri u3])) u4 = false /\
  wild_decide (constraint_of u2 AttrOther) u1 = false /\ wild_decide (constraint_of u2 AttrOther) u3 = true.
Proof. repeat split; vm_compute; reflexivity. Qed.

(** known finding C08-emptyns: namespace="" is read as ##any *)
Theorem T08_wildcard_emptylist_refuted :
  wild_decide (constraint_of u2 (AttrList [])) u2 = true /\ wildcard_allows (constraint_of u2 (AttrList [])) u2 = false.
Proof. exact wild_decide_empty_list_refuted. Qed.
Print Assumptions T08_wildcard_emptylist_refuted.

(** all-groups: AllContentModel::validateContent accepts exactly the permutations of sub-multisets of the members
    that contain every required member (or nothing, when the group is optional); equivalently: duplicate-free,
    within the declared names, containing all required ones.  Member names are distinct (Element Declarations
    Consistent / UPA make this a constraint on every valid all-group). *)
Theorem T08_all_char : forall g w, NoDup (map fst (ag_members g)) ->
  (all_validate g w = true <->
   (w = [] /\ ag_optional g = true) \/
   (NoDup w /\ (forall x, In x w -> In x (map fst (ag_members g))) /\ (forall q, In (q, true) (ag_members g) -> In q w))).
Proof. intros g w H. apply all_validate_correct, H. Qed.
Print Assumptions T08_all_char.

Theorem T08_all : forall g w, NoDup (map fst (ag_members g)) -> (all_validate g w = true <-> L_all g w).
Proof. intros g w H. rewrite (all_validate_correct g H w). symmetry. apply L_all_char. exact H. Qed.
Print Assumptions T08_all.

Definition ex_all : allgroup :=
  {| ag_optional := true; ag_members := [((2, 1), true); ((2, 2), false); ((1, 3), true)]%N |}.
Example T08_all_nonvacuous :
  NoDup (map fst (ag_members ex_all)) /\
  all_validate ex_all [(1,3);(2,1)]%N = true /\ all_validate ex_all [(2,2);(1,3);(2,1)]%N = true /\
  all_validate ex_all [] = true /\ all_validate ex_all [(2,1)]%N = false /\
  all_validate ex_all [(2,1);(1,3);(2,1)]%N = false /\ all_validate ex_all [(2,1);(1,3);(2,5)]%N = false.
Proof.
  split; [|repeat split; vm_compute; reflexivity].
  repeat (constructor; [cbn; intuition discriminate|]). constructor.
Qed.

(** attribute uses: the per-attribute decision and the required / default / fixed loop of buildAttList agree with
    3.4.4 clauses 3-4 and 3.4.5, for every declaration table and attribute set in which no provided attribute names a
    declaration with use = prohibited (that class is the known finding C08-prohibited, refuted below) *)
Theorem T08_attr_uses : forall d declared atts, no_prohibited_hit d atts = true ->
  m_attrs_valid d declared atts = attrs_valid d declared atts.
Proof.
  intros d declared atts H. unfold m_attrs_valid, attrs_valid, required_present. rewrite m_attr_defs_fst. f_equal.
  rewrite no_prohibited_hit_In in H. apply forallb_ext_in. intros a Ha. apply m_attr_item_spec, H, Ha.
Qed.
Print Assumptions T08_attr_uses.

Theorem T08_attr_defaults : forall d declared atts, m_attrs_valid d declared atts = true ->
  m_defaulted d atts = defaulted d atts.
Proof.
  intros d declared atts.
  unfold m_attrs_valid, m_defaulted, defaulted. rewrite andb_true_iff. intros [_ H]. apply m_attr_defs_snd. exact H.
Qed.
Print Assumptions T08_attr_defaults.

Definition ex_decls : attrdecls :=
  {| ad_uses := [ {| au_name := (u1, 1%N); au_use := URequired; au_vc := VFixed [70%N] |};
                  {| au_name := (u1, 2%N); au_use := UOptional; au_vc := VDefault [71%N] |};
                  {| au_name := (u1, 3%N); au_use := UProhibited; au_vc := VNone |} ];
     ad_wild := Some (NsSet [u1; u3], PcStrict) |}.
Example T08_attr_uses_nonvacuous :
  let atts := [((u1, 1%N), [70%N]); ((u3, 9%N), [72%N])] in
  no_prohibited_hit ex_decls atts = true /\
  m_attrs_valid ex_decls (fun q => qname_eqb q (u3, 9%N)) atts = true /\
  m_defaulted ex_decls atts = [((u1, 2%N), [71%N])] /\
  m_attrs_valid ex_decls (fun _ => false) atts = false /\
  m_attrs_valid ex_decls (fun _ => true) [((u1, 1%N), [75%N])] = false /\
  m_attrs_valid ex_decls (fun _ => true) [((u1, 2%N), [75%N])] = false.
Proof. cbv zeta. repeat split; vm_compute; reflexivity. Qed.

(** known finding C08-prohibited: a prohibited declaration is no attribute use, the wildcard decides *)
Theorem T08_attr_prohibited_refuted : exists d declared atts,
  attrs_valid d declared atts = true /\ m_attrs_valid d declared atts = false.
Proof.
  exists ex_decls, (fun _ => true), [((u1, 1%N), [70%N]); ((u1, 3%N), [72%N])]. split; vm_compute; reflexivity.
Qed.
Print Assumptions T08_attr_prohibited_refuted.

(** the decider used as oracle for xsi:type decides the specification *)
Theorem T08_xsitype_dec : forall d eb tb abstract up,
  xsitype_okb d eb tb abstract up = true <-> xsitype_ok d eb tb abstract up.
Proof.
  intros d eb tb abstract up. rewrite xsitype_ok_cut. unfold xsitype_okb. rewrite steps_to_cut.
  destruct abstract; cbn [negb andb].
  - split; [discriminate|intros [H _]; discriminate H].
  - destruct (ancestry_cut fst d up) as [[pre e]|]; cbn [option_map fst].
    + rewrite steps_free_forallb. tauto.
    + split; [discriminate|intros [_ []]].
Qed.
Print Assumptions T08_xsitype_dec.

(** xsi:type: the two loops of SchemaValidator::validateElement (find the declared type among the ancestors of the
    xsi:type; check the derivation method of EVERY type below it against the element's and the declared type's block
    sets) accept exactly when the type is not abstract and is the declared type or derived from it by a chain with no
    blocked step (3.3.4 clause 4.3 / 3.4.6), for every ancestry list, block sets and declared type *)
Theorem T08_xsitype : forall d eb tb abstract up,
  m_xsitype d eb tb abstract up = true <-> xsitype_ok d eb tb abstract up.
Proof. intros. rewrite m_xsitype_eq_okb. apply T08_xsitype_dec. Qed.
Print Assumptions T08_xsitype.

Example T08_xsitype_nonvacuous :
  let up := [(3%N, DRestr); (2%N, DExt); (1%N, DRestr)] in        (* Leaf -restriction-> Mid -extension-> Base *)
  let none := {| bk_ext := false; bk_restr := false |} in
  let bext := {| bk_ext := true; bk_restr := false |} in
  let bres := {| bk_ext := false; bk_restr := true |} in
  m_xsitype 1 none none false up = true /\
  m_xsitype 1 bext none false up = false /\
  m_xsitype 1 none bres false up = false /\
  m_xsitype 2 bext none false up = true /\
  m_xsitype 3 bext bres false up = true /\
  m_xsitype 1 none none true up = false /\
  m_xsitype 4 none none false up = false.
Proof. cbv zeta. repeat split; vm_compute; reflexivity. Qed.

(** known finding C08-counting, on the model of DFAContentModel as built without leaf renaming
    (schema-full-checking off): two particles with the same name share one element-map entry and hence one
    Occurence; the well-formed, UPA-conforming particle (a{2,3}, b, a{1,2}) loses the valid word a a b a and gains
    the invalid word a a b a a a.  (That the counting DFA accepts exactly Lp under UPA when no two leaves
    share a map entry is NOT proved; ModelDfa08 is tied to the code by the correspondence only.) *)
Definition ex_counting : particle :=
  Seq 1 (Some 1) [Elem 2 (Some 3) (u2, 1%N); Elem 1 (Some 1) (u2, 2%N); Elem 1 (Some 2) (u2, 1%N)].
Theorem T08_counting_refuted :
  wfb ex_counting = true /\
  Lp ex_counting [(u2,1);(u2,1);(u2,2);(u2,1)]%N /\ dfa_valid 500 ex_counting [(u2,1);(u2,1);(u2,2);(u2,1)]%N = 0 /\
  ~ Lp ex_counting [(u2,1);(u2,1);(u2,2);(u2,1);(u2,1);(u2,1)]%N /\
  dfa_valid 500 ex_counting [(u2,1);(u2,1);(u2,2);(u2,1);(u2,1);(u2,1)]%N = 1.
Proof.
  split; [vm_compute; reflexivity|]. split; [apply T08_pmatch; vm_compute; reflexivity|].
  split; [vm_compute; reflexivity|]. split; [|vm_compute; reflexivity].
  intro H. apply T08_pmatch in H. vm_compute in H. discriminate H.
Qed.
Print Assumptions T08_counting_refuted.

(** the DFA model on a counted particle followed by a counted wildcard that matches the same name (overflow search and
    counter of the newly entered counting state in handleRepetitions): agrees with Lp on the boundary words *)
Example T08_dfa_overlap_example :
  let p := Seq 1 (Some 1) [Elem 2 (Some 2) (u2, 1%N); Wild 2 (Some 3) NsAny] in
  let a := (u2, 1%N) in let x := (u3, 6%N) in
  dfa_valid 500 p [a;a;a;x] = 1 /\ pmatch p [a;a;a;x] = true /\
  dfa_valid 500 p [a;a;a;a] = 1 /\ pmatch p [a;a;a;a] = true /\
  dfa_valid 500 p [a;a;a;x;x;x] = 0 /\ pmatch p [a;a;a;x;x;x] = false /\
  dfa_valid 500 p [a;a;x] = 0 /\ pmatch p [a;a;x] = false.
Proof. cbv zeta. repeat split; vm_compute; reflexivity. Qed.

Theorem T08_subst_dec : forall member head affil hb ht up,
  subst_okb member head affil hb ht up = true <-> subst_ok member head affil hb ht up.
Proof.
  intros member head affil hb ht up.
  rewrite subst_ok_cut. unfold subst_okb.
  rewrite orb_true_iff, N.eqb_eq, !andb_true_iff, negb_true_iff, mem_uri_In, tc_split_cut.
  apply or_iff_compat_l. rewrite <- and_assoc. apply and_iff_compat_l.
  destruct (ancestry_cut tc_id ht up) as [[pre e]|]; [apply chain_ok_forallb|split; [discriminate|intros []]].
Qed.
Print Assumptions T08_subst_dec.

(** substitution groups: SubstitutionGroupComparator::isEquivalentTo (walk over the substitution-group affiliations to
    find the head, block=substitution on the head, walk from the member's type to the head's type accumulating the
    derivation methods and the block sets of head element + every type above the member's type up to the head's type)
    decides exactly 3.3.6 Substitution Group OK (Transitive), for every affiliation chain, type chain and block sets *)
Theorem T08_subst : forall member head affil hb ht up,
  m_subst member head affil hb ht up = true <-> subst_ok member head affil hb ht up.
Proof. intros. rewrite m_subst_eq_okb. apply T08_subst_dec. Qed.
Print Assumptions T08_subst.

Example T08_subst_nonvacuous :
  let none := {| bk_ext := false; bk_restr := false |} in
  let bext := {| bk_ext := true; bk_restr := false |} in
  let nb := {| eb_types := none; eb_subst := false |} in
  (* member type 3 -restriction-> 2 -extension-> 1 = head type *)
  let up b3 b2 b1 := [(3%N, DRestr, b3); (2%N, DExt, b2); (1%N, DRestr, b1)] in
  m_subst 9 8 [7%N; 8%N] nb 1 (up none none none) = true /\
  m_subst 9 8 [7%N; 8%N] nb 1 (up bext none none) = true /\       (* the member type's own block does not count *)
  m_subst 9 8 [7%N; 8%N] nb 1 (up none bext none) = false /\      (* an intermediate type's block does *)
  m_subst 9 8 [7%N; 8%N] nb 1 (up none none bext) = false /\      (* and the head type's *)
  m_subst 9 8 [7%N; 8%N] {| eb_types := bext; eb_subst := false |} 1 (up none none none) = false /\
  m_subst 9 8 [7%N; 8%N] {| eb_types := none; eb_subst := true |} 1 (up none none none) = false /\
  m_subst 9 8 [7%N] nb 1 (up none none none) = false /\
  m_subst 8 8 [] {| eb_types := bext; eb_subst := true |} 1 [] = true.
Proof. cbv zeta. repeat split; vm_compute; reflexivity. Qed.

(** attribute wildcards: what attWildCardIntersection / attWildCardUnion compute allows exactly the namespaces allowed
    by both / by either operand (3.10.6), they give up exactly in the cases the Recommendation calls not expressible,
    and so does every combination evaluated the way the complete wildcard of a complex type is built *)
(** [m_wc_inter] / [m_wc_union] / [m_wexpr] model attWildCardIntersection / attWildCardUnion as they are after the
    fixes for C08-attwild-anylist and C08-attwild-emptyunion; the [_faithful] variants model them as they were before *)
Theorem T08_attwildcard_intersection : forall r c,
  (forall w, m_wc_inter r c = Some w -> is_wc_intersection w r c) /\
  (m_wc_inter r c = None <-> inter_not_expressible r c).
Proof. intros r c. split; [intros w; apply wc_inter_sound|apply wc_inter_none]. Qed.
Print Assumptions T08_attwildcard_intersection.

Theorem T08_attwildcard_union : forall r c,
  (forall w, m_wc_union r c = Some w -> is_wc_union w r c) /\
  (m_wc_union r c = None <-> union_not_expressible r c).
Proof. intros r c. split; [intros w; apply wc_union_sound|apply wc_union_none]. Qed.
Print Assumptions T08_attwildcard_union.

Theorem T08_attwildcard : forall e w, m_wexpr e = Some w -> forall x, wildcard_allows w x = wexpr_allows e x.
Proof.
  intros e.
  induction e as [c|a IHa b IHb|a IHa b IHb]; intros w E x; cbn [m_wexpr wexpr_allows] in *.
  - injection E as <-. reflexivity.
  - destruct (m_wexpr a) as [wa|]; [|discriminate]. destruct (m_wexpr b) as [wb|]; [|discriminate].
    rewrite (wc_inter_sound _ _ _ E x), (IHa wa eq_refl x), (IHb wb eq_refl x). reflexivity.
  - destruct (m_wexpr a) as [wa|]; [|discriminate]. destruct (m_wexpr b) as [wb|]; [|discriminate].
    rewrite (wc_union_sound _ _ _ E x), (IHa wa eq_refl x), (IHb wb eq_refl x). reflexivity.
Qed.
Print Assumptions T08_attwildcard.

Example T08_attwildcard_nonvacuous :
  m_wexpr (WInter (WLeaf (NsNot u2)) (WLeaf (NsSet [u1; u2; u3]))) = Some (NsSet [u3]) /\
  m_wexpr (WUnion (WLeaf (NsNot u2)) (WLeaf (NsSet [u2; u3]))) = Some (NsNot u1) /\
  m_wexpr (WUnion (WLeaf (NsNot u2)) (WLeaf (NsSet [u1; u3]))) = None /\
  m_wexpr (WInter (WLeaf (NsNot u2)) (WLeaf (NsNot u3))) = None /\
  m_wexpr (WUnion (WInter (WLeaf NsAny) (WLeaf (NsSet [u1; u4]))) (WLeaf (NsSet [u2]))) = Some (NsSet [u1; u4; u2]).
Proof. repeat split; vm_compute; reflexivity. Qed.

(** known finding C08-attwild-anylist, on [m_wexpr_faithful]: ##any intersected with a namespace list allows nothing *)
Theorem T08_attwildcard_anylist_refuted :
  let e := WInter (WLeaf NsAny) (WLeaf (NsSet [u1])) in
  wexpr_allows e u1 = true /\ exists w, m_wexpr_faithful e = Some w /\ wildcard_allows w u1 = false.
Proof. cbv zeta. split; [reflexivity|]. exists (NsSet []). split; reflexivity. Qed.
Print Assumptions T08_attwildcard_anylist_refuted.

(** known finding C08-attwild-emptyunion, on [m_wexpr_faithful]: (##other /\ ##local) \/ ##other is expressible
    (it is ##other) but [m_wc_union_faithful] gives up *)
Theorem T08_attwildcard_emptyunion_refuted :
  let e := WUnion (WInter (WLeaf (NsNot u2)) (WLeaf (NsSet [u1]))) (WLeaf (NsNot u2)) in
  m_wexpr e = Some (NsNot u2) /\ m_wexpr_faithful e = None.
Proof. cbv zeta. split; reflexivity. Qed.
Print Assumptions T08_attwildcard_emptyunion_refuted.

(** restriction of a complex type, attribute uses and attribute wildcard: the per-attribute loop of
    TraverseSchema::checkAttDerivationOK and isWildCardSubset report no error exactly when clauses 2-4 of 3.4.6
    Derivation Valid (Restriction, Complex) hold, for every base / derived declaration table -- outside two classes:
    a prohibited declaration without a counterpart in the base, and a list containing ##local under a ##other base
    wildcard (see the refutations) *)
Theorem T08_attr_derivation : forall tder base bw decls dw,
  no_stray_prohibited base decls = true -> no_absent_under_not bw dw = true ->
  m_att_derivation tder base bw decls dw = attr_restriction_ok tder base bw decls dw.
Proof.
  intros tder base bw decls dw H1 H2. unfold m_att_derivation, attr_restriction_ok. f_equal.
  - rewrite no_stray_prohibited_In in H1. apply forallb_ext_in. intros r Hr. apply m_adecl_check_spec, H1, Hr.
  - destruct dw as [wd|]; auto. destruct bw as [wb|]; auto. apply m_wc_subset_spec. exact H2.
Qed.
Print Assumptions T08_attr_derivation.

(** the Wildcard Subset table only relates wildcards that are subsets *)
Theorem T08_wc_subset_sound : forall sub super, wc_subset sub super = true ->
  forall x, wildcard_allows sub x = true -> wildcard_allows super x = true.
Proof.
  intros sub super.
  unfold wc_subset. destruct super as [|v|ls], sub as [|u|l]; intros H x Hx; try discriminate H; try reflexivity.
  - apply N.eqb_eq in H. subst. exact Hx.
  - cbn [wildcard_allows] in *. apply andb_true_iff in H. destruct H as [Hv Ha]. apply negb_true_iff in Hv, Ha.
    apply andb_true_iff. split; apply negb_true_iff.
    + destruct (N.eqb_spec x v) as [->|]; auto. congruence.
    + destruct (N.eqb_spec x absent) as [->|]; auto. congruence.
  - cbn [wildcard_allows] in *. rewrite forallb_forall in H. apply mem_uri_In in Hx. apply H, Hx.
Qed.
Print Assumptions T08_wc_subset_sound.

Definition ex_base : list adecl :=
  [ {| ad_name := (u1, 1%N); ad_use := URequired; ad_vc := VNone; ad_type := 0%N |};
    {| ad_name := (u1, 2%N); ad_use := UOptional; ad_vc := VFixed [70%N]; ad_type := 0%N |} ].
Example T08_attr_derivation_nonvacuous :
  let tder := fun r b => (r =? b)%N || ((b =? 0)%N && (r =? 1)%N) in
  let d1 u := {| ad_name := (u1, 1%N); ad_use := u; ad_vc := VNone; ad_type := 1%N |} in
  let d2 v := {| ad_name := (u1, 2%N); ad_use := URequired; ad_vc := v; ad_type := 0%N |} in
  no_stray_prohibited ex_base [d1 URequired; d2 (VFixed [70%N])] = true /\
  m_att_derivation tder ex_base (Some (NsNot u2)) [d1 URequired; d2 (VFixed [70%N])] (Some (NsSet [u3])) = true /\
  m_att_derivation tder ex_base None [d1 UOptional] None = false /\         (* required -> optional *)
  m_att_derivation tder ex_base None [d1 UProhibited] None = false /\       (* required -> prohibited *)
  m_att_derivation tder ex_base None [d2 (VFixed [71%N])] None = false /\   (* fixed value changed *)
  m_att_derivation tder ex_base None [d2 VNone] None = false /\
  m_att_derivation tder ex_base (Some (NsSet [u3])) [] (Some (NsSet [u3; u4])) = false /\   (* wildcard widened *)
  m_att_derivation tder ex_base None [] (Some NsAny) = false.
Proof. cbv zeta. repeat split; vm_compute; reflexivity. Qed.

Theorem T08_attr_derivation_strayprohibited_refuted :
  let tder := fun r b => (r =? b)%N in
  let d := {| ad_name := (u1, 4%N); ad_use := UProhibited; ad_vc := VNone; ad_type := 0%N |} in
  attr_restriction_ok tder ex_base None [d] None = true /\ m_att_derivation tder ex_base None [d] None = false.
Proof. cbv zeta. split; vm_compute; reflexivity. Qed.
Print Assumptions T08_attr_derivation_strayprohibited_refuted.

Theorem T08_wc_subset_absent_refuted :
  m_wc_subset (NsNot u2) (NsSet [u1]) = true /\ wc_subset (NsSet [u1]) (NsNot u2) = false /\
  wildcard_allows (NsSet [u1]) u1 = true /\ wildcard_allows (NsNot u2) u1 = false.
Proof. repeat split; reflexivity. Qed.
Print Assumptions T08_wc_subset_absent_refuted.

Ltac case_ifs := repeat match goal with |- context [if ?b then _ else _] => destruct b end.

(** SchemaValidator::validateElement (NillNotAllowed) + sendCharData (NoCharDataInCM, fDatatypeBuffer) +
    SchemaValidator::checkContent report no error exactly when the item is valid per [elem_valid], and the characters
    reported for a valid item are its [schema normalized value], for every datatype (dtv, dteq), every well-formed
    declaration and every item outside the three refuted classes below *)
Theorem T08_elem_content : forall dtv dteq d x,
  edecl_wf dtv d = true -> elem_defect_class d x = false ->
  m_elem_valid dtv dteq d x = elem_valid dtv dteq d x /\
  (m_elem_valid dtv dteq d x = true -> m_elem_value dtv dteq d x = elem_value d x).
Proof.
  intros dtv dteq d x. unfold m_elem_valid, m_elem_value.
  destruct (m_elem_check dtv dteq d x) as [errs val] eqn:E. cbn [fst snd].
  revert E. unfold m_elem_check, elem_valid. rewrite m_nil_check_spec, clause3_spec.
  destruct (nil_ok d x) eqn:HA.
  2:{ destruct (m_chardata d x), (m_check_content _ _ _ _ _ _). intros [= <- <-] _ _. split; [reflexivity|discriminate]. }
  (* from here on xsi:nil matters only through [nilled x]; both sides are tables over the content kind [k], "has
     element children" [nk], "has character children" [tx] and the value constraint [v].  [edecl_wf] and
     [cls_mixedvc] leave a value constraint on simple content only ([dtv] of it is clause 5.1.2); the cells excluded
     by [Hcls] are [cls_nildefault] (simple) and [cls_nilws] (element-only).  [case_ifs] splits on what evaluation
     leaves undecided: [cm], [dtv], [dteq], and the white-space test of a non-empty text, made a boolean [aw]
     beforehand so that [cbn] leaves it alone *)
  destruct d as [k nl v], x as [na nk cm tx].
  unfold elem_value, clause5, elem_defect_class, cls_nildefault, cls_nilws.
  destruct (nilled _) eqn:HN; [rewrite (nilled_nillable _ _ HA HN)|]; clear HA HN;
    unfold type_valid, m_chardata, m_check_content, no_children, has_kids, edecl_wf, cls_mixedvc;
    cbn [e_kind e_nillable e_vc i_nil i_nkids i_cm_ok i_text andb negb orb];
    destruct k.
  (* nilled: clause 3.2 against NilAttrNotEmpty *)
  - (* empty *)
    destruct v; try discriminate. destruct nk, tx; cbn; intros [= <- <-] _ _; auto.
  - (* simple *)
    destruct nk, tx, v; cbn; intros [= <- <-] Hwf Hcls; try discriminate Hcls; auto.
  - (* element-only *)
    destruct v; try discriminate.
    destruct tx as [|c t]; [|generalize (all_ws (c :: t)); intros aw];
      destruct nk; cbn; case_ifs; intros [= <- <-] _ Hcls; try discriminate Hcls; auto.
  - (* mixed *)
    destruct v; try discriminate. destruct nk, tx; cbn; intros [= <- <-] _ _; auto.
  (* not nilled: clause 5 against sendCharData + checkContent *)
  - (* empty *)
    destruct v; try discriminate. destruct nk, tx; cbn; intros [= <- <-] _ _; auto.
  - (* simple *)
    destruct nk, tx, v; cbn; case_ifs; intros [= <- <-] Hwf _; rewrite ?Hwf; cbn; rewrite ?andb_false_r; split; auto;
      discriminate.
  - (* element-only *)
    destruct v; try discriminate.
    destruct tx as [|c t]; [|generalize (all_ws (c :: t)); intros aw];
      destruct nk; cbn; case_ifs; intros [= <- <-] _ _; auto.
  - (* mixed *)
    destruct v; try discriminate. destruct nk, tx; cbn; case_ifs; intros [= <- <-] _ _; auto.
Qed.
Print Assumptions T08_elem_content.

Definition ex_dtv (t : list N) : bool := true.
Definition ex_item na nk cm tx := {| i_nil := na; i_nkids := nk; i_cm_ok := cm; i_text := tx |}.
Definition ex_decl k nl v := {| e_kind := k; e_nillable := nl; e_vc := v |}.
Example T08_elem_content_nonvacuous :
  let F := VFixed [97; 98]%N in
  edecl_wf ex_dtv (ex_decl KSimple true F) = true /\
  elem_defect_class (ex_decl KSimple true F) (ex_item NilTrue 0 true []) = false /\
  m_elem_valid ex_dtv str_eqb (ex_decl KSimple true F) (ex_item NilTrue 0 true []) = false /\      (* 3.2.2 *)
  m_elem_valid ex_dtv str_eqb (ex_decl KSimple true F) (ex_item NilAbsent 0 true [97; 98]%N) = true /\
  m_elem_valid ex_dtv str_eqb (ex_decl KSimple true F) (ex_item NilAbsent 0 true [97]%N) = false /\ (* 5.2.2.2.2 *)
  m_elem_value ex_dtv str_eqb (ex_decl KSimple true F) (ex_item NilFalse 0 true []) = [97; 98]%N /\  (* 5.1 *)
  m_elem_valid ex_dtv str_eqb (ex_decl KSimple false VNone) (ex_item NilFalse 0 true []) = false /\ (* 3.1 *)
  m_elem_valid ex_dtv str_eqb (ex_decl KElemOnly true VNone) (ex_item NilTrue 1 true []) = false /\  (* 3.2.1 *)
  m_elem_valid ex_dtv str_eqb (ex_decl KElemOnly true VNone) (ex_item NilTrue 0 false []) = true /\  (* content not checked *)
  m_elem_valid ex_dtv str_eqb (ex_decl KElemOnly true VNone) (ex_item NilAbsent 1 true [32; 120]%N) = false /\ (* 2.3 *)
  m_elem_valid ex_dtv str_eqb (ex_decl KEmpty true VNone) (ex_item NilAbsent 0 true [32]%N) = false /\ (* 2.1 *)
  m_elem_valid ex_dtv str_eqb (ex_decl KMixed true VNone) (ex_item NilAbsent 1 true [120]%N) = true.
Proof. cbv zeta. repeat split; vm_compute; reflexivity. Qed.

(** known finding C08-nildefault: xsi:nil="true" on a nillable element declared with a default (not fixed) value is
    rejected with NilAttrNotEmpty; 3.3.4 clause 3.2.2 only excludes a *fixed* value constraint *)
Theorem T08_elem_nildefault_refuted : exists d x,
  edecl_wf ex_dtv d = true /\ elem_valid ex_dtv str_eqb d x = true /\ m_elem_valid ex_dtv str_eqb d x = false.
Proof. exists (ex_decl KSimple true (VDefault [97]%N)), (ex_item NilTrue 0 true []). repeat split; vm_compute; reflexivity. Qed.
Print Assumptions T08_elem_nildefault_refuted.
(** known finding C08-mixedvc: the value constraint of an element with mixed content is ignored: a fixed value is
    not compared (5.2.2.2.1), element children are accepted (5.2.2.1), xsi:nil is accepted (3.2.2), a default is not
    reported for empty content (5.1) *)
Theorem T08_elem_mixedvc_refuted :
  let d := ex_decl KMixed true (VFixed [97]%N) in
  edecl_wf ex_dtv d = true /\
  (elem_valid ex_dtv str_eqb d (ex_item NilAbsent 0 true [98]%N) = false /\ m_elem_valid ex_dtv str_eqb d (ex_item NilAbsent 0 true [98]%N) = true) /\
  (elem_valid ex_dtv str_eqb d (ex_item NilAbsent 1 true []) = false /\ m_elem_valid ex_dtv str_eqb d (ex_item NilAbsent 1 true []) = true) /\
  (elem_valid ex_dtv str_eqb d (ex_item NilTrue 0 true []) = false /\ m_elem_valid ex_dtv str_eqb d (ex_item NilTrue 0 true []) = true) /\
  (elem_value d (ex_item NilAbsent 0 true []) = [97]%N /\ m_elem_value ex_dtv str_eqb d (ex_item NilAbsent 0 true []) = []).
Proof. cbv zeta. repeat split; vm_compute; reflexivity. Qed.
Print Assumptions T08_elem_mixedvc_refuted.
(** known finding C08-nilwhitespace: a nilled element with element-only content and white space characters is accepted
    (3.2.1: no character or element information item children) *)
Theorem T08_elem_nilws_refuted : exists d x,
  edecl_wf ex_dtv d = true /\ elem_valid ex_dtv str_eqb d x = false /\ m_elem_valid ex_dtv str_eqb d x = true.
Proof. exists (ex_decl KElemOnly true VNone), (ex_item NilTrue 0 true [32]%N). repeat split; vm_compute; reflexivity. Qed.
Print Assumptions T08_elem_nilws_refuted.

(** the scanner reports no error in the tree exactly when the root is not invalid per 3.3.5 [validity] with the
    skip / lax / strict rules of 3.10.1 -- for every tree (availability of a declaration and local
    validity of each element are inputs) *)
Theorem T08_process_contents : forall t, m_tree_valid t = tree_valid t.
Proof.
  intros t. unfold m_tree_valid, tree_valid.
  induction t as [h d o ks IH] using etree_ind'. rewrite m_walk_unfold. cbv zeta.
  pose proof (sum_walk_on ks IH) as HS.
  assert (H0 : sum_walk false ks = 0).
  { apply sum_walk_zero. apply Forall_forall. intros k _. apply m_walk_off. }
  rewrite !add_eqb_0. cbn [assess].
  destruct d, o, h as [|[]]; cbn [andb negb]; rewrite ?H0, ?HS; destruct (existsb _ ks); reflexivity.
Qed.
Print Assumptions T08_process_contents.
Theorem T08_process_contents_off : forall t, m_walk false t = 0.
Proof. exact m_walk_off. Qed.
Example T08_process_contents_nonvacuous :
  let bad := ENode (ByWild PcStrict) true false [] in
  let und h := ENode h false true [bad] in
  m_tree_valid (ENode ByDecl true true [und (ByWild PcLax)]) = true /\
  m_tree_valid (ENode ByDecl true true [und (ByWild PcSkip)]) = true /\
  m_tree_valid (ENode ByDecl true true [und (ByWild PcStrict)]) = false /\
  m_tree_valid (ENode ByDecl true true [ENode (ByWild PcLax) true true [bad]]) = false /\
  m_tree_valid (ENode ByDecl true true [ENode (ByWild PcSkip) true false [bad]]) = true /\
  m_walk true (ENode ByDecl true true [und (ByWild PcStrict); bad]) = 3.
Proof. cbv zeta. repeat split; vm_compute; reflexivity. Qed.

(** XercesElementWildcard::conflict (elements without substitution groups, Any / Any_Other / Any_NS wildcards) answers
    true exactly when some element name can be attributed to both leaves (sound and complete, all namespaces) *)
Theorem T08_upa_conflict : forall a b, m_conflict a b = true <-> leaves_overlap (spec_leaf a) (spec_leaf b).
Proof.
  intros a b. unfold leaves_overlap. setoid_rewrite <- lsym_match_spec.
  destruct a as [q1|k1 v1], b as [q2|k2 v2]; cbn [m_conflict lsym_match]; rewrite ?uri_in_wildcard_any_match.
  - rewrite overlap_elem, qname_eqb_sym. reflexivity.
  - rewrite overlap_elem. reflexivity.
  - rewrite ex_and_comm, overlap_elem. reflexivity.
  - rewrite wildcard_intersect_correct. split.
    + intros (x & H). exists (x, 0%N). exact H.
    + intros ((x, l) & H). exists x. exact H.
Qed.
Print Assumptions T08_upa_conflict.
Example T08_upa_conflict_nonvacuous :
  m_conflict (LA KOther u2) (LA KOther u3) = true /\ m_conflict (LA KNS u2) (LA KOther u2) = false /\
  m_conflict (LA KNS u1) (LA KOther u2) = false /\ m_conflict (LQ (u3, 6%N)) (LA KOther u2) = true /\
  m_conflict (LQ (u2, 1%N)) (LQ (u2, 2%N)) = false /\ m_conflict (LA KNS u3) (LA KNS u3) = true.
Proof. repeat split; vm_compute; reflexivity. Qed.
