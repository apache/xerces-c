(** C08 lemmas, part e: the attribute-use loop of buildAttList against 3.4.4 clauses 3 and 4 / 3.4.5. *)
From XV Require Import C08.Spec08 C08.Model08 C08.Proofs08a.

Lemma any_attr_match_allows c x : any_attr_match c x = wildcard_allows c x.
Proof.
  destruct c as [|u|l]; rewrite ?allows_not; cbn [any_attr_match wildcard_allows]; auto.
  - rewrite (N.eqb_sym u x). reflexivity.
  - unfold mem_uri. induction l as [|y l IH]; cbn [existsb]; auto. rewrite IH, (N.eqb_sym y x). reflexivity.
Qed.

Definition is_prohibited (u : attruse) : bool := match au_use u with UProhibited => true | _ => false end.
(** no provided attribute names a declaration with use = prohibited *)
Definition no_prohibited_hit (d : attrdecls) (atts : list (qname * list N)) : bool :=
  forallb (fun a => match find_use (fst a) (ad_uses d) with Some u => negb (is_prohibited u) | None => true end) atts.

Definition not_prohibited_hit (d : attrdecls) (a : qname * list N) : bool :=
  match find_use (fst a) (ad_uses d) with Some u => negb (is_prohibited u) | None => true end.
Lemma no_prohibited_hit_In d atts :
  no_prohibited_hit d atts = true <-> forall a, In a atts -> not_prohibited_hit d a = true.
Proof. apply forallb_forall. Qed.

Lemma m_attr_item_spec d declared a :
  not_prohibited_hit d a = true -> m_attr_item d declared a = attr_item_ok d declared a.
Proof.
  unfold not_prohibited_hit, m_attr_item, attr_item_ok, wild_item_ok, is_prohibited.
  destruct (find_use (fst a) (ad_uses d)) as [u|].
  - destruct (au_use u); cbn; auto; discriminate.
  - intros _. destruct (ad_wild d) as [[c pc]|]; auto. rewrite any_attr_match_allows.
    destruct (wildcard_allows c (fst (fst a))); cbn [andb]; auto; destruct pc; auto.
Qed.

Lemma m_attr_defs_fst us atts :
  fst (m_attr_defs us atts) =
  forallb (fun u => match au_use u with
                    | URequired => match find_attr (au_name u) atts with Some _ => true | None => false end
                    | _ => true end) us.
Proof.
  induction us as [|u us IH]; cbn [m_attr_defs forallb]; auto.
  destruct (m_attr_defs us atts) as [ok f]. cbn [fst] in IH. rewrite <- IH.
  destruct (find_attr (au_name u) atts); [destruct (au_use u); reflexivity|].
  destruct (au_use u); cbn [fst andb]; auto. destruct (au_vc u); reflexivity.
Qed.

Lemma m_attr_defs_snd us atts : fst (m_attr_defs us atts) = true ->
  snd (m_attr_defs us atts) =
  flat_map (fun u => match au_use u, find_attr (au_name u) atts with
                     | UProhibited, _ => []
                     | _, Some _ => []
                     | _, None => match au_vc u with VDefault v | VFixed v => [(au_name u, v)] | VNone => [] end
                     end) us.
Proof.
  induction us as [|u us IH]; cbn [m_attr_defs flat_map]; auto.
  destruct (m_attr_defs us atts) as [ok f]. cbn [fst snd] in *.
  destruct (find_attr (au_name u) atts).
  - cbn [fst snd]. intros H. rewrite (IH H). destruct (au_use u); reflexivity.
  - destruct (au_use u); cbn [fst snd].
    + destruct (au_vc u); cbn [fst snd]; intros H; rewrite (IH H); reflexivity.
    + discriminate.
    + intros H. rewrite (IH H). reflexivity.
Qed.


