(** C08 lemmas, part j: one element.  Its declaration (validateElement / sendCharData / checkContent), process
    contents (scanStartTagNS / laxElementValidation), xsi:type, substitution groups, leaf overlap (UPA). *)
From XV Require Import C08.SpecElem08 C08.ModelElem08 C08.Proofs08a C08.Proofs08c.

(** the three classes in which the code deviates from 3.3.4 (known findings) *)
(** C08-nildefault: simple content, xsi:nil="true" on a nillable element whose declaration has a *default* *)
Definition cls_nildefault (d : edecl) (x : eitem) : bool :=
  match e_kind d, e_vc d with
  | KSimple, VDefault _ => nilled x && e_nillable d && no_children x
  | _, _ => false
  end.
(** C08-mixedvc: a value constraint on an element with mixed content is ignored altogether *)
Definition cls_mixedvc (d : edecl) : bool :=
  match e_kind d with KMixed => has_vc (e_vc d) | _ => false end.
(** C08-nilwhitespace: element-only content, nilled, no element children, white space characters only *)
Definition cls_nilws (d : edecl) (x : eitem) : bool :=
  match e_kind d with
  | KElemOnly => nilled x && e_nillable d && negb (has_kids x) && negb (is_nil (i_text x)) && all_ws (i_text x)
  | _ => false
  end.
Definition elem_defect_class (d : edecl) (x : eitem) : bool := cls_nildefault d x || cls_mixedvc d || cls_nilws d x.

(** clause 3.1, all that validateElement checks; fNil afterwards = accepted and nilled *)
Definition nil_ok (d : edecl) (x : eitem) : bool := match i_nil x with NilAbsent => true | _ => e_nillable d end.
Lemma m_nil_check_spec d x :
  m_nil_check d x = (if nil_ok d x then [] else [ENillNotAllowed], nil_ok d x && nilled x).
Proof. unfold m_nil_check, nil_ok, nilled. destruct (i_nil x), (e_nillable d); reflexivity. Qed.
Lemma clause3_spec d x :
  clause3 d x = nil_ok d x && (negb (nilled x) || no_children x && negb (is_fixed (e_vc d))).
Proof. unfold clause3, nil_ok, nilled. destruct (i_nil x), (e_nillable d); reflexivity. Qed.
Lemma nilled_nillable d x : nil_ok d x = true -> nilled x = true -> e_nillable d = true.
Proof. unfold nil_ok, nilled. destruct (i_nil x); auto; discriminate. Qed.

Definition sum_walk (v : bool) (ks : list etree) : nat :=
  (fix go (ks : list etree) : nat := match ks with [] => 0 | k :: r => m_walk v k + go r end) ks.

Lemma m_walk_unfold validate h declared ok ks :
  m_walk validate (ENode h declared ok ks) =
  let v1 := match h with ByWild PcSkip => false | _ => validate end in
  let lax := match h with ByWild PcLax => true | _ => false end in
  let v2 := if declared then v1 else if lax then false else v1 in
  let e := if declared then 0 else if lax then 0 else if v1 then 1 else 0 in
  e + (if v2 && declared && negb ok then 1 else 0) + sum_walk v2 ks.
Proof. reflexivity. Qed.

Fixpoint etree_ind' (P : etree -> Prop)
  (H : forall h d o ks, Forall P ks -> P (ENode h d o ks)) (t : etree) : P t :=
  match t with
  | ENode h d o ks =>
      H h d o ks ((fix go (ks : list etree) : Forall P ks :=
                     match ks with [] => Forall_nil _ | k :: r => Forall_cons _ (etree_ind' P H k) (go r) end) ks)
  end.

Lemma sum_walk_cons v k r : sum_walk v (k :: r) = m_walk v k + sum_walk v r.
Proof. reflexivity. Qed.
Lemma sum_walk_zero v ks : Forall (fun k => m_walk v k = 0) ks -> sum_walk v ks = 0.
Proof. induction 1 as [|k r Hk _ IH]; [reflexivity|]. rewrite sum_walk_cons, Hk, IH. reflexivity. Qed.

Lemma m_walk_off t : m_walk false t = 0.
Proof.
  induction t as [h d o ks IH] using etree_ind'. rewrite m_walk_unfold. cbv zeta.
  destruct d, h as [|[]]; cbn [andb]; rewrite (sum_walk_zero false ks IH); reflexivity.
Qed.

Lemma add_eqb_0 a b : (a + b =? 0) = (a =? 0) && (b =? 0).
Proof. destruct a, b; reflexivity. Qed.

Lemma sum_walk_on ks :
  Forall (fun k => (m_walk true k =? 0) = negb (is_invalid (assess k))) ks ->
  (sum_walk true ks =? 0) = negb (existsb (fun k => is_invalid (assess k)) ks).
Proof.
  induction 1 as [|k r Hk _ IH]; [reflexivity|].
  rewrite sum_walk_cons. cbn [existsb]. rewrite add_eqb_0, negb_orb, Hk, IH. reflexivity.
Qed.


(** the part of an ancestry below the first entry for type [d], and that entry *)
Section Cut.
  Context {A : Type} (key : A -> N) (d : N).

  Fixpoint ancestry_cut (l : list A) : option (list A * A) :=
    match l with
    | [] => None
    | e :: r => if (key e =? d)%N then Some ([], e)
                else match ancestry_cut r with Some (pre, x) => Some (e :: pre, x) | None => None end
    end.

  Lemma ancestry_cut_spec l pre e :
    ancestry_cut l = Some (pre, e) <-> exists post, l = pre ++ e :: post /\ key e = d /\ ~ In d (map key pre).
  Proof.
    revert pre. induction l as [|e0 r IH]; intros pre; cbn [ancestry_cut].
    - split; [discriminate|]. intros (post & E & _). destruct pre; discriminate E.
    - destruct (N.eqb_spec (key e0) d) as [Heq|Hne].
      + split.
        * intros E. injection E as <- <-. exists r. auto.
        * intros (post & E & _ & Hn). destruct pre as [|p pre]; injection E as <- E; [reflexivity|].
          destruct Hn. left. exact Heq.
      + destruct pre as [|p pre].
        * split; [destruct (ancestry_cut r) as [[? ?]|]; discriminate|]. intros (post & E & Hk & _). injection E as <- _. contradiction.
        * specialize (IH pre). split.
          -- destruct (ancestry_cut r) as [[pre' x]|]; [|discriminate]. intros E. injection E as <- <- <-.
             destruct (proj1 IH eq_refl) as (post & -> & Hk & Hn). exists post. repeat split; auto.
             intros [H|H]; [congruence|auto].
          -- intros (post & E & Hk & Hn). injection E as <- E.
             rewrite (proj2 IH); [reflexivity|]. exists post. repeat split; auto. intro H. apply Hn. right. exact H.
  Qed.

  Lemma ancestry_cut_ex (Q : list A -> A -> Prop) l :
    (exists pre e post, l = pre ++ e :: post /\ key e = d /\ ~ In d (map key pre) /\ Q pre e) <->
    match ancestry_cut l with Some (pre, e) => Q pre e | None => False end.
  Proof.
    split.
    - intros (pre & e & post & E & Hk & Hn & HQ). rewrite (proj2 (ancestry_cut_spec l pre e)) by eauto. exact HQ.
    - destruct (ancestry_cut l) as [[pre e]|] eqn:Ec; [|intros []]. apply ancestry_cut_spec in Ec. destruct Ec as (post & E & Hk & Hn).
      intros HQ. exists pre, e, post. auto.
  Qed.
End Cut.

Definition steps_free (eb tb : blockset) (pre : ancestry) : Prop :=
  forall t s, In (t, s) pre -> blocked eb s = false /\ blocked tb s = false.

Lemma xsitype_ok_cut d eb tb abstract up :
  xsitype_ok d eb tb abstract up <->
  abstract = false /\ match ancestry_cut fst d up with Some (pre, _) => steps_free eb tb pre | None => False end.
Proof.
  unfold xsitype_ok. rewrite <- (ancestry_cut_ex fst d (fun pre _ => steps_free eb tb pre)).
  split; intros [Ha H]; (split; [exact Ha|]).
  - destruct H as (pre & m & post & E & H). exists pre, (d, m), post. auto.
  - destruct H as (pre & [t m] & post & E & Hk & H). cbn [fst] in Hk. subst t. exists pre, m, post. auto.
Qed.

Lemma steps_free_forallb eb tb pre :
  forallb (fun m => negb (blocked eb m || blocked tb m)) (map snd pre) = true <-> steps_free eb tb pre.
Proof.
  rewrite forallb_forall. unfold steps_free. split.
  - intros H t s Hin. apply (in_map snd) in Hin. apply H in Hin. cbn [snd] in Hin.
    apply negb_true_iff, orb_false_iff in Hin. exact Hin.
  - intros H m Hm. apply in_map_iff in Hm. destruct Hm as ([t s] & <- & Hin). cbn [snd].
    destruct (H t s Hin) as [-> ->]. reflexivity.
Qed.

Lemma steps_to_cut d up : steps_to d up = option_map (fun pe => map snd (fst pe)) (ancestry_cut fst d up).
Proof.
  induction up as [|[t m] up IH]; cbn [steps_to ancestry_cut fst]; [reflexivity|]. destruct (t =? d)%N; [reflexivity|].
  rewrite IH. destruct (ancestry_cut fst d up) as [[pre x]|]; reflexivity.
Qed.

Lemma m_xsitype_eq_okb d eb tb abstract up : m_xsitype d eb tb abstract up = xsitype_okb d eb tb abstract up.
Proof.
  unfold xsitype_okb, m_xsitype. destruct abstract; cbn [negb andb]; auto.
  induction up as [|[t m] up IH]; cbn [steps_to m_find_decl m_block_loop]; auto.
  destruct (N.eqb_spec t d); auto.
  destruct (steps_to d up) as [steps|]; cbn [option_map].
  - cbn [forallb]. destruct (m_find_decl d up).
    + rewrite IH, negb_orb. reflexivity.
    + rewrite <- IH. symmetry. apply andb_false_r.
  - destruct (m_find_decl d up); auto. rewrite IH. apply andb_false_r.
Qed.

Lemma m_find_head_mem head affil : m_find_head head affil = mem_uri head affil.
Proof.
  induction affil as [|h r IH]; cbn [m_find_head mem_uri existsb]; [reflexivity|].
  rewrite (N.eqb_sym head h). destruct (h =? head)%N; [reflexivity|exact IH].
Qed.

Lemma blocked_bor a b m : blocked (bor a b) m = blocked a m || blocked b m.
Proof. destruct m; reflexivity. Qed.
Lemma blocked_fold_bor l b0 m : blocked (fold_left bor l b0) m = blocked b0 m || existsb (fun b => blocked b m) l.
Proof.
  revert b0. induction l as [|b l IH]; intros b0; cbn [fold_left existsb]; [rewrite orb_false_r; reflexivity|].
  rewrite IH, blocked_bor, orb_assoc. reflexivity.
Qed.

Lemma tc_split_cut ht up : tc_split ht up = ancestry_cut tc_id ht up.
Proof. induction up as [|e r IH]; cbn [tc_split ancestry_cut]; [reflexivity|]. rewrite IH. reflexivity. Qed.

(** what the type walk of isEquivalentTo accumulates *)
Lemma m_sg_walk_cut ht up : forall dev blk,
  m_sg_walk ht up dev blk =
  match ancestry_cut tc_id ht up with
  | Some (pre, e) => Some (rev (map tc_method pre) ++ dev, fold_left bor (map tc_block (tl (pre ++ [e]))) blk)
  | None => None
  end.
Proof.
  induction up as [|e0 r IH]; intros dev blk; cbn [m_sg_walk ancestry_cut]; [reflexivity|].
  destruct (tc_id e0 =? ht)%N; [reflexivity|]. destruct r as [|e1 r']; [reflexivity|]. rewrite IH.
  destruct (ancestry_cut tc_id ht (e1 :: r')) as [[pre e]|] eqn:Ec; [|reflexivity].
  cbn [map rev app tl]. rewrite <- app_assoc. f_equal. f_equal.
  apply ancestry_cut_spec in Ec. destruct Ec as (post & E & _). destruct pre; injection E as <- _; reflexivity.
Qed.

(** no step below the head's type is blocked by the head element or by a type above the member's type *)
Definition chain_ok (hb : eblock) (pre : typechain) (e : N * dmethod * blockset) : Prop :=
  forall x, In x pre ->
    blocked (eb_types hb) (tc_method x) = false /\
    forall y, In y (tl pre ++ [e]) -> blocked (tc_block y) (tc_method x) = false.

Lemma tl_snoc {T} (x : T) l e : In x l -> tl (l ++ [e]) = tl l ++ [e].
Proof. destruct l; [intros []|reflexivity]. Qed.
Lemma sg_walk_chain_ok hb pre e :
  existsb (blocked (fold_left bor (map tc_block (tl (pre ++ [e]))) (eb_types hb))) (rev (map tc_method pre)) = false
  <-> chain_ok hb pre e.
Proof.
  rewrite <- not_true_iff_false, existsb_exists. unfold chain_ok. split.
  - intros H x Hx.
    assert (Hb : blocked (fold_left bor (map tc_block (tl (pre ++ [e]))) (eb_types hb)) (tc_method x) = false).
    { destruct (blocked _ _) eqn:B; [|reflexivity]. destruct H. exists (tc_method x). split; [|exact B].
      apply -> in_rev. apply in_map. exact Hx. }
    rewrite blocked_fold_bor in Hb. apply orb_false_iff in Hb. destruct Hb as [H1 H2]. split; [exact H1|].
    intros y Hy. destruct (blocked (tc_block y) _) eqn:B; [|reflexivity].
    rewrite <- H2. symmetry. apply existsb_exists. exists (tc_block y). split; [|exact B].
    apply in_map. rewrite (tl_snoc x) by exact Hx. exact Hy.
  - intros H (m & Hm & Hb). apply in_rev in Hm. apply in_map_iff in Hm. destruct Hm as (x & <- & Hx).
    destruct (H x Hx) as [H1 H2]. rewrite blocked_fold_bor, H1 in Hb. apply existsb_exists in Hb.
    destruct Hb as (bb & Hbb & Hb). apply in_map_iff in Hbb. destruct Hbb as (y & <- & Hy).
    rewrite H2 in Hb; [discriminate Hb|]. rewrite (tl_snoc x) in Hy by exact Hx. exact Hy.
Qed.

Lemma subst_ok_cut member head affil hb ht up :
  subst_ok member head affil hb ht up <->
  member = head \/
  (eb_subst hb = false /\ In head affil /\
   match ancestry_cut tc_id ht up with Some (pre, e) => chain_ok hb pre e | None => False end).
Proof. unfold subst_ok. rewrite <- (ancestry_cut_ex tc_id ht (chain_ok hb)). reflexivity. Qed.

Lemma chain_ok_forallb hb pre e :
  forallb (fun x => negb (blocked (eb_types hb) (tc_method x)) &&
                    forallb (fun y => negb (blocked (tc_block y) (tc_method x))) (tl pre ++ [e])) pre = true
  <-> chain_ok hb pre e.
Proof.
  unfold chain_ok. rewrite forallb_forall. split; intros H x Hx; specialize (H x Hx).
  - apply andb_true_iff in H. destruct H as [H1 H2]. apply negb_true_iff in H1. split; [exact H1|].
    intros y Hy. rewrite forallb_forall in H2. apply negb_true_iff, H2, Hy.
  - destruct H as [-> H2]. apply forallb_forall. intros y Hy. rewrite (H2 y Hy). reflexivity.
Qed.

Lemma m_subst_eq_okb member head affil hb ht up :
  m_subst member head affil hb ht up = subst_okb member head affil hb ht up.
Proof.
  unfold m_subst, subst_okb. rewrite m_find_head_mem, m_sg_walk_cut, tc_split_cut.
  destruct (member =? head)%N; [reflexivity|]. cbn [orb].
  destruct (mem_uri head affil); [|rewrite andb_false_r; reflexivity].
  destruct (eb_subst hb); [reflexivity|]. cbn [negb andb].
  destruct (ancestry_cut tc_id ht up) as [[pre e]|]; [|reflexivity].
  rewrite app_nil_r. apply eq_true_iff_eq. rewrite negb_true_iff, sg_walk_chain_ok, chain_ok_forallb. reflexivity.
Qed.

Local Open Scope N_scope.

Lemma spec_leaf_LA k u : spec_leaf (LA k u) = PWild (leaf_nsc k u).
Proof. destruct k; reflexivity. Qed.
Lemma lsym_match_spec s x : lsym_match s x = pleaf_match (spec_leaf s) x.
Proof. destruct s as [q|k u]; [reflexivity|]. rewrite spec_leaf_LA. apply any_match_allows. Qed.

Lemma uri_in_wildcard_any_match x k u : m_uri_in_wildcard x k u = any_match k u x.
Proof. destruct k; cbn; try reflexivity. apply N.eqb_sym. Qed.

Definition fresh_uri (a b : uri) : uri := N.max (N.max 1 a) b + 1.
Lemma fresh_uri_spec a b : (fresh_uri a b =? 1) = false /\ (fresh_uri a b =? a) = false /\ (fresh_uri a b =? b) = false.
Proof. unfold fresh_uri. repeat split; apply N.eqb_neq; lia. Qed.

Lemma ex_and_comm {T} (A B : T -> Prop) : (exists x, A x /\ B x) <-> (exists x, B x /\ A x).
Proof. split; intros (x & H1 & H2); exists x; auto. Qed.

Lemma overlap_elem q (P : qname -> Prop) : (exists x, qname_eqb q x = true /\ P x) <-> P q.
Proof.
  split.
  - intros (x & E & H). apply qname_eqb_eq in E. subst. exact H.
  - intros H. exists q. split; [apply qname_eqb_refl|exact H].
Qed.
Lemma overlap_NS u (P : uri -> Prop) : (exists x, any_match KNS u x = true /\ P x) <-> P u.
Proof.
  cbn [any_match]. split.
  - intros (x & E & H). apply N.eqb_eq in E. subst. exact H.
  - intros H. exists u. split; [apply N.eqb_refl|exact H].
Qed.

Lemma wildcard_intersect_correct k1 u1 k2 u2 :
  m_wildcard_intersect k1 u1 k2 u2 = true <-> exists x, any_match k1 u1 x = true /\ any_match k2 u2 x = true.
Proof.
  destruct (fresh_uri_spec u1 u2) as (F1 & F2 & F3).
  destruct k1, k2; try rewrite overlap_NS; try rewrite ex_and_comm, overlap_NS; cbn [m_wildcard_intersect any_match].
  (* ##any / ##other on both sides: true, and both accept [fresh_uri u1 u2] *)
  1,2,4,5: split; [intros _; exists (fresh_uri u1 u2); rewrite ?F1, ?F2, ?F3; auto|reflexivity].
  - reflexivity.
  - rewrite (N.eqb_sym u2 u1), andb_comm. reflexivity.
  - reflexivity.
  - rewrite andb_comm. reflexivity.
  - rewrite N.eqb_sym. reflexivity.
Qed.
