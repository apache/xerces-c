(** C19 -- "documents within the limit are unaffected" (universal): for every configuration, resolver, file
    system and document, if the run WITHOUT a SecurityManager performs at most L counted expansions, then the run
    with limit L is the same run, state for state (same events, same tables, no EntityExpansionLimitExceeded).
    Method: the counter never decreases (an instance of the induction principle of Proofs19a), and a two-run
    simulation through the nested fixpoints: as long as the unlimited run's final counter is <= L, every
    `++count > limit` test of the limited run is false. *)
From XV Require Import Base.XDefs C19.Uri19 C19.Spec19 C19.Model19 C19.Proofs19a C19.Proofs19b.
From Coq Require Import Arith PeanoNat Lia.
Local Open Scope nat_scope.

Section Unaffected.
Variables (c : cfg) (rs : option resolver) (fs : filesys) (L : nat).
Local Notation cN := (with_limit c None).
Local Notation cL := (with_limit c (Some L)).

Lemma over_limit_N : forall s, over_limit cN s = false.
Proof. reflexivity. Qed.
Lemma over_limit_L : forall s, s_cnt s <= L -> over_limit cL s = false.
Proof. intros s H. unfold over_limit. cbn [c_limit with_limit]. apply Nat.ltb_ge. exact H. Qed.

Definition Ge (k : nat) (s : st) : Prop := k <= s_cnt s.

Lemma ge_emit : forall k ev s, Ge k s -> Ge k (emit ev s).
Proof. intros k ev s H. exact H. Qed.
Lemma ge_obs : forall k s s', s_tr s' = s_tr s -> s_cnt s' = s_cnt s -> s_halt s' = s_halt s -> Ge k s -> Ge k s'.
Proof. intros k s s' _ E _ H. unfold Ge. rewrite E. exact H. Qed.
Lemma ge_push_dtd : forall k n s, s_halt s = false -> Ge k s -> Ge k (push_dtd cN n s).
Proof. intros k n s _ H. unfold push_dtd, Ge in *. destruct (c_countDtd cN); cbn [emit incr s_cnt over_limit with_limit c_limit]; lia. Qed.
Lemma ge_counted : forall k ia n s, s_halt s = false -> Ge k s ->
  Ge k (let s2 := incr (emit [EvPush n] s) in if over_limit cN s2 then halt FLimit s2 else emit [EvExpand ia n] s2).
Proof. intros k ia n s _ H. unfold Ge in *. cbn [emit incr s_cnt over_limit with_limit c_limit]. lia. Qed.
Lemma ge_refl : forall s, Ge (s_cnt s) s.
Proof. intros s. apply Nat.le_refl. Qed.
(** [Ge] makes no use of the guard premises of the principle: where its lemmas ask for [v], any value will do.  The
    premises not listed here (halt, the three event blocks) leave the counter alone: [eauto] closes them by assumption *)
#[local] Hint Resolve ge_refl ge_obs ge_push_dtd ge_counted : ge.

Definition Mono (f : st -> st) : Prop := forall s, s_cnt s <= s_cnt (f s).
(** under limit L the step [fL] does what [fN] does without a manager, as long as [fN] ends within L *)
Definition Sim (fL fN : st -> st) : Prop := forall s, s_cnt (fN s) <= L -> fL s = fN s.

Lemma stage : forall fL fN sL sN, Mono fN -> Sim fL fN -> (s_cnt sN <= L -> sL = sN) -> s_cnt (fN sN) <= L -> fL sL = fN sN.
Proof. intros fL fN sL sN M Hs P H. rewrite (P (Nat.le_trans _ _ _ (M sN) H)). exact (Hs sN H). Qed.

Lemma mono_content : forall d nd ia ext cur stk ps, Mono (content d cN rs fs nd ia ext cur stk ps).
Proof. intros d nd ia ext cur stk ps s. apply (g_content cN rs fs false (Ge (s_cnt s))); eauto with ge. Qed.
Lemma mono_dtd_att : forall d nd ext cur stk ps, Mono (dtd_att d cN nd ext cur stk ps).
Proof. intros d nd ext cur stk ps s. apply (g_dtd_att cN (Ge (s_cnt s))); eauto with ge. Qed.
Lemma mono_scan_atts : forall d nd docsys atts, Mono (scan_atts d cN rs fs nd docsys atts).
Proof. intros d nd docsys atts s. apply (g_scan_atts cN rs fs false (Ge (s_cnt s))); eauto with ge. Qed.
Lemma mono_scan_doctype : forall d nd docsys dt s, s_cnt s <= s_cnt (scan_doctype d cN rs fs nd docsys dt s).
Proof. intros. apply (g_scan_doctype cN rs fs (validating cN dt) (Ge (s_cnt s))); eauto with ge. Qed.

Lemma fold_left_mono : forall (A : Type) (f : st -> A -> st) l, (forall x, Mono (fun s => f s x)) -> Mono (fold_left f l).
Proof. intros A f l M s. apply (fold_left_inv A (Ge (s_cnt s))); [|apply Nat.le_refl]. intros s' x H. exact (Nat.le_trans _ _ _ H (M x s')). Qed.

Lemma fold_left_sim : forall (A : Type) (fN fL : st -> A -> st) l,
  (forall x, Mono (fun s => fN s x)) -> (forall x, Sim (fun s => fL s x) (fun s => fN s x)) -> Sim (fold_left fL l) (fold_left fN l).
Proof.
  intros A fN fL l M Hs. induction l as [|x l IH]; intros s H; [reflexivity|]. cbn [fold_left] in *.
  exact (stage _ _ _ _ (fold_left_mono A fN l M) IH (Hs x s) H).
Qed.

Lemma sim_counted : forall (kN kL : st -> st) ia n, Sim kL kN -> Mono kN ->
  Sim (fun s => let s2 := incr (emit [EvPush n] s) in if over_limit cL s2 then halt FLimit s2 else kL (emit [EvExpand ia n] s2))
      (fun s => let s2 := incr (emit [EvPush n] s) in if over_limit cN s2 then halt FLimit s2 else kN (emit [EvExpand ia n] s2)).
Proof.
  intros kN kL ia n IH M s H. cbv zeta in *. rewrite over_limit_N in H |- *.
  rewrite over_limit_L; [apply IH; exact H|]. exact (Nat.le_trans _ _ _ (M _) H).
Qed.

Lemma sim_expand : forall (recN recL : rec_content) nd ia ext cur stk n,
  (forall ia ext cur stk ps, Sim (recL ia ext cur stk ps) (recN ia ext cur stk ps)) ->
  (forall ia ext cur stk ps, Mono (recN ia ext cur stk ps)) ->
  Sim (expand_ref recL cL rs fs nd ia ext cur stk n) (expand_ref recN cN rs fs nd ia ext cur stk n).
Proof.
  intros recN recL nd ia ext cur stk n IH M s H. unfold expand_ref in *.
  change (dtd_scanner cL) with (dtd_scanner cN).
  change (create_reader cL) with (create_reader cN).
  destruct (negb (dtd_scanner cN)); [reflexivity|].
  destruct (lookup n (s_ge s)) as [g|]; [|reflexivity].
  destruct (g_def g) as [v|pub sys].
  - destruct (negb (push_ok n stk)); [reflexivity|]. exact (sim_counted _ _ ia n (IH _ _ _ _ _) (M _ _ _ _ _) s H).
  - destruct ia; [reflexivity|].
    destruct (create_reader cN rs fs KEnt (g_base g) _ sys pub) as [ev r].
    destruct r as [id ct| |f]; [|reflexivity|reflexivity].
    destruct (negb (push_ok n stk)); [reflexivity|].
    destruct ct as [[items|ps|refs]|];
      try exact (sim_counted (fun s => s) (fun s => s) false n (fun _ _ => eq_refl) (fun _ => Nat.le_refl _) (emit ev s) H).
    exact (sim_counted _ _ false n (IH _ _ _ _ _) (M _ _ _ _ _) (emit ev s) H).
Qed.

Lemma sim_content : forall d nd ia ext cur stk ps,
  Sim (content d cL rs fs nd ia ext cur stk ps) (content d cN rs fs nd ia ext cur stk ps).
Proof.
  induction d as [|d IHd]; intros nd ia ext cur stk ps s H; [reflexivity|].
  rewrite content_S in H. rewrite !content_S. revert s H. apply fold_left_sim.
  - intros p s. exact (mono_content (S d) nd ia ext cur stk [p] s).   (* one step = the fold over [[p]] *)
  - intros [|n] s H; [reflexivity|]. destruct (s_halt s); [reflexivity|].
    exact (sim_expand _ _ nd ia ext cur stk n (IHd nd) (mono_content d nd) s H).
Qed.

Lemma sim_push_dtd : forall n, Sim (push_dtd cL n) (push_dtd cN n).
Proof.
  intros n s H. unfold push_dtd in *. cbv zeta in *. change (c_countDtd cL) with (c_countDtd cN).
  destruct (c_countDtd cN); [|reflexivity]. rewrite over_limit_N in H |- *.
  rewrite (over_limit_L _ H). reflexivity.
Qed.

Lemma sim_dtd_att_ref : forall (recN recL : rec_att) nd ext cur stk n,
  (forall ext cur stk ps, Sim (recL ext cur stk ps) (recN ext cur stk ps)) ->
  (forall ext cur stk ps, Mono (recN ext cur stk ps)) ->
  Sim (dtd_att_ref recL cL nd ext cur stk n) (dtd_att_ref recN cN nd ext cur stk n).
Proof.
  intros recN recL nd ext cur stk n IH M s H. unfold dtd_att_ref in *.
  destruct (lookup n (s_ge s)) as [g|]; [|reflexivity].
  destruct (g_def g) as [v|pub sys]; [|reflexivity].
  destruct (negb (push_ok n stk)); [reflexivity|].
  exact (stage _ _ _ _ (M _ _ _ _) (IH _ _ _ _) (sim_push_dtd n s) H).
Qed.

Lemma sim_dtd_att : forall d nd ext cur stk ps, Sim (dtd_att d cL nd ext cur stk ps) (dtd_att d cN nd ext cur stk ps).
Proof.
  induction d as [|d IHd]; intros nd ext cur stk ps s H; [reflexivity|].
  rewrite dtd_att_S in H. rewrite !dtd_att_S. revert s H. apply fold_left_sim.
  - intros p s. exact (mono_dtd_att (S d) nd ext cur stk [p] s).
  - intros [|n] s H; [reflexivity|]. destruct (s_halt s); [reflexivity|].
    exact (sim_dtd_att_ref _ _ nd ext cur stk n (IHd nd) (mono_dtd_att d nd) s H).
Qed.

Section Dtd.
Hypothesis DS : dtd_scanner c = true.

Lemma mono_dtd_items : forall d nd ext cur stk l, Mono (dtd_items d cN rs fs nd ext cur stk l).
Proof. intros d nd ext cur stk l s. apply (g_dtd_items cN rs fs false (Ge (s_cnt s))); eauto with ge. Qed.

Lemma sim_dtd_item : forall (recN recL : rec_dtd) (dattN dattL : rec_att) ext cur stk it,
  (forall ext cur stk l, Sim (recL ext cur stk l) (recN ext cur stk l)) ->
  (forall ext cur stk l, Mono (recN ext cur stk l)) ->
  (forall ext cur stk l, Sim (dattL ext cur stk l) (dattN ext cur stk l)) ->
  Sim (dtd_item recL dattL cL rs fs ext cur stk it) (dtd_item recN dattN cN rs fs ext cur stk it).
Proof.
  intros recN recL dattN dattL ext cur stk it IH M IHa s H. unfold dtd_item in *. cbv zeta in *.
  change (create_reader cL) with (create_reader cN).
  destruct it as [n def|n def|n|vv]; [reflexivity|reflexivity| |apply IHa; exact H].
  destruct (lookup n (s_pe s)) as [p|]; [|reflexivity].
  destruct (p_def p) as [vv|pub sys].
  - destruct (negb (push_ok n stk)); [reflexivity|].
    exact (stage _ _ _ _ (M _ _ _ _) (IH _ _ _ _) (sim_push_dtd n s) H).
  - destruct (create_reader cN rs fs KPE (p_base p) _ sys pub) as [ev r].
    destruct r as [id ct| |f]; [|reflexivity|reflexivity].
    destruct (negb (push_ok n stk)); [reflexivity|].
    destruct ct as [[items|ps|refs]|]; try exact (sim_push_dtd n (emit ev s) H).
    exact (stage _ _ _ _ (M _ _ _ _) (IH _ _ _ _) (sim_push_dtd n (emit ev s)) H).
Qed.

Lemma sim_dtd_items : forall d nd ext cur stk l,
  Sim (dtd_items d cL rs fs nd ext cur stk l) (dtd_items d cN rs fs nd ext cur stk l).
Proof.
  induction d as [|d IHd]; intros nd ext cur stk l s H; [reflexivity|].
  rewrite dtd_items_S in H. rewrite !dtd_items_S. revert s H. apply fold_left_sim.
  - intros it s. exact (mono_dtd_items (S d) nd ext cur stk [it] s).
  - intros it s H. destruct (s_halt s); [reflexivity|].
    exact (sim_dtd_item _ _ _ _ ext cur stk it (IHd nd) (mono_dtd_items d nd) (sim_dtd_att d nd) s H).
Qed.
End Dtd.

Lemma schema_ref_ignores_limit : forall (recA recB : rec_schema) l url tns r s,
  (forall url tns refs s, recA url tns refs s = recB url tns refs s) ->
  schema_ref recA (with_limit c l) rs fs url tns r s = schema_ref recB cN rs fs url tns r s.
Proof.
  intros recA recB l url tns r s E. unfold schema_ref. cbv zeta.
  change (schema_source (with_limit c l)) with (schema_source cN).
  destruct (schema_source cN rs url (sr_loc r) _) as [ev src].
  destruct src; try reflexivity.
  all: destruct (mem _ _); [reflexivity|].
  all: destruct (match sr_kind r with SInclude => false | SImport => _ end); [reflexivity|].
  all: destruct (schema_open fs _) as [ev2 ct2]; destruct ct2 as [[items|ps|refs]| |f]; try reflexivity; apply E.
Qed.

Lemma schema_refs_ignores_limit : forall d l url tns refs s,
  schema_refs d (with_limit c l) rs fs url tns refs s = schema_refs d cN rs fs url tns refs s.
Proof.
  induction d as [|d IHd]; intros l url tns refs s; [reflexivity|].
  rewrite !schema_refs_S. revert s. induction refs as [|r rest IHr]; intros s; [reflexivity|]. cbn [fold_left].
  rewrite IHr. f_equal. destruct (s_halt s); [reflexivity|]. apply schema_ref_ignores_limit. intros. apply IHd.
Qed.

Lemma schema_hint_ignores_limit : forall d l docsys h s,
  schema_hint d (with_limit c l) rs fs docsys h s = schema_hint d cN rs fs docsys h s.
Proof.
  intros d l docsys h s. unfold schema_hint. cbv zeta.
  change (schema_source (with_limit c l)) with (schema_source cN).
  change (c_loadSchema (with_limit c l)) with (c_loadSchema cN).
  destruct (s_halt s); [reflexivity|]. destruct (mem _ _); [reflexivity|].
  destruct (negb (c_loadSchema cN)); [reflexivity|].
  destruct (schema_source cN rs docsys (h_loc h) (h_ns h)) as [ev src].
  destruct src; try reflexivity.
  all: destruct (mem _ _); [reflexivity|].
  all: destruct (schema_open fs _) as [ev2 ct2]; destruct ct2 as [[items|ps|refs]| |f]; try reflexivity; apply schema_refs_ignores_limit.
Qed.

Lemma scan_hints_ignores_limit : forall d l docsys hs s,
  scan_hints d (with_limit c l) rs fs docsys hs s = scan_hints d cN rs fs docsys hs s.
Proof.
  intros d l docsys hs. induction hs as [|h r IH]; intros s; cbn [scan_hints]; [reflexivity|].
  rewrite schema_hint_ignores_limit. apply IH.
Qed.

Lemma sim_scan_atts : forall d nd docsys atts, Sim (scan_atts d cL rs fs nd docsys atts) (scan_atts d cN rs fs nd docsys atts).
Proof.
  intros d nd docsys atts. induction atts as [|a r IH]; intros s H; cbn [scan_atts] in *; [reflexivity|].
  exact (stage _ _ _ _ (mono_scan_atts d nd docsys r) IH (sim_content d nd true docsys None [] a s) H).
Qed.

Lemma sim_scan_doctype : forall d nd docsys dt, Sim (scan_doctype d cL rs fs nd docsys dt) (scan_doctype d cN rs fs nd docsys dt).
Proof.
  intros d nd docsys dt s. unfold scan_doctype. cbv zeta.
  change (dtd_scanner cL) with (dtd_scanner c). change (dtd_scanner cN) with (dtd_scanner c).
  change (create_reader cL) with (create_reader cN).
  change (c_loadDTD cL) with (c_loadDTD cN). change (validating cL dt) with (validating cN dt).
  destruct (dtd_scanner c) eqn:DS; [|reflexivity]. cbn [negb].
  (* the internal subset leaves [s1]; what follows it is chosen without looking at the state *)
  set (s1N := match dt_int dt with Some items => dtd_items d cN rs fs nd docsys None [] items s | None => s end).
  set (s1L := match dt_int dt with Some items => dtd_items d cL rs fs nd docsys None [] items s | None => s end).
  assert (E : s_cnt s1N <= L -> s1L = s1N) by (subst s1L s1N; destruct (dt_int dt); [apply (sim_dtd_items DS)|reflexivity]).
  clearbody s1N s1L.
  destruct (dt_ext dt) as [[pub sys]|]; [destruct (c_loadDTD cN || validating cN dt)|];
    [destruct (create_reader cN rs fs KDtd docsys docsys sys pub) as [ev [id [[items|ps|refs]|]| |f]]| |].
  (* in every case [s1] ends within L because the whole does, so the two runs meet in [s1] *)
  all: intros H; rewrite E; [|destruct (s_halt s1N); try exact H].
  all: try (destruct (s_halt s1N); reflexivity).
  - destruct (s_halt s1N); [reflexivity|]. exact (sim_dtd_items DS _ _ _ _ _ _ (emit ev s1N) H).
  - exact (Nat.le_trans _ _ _ (mono_dtd_items DS _ _ _ _ _ _ (emit ev s1N)) H).
Qed.

Theorem run_fuel_unaffected : forall d x,
  s_cnt (run_fuel d cN rs fs x) <= L -> run_fuel d cL rs fs x = run_fuel d cN rs fs x.
Proof.
  intros d x. unfold run_fuel. cbv zeta. change (schema_scanner cL) with (schema_scanner cN).
  apply stage; [apply mono_content|apply sim_content|].
  destruct (schema_scanner cN) eqn:SS.
  - rewrite (scan_hints_ignores_limit d (Some L)). apply stage; [|intros s _; reflexivity|].
    { intros s. apply (g_scan_hints cN rs fs false (Ge (s_cnt s))); eauto with ge. }
    apply stage; [apply mono_scan_atts|apply sim_scan_atts|].
    destruct (d_doctype x); [apply sim_scan_doctype|reflexivity].
  - apply stage; [apply mono_scan_atts|apply sim_scan_atts|].
    destruct (d_doctype x); [apply sim_scan_doctype|reflexivity].
Qed.

End Unaffected.

(** the model's counter IS the number of counted reader pushes of the trace (content / attribute-value readers,
    plus the DTD scanner's when the library counts them), also without a SecurityManager *)
Lemma count_is_pushes : forall c rs fs x,
  s_cnt (run (with_limit c None) rs fs x) = cntPc (c_countDtd c) (trace (run (with_limit c None) rs fs x)).
Proof. intros c rs fs x. symmetry. exact (proj1 (run_fuel_counts default_fuel (with_limit c None) rs fs x)). Qed.
