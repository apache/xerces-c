(** C19 -- the expansion counter: it equals the number of counted reader pushes of the trace, and with a
    SecurityManager limit L at most L general-entity expansions are accepted and at most L+1 counted readers
    are pushed (T19_limit).  At the end: what a parse leaves of the parser object ([parse_step_state]). *)
From XV Require Import Base.XDefs C19.Uri19 C19.Spec19 C19.Model19 C19.Proofs19a.
From Coq Require Import Arith PeanoNat Lia.
Local Open Scope nat_scope.

(** readers that count against the limit: those pushed by the document scanners, and -- with the repair of
    finding C19-F1, [c_countDtd] -- those pushed by the DTD scanner *)
Definition is_push_c (cd : bool) (e : event) : bool :=
  match e with EvPush _ => true | EvPushDtd _ => cd | _ => false end.
Definition is_push (e : event) : bool := is_push_c false e.
Definition is_expand (e : event) : bool := match e with EvExpand _ _ => true | _ => false end.
Definition cntPc (cd : bool) (l : list event) : nat := length (filter (is_push_c cd) l).
Definition cntP (l : list event) : nat := cntPc false l.
Definition cntE (l : list event) : nat := length (filter is_expand l).

Lemma trace_emit : forall ev s, trace (emit ev s) = trace s ++ ev.
Proof. intros ev s. unfold trace, emit. cbn [s_tr]. rewrite rev_app_distr, rev_involutive. reflexivity. Qed.
Lemma trace_halt : forall f s, trace (halt f s) = trace s ++ [EvFatal f].
Proof. reflexivity. Qed.
Lemma trace_incr : forall s, trace (incr s) = trace s.
Proof. reflexivity. Qed.

Lemma cnt_app : forall (f : event -> bool) l m, length (filter f (l ++ m)) = length (filter f l) + length (filter f m).
Proof. intros f l m. rewrite filter_app. apply app_length. Qed.
#[local] Hint Rewrite trace_emit trace_halt trace_incr cnt_app : trace.

Definition neutral (e : event) : Prop := (forall cd, is_push_c cd e = false) /\ is_expand e = false.

Lemma cnt_neutral : forall cd ev l, Forall neutral ev -> cntPc cd (l ++ ev) = cntPc cd l /\ cntE (l ++ ev) = cntE l.
Proof.
  intros cd ev l H. unfold cntPc, cntE. rewrite !cnt_app.
  assert (Z : length (filter (is_push_c cd) ev) = 0 /\ length (filter is_expand ev) = 0).
  { induction H as [|e ev [He1 He2] _ IH]; [split; reflexivity|]. cbn [filter]. rewrite He1, He2. exact IH. }
  destruct Z as [-> ->]. rewrite !Nat.add_0_r. split; reflexivity.
Qed.

(** the counter is the number of counted pushes, no expansion is accepted without one, and under a limit L
    the counter passes L at most once, by the push that ends the parse *)
Definition Counts (c : cfg) (s : st) : Prop :=
  cntPc (c_countDtd c) (trace s) = s_cnt s /\ cntE (trace s) <= s_cnt s /\
  match c_limit c with
  | Some L => cntE (trace s) <= L /\ (s_halt s = false -> s_cnt s <= L) /\ s_cnt s <= S L
  | None => True
  end.

Lemma Counts_emit : forall c ev s, Forall neutral ev -> Counts c s -> Counts c (emit ev s).
Proof.
  intros c ev s Hn H. unfold Counts. rewrite trace_emit. destruct (cnt_neutral (c_countDtd c) ev (trace s) Hn) as [-> ->].
  exact H.
Qed.

(** a counted push either takes the counter over the limit, which ends the parse, or leaves room for the one
    expansion that may follow it *)
Lemma Counts_push : forall c e s,
  is_push_c (c_countDtd c) e = true -> is_expand e = false -> s_halt s = false -> Counts c s ->
  let s2 := incr (emit [e] s) in
  if over_limit c s2 then Counts c (halt FLimit s2) else Counts c s2 /\ cntE (trace s2) < s_cnt s2.
Proof.
  intros c e s Pe Ee Hh (A & B & C). unfold Counts, over_limit in *. cbv zeta. cbn [incr emit s_cnt].
  destruct (c_limit c) as [L|]; [destruct C as (C1 & C2 & C3); specialize (C2 Hh); destruct (Nat.ltb_spec L (S (s_cnt s)))|].
  all: unfold cntPc, cntE in *; autorewrite with trace; cbn [filter length halt incr emit s_cnt s_halt]; rewrite Pe, Ee; cbn [is_push_c is_expand length].
  all: repeat split; try discriminate; lia.
Qed.

Lemma Counts_expand : forall c ia n s,
  s_halt s = false -> Counts c s -> cntE (trace s) < s_cnt s -> Counts c (emit [EvExpand ia n] s).
Proof.
  intros c ia n s Hh (A & B & C) R. unfold Counts in *. destruct (c_limit c) as [L|]; [destruct C as (C1 & C2 & C3); specialize (C2 Hh)|].
  all: unfold cntPc, cntE in *; autorewrite with trace; cbn [filter length is_push_c is_expand emit s_cnt s_halt]; repeat split; try tauto; lia.
Qed.

Lemma run_fuel_counts : forall d c rs fs x, Counts c (run_fuel d c rs fs x).
Proof.
  intros d c rs fs x.
  assert (Nt : forall k, (forall sys base pub, neutral (EvResolve k sys base pub)) /\ (forall id, neutral (EvUse k id)) /\
                        (forall t id, neutral (EvOpen k t id))) by (repeat split).
  assert (Src : forall k base sys pub ev src, source_of k c rs base sys pub = (ev, src) -> Forall neutral ev)
    by (intros k base sys pub ev src E; eapply (source_of_events c rs k neutral); [apply Nt|apply Nt|exact E]).
  apply (g_run_fuel c rs fs (vflag c x) (Counts c)); [..|reflexivity].
  - (* obs *) intros s s' E1 E2 E3. unfold Counts, trace. rewrite E1, E2, E3. trivial.
  - (* halt *) intros f s (A & B & C). unfold Counts. rewrite trace_halt. unfold cntPc, cntE in *. rewrite !cnt_app. cbn [filter length halt s_cnt s_halt].
    rewrite !Nat.add_0_r. destruct (c_limit c); repeat split; try tauto; discriminate.
  - (* push_dtd: counted, and checked, exactly when the library counts it *)
    intros n s Hh H. unfold push_dtd. destruct (c_countDtd c) eqn:CD.
    + pose proof (Counts_push c (EvPushDtd n) s CD eq_refl Hh H) as K. cbv zeta in *.
      destruct (over_limit c _); [exact K|exact (proj1 K)].
    + unfold Counts, cntPc, cntE in *. rewrite CD in *. autorewrite with trace.
      cbn [filter length is_push_c is_expand emit s_cnt s_halt]. rewrite !Nat.add_0_r. exact H.
  - (* counted *) intros ia n s Hh H. pose proof (Counts_push c (EvPush n) s eq_refl eq_refl Hh H) as K. cbv zeta in *.
    destruct (over_limit c _); [exact K|apply Counts_expand; [exact Hh|apply K..]].
  - (* create_reader *) intros k rb b sys pub ev r s _ _ E. apply Counts_emit.
    refine (create_reader_events c rs fs k neutral _ _ (fun _ => _) _ _ _ _ _ _ E); apply Nt.
  - (* source *) intros k base sys pub ev src s E. apply Counts_emit. exact (Src _ _ _ _ _ _ E).
  - (* open *) intros k base sys pub ev src s _ E H. apply Counts_emit; [|apply Counts_emit; [exact (Src _ _ _ _ _ _ E)|exact H]].
    destruct src; repeat constructor.
  - (* st0 *) unfold Counts. cbn. destruct (c_limit c); repeat split; lia.
Qed.

(** what survives a parse: who is installed and the manager's own limit (never the cached limit or the counter) *)
Lemma parse_step_state : forall c rs fs p x,
  ps_installed (snd (parse_step c rs fs p x)) = ps_installed p /\ ps_mgr (snd (parse_step c rs fs p x)) = ps_mgr p.
Proof.
  intros c rs fs p x. unfold parse_step, parse_with, ps_scan_reset. cbn [snd ps_installed ps_mgr].
  destruct (ps_installed p) eqn:Ei; cbn [ps_installed ps_mgr]; rewrite ?Ei; split; reflexivity.
Qed.
