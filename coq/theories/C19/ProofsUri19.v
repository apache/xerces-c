(** C19 -- lemmas about Uri19.v: RFC 2396 5.2 specification ([rfc_resolve], [rm_dots]) and the models of
    XMLUri / XMLURL / LocalFileInputSource path resolution.
    Universal lemmas of this file: [rfc_resolve_absolute], [rm_dots_no_dot_segments], [rm_dots_idempotent], [rfc_no_dot_segments_rel],
    [weave_rfc_segments], [localfile_rfc_agree], [unesc_loop_spec].
    All examples of RFC 2396 appendix C are checked for [rfc_resolve]; for each model function every example is
    either an agreement Example or a [_rfc_refuted_] lemma (the deviating value is what the real library returns,
    confirmed by the URI correspondence of checks/C19.py).
    The text-level agreement of XMLUri and XMLURL with [rfc_resolve] is a finite sweep (Properties_C19.v,
    [_partial]). *)
From XV Require Import Base.XDefs C19.Uri19.
Local Open Scope N_scope.

Lemma rfc_resolve_absolute : forall base ref sc rest,
  scheme_split ref = Some (sc, rest) -> rfc_resolve base ref = ref.
Proof. intros base ref sc rest H. unfold rfc_resolve. rewrite H. reflexivity. Qed.

Lemma rfc_resolve_absolute_idem : forall base ref sc rest,
  scheme_split ref = Some (sc, rest) -> rfc_resolve base (rfc_resolve base ref) = rfc_resolve base ref.
Proof. intros base ref sc rest H. rewrite !(rfc_resolve_absolute base ref sc rest H). reflexivity. Qed.

Lemma forallb_cons : forall (A : Type) (f : A -> bool) x l, forallb f (x :: l) = true -> f x = true /\ forallb f l = true.
Proof. intros A f x l H. apply andb_true_iff. exact H. Qed.
Lemma no_dotdot_app : forall a b, no_dotdot (a ++ b) = no_dotdot a && no_dotdot b.
Proof. induction a as [|x a IH]; intros b; cbn [no_dotdot app]; [reflexivity|]. rewrite IH, !andb_assoc. reflexivity. Qed.
Lemma no_dotdot_rev : forall a, no_dotdot (rev a) = no_dotdot a.
Proof.
  induction a as [|x a IH]; [reflexivity|]. cbn [rev]. rewrite no_dotdot_app, IH. cbn [no_dotdot].
  destruct (no_dotdot a), (is_dotdot x), (is_dot x); reflexivity.
Qed.
Lemma dots_ok_of_no_dotdot : forall m, no_dotdot m = true -> dots_ok m = true.
Proof.
  destruct m as [|x r]; [reflexivity|]. cbn [no_dotdot dots_ok]. intros H.
  apply andb_true_iff in H. destruct H as [H Hr]. apply andb_true_iff in H. destruct H as [Hdd Hd].
  apply negb_true_iff in Hdd. rewrite Hdd, Hd, Hr. reflexivity.
Qed.
Lemma dots_ok_dd_app : forall d m, forallb is_dotdot d = true -> dots_ok (d ++ m) = dots_ok m.
Proof.
  induction d as [|x d IH]; intros m H; [reflexivity|]. apply forallb_cons in H.
  destruct H as [Hx Hd]. cbn [app dots_ok]. rewrite Hx. apply IH. exact Hd.
Qed.
Lemma forallb_rev : forall (A : Type) (f : A -> bool) l, forallb f (rev l) = forallb f l.
Proof.
  intros A f. induction l as [|x l IH]; [reflexivity|]. cbn [rev forallb]. rewrite forallb_app, IH. cbn [forallb].
  rewrite andb_true_r, andb_comm. reflexivity.
Qed.

Lemma forallb_impl : forall (A : Type) (f g : A -> bool) l, (forall x, f x = true -> g x = true) ->
  forallb f l = true -> forallb g l = true.
Proof.
  intros A f g l Hfg. induction l as [|x l IH]; [reflexivity|]. cbn [forallb]. intros H. apply andb_true_iff in H.
  destruct H as [H1 H2]. rewrite (Hfg x H1), (IH H2). reflexivity.
Qed.

Lemma rm_dots_cons2 : forall out x y l, rm_dots out (x :: y :: l) =
  (if is_dot x then rm_dots out (y :: l)
   else if is_dotdot x then
          match out with
          | p :: out' => if is_dotdot p then rm_dots (x :: out) (y :: l) else rm_dots out' (y :: l)
          | [] => rm_dots (x :: out) (y :: l)
          end
        else rm_dots (x :: out) (y :: l)).
Proof. reflexivity. Qed.
Lemma rm_dotdot_cons2 : forall out x y l, rm_dotdot out (x :: y :: l) =
  (if is_dotdot x then
     match out with
     | p :: ((_ :: out') as o1) =>
       if is_nil p then match out' with [] => rm_dotdot (x :: out) (y :: l) | _ => rm_dotdot out' (y :: l) end
       else if is_dotdot p then rm_dotdot (x :: out) (y :: l)
       else rm_dotdot o1 (y :: l)
     | _ => rm_dotdot (x :: out) (y :: l)
     end
   else rm_dotdot (x :: out) (y :: l)).
Proof. reflexivity. Qed.

(** the stack invariant: normal segments on top of ".." segments *)
Definition stack_inv (out : list str) : Prop :=
  exists n d, out = n ++ d /\ no_dotdot n = true /\ forallb is_dotdot d = true.

Lemma stack_inv_ok : forall out, stack_inv out -> dots_ok (rev out) = true.
Proof.
  intros out (n & d & -> & Hn & Hd). rewrite rev_app_distr, dots_ok_dd_app by (rewrite forallb_rev; exact Hd).
  apply dots_ok_of_no_dotdot. rewrite no_dotdot_rev. exact Hn.
Qed.
Lemma stack_inv_push_normal : forall x out, is_dot x = false -> is_dotdot x = false -> stack_inv out -> stack_inv (x :: out).
Proof.
  intros x out H1 H2 (n & d & -> & Hn & Hd). exists (x :: n), d. split; [reflexivity|]. split; [|exact Hd].
  cbn [no_dotdot]. rewrite H1, H2, Hn. reflexivity.
Qed.
Lemma stack_inv_nil : stack_inv [].
Proof. exists [], []. repeat split. Qed.
Lemma stack_inv_dd_cases : forall out, stack_inv out ->
  (out = [] \/ exists p o, out = p :: o /\ is_dotdot p = true /\ forallb is_dotdot o = true) \/
  (exists p o, out = p :: o /\ is_dotdot p = false /\ stack_inv o).
Proof.
  intros out (n & d & -> & Hn & Hd). destruct n as [|p n].
  - left. destruct d as [|p d]; [left; reflexivity|]. right. cbn [forallb] in Hd. apply andb_true_iff in Hd.
    exists p, d. cbn [app]. tauto.
  - right. exists p, (n ++ d). cbn [no_dotdot] in Hn. apply andb_true_iff in Hn. destruct Hn as [H Hn].
    apply andb_true_iff in H. destruct H as [H _]. apply negb_true_iff in H. split; [reflexivity|]. split; [exact H|].
    exists n, d. tauto.
Qed.
Lemma stack_inv_all_dd : forall o, forallb is_dotdot o = true -> stack_inv o.
Proof. intros o H. exists [], o. repeat split. exact H. Qed.

Lemma is_dot_nil : is_dot [] = false. Proof. reflexivity. Qed.
Lemma is_dotdot_nil : is_dotdot [] = false. Proof. reflexivity. Qed.

Lemma rm_dots_inv : forall l out, stack_inv out -> dots_ok (rm_dots out l) = true.
Proof.
  induction l as [|x l IH]; intros out Hinv.
  - cbn [rm_dots]. apply stack_inv_ok. exact Hinv.
  - destruct l as [|y l'].
    + (* last segment *)
      cbn [rm_dots]. destruct (is_dot x) eqn:Ed.
      * apply stack_inv_ok. apply stack_inv_push_normal; [reflexivity|reflexivity|exact Hinv].
      * destruct (is_dotdot x) eqn:Edd.
        -- destruct (stack_inv_dd_cases out Hinv) as [[-> | (p & o & -> & Hp & Ho)] | (p & o & -> & Hp & Ho)].
           ++ apply stack_inv_ok. apply stack_inv_all_dd. cbn [forallb]. rewrite Edd. reflexivity.
           ++ rewrite Hp. apply stack_inv_ok. apply stack_inv_all_dd. cbn [forallb]. rewrite Edd, Hp, Ho. reflexivity.
           ++ rewrite Hp. apply stack_inv_ok. apply stack_inv_push_normal; [reflexivity|reflexivity|exact Ho].
        -- apply stack_inv_ok. apply stack_inv_push_normal; assumption.
    + (* inner segment *)
      rewrite rm_dots_cons2.
      destruct (is_dot x) eqn:Ed; [apply IH; exact Hinv|].
      destruct (is_dotdot x) eqn:Edd.
      * destruct (stack_inv_dd_cases out Hinv) as [[-> | (p & o & -> & Hp & Ho)] | (p & o & -> & Hp & Ho)].
        -- apply IH. apply stack_inv_all_dd. cbn [forallb]. rewrite Edd. reflexivity.
        -- rewrite Hp. apply IH. apply stack_inv_all_dd. cbn [forallb]. rewrite Edd, Hp, Ho. reflexivity.
        -- rewrite Hp. apply IH. exact Ho.
      * apply IH. apply stack_inv_push_normal; assumption.
Qed.

Theorem rm_dots_no_dot_segments : forall l, dots_ok (rm_dots [] l) = true.
Proof. intros l. apply rm_dots_inv. apply stack_inv_nil. Qed.
Lemma str_eqb_eq : forall a b, str_eqb a b = true -> a = b.
Proof.
  induction a as [|x a IH]; destruct b as [|y b]; cbn [str_eqb]; intros H; try discriminate H; [reflexivity|].
  apply andb_true_iff in H. destruct H as [H1 H2]. apply N.eqb_eq in H1. rewrite H1, (IH b H2). reflexivity.
Qed.
Lemma str_eqb_refl : forall a, str_eqb a a = true.
Proof. induction a as [|x a IH]; [reflexivity|]. cbn [str_eqb]. rewrite N.eqb_refl, IH. reflexivity. Qed.


Lemma rm_dots_push : forall m out rest, no_dotdot m = true -> rm_dots out (m ++ rest) = rm_dots (rev m ++ out) rest.
Proof.
  induction m as [|x m IH]; intros out rest H; [reflexivity|].
  cbn [no_dotdot] in H. apply andb_true_iff in H. destruct H as [H Hm]. apply andb_true_iff in H.
  destruct H as [Hdd Hd]. apply negb_true_iff in Hdd. apply negb_true_iff in Hd.
  cbn [app]. destruct (m ++ rest) as [|y l'] eqn:E.
  - apply app_eq_nil in E. destruct E as [-> ->]. cbn [rm_dots rev app]. rewrite Hd, Hdd. reflexivity.
  - rewrite rm_dots_cons2, Hd, Hdd, <- E, (IH _ _ Hm). cbn [rev]. rewrite <- app_assoc. reflexivity.
Qed.
Lemma rm_dots_normal : forall m out, no_dotdot m = true -> rm_dots out m = rev out ++ m.
Proof.
  intros m out H. rewrite <- (app_nil_r m) at 1. rewrite (rm_dots_push m out [] H). cbn [rm_dots].
  rewrite rev_app_distr, rev_involutive. reflexivity.
Qed.

Lemma rm_dots_fixed_gen : forall m out, forallb is_dotdot out = true -> dots_ok m = true ->
  rm_dots out m = rev out ++ m.
Proof.
  induction m as [|x m IH]; intros out Ho H.
  - cbn [rm_dots]. rewrite app_nil_r. reflexivity.
  - cbn [dots_ok] in H. destruct (is_dotdot x) eqn:Edd.
    + assert (Ed : is_dot x = false).
      { apply str_eqb_eq in Edd. rewrite Edd. reflexivity. }
      assert (Hpush : forallb is_dotdot (x :: out) = true) by (cbn [forallb]; rewrite Edd; exact Ho).
      destruct m as [|y m'].
      * cbn [rm_dots]. rewrite Ed, Edd. destruct out as [|p out']; [reflexivity|].
        apply forallb_cons in Ho. destruct Ho as [Hp _]. rewrite Hp. reflexivity.
      * rewrite rm_dots_cons2.
        rewrite Ed, Edd.
        assert (E : rm_dots (x :: out) (y :: m') = rev (x :: out) ++ y :: m') by (apply IH; assumption).
        destruct out as [|p out'].
        -- rewrite E. cbn [rev]. rewrite <- app_assoc. reflexivity.
        -- apply forallb_cons in Ho. destruct Ho as [Hp _]. rewrite Hp, E.
           cbn [rev]. rewrite <- !app_assoc. reflexivity.
    + apply rm_dots_normal. cbn [no_dotdot]. rewrite Edd. exact H.
Qed.

Lemma rm_dots_fixed : forall m, dots_ok m = true -> rm_dots [] m = m.
Proof. intros m H. apply (rm_dots_fixed_gen m [] eq_refl H). Qed.

Theorem rm_dots_idempotent : forall l, rm_dots [] (rm_dots [] l) = rm_dots [] l.
Proof. intros l. apply rm_dots_fixed. apply rm_dots_no_dot_segments. Qed.
Lemma break_at_spec : forall p s a t, break_at p s = (a, t) ->
  s = a ++ t /\ forallb (fun c => negb (p c)) a = true /\ match t with [] => True | c :: _ => p c = true end.
Proof.
  intros p. induction s as [|c r IH]; intros a t H; cbn [break_at] in H.
  - inversion H. repeat split.
  - destruct (p c) eqn:Hc; [inversion H; subst; repeat split; exact Hc|].
    destruct (break_at p r) as [a' t']. inversion H; subst. destruct (IH a' t eq_refl) as (-> & Ha & Ht).
    cbn [forallb]. rewrite Hc. repeat split; assumption.
Qed.
Lemma break_at_app : forall p a t, forallb (fun c => negb (p c)) a = true -> match t with [] => True | c :: _ => p c = true end ->
  break_at p (a ++ t) = (a, t).
Proof.
  intros p a t. induction a as [|c a IH]; intros Ha Ht.
  - destruct t as [|c t]; [reflexivity|]. cbn [app break_at]. rewrite Ht. reflexivity.
  - apply forallb_cons in Ha. destruct Ha as [Hc Ha]. apply negb_true_iff in Hc.
    cbn [app break_at]. rewrite Hc, (IH Ha Ht). reflexivity.
Qed.

Lemma break_at_none : forall p s, forallb (fun c => negb (p c)) s = true -> break_at p s = (s, []).
Proof. intros p s H. rewrite <- (app_nil_r s) at 1. apply break_at_app; [exact H|exact I]. Qed.

Definition no_slash (c : N) : bool := negb (c =? cSlash).

Lemma split_slash_aux_app : forall a cur t, forallb no_slash a = true ->
  split_slash_aux cur (a ++ cSlash :: t) = (rev cur ++ a) :: split_slash t.
Proof.
  induction a as [|c a IH]; intros cur t H; cbn [app split_slash_aux].
  - rewrite N.eqb_refl, app_nil_r. reflexivity.
  - apply forallb_cons in H. destruct H as [Hc Ha]. apply negb_true_iff in Hc.
    rewrite Hc, (IH _ _ Ha). cbn [rev]. rewrite <- app_assoc. reflexivity.
Qed.
Lemma split_slash_aux_seg : forall a cur, forallb no_slash a = true -> split_slash_aux cur a = [rev cur ++ a].
Proof.
  induction a as [|c a IH]; intros cur H; cbn [split_slash_aux].
  - rewrite app_nil_r. reflexivity.
  - apply forallb_cons in H. destruct H as [Hc Ha]. apply negb_true_iff in Hc.
    rewrite Hc, (IH _ Ha). cbn [rev]. rewrite <- app_assoc. reflexivity.
Qed.

Lemma join_slash_cons2 : forall x y l, join_slash (x :: y :: l) = x ++ cSlash :: join_slash (y :: l).
Proof. reflexivity. Qed.

Lemma split_join : forall l : list str, Forall (fun x => forallb no_slash x = true) l ->
  split_slash (join_slash l) = match l with [] => [[]] | _ => l end.
Proof.
  induction l as [|x [|y r] IH]; intros H; [reflexivity| |]; inversion H as [|? ? Hx Hr]; subst.
  - exact (split_slash_aux_seg x [] Hx).
  - rewrite join_slash_cons2.
    unfold split_slash at 1. rewrite (split_slash_aux_app _ _ _ Hx), (IH Hr). reflexivity.
Qed.

Lemma split_slash_Forall : forall P s, forallb P s = true ->
  Forall (fun x => forallb (fun c => P c && no_slash c) x = true) (split_slash s).
Proof.
  intros P s. unfold split_slash. assert (G : forallb (fun c => P c && no_slash c) [] = true) by reflexivity.
  revert G. generalize (@nil N) as cur. induction s as [|c r IH]; intros cur Hc H; cbn [split_slash_aux].
  - repeat constructor. rewrite forallb_rev. exact Hc.
  - apply forallb_cons in H. destruct H as [Pc Hr]. destruct (c =? cSlash) eqn:E.
    + constructor; [rewrite forallb_rev; exact Hc|]. apply IH; [reflexivity|exact Hr].
    + apply IH; [|exact Hr]. cbn [forallb]. unfold no_slash at 1. rewrite Pc, E, Hc. reflexivity.
Qed.

Lemma join_slash_forallb : forall P (l : list str), P cSlash = true -> Forall (fun x => forallb P x = true) l -> forallb P (join_slash l) = true.
Proof.
  intros P l Ps. induction l as [|x [|y r] IH]; intros H; [reflexivity| |]; inversion H as [|? ? Hx Hr]; subst; [exact Hx|].
  rewrite join_slash_cons2.
  rewrite forallb_app. cbn [forallb]. rewrite Hx, Ps, (IH Hr). reflexivity.
Qed.

Lemma rm_dots_Forall : forall (P : str -> Prop), P [] -> forall l out, Forall P out -> Forall P l -> Forall P (rm_dots out l).
Proof.
  intros P P0. induction l as [|x l IH]; intros out Ho Hl; [apply Forall_rev; exact Ho|].
  inversion Hl as [|? ? Hx Hl']; subst.
  assert (Hpush : Forall P (x :: out)) by (constructor; assumption).
  assert (Hpop : forall p out', out = p :: out' -> Forall P out') by (intros p out' ->; inversion Ho; assumption).
  destruct l as [|y l'].
  - cbn [rm_dots]. destruct (is_dot x); [apply Forall_rev; constructor; assumption|].
    destruct (is_dotdot x); [|apply Forall_rev; exact Hpush].
    destruct out as [|p out']; [apply Forall_rev; exact Hpush|].
    destruct (is_dotdot p); apply Forall_rev; [exact Hpush|constructor; [exact P0|exact (Hpop _ _ eq_refl)]].
  - rewrite rm_dots_cons2. destruct (is_dot x); [apply IH; assumption|].
    destruct (is_dotdot x); [|apply IH; assumption].
    destruct out as [|p out']; [apply IH; assumption|].
    destruct (is_dotdot p); apply IH; try assumption. exact (Hpop _ _ eq_refl).
Qed.

Definition not_qh (c : N) : bool := negb (is_qh c).

Lemma rm_dots_path_rooted : forall p, forallb not_qh p = true ->
  exists q, rm_dots_path (cSlash :: p) = cSlash :: q /\ forallb not_qh q = true /\ dots_ok (split_slash q) = true.
Proof.
  intros p Hp. exists (join_slash (rm_dots [] (split_slash p))).
  assert (Hl : Forall (fun x => forallb (fun c => not_qh c && no_slash c) x = true) (rm_dots [] (split_slash p))).
  { apply (rm_dots_Forall (fun x => forallb (fun c => not_qh c && no_slash c) x = true)); [reflexivity|constructor|].
    apply split_slash_Forall. exact Hp. }
  split; [reflexivity|]. split.
  - apply join_slash_forallb; [reflexivity|]. apply (Forall_impl _ (fun x H => forallb_impl _ _ not_qh x (fun c Hc => proj1 (andb_prop _ _ Hc)) H) Hl).
  - rewrite split_join.
    + destruct (rm_dots [] (split_slash p)) eqn:E; [reflexivity|]. rewrite <- E. apply rm_dots_no_dot_segments.
    + apply (Forall_impl _ (fun x H => forallb_impl _ _ no_slash x (fun c Hc => proj2 (andb_prop _ _ Hc)) H) Hl).
Qed.

Lemma scheme_split_aux_none : forall s acc, forallb (fun c => negb (c =? cColon)) s = true -> scheme_split_aux acc s = None.
Proof.
  induction s as [|c r IH]; intros acc H; [reflexivity|]. apply forallb_cons in H. destruct H as [Hc Hr].
  apply negb_true_iff in Hc. cbn [scheme_split_aux]. rewrite Hc, (IH _ Hr). destruct (is_scheme_char c); reflexivity.
Qed.

Lemma rfc_resolve_rel : forall base r,
  forallb (fun c => not_qh c && negb (c =? cColon)) r = true -> is_nil r = false -> starts_with [cSlash] r = false ->
  rfc_resolve base r =
  recompose {| r_scheme := r_scheme (parse_uriref base); r_auth := r_auth (parse_uriref base);
               r_path := rm_dots_path (dir_of (r_path (parse_uriref base)) ++ r); r_query := None; r_frag := None |}.
Proof.
  intros base r Hr Hn Hs.
  assert (S0 : scheme_split r = None).
  { unfold scheme_split. destruct r as [|c r']; [reflexivity|]. destruct (is_alpha c); [|reflexivity].
    apply scheme_split_aux_none. apply (forallb_impl _ _ _ _ (fun c Hc => proj2 (andb_prop _ _ Hc)) Hr). }
  assert (P0 : parse_uriref r = {| r_scheme := None; r_auth := None; r_path := r; r_query := None; r_frag := None |}).
  { unfold parse_uriref. rewrite S0.
    assert (B : break_at is_qh r = (r, []))
      by (apply break_at_none, (forallb_impl _ _ _ _ (fun c Hc => proj1 (andb_prop _ _ Hc)) Hr)).
    destruct r as [|a [|b r']]; [discriminate Hn|rewrite B; reflexivity|].
    unfold starts_with in Hs. cbn [length firstn str_eqb] in Hs. rewrite andb_true_r, N.eqb_sym in Hs. rewrite Hs. cbn [andb].
    rewrite B. reflexivity. }
  unfold rfc_resolve. rewrite S0, P0. unfold rfc_resolve_parts. cbn [r_scheme r_auth r_path r_query r_frag].
  destruct r; [discriminate Hn|]. rewrite Hs. reflexivity.
Qed.

Lemma dots_ok_root : forall (a : str) l, dots_ok ([] :: a :: l) = true -> dots_ok l = true.
Proof.
  intros a l H. change (dots_ok ([] :: a :: l)) with (no_dotdot (a :: l)) in H. cbn [no_dotdot] in H.
  apply andb_true_iff in H. apply dots_ok_of_no_dotdot. apply H.
Qed.

(** reading the path back from the text.  Without scheme and authority a path that starts with "//" is read as an
    authority: what is then taken for the path is a suffix of the segments *)
Lemma no_dots_rooted : forall q, forallb not_qh q = true -> dots_ok (split_slash q) = true -> no_dot_segments (cSlash :: q) = true.
Proof.
  intros q Hq Hd. unfold no_dot_segments, parse_uriref. change (scheme_split (cSlash :: q)) with (@None (str * str)). cbv iota.
  destruct q as [|b q']; [reflexivity|]. change (cSlash =? cSlash) with true. cbn [andb].
  destruct (b =? cSlash) eqn:Eb.
  - destruct (break_at is_sqh q') as [au t] eqn:E. destruct (break_at_spec _ _ _ _ E) as (-> & Ha & Ht).
    apply forallb_cons in Hq. destruct Hq as [_ Hq]. rewrite forallb_app in Hq. apply andb_true_iff in Hq.
    destruct Hq as [_ Hq]. rewrite (break_at_none is_qh _ Hq). cbn [parse_qf r_path].
    destruct t as [|c t']; [reflexivity|]. apply forallb_cons in Hq. destruct Hq as [Hc _].
    assert (c = cSlash) as ->.
    { unfold is_sqh in Ht. unfold not_qh, is_qh in Hc. destruct (c =? cSlash) eqn:Ec; [apply N.eqb_eq; exact Ec|].
      cbn [orb] in Ht. rewrite Ht in Hc. discriminate Hc. }
    cbn [path_split]. rewrite N.eqb_refl. cbn [snd].
    apply N.eqb_eq in Eb. subst b. unfold split_slash in Hd. cbn [split_slash_aux] in Hd. rewrite N.eqb_refl in Hd.
    rewrite split_slash_aux_app in Hd.
    2:{ revert Ha. apply forallb_impl. intros c. unfold is_sqh, no_slash. destruct (c =? cSlash); [discriminate|reflexivity]. }
    exact (dots_ok_root _ _ Hd).
  - rewrite (break_at_none is_qh (cSlash :: b :: q') Hq). cbn [parse_qf r_path path_split]. rewrite N.eqb_refl. exact Hd.
Qed.

Lemma scheme_split_aux_app : forall s acc rest, forallb is_scheme_char s = true ->
  scheme_split_aux acc (s ++ cColon :: rest) = Some (rev acc ++ s, rest).
Proof.
  induction s as [|c s IH]; intros acc rest H; cbn [app scheme_split_aux].
  - rewrite N.eqb_refl, app_nil_r. reflexivity.
  - apply forallb_cons in H. destruct H as [Hc Hs].
    destruct (c =? cColon) eqn:E; [apply N.eqb_eq in E; subst c; discriminate Hc|].
    rewrite Hc, (IH _ _ Hs). cbn [rev]. rewrite <- app_assoc. reflexivity.
Qed.

Lemma no_dots_hier : forall c0 sc au q,
  is_alpha c0 = true -> forallb is_scheme_char (c0 :: sc) = true -> forallb (fun c => negb (is_sqh c)) au = true ->
  forallb not_qh q = true -> dots_ok (split_slash q) = true ->
  no_dot_segments ((c0 :: sc) ++ cColon :: cSlash :: cSlash :: au ++ cSlash :: q) = true.
Proof.
  intros c0 sc au q H0 Hsc Hau Hq Hd. unfold no_dot_segments, parse_uriref.
  assert (S0 : scheme_split ((c0 :: sc) ++ cColon :: cSlash :: cSlash :: au ++ cSlash :: q) = Some (c0 :: sc, cSlash :: cSlash :: au ++ cSlash :: q)).
  { unfold scheme_split. cbn [app]. rewrite H0. exact (scheme_split_aux_app (c0 :: sc) [] _ Hsc). }
  rewrite S0. change (cSlash =? cSlash) with true. cbn [andb].
  rewrite (break_at_app is_sqh au (cSlash :: q) Hau eq_refl).
  rewrite (break_at_none is_qh (cSlash :: q) Hq).
  cbn [parse_qf r_path path_split]. rewrite N.eqb_refl. exact Hd.
Qed.

(** "scheme://authority" or nothing, then a path whose directory part is "/" followed by the text returned, free
    of '?' and '#' *)
Definition hier_dir (base : str) : option str :=
  let b := parse_uriref base in
  match dir_of (r_path b) with
  | c :: d =>
    if (c =? cSlash) && forallb not_qh d &&
       match r_scheme b, r_auth b with
       | None, None => true
       | Some (c0 :: sc), Some au =>
         is_alpha c0 && forallb is_scheme_char (c0 :: sc) && forallb (fun c => negb (is_sqh c)) au
       | _, _ => false
       end
    then Some d else None
  | [] => None
  end.

(** on URI text: a relative path resolved against a hierarchical base has no "." segment and no
    resolvable ".." *)
Theorem rfc_no_dot_segments_rel : forall base r,
  hier_dir base <> None ->
  forallb (fun c => not_qh c && negb (c =? cColon)) r = true -> is_nil r = false -> starts_with [cSlash] r = false ->
  no_dot_segments (rfc_resolve base r) = true.
Proof.
  intros base r Hb Hr Hn Hs. rewrite (rfc_resolve_rel base r Hr Hn Hs).
  destruct (hier_dir base) as [d|] eqn:Hd; [clear Hb; rename Hd into Hb|contradiction].
  unfold hier_dir in Hb. cbv zeta in Hb.
  destruct (dir_of (r_path (parse_uriref base))) as [|c d'] eqn:Ed; [discriminate Hb|].
  destruct (c =? cSlash) eqn:Ec; [|discriminate Hb]. apply N.eqb_eq in Ec. subst c.
  destruct (forallb not_qh d') eqn:Hd'; [|discriminate Hb]. cbn [andb] in Hb.
  destruct (rm_dots_path_rooted (d' ++ r)) as (q & Eq & Hq & Hdots).
  { rewrite forallb_app, Hd'. apply (forallb_impl _ _ _ _ (fun c Hc => proj1 (andb_prop _ _ Hc)) Hr). }
  change ((cSlash :: d') ++ r) with (cSlash :: d' ++ r). rewrite Eq. unfold recompose. cbn [r_scheme r_auth r_path r_query r_frag].
  rewrite !app_nil_r.
  destruct (r_scheme (parse_uriref base)) as [[|c0 sc]|], (r_auth (parse_uriref base)) as [au|]; try discriminate Hb.
  - destruct (is_alpha c0 && forallb is_scheme_char (c0 :: sc) && forallb (fun c => negb (is_sqh c)) au) eqn:V; [|discriminate Hb].
    apply andb_true_iff in V. destruct V as [V Hau]. apply andb_true_iff in V. destruct V as [H0 Hsc].
    rewrite <- app_assoc. apply no_dots_hier; assumption.
  - apply no_dots_rooted; assumption.
Qed.

Definition dd : str := [cDot; cDot].


Lemma plain_seg_facts : forall s, plain_seg s = true -> is_nil s = false /\ is_dot s = false /\ is_dotdot s = false.
Proof.
  intros s H. unfold plain_seg in H. apply andb_true_iff in H. destruct H as [H _].
  apply andb_true_iff in H. destruct H as [H H3]. apply andb_true_iff in H. destruct H as [H1 H2].
  apply negb_true_iff in H1. apply negb_true_iff in H2. apply negb_true_iff in H3. tauto.
Qed.

Lemma plain_seg_chars : forall s, plain_seg s = true -> forallb is_plain_char s = true.
Proof. intros s H. unfold plain_seg in H. apply andb_true_iff in H. apply H. Qed.

Lemma plain_segs_cons : forall x r, plain_segs (x :: r) = true -> plain_seg x = true /\ (r = [] \/ plain_segs r = true).
Proof.
  intros x r H. destruct r as [|y r]; cbn [plain_segs] in H.
  - split; [exact H|left; reflexivity].
  - apply andb_true_iff in H. destruct H as [H1 H2]. split; [exact H1|right; exact H2].
Qed.
Lemma plain_segs_no_dotdot : forall ps, plain_segs ps = true -> no_dotdot ps = true.
Proof.
  induction ps as [|x r IH]; intros H; [discriminate H|]. apply plain_segs_cons in H. destruct H as [Hx Hr].
  apply plain_seg_facts in Hx. destruct Hx as (_ & Hd & Hdd). cbn [no_dotdot]. rewrite Hd, Hdd. cbn [negb andb].
  destruct Hr as [-> | Hr]; [reflexivity|apply IH; exact Hr].
Qed.
Lemma plain_segs_nonnil : forall ps, plain_segs ps = true -> ps <> [].
Proof. intros ps H E. rewrite E in H. discriminate H. Qed.

Lemma rm_dot_mid_id : forall l, forallb (fun s => negb (is_dot s)) l = true -> rm_dot_mid l = l.
Proof.
  induction l as [|x l IH]; intros H; [reflexivity|]. apply forallb_cons in H. destruct H as [Hx Hl].
  apply negb_true_iff in Hx. destruct l as [|y l']; [reflexivity|].
  change (rm_dot_mid (x :: y :: l')) with (if is_dot x then rm_dot_mid (y :: l') else x :: rm_dot_mid (y :: l')).
  rewrite Hx, (IH Hl). reflexivity.
Qed.



Lemma rm_dotdot_push : forall m out rest, forallb (fun s => negb (is_dotdot s)) m = true ->
  rm_dotdot out (m ++ rest) = rm_dotdot (rev m ++ out) rest.
Proof.
  induction m as [|x m IH]; intros out rest H; [reflexivity|].
  apply forallb_cons in H. destruct H as [Hx Hm]. apply negb_true_iff in Hx.
  cbn [app]. destruct (m ++ rest) as [|y l'] eqn:E.
  - apply app_eq_nil in E. destruct E as [-> ->]. reflexivity.
  - rewrite rm_dotdot_cons2, Hx, <- E, (IH _ _ Hm). cbn [rev]. rewrite <- app_assoc. reflexivity.
Qed.
Lemma rm_dotdot_copy : forall m out, forallb (fun s => negb (is_dotdot s)) m = true -> rm_dotdot out m = rev out ++ m.
Proof.
  intros m out H. rewrite <- (app_nil_r m) at 1. rewrite (rm_dotdot_push m out [] H). cbn [rm_dotdot].
  rewrite rev_app_distr, rev_involutive. reflexivity.
Qed.

Lemma plain_no_dots : forall bs, forallb plain_seg bs = true ->
  no_dotdot bs = true /\ forallb (fun s => negb (is_dotdot s)) bs = true.
Proof.
  induction bs as [|x bs IH]; intros H; [split; reflexivity|]. apply forallb_cons in H.
  destruct H as [Hx Hb]. apply plain_seg_facts in Hx. destruct Hx as (_ & Hd & Hdd). destruct (IH Hb) as [I1 I2].
  cbn [no_dotdot forallb]. rewrite Hd, Hdd, I1, I2. split; reflexivity.
Qed.

(** k leading ".." pop k plain segments: the library (root segment "" at the bottom of the stack) ... *)
Lemma rm_dotdot_pop : forall k brev rest, forallb plain_seg brev = true -> (k <= length brev)%nat -> rest <> [] ->
  rm_dotdot (brev ++ [[]]) (repeat dd k ++ rest) = rm_dotdot (skipn k brev ++ [[]]) rest.
Proof.
  induction k as [|k IH]; intros brev rest H Hk Hr; [reflexivity|].
  destruct brev as [|p b']; [cbn in Hk; lia|].
  apply forallb_cons in H. destruct H as [Hp Hb]. apply plain_seg_facts in Hp. destruct Hp as (Hn & _ & Hdd).
  cbn [repeat app skipn]. destruct (repeat dd k ++ rest) as [|y l'] eqn:E.
  - apply app_eq_nil in E. destruct E as [_ E]. contradiction.
  - rewrite rm_dotdot_cons2. change (is_dotdot dd) with true. cbv iota.
    assert (Hc : exists q o, b' ++ [[]] = q :: o).
    { destruct b' as [|q b'']; [exists [], []; reflexivity|exists q, (b'' ++ [[]]); reflexivity]. }
    destruct Hc as (q & o & Eq). rewrite Eq, Hn, Hdd, <- Eq, <- E. apply IH; [exact Hb|cbn in Hk; lia|exact Hr].
Qed.
(** ... and the RFC *)
Lemma rm_dots_pop : forall k brev rest, forallb plain_seg brev = true -> (k <= length brev)%nat -> rest <> [] ->
  rm_dots brev (repeat dd k ++ rest) = rm_dots (skipn k brev) rest.
Proof.
  induction k as [|k IH]; intros brev rest H Hk Hr; [reflexivity|].
  destruct brev as [|p b']; [cbn in Hk; lia|].
  apply forallb_cons in H. destruct H as [Hp Hb]. apply plain_seg_facts in Hp. destruct Hp as (_ & _ & Hdd).
  cbn [repeat app skipn]. destruct (repeat dd k ++ rest) as [|y l'] eqn:E.
  - apply app_eq_nil in E. destruct E as [_ E]. contradiction.
  - rewrite rm_dots_cons2. change (is_dot dd) with false. change (is_dotdot dd) with true. cbv iota.
    rewrite Hdd, <- E. apply IH; [exact Hb|cbn in Hk; lia|exact Hr].
Qed.

Lemma forallb_repeat : forall (A : Type) (f : A -> bool) x k, f x = true -> forallb f (repeat x k) = true.
Proof. intros A f x k H. induction k as [|k IH]; [reflexivity|]. cbn [repeat forallb]. rewrite H, IH. reflexivity. Qed.
Lemma plain_segs_forallb : forall ps, plain_segs ps = true -> forallb plain_seg ps = true.
Proof.
  induction ps as [|x r IH]; intros H; [reflexivity|]. apply plain_segs_cons in H. destruct H as [Hx Hr].
  cbn [forallb]. rewrite Hx. destruct Hr as [-> | Hr]; [reflexivity|apply IH; exact Hr].
Qed.

Lemma rm_dots_plain : forall bs k ps,
  forallb plain_seg bs = true -> plain_segs ps = true -> (k <= length bs)%nat ->
  rm_dots [] (bs ++ repeat dd k ++ ps) = rev (skipn k (rev bs)) ++ ps.
Proof.
  intros bs k ps Hb Hp Hk. rewrite (rm_dots_push bs [] _ (proj1 (plain_no_dots bs Hb))), app_nil_r.
  rewrite rm_dots_pop; [|rewrite forallb_rev; exact Hb|rewrite rev_length; exact Hk|exact (plain_segs_nonnil ps Hp)].
  apply (rm_dots_normal ps _ (plain_segs_no_dotdot ps Hp)).
Qed.

(** The segment-level agreement theorem.  Base directory = root "" followed by the plain segments [bs];
    reference = k times ".." followed by plain segments [ps], with k not exceeding the depth of the base:
    XMLPlatformUtils::weavePaths (removeDotSlash, removeDotDotSlash) and RFC 2396 5.2 step 6 give the same
    segments. *)
Theorem weave_rfc_segments : forall bs k ps,
  forallb plain_seg bs = true -> plain_segs ps = true -> (k <= length bs)%nat ->
  rm_dotdot [] (rm_dot_slash_segs ([] :: bs ++ repeat dd k ++ ps)) = [] :: rm_dots [] (bs ++ repeat dd k ++ ps).
Proof.
  intros bs k ps Hb Hp Hk. rewrite (rm_dots_plain bs k ps Hb Hp Hk).
  assert (Hps : ps <> []) by (apply plain_segs_nonnil; exact Hp).
  assert (Hrest : repeat dd k ++ ps <> []).
  { intros E. apply app_eq_nil in E. destruct E as [_ E]. contradiction. }
  assert (Hnd : forallb (fun s => negb (is_dot s)) (bs ++ repeat dd k ++ ps) = true).
  { rewrite !forallb_app. rewrite (forallb_impl _ plain_seg _ bs), (forallb_repeat _ _ dd k), (forallb_impl _ plain_seg _ ps);
      try reflexivity; try (apply plain_segs_forallb; exact Hp); try exact Hb;
      intros x Hx; apply plain_seg_facts in Hx; destruct Hx as (_ & Hd & _); rewrite Hd; reflexivity. }
  unfold rm_dot_slash_segs. rewrite (rm_dot_mid_id _ Hnd).
  change ([] :: bs ++ repeat dd k ++ ps) with (([] : str) :: (bs ++ repeat dd k ++ ps)).
  destruct (bs ++ repeat dd k ++ ps) as [|y l'] eqn:E.
  { apply app_eq_nil in E. destruct E as [_ E]. contradiction. }
  rewrite rm_dotdot_cons2. change (is_dotdot []) with false. cbv iota. rewrite <- E.
  rewrite (rm_dotdot_push bs _ _ (proj2 (plain_no_dots bs Hb))).
  rewrite rm_dotdot_pop; [|rewrite forallb_rev; exact Hb|rewrite rev_length; exact Hk|exact Hps].
  rewrite (rm_dotdot_copy ps _ (proj2 (plain_no_dots ps (plain_segs_forallb ps Hp)))), rev_app_distr. reflexivity.
Qed.

Lemma split_slash_aux_nonnil : forall s cur, split_slash_aux cur s <> [].
Proof. induction s as [|c r IH]; intros cur; cbn [split_slash_aux]; [discriminate|]. destruct (c =? cSlash); [discriminate|apply IH]. Qed.

Lemma join_split_aux : forall s cur, join_slash (split_slash_aux cur s) = rev cur ++ s.
Proof.
  induction s as [|c r IH]; intros cur; cbn [split_slash_aux]; [cbn [join_slash]; rewrite app_nil_r; reflexivity|].
  destruct (c =? cSlash) eqn:E.
  - apply N.eqb_eq in E. subst c. pose proof (split_slash_aux_nonnil r []) as N.
    destruct (split_slash_aux [] r) as [|y l] eqn:Sp; [contradiction|].
    rewrite join_slash_cons2. rewrite <- Sp, IH. reflexivity.
  - rewrite IH. cbn [rev]. rewrite <- app_assoc. reflexivity.
Qed.
Lemma join_split : forall s, join_slash (split_slash s) = s.
Proof. intros s. exact (join_split_aux s []). Qed.

Lemma strip_dotdots_spec : forall l, l = repeat dd (fst (strip_dotdots l)) ++ snd (strip_dotdots l).
Proof.
  induction l as [|x r IH]; [reflexivity|]. cbn [strip_dotdots]. destruct (is_dotdot x) eqn:E; [|reflexivity].
  destruct (strip_dotdots r) as [n t]. cbn [fst snd repeat app] in *. rewrite <- IH. apply str_eqb_eq in E. rewrite E. reflexivity.
Qed.

Lemma plain_char_ok : forall c, is_plain_char c = true -> not_qh c && negb (c =? cColon) && no_slash c = true.
Proof.
  intros c H. unfold not_qh, is_qh, no_slash.
  destruct (c =? cQuest) eqn:E1; [apply N.eqb_eq in E1; subst c; discriminate H|].
  destruct (c =? cHash) eqn:E2; [apply N.eqb_eq in E2; subst c; discriminate H|].
  destruct (c =? cColon) eqn:E3; [apply N.eqb_eq in E3; subst c; discriminate H|].
  destruct (c =? cSlash) eqn:E4; [apply N.eqb_eq in E4; subst c; discriminate H|]. reflexivity.
Qed.

Lemma rel_segs_text : forall l, l <> [] -> Forall (fun s => plain_seg s = true \/ s = dd) l ->
  forallb (fun c => not_qh c && negb (c =? cColon)) (join_slash l) = true /\
  is_nil (join_slash l) = false /\ starts_with [cSlash] (join_slash l) = false /\ path_is_relative (join_slash l) = true.
Proof.
  intros l Hl H. split.
  - apply join_slash_forallb; [reflexivity|]. apply (Forall_impl _ (P := fun s => plain_seg s = true \/ s = dd)); [|exact H].
    intros s [Hs | ->]; [|reflexivity]. apply plain_seg_chars in Hs.
    revert Hs. apply forallb_impl. intros c Hc. apply plain_char_ok in Hc. apply andb_true_iff in Hc. exact (proj1 Hc).
  - destruct l as [|x rest]; [contradiction|]. inversion H as [|? ? Hx _]; subst.
    assert (Hc : exists c t, join_slash (x :: rest) = c :: t /\ (c =? cSlash) = false).
    { assert (X : exists c x', x = c :: x' /\ (c =? cSlash) = false).
      { destruct Hx as [Hx | ->]; [|exists cDot, [cDot]; split; reflexivity].
        destruct x as [|c x']; [discriminate Hx|]. exists c, x'. split; [reflexivity|].
        apply plain_seg_chars, forallb_cons in Hx. destruct Hx as [Hx _].
        apply plain_char_ok in Hx. apply andb_true_iff in Hx. destruct Hx as [_ Hx]. apply negb_true_iff in Hx. exact Hx. }
      destruct X as (c & x' & -> & Ec). destruct rest as [|y rest']; [exists c, x'|exists c, (x' ++ cSlash :: join_slash (y :: rest'))]; split; auto. }
    destruct Hc as (c & t & -> & Ec). unfold starts_with. cbn [is_nil length firstn str_eqb path_is_relative].
    rewrite N.eqb_sym, Ec. repeat split.
Qed.

Lemma plain_rel_segs : forall r, plain_rel r = true ->
  exists ps, split_slash r = repeat dd (updepth r) ++ ps /\ plain_segs ps = true.
Proof. intros r H. exists (snd (strip_dotdots (split_slash r))). split; [apply strip_dotdots_spec|exact H]. Qed.

Lemma plain_seg_no_slash : forall s, plain_seg s = true -> forallb no_slash s = true.
Proof.
  intros s H. apply plain_seg_chars in H. revert H. apply forallb_impl.
  intros c Hc. apply plain_char_ok in Hc. apply andb_true_iff in Hc. exact (proj2 Hc).
Qed.

Lemma split_dir_app : forall bs r, forallb plain_seg bs = true ->
  split_slash (join_slash (bs ++ [[]]) ++ r) = bs ++ split_slash r.
Proof.
  induction bs as [|x bs IH]; intros r H; [reflexivity|]. apply forallb_cons in H. destruct H as [Hx Hb].
  destruct (bs ++ [[]]) as [|y l] eqn:E; [destruct bs; discriminate E|].
  cbn [app]. rewrite E. rewrite join_slash_cons2. rewrite <- E in IH |- *. rewrite <- app_assoc.
  cbn [app]. unfold split_slash at 1. rewrite (split_slash_aux_app _ _ _ (plain_seg_no_slash x Hx)). rewrite (IH r Hb). reflexivity.
Qed.

Lemma join_slash_root : forall m : list str, m <> [] -> join_slash ([] :: m) = cSlash :: join_slash m.
Proof. intros [|z l] H; [contradiction|reflexivity]. Qed.

(** LocalFileInputSource(base, rel) against RFC 2396 5.2: base "/b1/.../bn/file" with plain directory segments, plain
    relative reference whose leading ".." stay within the base; both sides are "/" followed by the joined segments
    [rm_dots [] (bs ++ repeat dd k ++ ps)] *)
Theorem localfile_rfc_agree : forall base r (y : str) (t : list str),
  split_slash base = [] :: y :: t -> forallb plain_seg (removelast (y :: t)) = true ->
  parse_uriref base = {| r_scheme := None; r_auth := None; r_path := base; r_query := None; r_frag := None |} ->
  plain_rel r = true -> (updepth r <= length t)%nat ->
  localfile_resolve base r = rfc_resolve base r.
Proof.
  intros base r y t Sb Hbs Pb Hr Hk.
  destruct (plain_rel_segs r Hr) as (ps & Sr & Hps). set (k := updepth r) in *. set (bs := removelast (y :: t)) in *.
  assert (Kb : (k <= length bs)%nat).
  { pose proof (app_removelast_last (l := y :: t) [] ltac:(discriminate)) as E.
    apply (f_equal (@length str)) in E. rewrite app_length in E. cbn [length] in E. subst bs. lia. }
  assert (T : forallb (fun c => not_qh c && negb (c =? cColon)) r = true /\
              is_nil r = false /\ starts_with [cSlash] r = false /\ path_is_relative r = true).
  { rewrite <- (join_split r), Sr. apply rel_segs_text.
    - intros E. apply app_eq_nil in E. destruct E as [_ E]. subst ps. discriminate Hps.
    - apply Forall_app. split; [apply Forall_forall; intros s Hs; right; exact (repeat_spec _ _ _ Hs)|].
      apply Forall_forall. intros s Hs. left. exact (proj1 (forallb_forall _ _) (plain_segs_forallb ps Hps) s Hs). }
  destruct T as (T1 & T2 & T3 & T4).
  assert (M : rm_dots [] (bs ++ repeat dd k ++ ps) <> []).
  { rewrite (rm_dots_plain bs k ps Hbs Hps Kb). intros E. apply app_eq_nil in E. destruct E as [_ E]. subst ps. discriminate Hps. }
  transitivity (cSlash :: join_slash (rm_dots [] (bs ++ repeat dd k ++ ps))).
  - unfold localfile_resolve, weave_paths. rewrite T4, Sb, Sr. change (removelast ([] :: y :: t)) with ([] :: bs).
    refine (eq_trans (f_equal join_slash (weave_rfc_segments bs k ps Hbs Hps Kb)) _).
    exact (join_slash_root _ M).
  - rewrite (rfc_resolve_rel base r T1 T2 T3), Pb. unfold recompose. cbn [r_scheme r_auth r_path r_query r_frag app]. rewrite !app_nil_r.
    unfold dir_of. rewrite Sb. change (removelast ([] :: y :: t)) with ([] :: bs). cbn [app].
    destruct (bs ++ [[]]) as [|z l] eqn:E; [destruct bs; discriminate E|].
    change (join_slash ([] :: z :: l)) with (cSlash :: join_slash (z :: l)). rewrite <- E.
    unfold rm_dots_path. cbn [app path_split]. rewrite N.eqb_refl. rewrite (split_dir_app bs r Hbs), Sr. reflexivity.
Qed.

(** XMLURL::conglomerateWithBase for a reference without protocol and host against a base with a host: whichever
    way path, query and fragment are put together, the five authority fields are the base's *)
Lemma conglomerate_authority : forall u b,
  u_proto u = None -> u_host u = None -> opt_is_some (u_host b) = true -> url_is_relative b = false ->
  exists p q f, conglomerate u b =
    Some {| u_proto := u_proto b; u_user := u_user b; u_pass := u_pass b; u_host := u_host b; u_port := u_port b;
            u_path := p; u_query := q; u_frag := f |}.
Proof.
  intros u b P Hu Hb R. unfold conglomerate. rewrite R, P, Hu, Hb. cbn [opt_is_some negb orb andb]. cbv zeta.
  rewrite ?andb_false_r.
  destruct (negb (opt_is_some (u_path u)) && opt_is_some (u_frag u)); [eexists _, _, _; reflexivity|].
  destruct (match u_path u with Some (c :: _) => c =? cSlash | _ => false end); [eexists _, _, _; reflexivity|].
  destruct (opt_is_some (u_path u) || opt_is_some (u_query u) || negb (opt_is_some (u_query b))); [eexists _, _, _; reflexivity|].
  destruct (opt_is_some (u_frag u) || negb (opt_is_some (u_frag b))); eexists _, _, _; reflexivity.
Qed.

Lemma pct_decode_cons : forall c r, (c =? cPercent) = false ->
  pct_decode (c :: r) = option_map (cons c) (pct_decode r).
Proof. intros c r E. cbn [pct_decode]. rewrite E. fold (pct_decode r). destruct (pct_decode r); reflexivity. Qed.

Lemma split_none : forall s a, split_pct s = (a, None) -> a = s /\ pct_decode s = Some s.
Proof.
  induction s as [|c r IH]; intros a H; cbn [split_pct] in H.
  - inversion H. split; reflexivity.
  - destruct (c =? cPercent) eqn:E; [discriminate|].
    destruct (split_pct r) as [a' t] eqn:Sp. inversion H; subst. destruct (IH a' eq_refl) as [A B]. subst a'.
    split; [reflexivity|]. rewrite (pct_decode_cons _ _ E), B. reflexivity.
Qed.

Lemma split_some : forall s a t, split_pct s = (a, Some t) ->
  s = a ++ cPercent :: t /\ pct_decode s = option_map (app a) (pct_decode (cPercent :: t)).
Proof.
  induction s as [|c r IH]; intros a t H; cbn [split_pct] in H.
  - discriminate.
  - destruct (c =? cPercent) eqn:E.
    + inversion H; subst. apply N.eqb_eq in E. subst c. split; [reflexivity|].
      destruct (pct_decode (cPercent :: t)); reflexivity.
    + destruct (split_pct r) as [a' t'] eqn:Sp. inversion H; subst. destruct (IH a' t eq_refl) as [A B].
      split; [cbn [app]; rewrite A; reflexivity|].
      rewrite (pct_decode_cons _ _ E), B.
      destruct (pct_decode (cPercent :: t)); reflexivity.
Qed.

Lemma pct_decode_escape : forall h1 h2 r,
  pct_decode (cPercent :: h1 :: h2 :: r) =
  if is_hex h1 && is_hex h2 then option_map (cons (16 * hex_val h1 + hex_val h2)) (pct_decode r) else None.
Proof.
  intros h1 h2 r. cbn [pct_decode]. rewrite N.eqb_refl. destruct (is_hex h1 && is_hex h2); [|reflexivity].
  fold (pct_decode r). destruct (pct_decode r); reflexivity.
Qed.

(** the unescape loop of XMLURL::makeNewStream, started anywhere, appends [pct_decode] of what is left *)
Lemma unesc_loop_spec : forall f done rest, (length rest < f)%nat ->
  unesc_loop f done rest = option_map (app done) (pct_decode rest).
Proof.
  induction f as [|f IH]; intros done rest L; [lia|]. cbn [unesc_loop].
  destruct (split_pct rest) as [a [t|]] eqn:Sp.
  - destruct (split_some _ _ _ Sp) as [E D]. rewrite D.
    destruct t as [|h1 [|h2 r]].
    + cbn [pct_decode]. rewrite N.eqb_refl. reflexivity.
    + cbn [pct_decode]. rewrite N.eqb_refl. reflexivity.
    + rewrite pct_decode_escape. destruct (is_hex h1 && is_hex h2); [|reflexivity].
      rewrite IH.
      * destruct (pct_decode r) as [d|]; cbn [option_map]; [|reflexivity].
        rewrite <- !app_assoc. reflexivity.
      * subst rest. rewrite app_length in L. cbn [length] in L. lia.
  - destruct (split_none _ _ Sp) as [A D]. subst a. rewrite D. reflexivity.
Qed.

(* ---- RFC 2396 appendix C (C.1 normal, C.2 abnormal) ---- *)
Definition baseC : str := [104; 116; 116; 112; 58; 47; 47; 97; 47; 98; 47; 99; 47; 100; 59; 112; 63; 113].   (* http://a/b/c/d;p?q *)
Definition baseF : str := [47; 119; 47; 100; 49; 47; 100; 111; 99; 46; 120; 109; 108].   (* /w/d1/doc.xml *)
(* C1 01: "g:h" -> "g:h" *)
Example rfc_C1_01 : rfc_resolve baseC [103; 58; 104] = [103; 58; 104].
Proof. vm_compute. reflexivity. Qed.
(* C1 02: "g" -> "http://a/b/c/g" *)
Example rfc_C1_02 : rfc_resolve baseC [103] = [104; 116; 116; 112; 58; 47; 47; 97; 47; 98; 47; 99; 47; 103].
Proof. vm_compute. reflexivity. Qed.
(* C1 03: "./g" -> "http://a/b/c/g" *)
Example rfc_C1_03 : rfc_resolve baseC [46; 47; 103] = [104; 116; 116; 112; 58; 47; 47; 97; 47; 98; 47; 99; 47; 103].
Proof. vm_compute. reflexivity. Qed.
(* C1 04: "g/" -> "http://a/b/c/g/" *)
Example rfc_C1_04 : rfc_resolve baseC [103; 47] = [104; 116; 116; 112; 58; 47; 47; 97; 47; 98; 47; 99; 47; 103; 47].
Proof. vm_compute. reflexivity. Qed.
(* C1 05: "/g" -> "http://a/g" *)
Example rfc_C1_05 : rfc_resolve baseC [47; 103] = [104; 116; 116; 112; 58; 47; 47; 97; 47; 103].
Proof. vm_compute. reflexivity. Qed.
(* C1 06: "//g" -> "http://g" *)
Example rfc_C1_06 : rfc_resolve baseC [47; 47; 103] = [104; 116; 116; 112; 58; 47; 47; 103].
Proof. vm_compute. reflexivity. Qed.
(* C1 07: "?y" -> "http://a/b/c/?y" *)
Example rfc_C1_07 : rfc_resolve baseC [63; 121] = [104; 116; 116; 112; 58; 47; 47; 97; 47; 98; 47; 99; 47; 63; 121].
Proof. vm_compute. reflexivity. Qed.
(* C1 08: "g?y" -> "http://a/b/c/g?y" *)
Example rfc_C1_08 : rfc_resolve baseC [103; 63; 121] = [104; 116; 116; 112; 58; 47; 47; 97; 47; 98; 47; 99; 47; 103; 63; 121].
Proof. vm_compute. reflexivity. Qed.
(* C1 09: "#s" -> "http://a/b/c/d;p?q#s" *)
Example rfc_C1_09 : rfc_resolve baseC [35; 115] = [104; 116; 116; 112; 58; 47; 47; 97; 47; 98; 47; 99; 47; 100; 59; 112; 63; 113; 35; 115].
Proof. vm_compute. reflexivity. Qed.
(* C1 10: "g#s" -> "http://a/b/c/g#s" *)
Example rfc_C1_10 : rfc_resolve baseC [103; 35; 115] = [104; 116; 116; 112; 58; 47; 47; 97; 47; 98; 47; 99; 47; 103; 35; 115].
Proof. vm_compute. reflexivity. Qed.
(* C1 11: "g?y#s" -> "http://a/b/c/g?y#s" *)
Example rfc_C1_11 : rfc_resolve baseC [103; 63; 121; 35; 115] = [104; 116; 116; 112; 58; 47; 47; 97; 47; 98; 47; 99; 47; 103; 63; 121; 35; 115].
Proof. vm_compute. reflexivity. Qed.
(* C1 12: ";x" -> "http://a/b/c/;x" *)
Example rfc_C1_12 : rfc_resolve baseC [59; 120] = [104; 116; 116; 112; 58; 47; 47; 97; 47; 98; 47; 99; 47; 59; 120].
Proof. vm_compute. reflexivity. Qed.
(* C1 13: "g;x" -> "http://a/b/c/g;x" *)
Example rfc_C1_13 : rfc_resolve baseC [103; 59; 120] = [104; 116; 116; 112; 58; 47; 47; 97; 47; 98; 47; 99; 47; 103; 59; 120].
Proof. vm_compute. reflexivity. Qed.
(* C1 14: "g;x?y#s" -> "http://a/b/c/g;x?y#s" *)
Example rfc_C1_14 : rfc_resolve baseC [103; 59; 120; 63; 121; 35; 115] = [104; 116; 116; 112; 58; 47; 47; 97; 47; 98; 47; 99; 47; 103; 59; 120; 63; 121; 35; 115].
Proof. vm_compute. reflexivity. Qed.
(* C1 15: "." -> "http://a/b/c/" *)
Example rfc_C1_15 : rfc_resolve baseC [46] = [104; 116; 116; 112; 58; 47; 47; 97; 47; 98; 47; 99; 47].
Proof. vm_compute. reflexivity. Qed.
(* C1 16: "./" -> "http://a/b/c/" *)
Example rfc_C1_16 : rfc_resolve baseC [46; 47] = [104; 116; 116; 112; 58; 47; 47; 97; 47; 98; 47; 99; 47].
Proof. vm_compute. reflexivity. Qed.
(* C1 17: ".." -> "http://a/b/" *)
Example rfc_C1_17 : rfc_resolve baseC [46; 46] = [104; 116; 116; 112; 58; 47; 47; 97; 47; 98; 47].
Proof. vm_compute. reflexivity. Qed.
(* C1 18: "../" -> "http://a/b/" *)
Example rfc_C1_18 : rfc_resolve baseC [46; 46; 47] = [104; 116; 116; 112; 58; 47; 47; 97; 47; 98; 47].
Proof. vm_compute. reflexivity. Qed.
(* C1 19: "../g" -> "http://a/b/g" *)
Example rfc_C1_19 : rfc_resolve baseC [46; 46; 47; 103] = [104; 116; 116; 112; 58; 47; 47; 97; 47; 98; 47; 103].
Proof. vm_compute. reflexivity. Qed.
(* C1 20: "../.." -> "http://a/" *)
Example rfc_C1_20 : rfc_resolve baseC [46; 46; 47; 46; 46] = [104; 116; 116; 112; 58; 47; 47; 97; 47].
Proof. vm_compute. reflexivity. Qed.
(* C1 21: "../../" -> "http://a/" *)
Example rfc_C1_21 : rfc_resolve baseC [46; 46; 47; 46; 46; 47] = [104; 116; 116; 112; 58; 47; 47; 97; 47].
Proof. vm_compute. reflexivity. Qed.
(* C1 22: "../../g" -> "http://a/g" *)
Example rfc_C1_22 : rfc_resolve baseC [46; 46; 47; 46; 46; 47; 103] = [104; 116; 116; 112; 58; 47; 47; 97; 47; 103].
Proof. vm_compute. reflexivity. Qed.
(* C2 01: "" -> "http://a/b/c/d;p?q" *)
Example rfc_C2_01 : rfc_resolve baseC [] = [104; 116; 116; 112; 58; 47; 47; 97; 47; 98; 47; 99; 47; 100; 59; 112; 63; 113].
Proof. vm_compute. reflexivity. Qed.
(* C2 02: "../../../g" -> "http://a/../g" *)
Example rfc_C2_02 : rfc_resolve baseC [46; 46; 47; 46; 46; 47; 46; 46; 47; 103] = [104; 116; 116; 112; 58; 47; 47; 97; 47; 46; 46; 47; 103].
Proof. vm_compute. reflexivity. Qed.
(* C2 03: "../../../../g" -> "http://a/../../g" *)
Example rfc_C2_03 : rfc_resolve baseC [46; 46; 47; 46; 46; 47; 46; 46; 47; 46; 46; 47; 103] = [104; 116; 116; 112; 58; 47; 47; 97; 47; 46; 46; 47; 46; 46; 47; 103].
Proof. vm_compute. reflexivity. Qed.
(* C2 04: "/./g" -> "http://a/./g" *)
Example rfc_C2_04 : rfc_resolve baseC [47; 46; 47; 103] = [104; 116; 116; 112; 58; 47; 47; 97; 47; 46; 47; 103].
Proof. vm_compute. reflexivity. Qed.
(* C2 05: "/../g" -> "http://a/../g" *)
Example rfc_C2_05 : rfc_resolve baseC [47; 46; 46; 47; 103] = [104; 116; 116; 112; 58; 47; 47; 97; 47; 46; 46; 47; 103].
Proof. vm_compute. reflexivity. Qed.
(* C2 06: "g." -> "http://a/b/c/g." *)
Example rfc_C2_06 : rfc_resolve baseC [103; 46] = [104; 116; 116; 112; 58; 47; 47; 97; 47; 98; 47; 99; 47; 103; 46].
Proof. vm_compute. reflexivity. Qed.
(* C2 07: ".g" -> "http://a/b/c/.g" *)
Example rfc_C2_07 : rfc_resolve baseC [46; 103] = [104; 116; 116; 112; 58; 47; 47; 97; 47; 98; 47; 99; 47; 46; 103].
Proof. vm_compute. reflexivity. Qed.
(* C2 08: "g.." -> "http://a/b/c/g.." *)
Example rfc_C2_08 : rfc_resolve baseC [103; 46; 46] = [104; 116; 116; 112; 58; 47; 47; 97; 47; 98; 47; 99; 47; 103; 46; 46].
Proof. vm_compute. reflexivity. Qed.
(* C2 09: "..g" -> "http://a/b/c/..g" *)
Example rfc_C2_09 : rfc_resolve baseC [46; 46; 103] = [104; 116; 116; 112; 58; 47; 47; 97; 47; 98; 47; 99; 47; 46; 46; 103].
Proof. vm_compute. reflexivity. Qed.
(* C2 10: "./../g" -> "http://a/b/g" *)
Example rfc_C2_10 : rfc_resolve baseC [46; 47; 46; 46; 47; 103] = [104; 116; 116; 112; 58; 47; 47; 97; 47; 98; 47; 103].
Proof. vm_compute. reflexivity. Qed.
(* C2 11: "./g/." -> "http://a/b/c/g/" *)
Example rfc_C2_11 : rfc_resolve baseC [46; 47; 103; 47; 46] = [104; 116; 116; 112; 58; 47; 47; 97; 47; 98; 47; 99; 47; 103; 47].
Proof. vm_compute. reflexivity. Qed.
(* C2 12: "g/./h" -> "http://a/b/c/g/h" *)
Example rfc_C2_12 : rfc_resolve baseC [103; 47; 46; 47; 104] = [104; 116; 116; 112; 58; 47; 47; 97; 47; 98; 47; 99; 47; 103; 47; 104].
Proof. vm_compute. reflexivity. Qed.
(* C2 13: "g/../h" -> "http://a/b/c/h" *)
Example rfc_C2_13 : rfc_resolve baseC [103; 47; 46; 46; 47; 104] = [104; 116; 116; 112; 58; 47; 47; 97; 47; 98; 47; 99; 47; 104].
Proof. vm_compute. reflexivity. Qed.
(* C2 14: "g;x=1/./y" -> "http://a/b/c/g;x=1/y" *)
Example rfc_C2_14 : rfc_resolve baseC [103; 59; 120; 61; 49; 47; 46; 47; 121] = [104; 116; 116; 112; 58; 47; 47; 97; 47; 98; 47; 99; 47; 103; 59; 120; 61; 49; 47; 121].
Proof. vm_compute. reflexivity. Qed.
(* C2 15: "g;x=1/../y" -> "http://a/b/c/y" *)
Example rfc_C2_15 : rfc_resolve baseC [103; 59; 120; 61; 49; 47; 46; 46; 47; 121] = [104; 116; 116; 112; 58; 47; 47; 97; 47; 98; 47; 99; 47; 121].
Proof. vm_compute. reflexivity. Qed.
(* C2 16: "g?y/./x" -> "http://a/b/c/g?y/./x" *)
Example rfc_C2_16 : rfc_resolve baseC [103; 63; 121; 47; 46; 47; 120] = [104; 116; 116; 112; 58; 47; 47; 97; 47; 98; 47; 99; 47; 103; 63; 121; 47; 46; 47; 120].
Proof. vm_compute. reflexivity. Qed.
(* C2 17: "g?y/../x" -> "http://a/b/c/g?y/../x" *)
Example rfc_C2_17 : rfc_resolve baseC [103; 63; 121; 47; 46; 46; 47; 120] = [104; 116; 116; 112; 58; 47; 47; 97; 47; 98; 47; 99; 47; 103; 63; 121; 47; 46; 46; 47; 120].
Proof. vm_compute. reflexivity. Qed.
(* C2 18: "g#s/./x" -> "http://a/b/c/g#s/./x" *)
Example rfc_C2_18 : rfc_resolve baseC [103; 35; 115; 47; 46; 47; 120] = [104; 116; 116; 112; 58; 47; 47; 97; 47; 98; 47; 99; 47; 103; 35; 115; 47; 46; 47; 120].
Proof. vm_compute. reflexivity. Qed.
(* C2 19: "g#s/../x" -> "http://a/b/c/g#s/../x" *)
Example rfc_C2_19 : rfc_resolve baseC [103; 35; 115; 47; 46; 46; 47; 120] = [104; 116; 116; 112; 58; 47; 47; 97; 47; 98; 47; 99; 47; 103; 35; 115; 47; 46; 46; 47; 120].
Proof. vm_compute. reflexivity. Qed.
(* C2 20: "http:g" -> "http:g" *)
Example rfc_C2_20 : rfc_resolve baseC [104; 116; 116; 112; 58; 103] = [104; 116; 116; 112; 58; 103].
Proof. vm_compute. reflexivity. Qed.
(* ---- xmluri_resolve against the same examples, base http://a/b/c/d;p?q; the stated values are what the real library returns ---- *)
Example xmluri_C1_01 : xmluri_resolve baseC [103; 58; 104] = Some (rfc_resolve baseC [103; 58; 104]).   (* "g:h" -> "g:h" *)
Proof. vm_compute. reflexivity. Qed.
Example xmluri_C1_02 : xmluri_resolve baseC [103] = Some (rfc_resolve baseC [103]).   (* "g" -> "http://a/b/c/g" *)
Proof. vm_compute. reflexivity. Qed.
Example xmluri_C1_03 : xmluri_resolve baseC [46; 47; 103] = Some (rfc_resolve baseC [46; 47; 103]).   (* "./g" -> "http://a/b/c/g" *)
Proof. vm_compute. reflexivity. Qed.
Example xmluri_C1_04 : xmluri_resolve baseC [103; 47] = Some (rfc_resolve baseC [103; 47]).   (* "g/" -> "http://a/b/c/g/" *)
Proof. vm_compute. reflexivity. Qed.
Example xmluri_C1_05 : xmluri_resolve baseC [47; 103] = Some (rfc_resolve baseC [47; 103]).   (* "/g" -> "http://a/g" *)
Proof. vm_compute. reflexivity. Qed.
(* deviation: "//g" -> library "//g", RFC "http://g" *)
Example xmluri_actual_C1_06 : xmluri_resolve baseC [47; 47; 103] = Some [47; 47; 103].
Proof. vm_compute. reflexivity. Qed.
Lemma xmluri_rfc_refuted_C1_06 : xmluri_resolve baseC [47; 47; 103] <> Some (rfc_resolve baseC [47; 47; 103]).
Proof. vm_compute. discriminate. Qed.
(* deviation: "?y" -> library "http://a/b/c/d;p?y", RFC "http://a/b/c/?y" *)
Example xmluri_actual_C1_07 : xmluri_resolve baseC [63; 121] = Some [104; 116; 116; 112; 58; 47; 47; 97; 47; 98; 47; 99; 47; 100; 59; 112; 63; 121].
Proof. vm_compute. reflexivity. Qed.
Lemma xmluri_rfc_refuted_C1_07 : xmluri_resolve baseC [63; 121] <> Some (rfc_resolve baseC [63; 121]).
Proof. vm_compute. discriminate. Qed.
Example xmluri_C1_08 : xmluri_resolve baseC [103; 63; 121] = Some (rfc_resolve baseC [103; 63; 121]).   (* "g?y" -> "http://a/b/c/g?y" *)
Proof. vm_compute. reflexivity. Qed.
Example xmluri_C1_09 : xmluri_resolve baseC [35; 115] = Some (rfc_resolve baseC [35; 115]).   (* "#s" -> "http://a/b/c/d;p?q#s" *)
Proof. vm_compute. reflexivity. Qed.
Example xmluri_C1_10 : xmluri_resolve baseC [103; 35; 115] = Some (rfc_resolve baseC [103; 35; 115]).   (* "g#s" -> "http://a/b/c/g#s" *)
Proof. vm_compute. reflexivity. Qed.
Example xmluri_C1_11 : xmluri_resolve baseC [103; 63; 121; 35; 115] = Some (rfc_resolve baseC [103; 63; 121; 35; 115]).   (* "g?y#s" -> "http://a/b/c/g?y#s" *)
Proof. vm_compute. reflexivity. Qed.
Example xmluri_C1_12 : xmluri_resolve baseC [59; 120] = Some (rfc_resolve baseC [59; 120]).   (* ";x" -> "http://a/b/c/;x" *)
Proof. vm_compute. reflexivity. Qed.
Example xmluri_C1_13 : xmluri_resolve baseC [103; 59; 120] = Some (rfc_resolve baseC [103; 59; 120]).   (* "g;x" -> "http://a/b/c/g;x" *)
Proof. vm_compute. reflexivity. Qed.
Example xmluri_C1_14 : xmluri_resolve baseC [103; 59; 120; 63; 121; 35; 115] = Some (rfc_resolve baseC [103; 59; 120; 63; 121; 35; 115]).   (* "g;x?y#s" -> "http://a/b/c/g;x?y#s" *)
Proof. vm_compute. reflexivity. Qed.
Example xmluri_C1_15 : xmluri_resolve baseC [46] = Some (rfc_resolve baseC [46]).   (* "." -> "http://a/b/c/" *)
Proof. vm_compute. reflexivity. Qed.
Example xmluri_C1_16 : xmluri_resolve baseC [46; 47] = Some (rfc_resolve baseC [46; 47]).   (* "./" -> "http://a/b/c/" *)
Proof. vm_compute. reflexivity. Qed.
Example xmluri_C1_17 : xmluri_resolve baseC [46; 46] = Some (rfc_resolve baseC [46; 46]).   (* ".." -> "http://a/b/" *)
Proof. vm_compute. reflexivity. Qed.
Example xmluri_C1_18 : xmluri_resolve baseC [46; 46; 47] = Some (rfc_resolve baseC [46; 46; 47]).   (* "../" -> "http://a/b/" *)
Proof. vm_compute. reflexivity. Qed.
Example xmluri_C1_19 : xmluri_resolve baseC [46; 46; 47; 103] = Some (rfc_resolve baseC [46; 46; 47; 103]).   (* "../g" -> "http://a/b/g" *)
Proof. vm_compute. reflexivity. Qed.
Example xmluri_C1_20 : xmluri_resolve baseC [46; 46; 47; 46; 46] = Some (rfc_resolve baseC [46; 46; 47; 46; 46]).   (* "../.." -> "http://a/" *)
Proof. vm_compute. reflexivity. Qed.
Example xmluri_C1_21 : xmluri_resolve baseC [46; 46; 47; 46; 46; 47] = Some (rfc_resolve baseC [46; 46; 47; 46; 46; 47]).   (* "../../" -> "http://a/" *)
Proof. vm_compute. reflexivity. Qed.
Example xmluri_C1_22 : xmluri_resolve baseC [46; 46; 47; 46; 46; 47; 103] = Some (rfc_resolve baseC [46; 46; 47; 46; 46; 47; 103]).   (* "../../g" -> "http://a/g" *)
Proof. vm_compute. reflexivity. Qed.
Example xmluri_C2_01 : xmluri_resolve baseC [] = Some (rfc_resolve baseC []).   (* "" -> "http://a/b/c/d;p?q" *)
Proof. vm_compute. reflexivity. Qed.
Example xmluri_C2_02 : xmluri_resolve baseC [46; 46; 47; 46; 46; 47; 46; 46; 47; 103] = Some (rfc_resolve baseC [46; 46; 47; 46; 46; 47; 46; 46; 47; 103]).   (* "../../../g" -> "http://a/../g" *)
Proof. vm_compute. reflexivity. Qed.
Example xmluri_C2_03 : xmluri_resolve baseC [46; 46; 47; 46; 46; 47; 46; 46; 47; 46; 46; 47; 103] = Some (rfc_resolve baseC [46; 46; 47; 46; 46; 47; 46; 46; 47; 46; 46; 47; 103]).   (* "../../../../g" -> "http://a/../../g" *)
Proof. vm_compute. reflexivity. Qed.
Example xmluri_C2_04 : xmluri_resolve baseC [47; 46; 47; 103] = Some (rfc_resolve baseC [47; 46; 47; 103]).   (* "/./g" -> "http://a/./g" *)
Proof. vm_compute. reflexivity. Qed.
Example xmluri_C2_05 : xmluri_resolve baseC [47; 46; 46; 47; 103] = Some (rfc_resolve baseC [47; 46; 46; 47; 103]).   (* "/../g" -> "http://a/../g" *)
Proof. vm_compute. reflexivity. Qed.
Example xmluri_C2_06 : xmluri_resolve baseC [103; 46] = Some (rfc_resolve baseC [103; 46]).   (* "g." -> "http://a/b/c/g." *)
Proof. vm_compute. reflexivity. Qed.
Example xmluri_C2_07 : xmluri_resolve baseC [46; 103] = Some (rfc_resolve baseC [46; 103]).   (* ".g" -> "http://a/b/c/.g" *)
Proof. vm_compute. reflexivity. Qed.
Example xmluri_C2_08 : xmluri_resolve baseC [103; 46; 46] = Some (rfc_resolve baseC [103; 46; 46]).   (* "g.." -> "http://a/b/c/g.." *)
Proof. vm_compute. reflexivity. Qed.
Example xmluri_C2_09 : xmluri_resolve baseC [46; 46; 103] = Some (rfc_resolve baseC [46; 46; 103]).   (* "..g" -> "http://a/b/c/..g" *)
Proof. vm_compute. reflexivity. Qed.
Example xmluri_C2_10 : xmluri_resolve baseC [46; 47; 46; 46; 47; 103] = Some (rfc_resolve baseC [46; 47; 46; 46; 47; 103]).   (* "./../g" -> "http://a/b/g" *)
Proof. vm_compute. reflexivity. Qed.
Example xmluri_C2_11 : xmluri_resolve baseC [46; 47; 103; 47; 46] = Some (rfc_resolve baseC [46; 47; 103; 47; 46]).   (* "./g/." -> "http://a/b/c/g/" *)
Proof. vm_compute. reflexivity. Qed.
Example xmluri_C2_12 : xmluri_resolve baseC [103; 47; 46; 47; 104] = Some (rfc_resolve baseC [103; 47; 46; 47; 104]).   (* "g/./h" -> "http://a/b/c/g/h" *)
Proof. vm_compute. reflexivity. Qed.
Example xmluri_C2_13 : xmluri_resolve baseC [103; 47; 46; 46; 47; 104] = Some (rfc_resolve baseC [103; 47; 46; 46; 47; 104]).   (* "g/../h" -> "http://a/b/c/h" *)
Proof. vm_compute. reflexivity. Qed.
Example xmluri_C2_14 : xmluri_resolve baseC [103; 59; 120; 61; 49; 47; 46; 47; 121] = Some (rfc_resolve baseC [103; 59; 120; 61; 49; 47; 46; 47; 121]).   (* "g;x=1/./y" -> "http://a/b/c/g;x=1/y" *)
Proof. vm_compute. reflexivity. Qed.
Example xmluri_C2_15 : xmluri_resolve baseC [103; 59; 120; 61; 49; 47; 46; 46; 47; 121] = Some (rfc_resolve baseC [103; 59; 120; 61; 49; 47; 46; 46; 47; 121]).   (* "g;x=1/../y" -> "http://a/b/c/y" *)
Proof. vm_compute. reflexivity. Qed.
Example xmluri_C2_16 : xmluri_resolve baseC [103; 63; 121; 47; 46; 47; 120] = Some (rfc_resolve baseC [103; 63; 121; 47; 46; 47; 120]).   (* "g?y/./x" -> "http://a/b/c/g?y/./x" *)
Proof. vm_compute. reflexivity. Qed.
Example xmluri_C2_17 : xmluri_resolve baseC [103; 63; 121; 47; 46; 46; 47; 120] = Some (rfc_resolve baseC [103; 63; 121; 47; 46; 46; 47; 120]).   (* "g?y/../x" -> "http://a/b/c/g?y/../x" *)
Proof. vm_compute. reflexivity. Qed.
Example xmluri_C2_18 : xmluri_resolve baseC [103; 35; 115; 47; 46; 47; 120] = Some (rfc_resolve baseC [103; 35; 115; 47; 46; 47; 120]).   (* "g#s/./x" -> "http://a/b/c/g#s/./x" *)
Proof. vm_compute. reflexivity. Qed.
Example xmluri_C2_19 : xmluri_resolve baseC [103; 35; 115; 47; 46; 46; 47; 120] = Some (rfc_resolve baseC [103; 35; 115; 47; 46; 46; 47; 120]).   (* "g#s/../x" -> "http://a/b/c/g#s/../x" *)
Proof. vm_compute. reflexivity. Qed.
Example xmluri_C2_20 : xmluri_resolve baseC [104; 116; 116; 112; 58; 103] = Some (rfc_resolve baseC [104; 116; 116; 112; 58; 103]).   (* "http:g" -> "http:g" *)
Proof. vm_compute. reflexivity. Qed.
(* ---- xmlurl_resolve against the same examples, base http://a/b/c/d;p?q; the stated values are what the real library returns ---- *)
(* deviation: "g:h" -> library "NONE", RFC "g:h" *)
Example xmlurl_actual_C1_01 : xmlurl_resolve baseC [103; 58; 104] = None.
Proof. vm_compute. reflexivity. Qed.
Lemma xmlurl_rfc_refuted_C1_01 : xmlurl_resolve baseC [103; 58; 104] <> Some (rfc_resolve baseC [103; 58; 104]).
Proof. vm_compute. discriminate. Qed.
Example xmlurl_C1_02 : xmlurl_resolve baseC [103] = Some (rfc_resolve baseC [103]).   (* "g" -> "http://a/b/c/g" *)
Proof. vm_compute. reflexivity. Qed.
Example xmlurl_C1_03 : xmlurl_resolve baseC [46; 47; 103] = Some (rfc_resolve baseC [46; 47; 103]).   (* "./g" -> "http://a/b/c/g" *)
Proof. vm_compute. reflexivity. Qed.
Example xmlurl_C1_04 : xmlurl_resolve baseC [103; 47] = Some (rfc_resolve baseC [103; 47]).   (* "g/" -> "http://a/b/c/g/" *)
Proof. vm_compute. reflexivity. Qed.
Example xmlurl_C1_05 : xmlurl_resolve baseC [47; 103] = Some (rfc_resolve baseC [47; 103]).   (* "/g" -> "http://a/g" *)
Proof. vm_compute. reflexivity. Qed.
(* deviation: "//g" -> library "http://g/", RFC "http://g" *)
Example xmlurl_actual_C1_06 : xmlurl_resolve baseC [47; 47; 103] = Some [104; 116; 116; 112; 58; 47; 47; 103; 47].
Proof. vm_compute. reflexivity. Qed.
Lemma xmlurl_rfc_refuted_C1_06 : xmlurl_resolve baseC [47; 47; 103] <> Some (rfc_resolve baseC [47; 47; 103]).
Proof. vm_compute. discriminate. Qed.
Example xmlurl_C1_07 : xmlurl_resolve baseC [63; 121] = Some (rfc_resolve baseC [63; 121]).   (* "?y" -> "http://a/b/c/?y" *)
Proof. vm_compute. reflexivity. Qed.
Example xmlurl_C1_08 : xmlurl_resolve baseC [103; 63; 121] = Some (rfc_resolve baseC [103; 63; 121]).   (* "g?y" -> "http://a/b/c/g?y" *)
Proof. vm_compute. reflexivity. Qed.
(* deviation: "#s" -> library "http://a/b/c/d;p#s", RFC "http://a/b/c/d;p?q#s" *)
Example xmlurl_actual_C1_09 : xmlurl_resolve baseC [35; 115] = Some [104; 116; 116; 112; 58; 47; 47; 97; 47; 98; 47; 99; 47; 100; 59; 112; 35; 115].
Proof. vm_compute. reflexivity. Qed.
Lemma xmlurl_rfc_refuted_C1_09 : xmlurl_resolve baseC [35; 115] <> Some (rfc_resolve baseC [35; 115]).
Proof. vm_compute. discriminate. Qed.
Example xmlurl_C1_10 : xmlurl_resolve baseC [103; 35; 115] = Some (rfc_resolve baseC [103; 35; 115]).   (* "g#s" -> "http://a/b/c/g#s" *)
Proof. vm_compute. reflexivity. Qed.
Example xmlurl_C1_11 : xmlurl_resolve baseC [103; 63; 121; 35; 115] = Some (rfc_resolve baseC [103; 63; 121; 35; 115]).   (* "g?y#s" -> "http://a/b/c/g?y#s" *)
Proof. vm_compute. reflexivity. Qed.
Example xmlurl_C1_12 : xmlurl_resolve baseC [59; 120] = Some (rfc_resolve baseC [59; 120]).   (* ";x" -> "http://a/b/c/;x" *)
Proof. vm_compute. reflexivity. Qed.
Example xmlurl_C1_13 : xmlurl_resolve baseC [103; 59; 120] = Some (rfc_resolve baseC [103; 59; 120]).   (* "g;x" -> "http://a/b/c/g;x" *)
Proof. vm_compute. reflexivity. Qed.
Example xmlurl_C1_14 : xmlurl_resolve baseC [103; 59; 120; 63; 121; 35; 115] = Some (rfc_resolve baseC [103; 59; 120; 63; 121; 35; 115]).   (* "g;x?y#s" -> "http://a/b/c/g;x?y#s" *)
Proof. vm_compute. reflexivity. Qed.
(* deviation: "." -> library "http://a/b/c/.", RFC "http://a/b/c/" *)
Example xmlurl_actual_C1_15 : xmlurl_resolve baseC [46] = Some [104; 116; 116; 112; 58; 47; 47; 97; 47; 98; 47; 99; 47; 46].
Proof. vm_compute. reflexivity. Qed.
Lemma xmlurl_rfc_refuted_C1_15 : xmlurl_resolve baseC [46] <> Some (rfc_resolve baseC [46]).
Proof. vm_compute. discriminate. Qed.
Example xmlurl_C1_16 : xmlurl_resolve baseC [46; 47] = Some (rfc_resolve baseC [46; 47]).   (* "./" -> "http://a/b/c/" *)
Proof. vm_compute. reflexivity. Qed.
(* deviation: ".." -> library "http://a/b/c/..", RFC "http://a/b/" *)
Example xmlurl_actual_C1_17 : xmlurl_resolve baseC [46; 46] = Some [104; 116; 116; 112; 58; 47; 47; 97; 47; 98; 47; 99; 47; 46; 46].
Proof. vm_compute. reflexivity. Qed.
Lemma xmlurl_rfc_refuted_C1_17 : xmlurl_resolve baseC [46; 46] <> Some (rfc_resolve baseC [46; 46]).
Proof. vm_compute. discriminate. Qed.
Example xmlurl_C1_18 : xmlurl_resolve baseC [46; 46; 47] = Some (rfc_resolve baseC [46; 46; 47]).   (* "../" -> "http://a/b/" *)
Proof. vm_compute. reflexivity. Qed.
Example xmlurl_C1_19 : xmlurl_resolve baseC [46; 46; 47; 103] = Some (rfc_resolve baseC [46; 46; 47; 103]).   (* "../g" -> "http://a/b/g" *)
Proof. vm_compute. reflexivity. Qed.
(* deviation: "../.." -> library "http://a/b/..", RFC "http://a/" *)
Example xmlurl_actual_C1_20 : xmlurl_resolve baseC [46; 46; 47; 46; 46] = Some [104; 116; 116; 112; 58; 47; 47; 97; 47; 98; 47; 46; 46].
Proof. vm_compute. reflexivity. Qed.
Lemma xmlurl_rfc_refuted_C1_20 : xmlurl_resolve baseC [46; 46; 47; 46; 46] <> Some (rfc_resolve baseC [46; 46; 47; 46; 46]).
Proof. vm_compute. discriminate. Qed.
Example xmlurl_C1_21 : xmlurl_resolve baseC [46; 46; 47; 46; 46; 47] = Some (rfc_resolve baseC [46; 46; 47; 46; 46; 47]).   (* "../../" -> "http://a/" *)
Proof. vm_compute. reflexivity. Qed.
Example xmlurl_C1_22 : xmlurl_resolve baseC [46; 46; 47; 46; 46; 47; 103] = Some (rfc_resolve baseC [46; 46; 47; 46; 46; 47; 103]).   (* "../../g" -> "http://a/g" *)
Proof. vm_compute. reflexivity. Qed.
(* deviation: "" -> library "NONE", RFC "http://a/b/c/d;p?q" *)
Example xmlurl_actual_C2_01 : xmlurl_resolve baseC [] = None.
Proof. vm_compute. reflexivity. Qed.
Lemma xmlurl_rfc_refuted_C2_01 : xmlurl_resolve baseC [] <> Some (rfc_resolve baseC []).
Proof. vm_compute. discriminate. Qed.
Example xmlurl_C2_02 : xmlurl_resolve baseC [46; 46; 47; 46; 46; 47; 46; 46; 47; 103] = Some (rfc_resolve baseC [46; 46; 47; 46; 46; 47; 46; 46; 47; 103]).   (* "../../../g" -> "http://a/../g" *)
Proof. vm_compute. reflexivity. Qed.
Example xmlurl_C2_03 : xmlurl_resolve baseC [46; 46; 47; 46; 46; 47; 46; 46; 47; 46; 46; 47; 103] = Some (rfc_resolve baseC [46; 46; 47; 46; 46; 47; 46; 46; 47; 46; 46; 47; 103]).   (* "../../../../g" -> "http://a/../../g" *)
Proof. vm_compute. reflexivity. Qed.
Example xmlurl_C2_04 : xmlurl_resolve baseC [47; 46; 47; 103] = Some (rfc_resolve baseC [47; 46; 47; 103]).   (* "/./g" -> "http://a/./g" *)
Proof. vm_compute. reflexivity. Qed.
Example xmlurl_C2_05 : xmlurl_resolve baseC [47; 46; 46; 47; 103] = Some (rfc_resolve baseC [47; 46; 46; 47; 103]).   (* "/../g" -> "http://a/../g" *)
Proof. vm_compute. reflexivity. Qed.
Example xmlurl_C2_06 : xmlurl_resolve baseC [103; 46] = Some (rfc_resolve baseC [103; 46]).   (* "g." -> "http://a/b/c/g." *)
Proof. vm_compute. reflexivity. Qed.
Example xmlurl_C2_07 : xmlurl_resolve baseC [46; 103] = Some (rfc_resolve baseC [46; 103]).   (* ".g" -> "http://a/b/c/.g" *)
Proof. vm_compute. reflexivity. Qed.
Example xmlurl_C2_08 : xmlurl_resolve baseC [103; 46; 46] = Some (rfc_resolve baseC [103; 46; 46]).   (* "g.." -> "http://a/b/c/g.." *)
Proof. vm_compute. reflexivity. Qed.
Example xmlurl_C2_09 : xmlurl_resolve baseC [46; 46; 103] = Some (rfc_resolve baseC [46; 46; 103]).   (* "..g" -> "http://a/b/c/..g" *)
Proof. vm_compute. reflexivity. Qed.
Example xmlurl_C2_10 : xmlurl_resolve baseC [46; 47; 46; 46; 47; 103] = Some (rfc_resolve baseC [46; 47; 46; 46; 47; 103]).   (* "./../g" -> "http://a/b/g" *)
Proof. vm_compute. reflexivity. Qed.
(* deviation: "./g/." -> library "http://a/b/c/g/.", RFC "http://a/b/c/g/" *)
Example xmlurl_actual_C2_11 : xmlurl_resolve baseC [46; 47; 103; 47; 46] = Some [104; 116; 116; 112; 58; 47; 47; 97; 47; 98; 47; 99; 47; 103; 47; 46].
Proof. vm_compute. reflexivity. Qed.
Lemma xmlurl_rfc_refuted_C2_11 : xmlurl_resolve baseC [46; 47; 103; 47; 46] <> Some (rfc_resolve baseC [46; 47; 103; 47; 46]).
Proof. vm_compute. discriminate. Qed.
Example xmlurl_C2_12 : xmlurl_resolve baseC [103; 47; 46; 47; 104] = Some (rfc_resolve baseC [103; 47; 46; 47; 104]).   (* "g/./h" -> "http://a/b/c/g/h" *)
Proof. vm_compute. reflexivity. Qed.
Example xmlurl_C2_13 : xmlurl_resolve baseC [103; 47; 46; 46; 47; 104] = Some (rfc_resolve baseC [103; 47; 46; 46; 47; 104]).   (* "g/../h" -> "http://a/b/c/h" *)
Proof. vm_compute. reflexivity. Qed.
Example xmlurl_C2_14 : xmlurl_resolve baseC [103; 59; 120; 61; 49; 47; 46; 47; 121] = Some (rfc_resolve baseC [103; 59; 120; 61; 49; 47; 46; 47; 121]).   (* "g;x=1/./y" -> "http://a/b/c/g;x=1/y" *)
Proof. vm_compute. reflexivity. Qed.
Example xmlurl_C2_15 : xmlurl_resolve baseC [103; 59; 120; 61; 49; 47; 46; 46; 47; 121] = Some (rfc_resolve baseC [103; 59; 120; 61; 49; 47; 46; 46; 47; 121]).   (* "g;x=1/../y" -> "http://a/b/c/y" *)
Proof. vm_compute. reflexivity. Qed.
Example xmlurl_C2_16 : xmlurl_resolve baseC [103; 63; 121; 47; 46; 47; 120] = Some (rfc_resolve baseC [103; 63; 121; 47; 46; 47; 120]).   (* "g?y/./x" -> "http://a/b/c/g?y/./x" *)
Proof. vm_compute. reflexivity. Qed.
Example xmlurl_C2_17 : xmlurl_resolve baseC [103; 63; 121; 47; 46; 46; 47; 120] = Some (rfc_resolve baseC [103; 63; 121; 47; 46; 46; 47; 120]).   (* "g?y/../x" -> "http://a/b/c/g?y/../x" *)
Proof. vm_compute. reflexivity. Qed.
Example xmlurl_C2_18 : xmlurl_resolve baseC [103; 35; 115; 47; 46; 47; 120] = Some (rfc_resolve baseC [103; 35; 115; 47; 46; 47; 120]).   (* "g#s/./x" -> "http://a/b/c/g#s/./x" *)
Proof. vm_compute. reflexivity. Qed.
Example xmlurl_C2_19 : xmlurl_resolve baseC [103; 35; 115; 47; 46; 46; 47; 120] = Some (rfc_resolve baseC [103; 35; 115; 47; 46; 46; 47; 120]).   (* "g#s/../x" -> "http://a/b/c/g#s/../x" *)
Proof. vm_compute. reflexivity. Qed.
(* deviation: "http:g" -> library "NONE", RFC "http:g" *)
Example xmlurl_actual_C2_20 : xmlurl_resolve baseC [104; 116; 116; 112; 58; 103] = None.
Proof. vm_compute. reflexivity. Qed.
Lemma xmlurl_rfc_refuted_C2_20 : xmlurl_resolve baseC [104; 116; 116; 112; 58; 103] <> Some (rfc_resolve baseC [104; 116; 116; 112; 58; 103]).
Proof. vm_compute. discriminate. Qed.
(* ---- localfile_resolve against the same examples, base http://a/b/c/d;p?q; the stated values are what the real library returns ---- *)
(* deviation: "g:h" -> library "http://a/b/c/g:h", RFC "g:h" *)
Example localfile_actual_C1_01 : localfile_resolve baseC [103; 58; 104] = [104; 116; 116; 112; 58; 47; 47; 97; 47; 98; 47; 99; 47; 103; 58; 104].
Proof. vm_compute. reflexivity. Qed.
Lemma localfile_rfc_refuted_C1_01 : localfile_resolve baseC [103; 58; 104] <> rfc_resolve baseC [103; 58; 104].
Proof. vm_compute. discriminate. Qed.
Example localfile_C1_02 : localfile_resolve baseC [103] = rfc_resolve baseC [103].   (* "g" -> "http://a/b/c/g" *)
Proof. vm_compute. reflexivity. Qed.
Example localfile_C1_03 : localfile_resolve baseC [46; 47; 103] = rfc_resolve baseC [46; 47; 103].   (* "./g" -> "http://a/b/c/g" *)
Proof. vm_compute. reflexivity. Qed.
Example localfile_C1_04 : localfile_resolve baseC [103; 47] = rfc_resolve baseC [103; 47].   (* "g/" -> "http://a/b/c/g/" *)
Proof. vm_compute. reflexivity. Qed.
(* deviation: "/g" -> library "/g", RFC "http://a/g" *)
Example localfile_actual_C1_05 : localfile_resolve baseC [47; 103] = [47; 103].
Proof. vm_compute. reflexivity. Qed.
Lemma localfile_rfc_refuted_C1_05 : localfile_resolve baseC [47; 103] <> rfc_resolve baseC [47; 103].
Proof. vm_compute. discriminate. Qed.
(* deviation: "//g" -> library "//g", RFC "http://g" *)
Example localfile_actual_C1_06 : localfile_resolve baseC [47; 47; 103] = [47; 47; 103].
Proof. vm_compute. reflexivity. Qed.
Lemma localfile_rfc_refuted_C1_06 : localfile_resolve baseC [47; 47; 103] <> rfc_resolve baseC [47; 47; 103].
Proof. vm_compute. discriminate. Qed.
Example localfile_C1_07 : localfile_resolve baseC [63; 121] = rfc_resolve baseC [63; 121].   (* "?y" -> "http://a/b/c/?y" *)
Proof. vm_compute. reflexivity. Qed.
Example localfile_C1_08 : localfile_resolve baseC [103; 63; 121] = rfc_resolve baseC [103; 63; 121].   (* "g?y" -> "http://a/b/c/g?y" *)
Proof. vm_compute. reflexivity. Qed.
(* deviation: "#s" -> library "http://a/b/c/#s", RFC "http://a/b/c/d;p?q#s" *)
Example localfile_actual_C1_09 : localfile_resolve baseC [35; 115] = [104; 116; 116; 112; 58; 47; 47; 97; 47; 98; 47; 99; 47; 35; 115].
Proof. vm_compute. reflexivity. Qed.
Lemma localfile_rfc_refuted_C1_09 : localfile_resolve baseC [35; 115] <> rfc_resolve baseC [35; 115].
Proof. vm_compute. discriminate. Qed.
Example localfile_C1_10 : localfile_resolve baseC [103; 35; 115] = rfc_resolve baseC [103; 35; 115].   (* "g#s" -> "http://a/b/c/g#s" *)
Proof. vm_compute. reflexivity. Qed.
Example localfile_C1_11 : localfile_resolve baseC [103; 63; 121; 35; 115] = rfc_resolve baseC [103; 63; 121; 35; 115].   (* "g?y#s" -> "http://a/b/c/g?y#s" *)
Proof. vm_compute. reflexivity. Qed.
Example localfile_C1_12 : localfile_resolve baseC [59; 120] = rfc_resolve baseC [59; 120].   (* ";x" -> "http://a/b/c/;x" *)
Proof. vm_compute. reflexivity. Qed.
Example localfile_C1_13 : localfile_resolve baseC [103; 59; 120] = rfc_resolve baseC [103; 59; 120].   (* "g;x" -> "http://a/b/c/g;x" *)
Proof. vm_compute. reflexivity. Qed.
Example localfile_C1_14 : localfile_resolve baseC [103; 59; 120; 63; 121; 35; 115] = rfc_resolve baseC [103; 59; 120; 63; 121; 35; 115].   (* "g;x?y#s" -> "http://a/b/c/g;x?y#s" *)
Proof. vm_compute. reflexivity. Qed.
(* deviation: "." -> library "http://a/b/c/.", RFC "http://a/b/c/" *)
Example localfile_actual_C1_15 : localfile_resolve baseC [46] = [104; 116; 116; 112; 58; 47; 47; 97; 47; 98; 47; 99; 47; 46].
Proof. vm_compute. reflexivity. Qed.
Lemma localfile_rfc_refuted_C1_15 : localfile_resolve baseC [46] <> rfc_resolve baseC [46].
Proof. vm_compute. discriminate. Qed.
Example localfile_C1_16 : localfile_resolve baseC [46; 47] = rfc_resolve baseC [46; 47].   (* "./" -> "http://a/b/c/" *)
Proof. vm_compute. reflexivity. Qed.
(* deviation: ".." -> library "http://a/b/c/..", RFC "http://a/b/" *)
Example localfile_actual_C1_17 : localfile_resolve baseC [46; 46] = [104; 116; 116; 112; 58; 47; 47; 97; 47; 98; 47; 99; 47; 46; 46].
Proof. vm_compute. reflexivity. Qed.
Lemma localfile_rfc_refuted_C1_17 : localfile_resolve baseC [46; 46] <> rfc_resolve baseC [46; 46].
Proof. vm_compute. discriminate. Qed.
Example localfile_C1_18 : localfile_resolve baseC [46; 46; 47] = rfc_resolve baseC [46; 46; 47].   (* "../" -> "http://a/b/" *)
Proof. vm_compute. reflexivity. Qed.
Example localfile_C1_19 : localfile_resolve baseC [46; 46; 47; 103] = rfc_resolve baseC [46; 46; 47; 103].   (* "../g" -> "http://a/b/g" *)
Proof. vm_compute. reflexivity. Qed.
(* deviation: "../.." -> library "http://a/b/..", RFC "http://a/" *)
Example localfile_actual_C1_20 : localfile_resolve baseC [46; 46; 47; 46; 46] = [104; 116; 116; 112; 58; 47; 47; 97; 47; 98; 47; 46; 46].
Proof. vm_compute. reflexivity. Qed.
Lemma localfile_rfc_refuted_C1_20 : localfile_resolve baseC [46; 46; 47; 46; 46] <> rfc_resolve baseC [46; 46; 47; 46; 46].
Proof. vm_compute. discriminate. Qed.
Example localfile_C1_21 : localfile_resolve baseC [46; 46; 47; 46; 46; 47] = rfc_resolve baseC [46; 46; 47; 46; 46; 47].   (* "../../" -> "http://a/" *)
Proof. vm_compute. reflexivity. Qed.
Example localfile_C1_22 : localfile_resolve baseC [46; 46; 47; 46; 46; 47; 103] = rfc_resolve baseC [46; 46; 47; 46; 46; 47; 103].   (* "../../g" -> "http://a/g" *)
Proof. vm_compute. reflexivity. Qed.
(* deviation: "" -> library "-", RFC "http://a/b/c/d;p?q" *)
Example localfile_actual_C2_01 : localfile_resolve baseC [] = [].
Proof. vm_compute. reflexivity. Qed.
Lemma localfile_rfc_refuted_C2_01 : localfile_resolve baseC [] <> rfc_resolve baseC [].
Proof. vm_compute. discriminate. Qed.
(* deviation: "../../../g" -> library "http://g", RFC "http://a/../g" *)
Example localfile_actual_C2_02 : localfile_resolve baseC [46; 46; 47; 46; 46; 47; 46; 46; 47; 103] = [104; 116; 116; 112; 58; 47; 47; 103].
Proof. vm_compute. reflexivity. Qed.
Lemma localfile_rfc_refuted_C2_02 : localfile_resolve baseC [46; 46; 47; 46; 46; 47; 46; 46; 47; 103] <> rfc_resolve baseC [46; 46; 47; 46; 46; 47; 46; 46; 47; 103].
Proof. vm_compute. discriminate. Qed.
(* deviation: "../../../../g" -> library "http://../g", RFC "http://a/../../g" *)
Example localfile_actual_C2_03 : localfile_resolve baseC [46; 46; 47; 46; 46; 47; 46; 46; 47; 46; 46; 47; 103] = [104; 116; 116; 112; 58; 47; 47; 46; 46; 47; 103].
Proof. vm_compute. reflexivity. Qed.
Lemma localfile_rfc_refuted_C2_03 : localfile_resolve baseC [46; 46; 47; 46; 46; 47; 46; 46; 47; 46; 46; 47; 103] <> rfc_resolve baseC [46; 46; 47; 46; 46; 47; 46; 46; 47; 46; 46; 47; 103].
Proof. vm_compute. discriminate. Qed.
(* deviation: "/./g" -> library "/g", RFC "http://a/./g" *)
Example localfile_actual_C2_04 : localfile_resolve baseC [47; 46; 47; 103] = [47; 103].
Proof. vm_compute. reflexivity. Qed.
Lemma localfile_rfc_refuted_C2_04 : localfile_resolve baseC [47; 46; 47; 103] <> rfc_resolve baseC [47; 46; 47; 103].
Proof. vm_compute. discriminate. Qed.
(* deviation: "/../g" -> library "/../g", RFC "http://a/../g" *)
Example localfile_actual_C2_05 : localfile_resolve baseC [47; 46; 46; 47; 103] = [47; 46; 46; 47; 103].
Proof. vm_compute. reflexivity. Qed.
Lemma localfile_rfc_refuted_C2_05 : localfile_resolve baseC [47; 46; 46; 47; 103] <> rfc_resolve baseC [47; 46; 46; 47; 103].
Proof. vm_compute. discriminate. Qed.
Example localfile_C2_06 : localfile_resolve baseC [103; 46] = rfc_resolve baseC [103; 46].   (* "g." -> "http://a/b/c/g." *)
Proof. vm_compute. reflexivity. Qed.
Example localfile_C2_07 : localfile_resolve baseC [46; 103] = rfc_resolve baseC [46; 103].   (* ".g" -> "http://a/b/c/.g" *)
Proof. vm_compute. reflexivity. Qed.
Example localfile_C2_08 : localfile_resolve baseC [103; 46; 46] = rfc_resolve baseC [103; 46; 46].   (* "g.." -> "http://a/b/c/g.." *)
Proof. vm_compute. reflexivity. Qed.
Example localfile_C2_09 : localfile_resolve baseC [46; 46; 103] = rfc_resolve baseC [46; 46; 103].   (* "..g" -> "http://a/b/c/..g" *)
Proof. vm_compute. reflexivity. Qed.
Example localfile_C2_10 : localfile_resolve baseC [46; 47; 46; 46; 47; 103] = rfc_resolve baseC [46; 47; 46; 46; 47; 103].   (* "./../g" -> "http://a/b/g" *)
Proof. vm_compute. reflexivity. Qed.
(* deviation: "./g/." -> library "http://a/b/c/g/.", RFC "http://a/b/c/g/" *)
Example localfile_actual_C2_11 : localfile_resolve baseC [46; 47; 103; 47; 46] = [104; 116; 116; 112; 58; 47; 47; 97; 47; 98; 47; 99; 47; 103; 47; 46].
Proof. vm_compute. reflexivity. Qed.
Lemma localfile_rfc_refuted_C2_11 : localfile_resolve baseC [46; 47; 103; 47; 46] <> rfc_resolve baseC [46; 47; 103; 47; 46].
Proof. vm_compute. discriminate. Qed.
Example localfile_C2_12 : localfile_resolve baseC [103; 47; 46; 47; 104] = rfc_resolve baseC [103; 47; 46; 47; 104].   (* "g/./h" -> "http://a/b/c/g/h" *)
Proof. vm_compute. reflexivity. Qed.
Example localfile_C2_13 : localfile_resolve baseC [103; 47; 46; 46; 47; 104] = rfc_resolve baseC [103; 47; 46; 46; 47; 104].   (* "g/../h" -> "http://a/b/c/h" *)
Proof. vm_compute. reflexivity. Qed.
Example localfile_C2_14 : localfile_resolve baseC [103; 59; 120; 61; 49; 47; 46; 47; 121] = rfc_resolve baseC [103; 59; 120; 61; 49; 47; 46; 47; 121].   (* "g;x=1/./y" -> "http://a/b/c/g;x=1/y" *)
Proof. vm_compute. reflexivity. Qed.
Example localfile_C2_15 : localfile_resolve baseC [103; 59; 120; 61; 49; 47; 46; 46; 47; 121] = rfc_resolve baseC [103; 59; 120; 61; 49; 47; 46; 46; 47; 121].   (* "g;x=1/../y" -> "http://a/b/c/y" *)
Proof. vm_compute. reflexivity. Qed.
(* deviation: "g?y/./x" -> library "http://a/b/c/g?y/x", RFC "http://a/b/c/g?y/./x" *)
Example localfile_actual_C2_16 : localfile_resolve baseC [103; 63; 121; 47; 46; 47; 120] = [104; 116; 116; 112; 58; 47; 47; 97; 47; 98; 47; 99; 47; 103; 63; 121; 47; 120].
Proof. vm_compute. reflexivity. Qed.
Lemma localfile_rfc_refuted_C2_16 : localfile_resolve baseC [103; 63; 121; 47; 46; 47; 120] <> rfc_resolve baseC [103; 63; 121; 47; 46; 47; 120].
Proof. vm_compute. discriminate. Qed.
(* deviation: "g?y/../x" -> library "http://a/b/c/x", RFC "http://a/b/c/g?y/../x" *)
Example localfile_actual_C2_17 : localfile_resolve baseC [103; 63; 121; 47; 46; 46; 47; 120] = [104; 116; 116; 112; 58; 47; 47; 97; 47; 98; 47; 99; 47; 120].
Proof. vm_compute. reflexivity. Qed.
Lemma localfile_rfc_refuted_C2_17 : localfile_resolve baseC [103; 63; 121; 47; 46; 46; 47; 120] <> rfc_resolve baseC [103; 63; 121; 47; 46; 46; 47; 120].
Proof. vm_compute. discriminate. Qed.
(* deviation: "g#s/./x" -> library "http://a/b/c/g#s/x", RFC "http://a/b/c/g#s/./x" *)
Example localfile_actual_C2_18 : localfile_resolve baseC [103; 35; 115; 47; 46; 47; 120] = [104; 116; 116; 112; 58; 47; 47; 97; 47; 98; 47; 99; 47; 103; 35; 115; 47; 120].
Proof. vm_compute. reflexivity. Qed.
Lemma localfile_rfc_refuted_C2_18 : localfile_resolve baseC [103; 35; 115; 47; 46; 47; 120] <> rfc_resolve baseC [103; 35; 115; 47; 46; 47; 120].
Proof. vm_compute. discriminate. Qed.
(* deviation: "g#s/../x" -> library "http://a/b/c/x", RFC "http://a/b/c/g#s/../x" *)
Example localfile_actual_C2_19 : localfile_resolve baseC [103; 35; 115; 47; 46; 46; 47; 120] = [104; 116; 116; 112; 58; 47; 47; 97; 47; 98; 47; 99; 47; 120].
Proof. vm_compute. reflexivity. Qed.
Lemma localfile_rfc_refuted_C2_19 : localfile_resolve baseC [103; 35; 115; 47; 46; 46; 47; 120] <> rfc_resolve baseC [103; 35; 115; 47; 46; 46; 47; 120].
Proof. vm_compute. discriminate. Qed.
(* deviation: "http:g" -> library "http://a/b/c/http:g", RFC "http:g" *)
Example localfile_actual_C2_20 : localfile_resolve baseC [104; 116; 116; 112; 58; 103] = [104; 116; 116; 112; 58; 47; 47; 97; 47; 98; 47; 99; 47; 104; 116; 116; 112; 58; 103].
Proof. vm_compute. reflexivity. Qed.
Lemma localfile_rfc_refuted_C2_20 : localfile_resolve baseC [104; 116; 116; 112; 58; 103] <> rfc_resolve baseC [104; 116; 116; 112; 58; 103].
Proof. vm_compute. discriminate. Qed.
(* ---- localfile_resolve against the same examples, base /w/d1/doc.xml; the stated values are what the real library returns ---- *)
(* deviation: "g:h" -> library "/w/d1/g:h", RFC "g:h" *)
Example localfileF_actual_C1_01 : localfile_resolve baseF [103; 58; 104] = [47; 119; 47; 100; 49; 47; 103; 58; 104].
Proof. vm_compute. reflexivity. Qed.
Lemma localfileF_rfc_refuted_C1_01 : localfile_resolve baseF [103; 58; 104] <> rfc_resolve baseF [103; 58; 104].
Proof. vm_compute. discriminate. Qed.
Example localfileF_C1_02 : localfile_resolve baseF [103] = rfc_resolve baseF [103].   (* "g" -> "/w/d1/g" *)
Proof. vm_compute. reflexivity. Qed.
Example localfileF_C1_03 : localfile_resolve baseF [46; 47; 103] = rfc_resolve baseF [46; 47; 103].   (* "./g" -> "/w/d1/g" *)
Proof. vm_compute. reflexivity. Qed.
Example localfileF_C1_04 : localfile_resolve baseF [103; 47] = rfc_resolve baseF [103; 47].   (* "g/" -> "/w/d1/g/" *)
Proof. vm_compute. reflexivity. Qed.
Example localfileF_C1_05 : localfile_resolve baseF [47; 103] = rfc_resolve baseF [47; 103].   (* "/g" -> "/g" *)
Proof. vm_compute. reflexivity. Qed.
Example localfileF_C1_06 : localfile_resolve baseF [47; 47; 103] = rfc_resolve baseF [47; 47; 103].   (* "//g" -> "//g" *)
Proof. vm_compute. reflexivity. Qed.
Example localfileF_C1_07 : localfile_resolve baseF [63; 121] = rfc_resolve baseF [63; 121].   (* "?y" -> "/w/d1/?y" *)
Proof. vm_compute. reflexivity. Qed.
Example localfileF_C1_08 : localfile_resolve baseF [103; 63; 121] = rfc_resolve baseF [103; 63; 121].   (* "g?y" -> "/w/d1/g?y" *)
Proof. vm_compute. reflexivity. Qed.
(* deviation: "#s" -> library "/w/d1/#s", RFC "/w/d1/doc.xml#s" *)
Example localfileF_actual_C1_09 : localfile_resolve baseF [35; 115] = [47; 119; 47; 100; 49; 47; 35; 115].
Proof. vm_compute. reflexivity. Qed.
Lemma localfileF_rfc_refuted_C1_09 : localfile_resolve baseF [35; 115] <> rfc_resolve baseF [35; 115].
Proof. vm_compute. discriminate. Qed.
Example localfileF_C1_10 : localfile_resolve baseF [103; 35; 115] = rfc_resolve baseF [103; 35; 115].   (* "g#s" -> "/w/d1/g#s" *)
Proof. vm_compute. reflexivity. Qed.
Example localfileF_C1_11 : localfile_resolve baseF [103; 63; 121; 35; 115] = rfc_resolve baseF [103; 63; 121; 35; 115].   (* "g?y#s" -> "/w/d1/g?y#s" *)
Proof. vm_compute. reflexivity. Qed.
Example localfileF_C1_12 : localfile_resolve baseF [59; 120] = rfc_resolve baseF [59; 120].   (* ";x" -> "/w/d1/;x" *)
Proof. vm_compute. reflexivity. Qed.
Example localfileF_C1_13 : localfile_resolve baseF [103; 59; 120] = rfc_resolve baseF [103; 59; 120].   (* "g;x" -> "/w/d1/g;x" *)
Proof. vm_compute. reflexivity. Qed.
Example localfileF_C1_14 : localfile_resolve baseF [103; 59; 120; 63; 121; 35; 115] = rfc_resolve baseF [103; 59; 120; 63; 121; 35; 115].   (* "g;x?y#s" -> "/w/d1/g;x?y#s" *)
Proof. vm_compute. reflexivity. Qed.
(* deviation: "." -> library "/w/d1/.", RFC "/w/d1/" *)
Example localfileF_actual_C1_15 : localfile_resolve baseF [46] = [47; 119; 47; 100; 49; 47; 46].
Proof. vm_compute. reflexivity. Qed.
Lemma localfileF_rfc_refuted_C1_15 : localfile_resolve baseF [46] <> rfc_resolve baseF [46].
Proof. vm_compute. discriminate. Qed.
Example localfileF_C1_16 : localfile_resolve baseF [46; 47] = rfc_resolve baseF [46; 47].   (* "./" -> "/w/d1/" *)
Proof. vm_compute. reflexivity. Qed.
(* deviation: ".." -> library "/w/d1/..", RFC "/w/" *)
Example localfileF_actual_C1_17 : localfile_resolve baseF [46; 46] = [47; 119; 47; 100; 49; 47; 46; 46].
Proof. vm_compute. reflexivity. Qed.
Lemma localfileF_rfc_refuted_C1_17 : localfile_resolve baseF [46; 46] <> rfc_resolve baseF [46; 46].
Proof. vm_compute. discriminate. Qed.
Example localfileF_C1_18 : localfile_resolve baseF [46; 46; 47] = rfc_resolve baseF [46; 46; 47].   (* "../" -> "/w/" *)
Proof. vm_compute. reflexivity. Qed.
Example localfileF_C1_19 : localfile_resolve baseF [46; 46; 47; 103] = rfc_resolve baseF [46; 46; 47; 103].   (* "../g" -> "/w/g" *)
Proof. vm_compute. reflexivity. Qed.
(* deviation: "../.." -> library "/w/..", RFC "/" *)
Example localfileF_actual_C1_20 : localfile_resolve baseF [46; 46; 47; 46; 46] = [47; 119; 47; 46; 46].
Proof. vm_compute. reflexivity. Qed.
Lemma localfileF_rfc_refuted_C1_20 : localfile_resolve baseF [46; 46; 47; 46; 46] <> rfc_resolve baseF [46; 46; 47; 46; 46].
Proof. vm_compute. discriminate. Qed.
Example localfileF_C1_21 : localfile_resolve baseF [46; 46; 47; 46; 46; 47] = rfc_resolve baseF [46; 46; 47; 46; 46; 47].   (* "../../" -> "/" *)
Proof. vm_compute. reflexivity. Qed.
Example localfileF_C1_22 : localfile_resolve baseF [46; 46; 47; 46; 46; 47; 103] = rfc_resolve baseF [46; 46; 47; 46; 46; 47; 103].   (* "../../g" -> "/g" *)
Proof. vm_compute. reflexivity. Qed.
(* deviation: "" -> library "-", RFC "/w/d1/doc.xml" *)
Example localfileF_actual_C2_01 : localfile_resolve baseF [] = [].
Proof. vm_compute. reflexivity. Qed.
Lemma localfileF_rfc_refuted_C2_01 : localfile_resolve baseF [] <> rfc_resolve baseF [].
Proof. vm_compute. discriminate. Qed.
Example localfileF_C2_02 : localfile_resolve baseF [46; 46; 47; 46; 46; 47; 46; 46; 47; 103] = rfc_resolve baseF [46; 46; 47; 46; 46; 47; 46; 46; 47; 103].   (* "../../../g" -> "/../g" *)
Proof. vm_compute. reflexivity. Qed.
Example localfileF_C2_03 : localfile_resolve baseF [46; 46; 47; 46; 46; 47; 46; 46; 47; 46; 46; 47; 103] = rfc_resolve baseF [46; 46; 47; 46; 46; 47; 46; 46; 47; 46; 46; 47; 103].   (* "../../../../g" -> "/../../g" *)
Proof. vm_compute. reflexivity. Qed.
(* deviation: "/./g" -> library "/g", RFC "/./g" *)
Example localfileF_actual_C2_04 : localfile_resolve baseF [47; 46; 47; 103] = [47; 103].
Proof. vm_compute. reflexivity. Qed.
Lemma localfileF_rfc_refuted_C2_04 : localfile_resolve baseF [47; 46; 47; 103] <> rfc_resolve baseF [47; 46; 47; 103].
Proof. vm_compute. discriminate. Qed.
Example localfileF_C2_05 : localfile_resolve baseF [47; 46; 46; 47; 103] = rfc_resolve baseF [47; 46; 46; 47; 103].   (* "/../g" -> "/../g" *)
Proof. vm_compute. reflexivity. Qed.
Example localfileF_C2_06 : localfile_resolve baseF [103; 46] = rfc_resolve baseF [103; 46].   (* "g." -> "/w/d1/g." *)
Proof. vm_compute. reflexivity. Qed.
Example localfileF_C2_07 : localfile_resolve baseF [46; 103] = rfc_resolve baseF [46; 103].   (* ".g" -> "/w/d1/.g" *)
Proof. vm_compute. reflexivity. Qed.
Example localfileF_C2_08 : localfile_resolve baseF [103; 46; 46] = rfc_resolve baseF [103; 46; 46].   (* "g.." -> "/w/d1/g.." *)
Proof. vm_compute. reflexivity. Qed.
Example localfileF_C2_09 : localfile_resolve baseF [46; 46; 103] = rfc_resolve baseF [46; 46; 103].   (* "..g" -> "/w/d1/..g" *)
Proof. vm_compute. reflexivity. Qed.
Example localfileF_C2_10 : localfile_resolve baseF [46; 47; 46; 46; 47; 103] = rfc_resolve baseF [46; 47; 46; 46; 47; 103].   (* "./../g" -> "/w/g" *)
Proof. vm_compute. reflexivity. Qed.
(* deviation: "./g/." -> library "/w/d1/g/.", RFC "/w/d1/g/" *)
Example localfileF_actual_C2_11 : localfile_resolve baseF [46; 47; 103; 47; 46] = [47; 119; 47; 100; 49; 47; 103; 47; 46].
Proof. vm_compute. reflexivity. Qed.
Lemma localfileF_rfc_refuted_C2_11 : localfile_resolve baseF [46; 47; 103; 47; 46] <> rfc_resolve baseF [46; 47; 103; 47; 46].
Proof. vm_compute. discriminate. Qed.
Example localfileF_C2_12 : localfile_resolve baseF [103; 47; 46; 47; 104] = rfc_resolve baseF [103; 47; 46; 47; 104].   (* "g/./h" -> "/w/d1/g/h" *)
Proof. vm_compute. reflexivity. Qed.
Example localfileF_C2_13 : localfile_resolve baseF [103; 47; 46; 46; 47; 104] = rfc_resolve baseF [103; 47; 46; 46; 47; 104].   (* "g/../h" -> "/w/d1/h" *)
Proof. vm_compute. reflexivity. Qed.
Example localfileF_C2_14 : localfile_resolve baseF [103; 59; 120; 61; 49; 47; 46; 47; 121] = rfc_resolve baseF [103; 59; 120; 61; 49; 47; 46; 47; 121].   (* "g;x=1/./y" -> "/w/d1/g;x=1/y" *)
Proof. vm_compute. reflexivity. Qed.
Example localfileF_C2_15 : localfile_resolve baseF [103; 59; 120; 61; 49; 47; 46; 46; 47; 121] = rfc_resolve baseF [103; 59; 120; 61; 49; 47; 46; 46; 47; 121].   (* "g;x=1/../y" -> "/w/d1/y" *)
Proof. vm_compute. reflexivity. Qed.
(* deviation: "g?y/./x" -> library "/w/d1/g?y/x", RFC "/w/d1/g?y/./x" *)
Example localfileF_actual_C2_16 : localfile_resolve baseF [103; 63; 121; 47; 46; 47; 120] = [47; 119; 47; 100; 49; 47; 103; 63; 121; 47; 120].
Proof. vm_compute. reflexivity. Qed.
Lemma localfileF_rfc_refuted_C2_16 : localfile_resolve baseF [103; 63; 121; 47; 46; 47; 120] <> rfc_resolve baseF [103; 63; 121; 47; 46; 47; 120].
Proof. vm_compute. discriminate. Qed.
(* deviation: "g?y/../x" -> library "/w/d1/x", RFC "/w/d1/g?y/../x" *)
Example localfileF_actual_C2_17 : localfile_resolve baseF [103; 63; 121; 47; 46; 46; 47; 120] = [47; 119; 47; 100; 49; 47; 120].
Proof. vm_compute. reflexivity. Qed.
Lemma localfileF_rfc_refuted_C2_17 : localfile_resolve baseF [103; 63; 121; 47; 46; 46; 47; 120] <> rfc_resolve baseF [103; 63; 121; 47; 46; 46; 47; 120].
Proof. vm_compute. discriminate. Qed.
(* deviation: "g#s/./x" -> library "/w/d1/g#s/x", RFC "/w/d1/g#s/./x" *)
Example localfileF_actual_C2_18 : localfile_resolve baseF [103; 35; 115; 47; 46; 47; 120] = [47; 119; 47; 100; 49; 47; 103; 35; 115; 47; 120].
Proof. vm_compute. reflexivity. Qed.
Lemma localfileF_rfc_refuted_C2_18 : localfile_resolve baseF [103; 35; 115; 47; 46; 47; 120] <> rfc_resolve baseF [103; 35; 115; 47; 46; 47; 120].
Proof. vm_compute. discriminate. Qed.
(* deviation: "g#s/../x" -> library "/w/d1/x", RFC "/w/d1/g#s/../x" *)
Example localfileF_actual_C2_19 : localfile_resolve baseF [103; 35; 115; 47; 46; 46; 47; 120] = [47; 119; 47; 100; 49; 47; 120].
Proof. vm_compute. reflexivity. Qed.
Lemma localfileF_rfc_refuted_C2_19 : localfile_resolve baseF [103; 35; 115; 47; 46; 46; 47; 120] <> rfc_resolve baseF [103; 35; 115; 47; 46; 46; 47; 120].
Proof. vm_compute. discriminate. Qed.
(* deviation: "http:g" -> library "/w/d1/http:g", RFC "http:g" *)
Example localfileF_actual_C2_20 : localfile_resolve baseF [104; 116; 116; 112; 58; 103] = [47; 119; 47; 100; 49; 47; 104; 116; 116; 112; 58; 103].
Proof. vm_compute. reflexivity. Qed.
Lemma localfileF_rfc_refuted_C2_20 : localfile_resolve baseF [104; 116; 116; 112; 58; 103] <> rfc_resolve baseF [104; 116; 116; 112; 58; 103].
Proof. vm_compute. discriminate. Qed.

Example weave_rfc_segments_nonvacuous :
  let bs := [[119]; [100; 49]] in let ps := [[120; 46; 100; 116; 100]] in      (* /w/d1/ + ../x.dtd *)
  forallb plain_seg bs = true /\ plain_segs ps = true /\ (1 <= length bs)%nat /\
  join_slash (rm_dotdot [] (rm_dot_slash_segs ([] :: bs ++ repeat dd 1 ++ ps))) = [47; 119; 47; 120; 46; 100; 116; 100].
Proof. vm_compute. repeat split. lia. Qed.

(** localfile_resolve in terms of the segment functions *)
Lemma localfile_resolve_segments : forall base rel b0 b1 bt,
  path_is_relative rel = true -> split_slash base = b0 :: b1 :: bt ->
  localfile_resolve base rel =
  join_slash (rm_dotdot [] (rm_dot_slash_segs (removelast (split_slash base) ++ split_slash rel))).
Proof. intros base rel b0 b1 bt Hr Hs. unfold localfile_resolve, weave_paths. rewrite Hr, Hs. reflexivity. Qed.

(** ** samples for the finite statements: all references of at most 5 segments over a small alphabet *)
Fixpoint seqs (alpha : list str) (n : nat) : list (list str) :=
  match n with
  | O => []
  | S m => map (fun a => [a]) alpha ++ flat_map (fun t => map (fun a => a :: t) alpha) (seqs alpha m)
  end.
Definition refs_over (alpha : list str) (n : nat) : list str := map join_slash (seqs alpha n).
Definition alpha_plain : list str := [[97]; [98; 46; 99]; dd].              (* a  b.c  .. *)
Definition alpha_dots : list str := [[97]; [cDot]; dd; []].                 (* a  .  ..  (empty) *)
Definition depth (base : str) : nat := length (split_slash base) - 2.
Definition bases_path : list str :=
  [baseF; [47; 119; 47; 100; 49; 47]; [47; 100]; [47; 119; 47; 100; 49; 47; 100; 50; 47; 100; 51; 47; 120]].
     (* /w/d1/doc.xml   /w/d1/   /d   /w/d1/d2/d3/x *)
Definition baseU : str := [102; 105; 108; 101; 58; 47; 47; 47; 119; 47; 100; 49; 47; 100; 111; 99; 46; 120; 109; 108].
     (* file:///w/d1/doc.xml *)
Definition bases_uri : list str := [baseC; baseU; [104; 116; 116; 112; 58; 47; 47; 97; 47; 120]].   (* ... http://a/x *)

Example localfile_rfc_agree_nonvacuous :
  length (filter (fun r => plain_rel r && Nat.leb (updepth r) (depth baseF)) (refs_over alpha_plain 5)) = 106%nat.
Proof. vm_compute. reflexivity. Qed.

Definition rfc_resolve_in (pb : uriref) (ref : str) : str :=
  match scheme_split ref with Some _ => ref | None => recompose (rfc_resolve_parts pb (parse_uriref ref)) end.
Definition xmluri_resolve_in (xb : option xuri) (rel : str) : option str :=
  match xb with
  | None => None
  | Some b => match xuri_init (Some b) rel with Some u => Some (xuri_text u) | None => None end
  end.
Definition xmlurl_resolve_in (base : str) (ub : option url) (rel : str) : option str :=
  match (match xmlurl_parse rel with
         | None => None
         | Some u => if url_is_relative u && negb (is_nil base)
                     then match ub with None => None | Some b => conglomerate u b end
                     else Some u
         end) with
  | Some u => if url_is_relative u then None else Some (url_text u)
  | None => None
  end.
(** XMLUri and XMLURL::setURL against [rfc_resolve] on the samples; [parsed] puts the parsing of a base outside the
    loop over the references *)
Lemma rfc_resolve_in_eq : forall base r, rfc_resolve base r = rfc_resolve_in (parse_uriref base) r.
Proof. reflexivity. Qed.
Lemma xmluri_resolve_in_eq : forall base r, xmluri_resolve base r = xmluri_resolve_in (xuri_init None base) r.
Proof. reflexivity. Qed.
Lemma xmlurl_resolve_in_eq : forall base r, xmlurl_resolve base r = xmlurl_resolve_in base (xmlurl_parse base) r.
Proof. reflexivity. Qed.

Definition parsed (base : str) : str * option xuri * option url * uriref :=
  (base, xuri_init None base, xmlurl_parse base, parse_uriref base).

Lemma uri_bases_agree :
  let pbs := map parsed bases_uri in
  forallb (fun r => implb (plain_rel r)
    (forallb (fun '(base, xb, ub, pb) =>
       let t := rfc_resolve_in pb r in
       match xmluri_resolve_in xb r with Some t' => str_eqb t' t | None => false end &&
       match xmlurl_resolve_in base ub r with Some t' => str_eqb t' t | None => false end) pbs))
    (refs_over alpha_plain 5) = true.
Proof. vm_compute. reflexivity. Qed.

Lemma uri_bases_agree_at : forall base r, In base bases_uri -> In r (refs_over alpha_plain 5) -> plain_rel r = true ->
  match xmluri_resolve base r with Some t => str_eqb t (rfc_resolve base r) | None => false end = true /\
  match xmlurl_resolve base r with Some t => str_eqb t (rfc_resolve base r) | None => false end = true.
Proof.
  intros base r Hb Hr P. pose proof uri_bases_agree as L. cbv zeta in L.
  pose proof (proj1 (forallb_forall _ _) L r Hr) as Lr. cbv beta in Lr. rewrite P in Lr.
  rewrite rfc_resolve_in_eq, xmluri_resolve_in_eq, xmlurl_resolve_in_eq.
  exact (proj1 (andb_true_iff _ _) (proj1 (forallb_forall _ _) Lr _ (in_map parsed _ _ Hb))).
Qed.

Example plain_rel_nonvacuous : plain_rel [46; 46; 47; 120; 46; 100; 116; 100] = true /\ plain_rel [46; 47; 120] = false.
Proof. vm_compute. split; reflexivity. Qed.

(** [rfc_no_dot_segments_rel] on the samples; computed: these bases are hierarchical, these references free of ':' '?' '#' *)
Lemma rfc_no_dot_segments_partial :
  forallb (fun base => forallb (fun r =>
      implb (negb (starts_with [cSlash] r) && negb (is_nil r)) (no_dot_segments (rfc_resolve base r)))
    (refs_over alpha_dots 5)) (bases_uri ++ bases_path) = true.
Proof.
  apply forallb_forall. intros base Hb.
  assert (B : hier_dir base <> None).
  { assert (F : forallb (fun b => match hier_dir b with Some _ => true | None => false end) (bases_uri ++ bases_path) = true)
      by (vm_compute; reflexivity).
    apply (proj1 (forallb_forall _ _) F) in Hb. destruct (hier_dir base); [discriminate|discriminate Hb]. }
  apply forallb_forall. intros r Hr.
  assert (R : forallb (fun c => not_qh c && negb (c =? cColon)) r = true).
  { revert r Hr. apply forallb_forall. vm_compute. reflexivity. }
  destruct (starts_with [cSlash] r) eqn:Hs; [reflexivity|]. destruct (is_nil r) eqn:Hn; [reflexivity|].
  exact (rfc_no_dot_segments_rel base r B R Hn Hs).
Qed.

(** ** further confirmed deviations of the library from RFC 2396 (witnesses found by the differential test) *)
(* "x//../" : the empty segment is skipped and x is removed: /w/d1/doc.xml + a//../b -> /w/d1/b (RFC: /w/d1/a/b) *)
Example localfile_empty_segment_actual : localfile_resolve baseF [97; 47; 47; 46; 46; 47; 98] = [47; 119; 47; 100; 49; 47; 98].
Proof. vm_compute. reflexivity. Qed.
Example rfc_empty_segment : rfc_resolve baseF [97; 47; 47; 46; 46; 47; 98] = [47; 119; 47; 100; 49; 47; 97; 47; 98].
Proof. vm_compute. reflexivity. Qed.
Lemma localfile_rfc_refuted_empty_segment : localfile_resolve baseF [97; 47; 47; 46; 46; 47; 98] <> rfc_resolve baseF [97; 47; 47; 46; 46; 47; 98].
Proof. vm_compute. discriminate. Qed.
Lemma xmlurl_rfc_refuted_empty_segment : xmlurl_resolve baseU [97; 47; 47; 46; 46; 47; 98] <> Some (rfc_resolve baseU [97; 47; 47; 46; 46; 47; 98]).
Proof. vm_compute. discriminate. Qed.
Lemma xmluri_rfc_refuted_empty_segment : xmluri_resolve baseU [97; 47; 47; 46; 46; 47; 98] <> Some (rfc_resolve baseU [97; 47; 47; 46; 46; 47; 98]).
Proof. vm_compute. discriminate. Qed.
(* merged path exactly "/..": XMLUri::initialize step 6f computes index-1 with index = 0 and XMLString::subString throws
   ArrayIndexOutOfBoundsException (not a MalformedURLException): base http://a/x, reference ".." (RFC: http://a/..) *)
Example xmluri_slash_dotdot_actual : xmluri_resolve [104; 116; 116; 112; 58; 47; 47; 97; 47; 120] [46; 46] = None.
Proof. vm_compute. reflexivity. Qed.
Example rfc_slash_dotdot : rfc_resolve [104; 116; 116; 112; 58; 47; 47; 97; 47; 120] [46; 46] = [104; 116; 116; 112; 58; 47; 47; 97; 47; 46; 46].
Proof. vm_compute. reflexivity. Qed.
(* an absolute file: reference is re-serialised, not returned unchanged: file:/x/y -> file:///x/y *)
Example xmlurl_absolute_reserialised : xmlurl_resolve baseC [102; 105; 108; 101; 58; 47; 120; 47; 121] = Some [102; 105; 108; 101; 58; 47; 47; 47; 120; 47; 121].
Proof. vm_compute. reflexivity. Qed.
(* default_source: examples of the decision *)
Example default_source_file_url : default_source false baseU [46; 46; 47; 120; 37; 50; 48; 121; 46; 100; 116; 100] = Some {| ds_sysid := [102; 105; 108; 101; 58; 47; 47; 47; 119; 47; 120; 37; 50; 48; 121; 46; 100; 116; 100]; ds_open := TFile [47; 119; 47; 120; 32; 121; 46; 100; 116; 100] |}.
Proof. vm_compute. reflexivity. Qed.
Example default_source_plain_path : default_source false baseF [46; 46; 47; 120; 37; 50; 48; 121; 46; 100; 116; 100] = Some {| ds_sysid := [47; 119; 47; 120; 32; 121; 46; 100; 116; 100]; ds_open := TFile [47; 119; 47; 120; 32; 121; 46; 100; 116; 100] |}.
Proof. vm_compute. reflexivity. Qed.
Example default_source_plain_path_std : default_source true baseF [46; 46; 47; 120; 46; 100; 116; 100] = None.
Proof. vm_compute. reflexivity. Qed.
Example default_source_net : default_source true baseC [46; 46; 47; 103] = Some {| ds_sysid := [104; 116; 116; 112; 58; 47; 47; 97; 47; 98; 47; 103]; ds_open := TNet [104; 116; 116; 112; 58; 47; 47; 97; 47; 98; 47; 103] |}.
Proof. vm_compute. reflexivity. Qed.
Example default_source_std_fragment : default_source true baseU [120; 46; 100; 116; 100; 35; 102] = None /\ default_source false baseU [120; 46; 100; 116; 100; 35; 102] <> None.
Proof. vm_compute. split; [reflexivity|discriminate]. Qed.
Example default_source_bad_escape : default_bad_escape baseU [97; 37; 122; 122] = true /\ url_bad_escape [102; 105; 108; 101; 58; 47; 47; 47; 119; 47; 100; 49; 47; 97; 37; 122; 122] = true.
Proof. vm_compute. split; reflexivity. Qed.
