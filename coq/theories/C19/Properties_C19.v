(** Property C19 -- No external resource is touched unless permitted; entity expansion is bounded.
    The property theorems: each read off an invariant of the run (Proofs19a/b/h.v) or a lemma of ProofsUri19.v,
    or closed by [vm_compute] on a concrete witness; most are followed by [Print Assumptions].
    Models: Model19.v (gates, entity expansion), Uri19.v (URI resolution); Spec: Spec19.v, Uri19.rfc_resolve. *)
From XV Require Import Base.XDefs C19.Uri19 C19.Spec19 C19.Model19 C19.Proofs19a C19.Proofs19b
  C19.Proofs19h C19.ProofsUri19 Gen.GenGates C19.Gates19 Gen.GenOpens C19.Opens19.
Local Open Scope N_scope.

(** ** T19_no_fetch (full on the model): for every configuration, resolver, file system and document, every
    default stream the parse opens is of a kind the configuration permits -- also on a parser with
    useCachedGrammarInParse, for every content of the grammar pool: the pool lookup (resolveSystemId in
    scanDocTypeDecl / checkInternalDTD) consults the resolver and builds a source but opens nothing; the external
    subset is opened only under the same gate.  [run_c c rs fs None = run c rs fs]. *)
Theorem T19_no_fetch_cached : forall c rs fs uc x k t id,
  In (EvOpen k t id) (trace (run_c c rs fs uc x)) -> permitted c (has_subset x) k = true.
Proof.
  intros c rs fs uc x k t id H. apply (allowed_permitted c x k t id). apply in_rev in H.
  exact (proj1 (Forall_forall _ _) (run_fuel_c_allowed default_fuel c rs fs uc x) _ H).
Qed.
Print Assumptions T19_no_fetch_cached.

Theorem T19_no_fetch : forall c rs fs x k t id,
  In (EvOpen k t id) (trace (run c rs fs x)) -> permitted c (has_subset x) k = true.
Proof. intros c rs fs. exact (T19_no_fetch_cached c rs fs None). Qed.
Print Assumptions T19_no_fetch.

(** ... hence, under each of the four ways the property names to forbid a kind (default resolution disabled;
    external-DTD loading off and validation off; schema loading off; a scanner that ignores DTDs resp. schemas),
    the trace contains no Open event of that kind. *)
Theorem T19_no_fetch_forbidden : forall c rs fs x k t id,
  forbidden c (has_subset x) k -> ~ In (EvOpen k t id) (trace (run c rs fs x)).
Proof.
  intros c rs fs x k t id F H. pose proof (forbidden_not_permitted _ _ _ F) as Np.
  rewrite (T19_no_fetch _ _ _ _ _ _ _ H) in Np. discriminate.
Qed.
Print Assumptions T19_no_fetch_forbidden.

(** ** T19_resolver_first: with a resolver installed, every default open is immediately preceded by the resolver
    being offered exactly that identifier (with the declaration's base URI) and declining it, and the source
    opened is the default source for that identifier resolved against that base (or, when the declaration has
    no base URI, against the last external entity); a source returned by the resolver is the one used. *)
Theorem T19_resolver_first : forall c rs fs x pre k t id post,
  trace (run c rs fs x) = pre ++ EvOpen k t id :: post ->
  match rs with
  | None => True
  | Some f => exists pre' sys base pub b,
      pre = pre' ++ [EvResolve k sys base pub] /\ f sys base pub = None /\ (b = base \/ base = []) /\
      default_source (c_stdUri c) b sys = Some {| ds_sysid := id; ds_open := t |}
  end.
Proof.
  intros c rs fs x pre k t id post H. pose proof (run_fuel_resolver_first c rs fs default_fuel x) as A.
  unfold RInv in A. fold (run c rs fs x) in A. rewrite (trace_split _ _ _ _ H) in A. apply rf_ok_app in A.
  destruct A as [A _]. destruct rs as [f|]; [|exact I].
  destruct (rev pre) as [|[k' sys base pub| | | | | |] l0] eqn:P; try contradiction. destruct A as (-> & F & b & Hb & D).
  exists (rev l0), sys, base, pub, b. rewrite <- (rev_involutive pre), P. auto.
Qed.
Print Assumptions T19_resolver_first.

Theorem T19_resolver_source_used : forall c rs fs x pre k id post,
  trace (run c rs fs x) = pre ++ EvUse k id :: post ->
  exists f pre' sys base pub ct, rs = Some f /\ pre = pre' ++ [EvResolve k sys base pub] /\ f sys base pub = Some (id, ct).
Proof.
  intros c rs fs x pre k id post H. pose proof (run_fuel_resolver_first c rs fs default_fuel x) as A.
  unfold RInv in A. fold (run c rs fs x) in A. rewrite (trace_split _ _ _ _ H) in A. apply rf_ok_app in A.
  destruct A as [A _]. destruct rs as [f|]; [|contradiction].
  destruct (rev pre) as [|[k' sys base pub| | | | | |] l0] eqn:P; try contradiction. destruct A as (-> & ct & F).
  exists f, (rev l0), sys, base, pub, ct. rewrite <- (rev_involutive pre), P. auto.
Qed.
Print Assumptions T19_resolver_source_used.

(** ** T19_limit (full, for the expansions the scanners count: general entities in content and attribute values):
    with a SecurityManager limit L, in every run at most L expansions are accepted (startEntityReference /
    attribute-value expansion) and at most L+1 entity readers are pushed: the (L+1)-th is pushed, the counter
    exceeds the limit, EntityExpansionLimitExceeded ends the parse before anything is read from it. *)
Theorem T19_limit : forall c rs fs L x, c_limit c = Some L ->
  (cntE (trace (run c rs fs x)) <= L)%nat /\ (cntPc (c_countDtd c) (trace (run c rs fs x)) <= S L)%nat.
Proof.
  intros c rs fs L x H. destruct (run_fuel_counts default_fuel c rs fs x) as (A & _ & C). rewrite H in C.
  split; [apply C|]. fold (run c rs fs x) in A. rewrite A. apply C.
Qed.
Print Assumptions T19_limit.

(** ** T19_limit_per_parse (full on the parser-state model): on a parser object that is reused, whatever was parsed
    before, whatever the scanner's cached limit and counter are, and however the manager was installed / changed /
    the scanner switched, parse k returns exactly what a fresh run of document k returns under the
    SecurityManager limit in force when that parse starts (scanReset refreshes the limit and zeroes the counter);
    the verdicts of a whole history depend only on (scanner, manager installed?, manager's limit) at each parse. *)
Theorem T19_limit_per_parse : forall c rs fs p x,
  fst (parse_step c rs fs p x) = run (with_limit c (if ps_installed p then Some (ps_mgr p) else None)) rs fs x.
Proof.
  intros c rs fs p x. unfold parse_step, parse_with, ps_scan_reset, run. cbn [fst].
  destruct (ps_installed p) eqn:Ei; [|rewrite Ei]; reflexivity.
Qed.
Print Assumptions T19_limit_per_parse.
Theorem T19_limit_per_parse_history : forall ops c rs fs p,
  run_hist c rs fs p ops = hist_spec c rs fs (ps_installed p) (ps_mgr p) ops.
Proof.
  induction ops as [|op r IH]; intros c rs fs p; [reflexivity|].
  destruct op as [b|l|sc|x]; unfold run_hist in *; cbn [run_hist_with hist_spec].
  - rewrite IH. unfold ps_set_manager. destruct b; reflexivity.
  - rewrite IH. reflexivity.
  - rewrite IH. unfold ps_new_scanner, ps_set_manager. destruct (ps_installed p); reflexivity.
  - pose proof (T19_limit_per_parse c rs fs p x) as V. pose proof (parse_step_state c rs fs p x) as [S1 S2].
    unfold parse_step in V, S1, S2. destruct (parse_with ps_scan_reset c rs fs p x) as [s p'].
    cbn [fst snd] in V, S1, S2. rewrite V, IH, S1, S2. reflexivity.
Qed.
Print Assumptions T19_limit_per_parse_history.
(** ... hence T19_limit holds for every parse of every history, with the limit then in force *)
Theorem T19_limit_every_parse : forall c rs fs p x,
  ps_installed p = true ->
  (cntE (trace (fst (parse_step c rs fs p x))) <= ps_mgr p)%nat /\ (cntPc (c_countDtd c) (trace (fst (parse_step c rs fs p x))) <= S (ps_mgr p))%nat.
Proof.
  intros c rs fs p x Hi. rewrite T19_limit_per_parse, Hi.
  exact (T19_limit (with_limit c (Some (ps_mgr p))) rs fs (ps_mgr p) x eq_refl).
Qed.
Print Assumptions T19_limit_every_parse.

Definition cfgIG (lim : option nat) : cfg :=
  {| c_scanner := IG; c_val := VNever; c_doSchema := false; c_loadSchema := false; c_loadDTD := true;
     c_disableDefault := false; c_stdUri := false; c_limit := lim; c_countDtd := false |}.
Definition nofs : filesys := fun _ => None.
Definition nm (i : nat) : str := [99; 48 + N.of_nat i].                     (* "c0", "c1", ... *)
Definition docsys0 : str := [47; 100; 46; 120; 109; 108].                    (* /d.xml *)
Definition mkdoc (decls : list ditem) (atts : list (list piece)) (body : list piece) : doc :=
  {| d_sys := docsys0; d_doctype := Some {| dt_ext := None; dt_int := Some decls |}; d_atts := atts; d_hints := [];
     d_body := body |}.
(** a cycle c0 -> c1 -> ... -> c(k-1) -> c0, entered from content *)
Definition cycle_doc (k : nat) : doc :=
  mkdoc (map (fun i => DGE (nm i) (EInt [PTxt; PRef (nm (Nat.modulo (S i) k))])) (seq 0 k)) [] [PTxt; PRef (nm 0)].
Definition is_recursive (o : option fatal) : bool := match o with Some FRecursive => true | _ => false end.
Definition is_fuel (o : option fatal) : bool := match o with Some FFuel => true | _ => false end.

(** ** T19_limit, the uncounted side (known finding C19-F1): expansions performed by the DTD scanner are not
    counted -- limit 2, six parameter-entity references, accepted. *)
Definition pe_doc (n : nat) : doc :=
  mkdoc (DPE [112] (PInt [SGE [102] (EInt [PTxt])]) :: repeat (DPERef [112]) n) [] [PTxt].
Theorem T19_limit_dtd_side_refuted : exists c x,
  c_limit c = Some 2%nat /\ first_fatal (trace (run c None nofs x)) = None /\
  length (filter (fun e => match e with EvPushDtd _ => true | _ => false end) (trace (run c None nofs x))) = 6%nat.
Proof. exists (cfgIG (Some 2%nat)), (pe_doc 6). vm_compute. repeat split; reflexivity. Qed.
Print Assumptions T19_limit_dtd_side_refuted.

(** with the repair (fixes/C19-dtd-scanner-expansion-count.patch, [c_countDtd c = true]) T19_limit above bounds ALL
    entity readers, those pushed by the DTD scanner included, and the witness is rejected *)
Theorem T19_limit_repaired : forall c rs fs L x, c_limit c = Some L -> c_countDtd c = true ->
  (cntPc true (trace (run c rs fs x)) <= S L)%nat.
Proof. intros c rs fs L x H D. rewrite <- D. exact (proj2 (T19_limit c rs fs L x H)). Qed.
Print Assumptions T19_limit_repaired.
Example T19_limit_dtd_side_repaired :
  first_fatal (trace (run {| c_scanner := IG; c_val := VNever; c_doSchema := false; c_loadSchema := false;
                             c_loadDTD := true; c_disableDefault := false; c_stdUri := false;
                             c_limit := Some 2%nat; c_countDtd := true |} None nofs (pe_doc 6))) = Some FLimit.
Proof. vm_compute. reflexivity. Qed.

(** ** T19_limit_unaffected (full): documents within the limit are unaffected.  For EVERY configuration, resolver,
    file system and document: if the parse without a SecurityManager pushes at most L counted entity readers
    (content and attribute-value expansions; with the C19-F1 repair also the DTD scanner's), then the parse with
    limit L is the same run -- same events in the same order, same entity tables, same final state, hence no
    EntityExpansionLimitExceeded.  (Proofs19h.v: the counter never decreases + a two-run simulation through the
    nested fixpoints.)  Together with T19_limit: the limit changes a parse only by ending it at the (L+1)-th push. *)
Theorem T19_limit_unaffected : forall c rs fs L x,
  (cntPc (c_countDtd c) (trace (run (with_limit c None) rs fs x)) <= L)%nat ->
  run (with_limit c (Some L)) rs fs x = run (with_limit c None) rs fs x.
Proof. intros c rs fs L x H. apply run_fuel_unaffected. fold (run (with_limit c None) rs fs x). rewrite count_is_pushes. exact H. Qed.
Print Assumptions T19_limit_unaffected.
(** non-vacuity and tightness on entity-table families (flat, chain, binary tree): N expansions with limit N:
    identical run; limit N-1: rejected with EntityExpansionLimitExceeded *)
Definition e0 : str := [101; 48].
Definition flat_doc (n : nat) : doc := mkdoc [DGE e0 (EInt [PTxt])] [] (repeat (PRef e0) n).
Definition chain_doc (n : nat) : doc :=
  mkdoc (DGE (nm 0) (EInt [PTxt]) :: map (fun i => DGE (nm (S i)) (EInt [PTxt; PRef (nm i)])) (seq 0 n)) [] [PRef (nm n)].
Definition tree_doc (n : nat) : doc :=
  mkdoc (DGE (nm 0) (EInt [PTxt]) :: map (fun i => DGE (nm (S i)) (EInt [PRef (nm i); PRef (nm i)])) (seq 0 n)) []
        [PRef (nm n)].
Definition same_run (a b : st) : bool :=
  Nat.eqb (length (s_tr a)) (length (s_tr b)) && Bool.eqb (s_halt a) (s_halt b) && Nat.eqb (s_cnt a) (s_cnt b).
Definition unaffected_at (x : doc) (needed : nat) : bool :=
  same_run (run (cfgIG (Some needed)) None nofs x) (run (cfgIG None) None nofs x) &&
  negb (s_halt (run (cfgIG None) None nofs x)) &&
  Nat.eqb (cntE (trace (run (cfgIG None) None nofs x))) needed &&
  match needed with
  | O => true
  | S m => match first_fatal (trace (run (cfgIG (Some m)) None nofs x)) with Some FLimit => true | _ => false end
  end.
Example T19_limit_unaffected_examples :
  forallb (fun n => unaffected_at (flat_doc n) n) (seq 0 12) &&
  forallb (fun n => unaffected_at (chain_doc n) (S n)) (seq 0 8) &&
  forallb (fun n => unaffected_at (tree_doc n) (Nat.pow 2 (S n) - 1)) (seq 0 5) = true.
Proof. vm_compute. reflexivity. Qed.

(** the per-parse theorem is about scanReset: a parser whose scanReset does not refresh the limit / zero the counter
    (the same history run with [reset := id]) rejects an in-limit second document and accepts an over-limit one
    after the limit was lowered *)
Definition verdicts (l : list st) : list (option fatal) := map (fun s => first_fatal (trace s)) l.
Example T19_limit_per_parse_nonvacuous :
  verdicts (run_hist (cfgIG None) None nofs ps0 [HSetLimit 3; HInstall true; HParse (flat_doc 2); HParse (flat_doc 2);
                                                  HSetLimit 1; HParse (flat_doc 2)]) = [None; None; Some FLimit] /\
  verdicts (run_hist_with (fun p => p) (cfgIG None) None nofs ps0
              [HSetLimit 3; HInstall true; HParse (flat_doc 2); HParse (flat_doc 2); HSetLimit 1; HParse (flat_doc 2)])
    = [None; Some FLimit; Some FLimit].
Proof. vm_compute. split; reflexivity. Qed.

(** ** T19_recursion: a reference to an entity that is already on the reader stack is reported as
    RecursiveEntity (pushReaderAdoptEntity compares with the readers below the current one) ... *)
Theorem T19_recursion_detect : forall rec c rs fs nd ia ext cur stack n s g v,
  dtd_scanner c = true -> lookup n (s_ge s) = Some g -> g_def g = EInt v -> Model19.mem n stack = true ->
  expand_ref rec c rs fs nd ia ext cur stack n s = halt FRecursive s.
Proof.
  intros rec c rs fs nd ia ext cur stack n s g v D L G M. unfold expand_ref, push_ok. rewrite D, L, G, M. reflexivity.
Qed.
Print Assumptions T19_recursion_detect.

(** ... so every cycle is reported after at most |entities|+1 pushes and expansion terminates -- PARTIAL: shown by
    computation for cycles of every length 1..24 (RecursiveEntity after exactly max(k,2) pushes <= k+1; the
    direct self-reference is detected one level late because the current reader is not compared) and for the
    acyclic families above (no fuel error); the universal depth bound / fuel-unreachability is not proved. *)
Example T19_recursion_cycles_partial :
  forallb (fun k => is_recursive (first_fatal (trace (run (cfgIG None) None nofs (cycle_doc k)))) &&
                    Nat.eqb (cntP (trace (run (cfgIG None) None nofs (cycle_doc k)))) (Nat.max k 2) &&
                    Nat.leb (cntP (trace (run (cfgIG None) None nofs (cycle_doc k)))) (S k))
          (seq 1 24) = true.
Proof.
  (* the three tests share one named trace *)
  change (forallb (fun k => let t := trace (run (cfgIG None) None nofs (cycle_doc k)) in
                            is_recursive (first_fatal t) && Nat.eqb (cntP t) (Nat.max k 2) && Nat.leb (cntP t) (S k))
                  (seq 1 24) = true).
  vm_compute. reflexivity.
Qed.
Print Assumptions T19_recursion_cycles_partial.
Example T19_no_fuel_error_partial :
  forallb (fun n => negb (is_fuel (first_fatal (trace (run (cfgIG None) None nofs (chain_doc n)))))) (seq 0 40) &&
  forallb (fun n => negb (is_fuel (first_fatal (trace (run (cfgIG None) None nofs (tree_doc n)))))) (seq 0 8) = true.
Proof. vm_compute. reflexivity. Qed.

(** non-vacuity of the gate theorems: a document with an external subset, opened by default resolution, and the
    same document with default resolution disabled *)
Definition dtdsys : str := [109; 46; 100; 116; 100].                          (* m.dtd *)
Definition ext_doc : doc :=
  {| d_sys := docsys0; d_doctype := Some {| dt_ext := Some ([], dtdsys); dt_int := None |}; d_atts := []; d_hints := [];
     d_body := [PTxt] |}.
Definition fs1 : filesys := fun p => if str_eqb p [47; 109; 46; 100; 116; 100] then Some (CDtd []) else None.
Example T19_no_fetch_nonvacuous :
  trace (run (cfgIG None) None fs1 ext_doc) = [EvOpen KDtd (TFile [47; 109; 46; 100; 116; 100]) [47; 109; 46; 100; 116; 100]] /\
  trace (run {| c_scanner := IG; c_val := VNever; c_doSchema := false; c_loadSchema := false; c_loadDTD := true;
                c_disableDefault := true; c_stdUri := false; c_limit := None; c_countDtd := false |} None fs1 ext_doc) = [EvFatal FOpenFailed] /\
  trace (run {| c_scanner := IG; c_val := VNever; c_doSchema := false; c_loadSchema := false; c_loadDTD := false;
                c_disableDefault := false; c_stdUri := false; c_limit := None; c_countDtd := false |} None fs1 ext_doc) = [] /\
  trace (run (cfgIG None) (Some (fun _ _ _ => None)) fs1 ext_doc) =
    [EvResolve KDtd dtdsys docsys0 []; EvOpen KDtd (TFile [47; 109; 46; 100; 116; 100]) [47; 109; 46; 100; 116; 100]].
Proof. vm_compute. repeat split; reflexivity. Qed.

(** ** T19_resolve_rfc: URI resolution against RFC 2396 section 5.2 (details, all Appendix C examples and the
    [_rfc_refuted_] deviation lemmas: ProofsUri19.v) *)
Theorem T19_resolve_absolute : forall base ref sc rest,
  scheme_split ref = Some (sc, rest) -> rfc_resolve base ref = ref.
Proof. exact rfc_resolve_absolute. Qed.
Print Assumptions T19_resolve_absolute.
Theorem T19_resolve_no_dot_segments : forall l, dots_ok (rm_dots [] l) = true.
Proof. exact rm_dots_no_dot_segments. Qed.
Print Assumptions T19_resolve_no_dot_segments.
Theorem T19_resolve_idempotent : forall l, rm_dots [] (rm_dots [] l) = rm_dots [] l.
Proof. exact rm_dots_idempotent. Qed.
Print Assumptions T19_resolve_idempotent.
(** XMLPlatformUtils::weavePaths (LocalFileInputSource) = RFC 2396 5.2 step 6 on plain segments *)
Theorem T19_resolve_weave_rfc : forall bs k ps,
  forallb plain_seg bs = true -> plain_segs ps = true -> (k <= length bs)%nat ->
  rm_dotdot [] (rm_dot_slash_segs ([] :: bs ++ repeat dd k ++ ps)) = [] :: rm_dots [] (bs ++ repeat dd k ++ ps).
Proof. exact weave_rfc_segments. Qed.
Print Assumptions T19_resolve_weave_rfc.
(** agreement of the three resolvers with rfc_resolve on plain relative references: LocalFileInputSource by
    [localfile_rfc_agree]; XMLURL::setURL and XMLUri PARTIAL (one finite sweep on texts, [uri_bases_agree]) *)
Theorem T19_resolve_rfc_localfile_partial :
  forallb (fun base => forallb (fun r =>
      implb (plain_rel r && Nat.leb (updepth r) (depth base)) (str_eqb (localfile_resolve base r) (rfc_resolve base r)))
    (refs_over alpha_plain 5)) bases_path = true.
Proof.
  apply forallb_forall. intros base Hb. apply forallb_forall. intros r _.
  destruct (plain_rel r) eqn:Hr; [|reflexivity]. destruct (Nat.leb (updepth r) (depth base)) eqn:Hk; [|reflexivity].
  apply PeanoNat.Nat.leb_le in Hk. cbn [andb implb].
  assert (E : localfile_resolve base r = rfc_resolve base r); [|rewrite E; apply str_eqb_refl].
  cbn [bases_path In] in Hb.
  destruct Hb as [<-|[<-|[<-|[<-|[]]]]]; (eapply localfile_rfc_agree; [vm_compute; reflexivity..|exact Hr|exact Hk]).
Qed.
Theorem T19_resolve_rfc_xmlurl_partial :
  forallb (fun base => forallb (fun r =>
      implb (plain_rel r) (match xmlurl_resolve base r with Some t => str_eqb t (rfc_resolve base r) | None => false end))
    (refs_over alpha_plain 5)) bases_uri = true.
Proof.
  apply forallb_forall. intros base Hb. apply forallb_forall. intros r Hr.
  destruct (plain_rel r) eqn:P; [|reflexivity]. exact (proj2 (uri_bases_agree_at base r Hb Hr P)).
Qed.
Theorem T19_resolve_rfc_xmluri_partial :
  forallb (fun base => forallb (fun r =>
      implb (plain_rel r) (match xmluri_resolve base r with Some t => str_eqb t (rfc_resolve base r) | None => false end))
    (refs_over alpha_plain 5)) bases_uri = true.
Proof.
  apply forallb_forall. intros base Hb. apply forallb_forall. intros r Hr.
  destruct (plain_rel r) eqn:P; [|reflexivity]. exact (proj1 (uri_bases_agree_at base r Hb Hr P)).
Qed.
(** ** T19_resolve_inherits_authority (full): a relative reference without protocol and host resolved by the model of
    XMLURL::conglomerateWithBase against a base that has a host takes protocol, user, password, host AND port from
    the base; in the specification (RFC 2396 5.2 step 4) scheme and authority (userinfo@host:port as one unit) of
    the result are those of the base whenever the reference has neither. *)
Theorem T19_resolve_inherits_authority : forall u b r,
  conglomerate u b = Some r -> u_proto u = None -> u_host u = None -> opt_is_some (u_host b) = true ->
  u_proto r = u_proto b /\ u_user r = u_user b /\ u_pass r = u_pass b /\ u_host r = u_host b /\ u_port r = u_port b.
Proof.
  intros u b r H P Hu Hb. destruct (url_is_relative b) eqn:R; [unfold conglomerate in H; rewrite R in H; discriminate H|].
  destruct (conglomerate_authority u b P Hu Hb R) as (p & q & f & E). rewrite E in H. injection H as <-. cbn. auto.
Qed.
Print Assumptions T19_resolve_inherits_authority.
Theorem T19_resolve_rfc_inherits_authority : forall b r,
  r_scheme r = None -> r_auth r = None ->
  r_scheme (rfc_resolve_parts b r) = r_scheme b /\ r_auth (rfc_resolve_parts b r) = r_auth b.
Proof.
  intros b r Hs Ha. unfold rfc_resolve_parts. rewrite Hs, Ha.
  destruct (r_path r); [destruct (r_query r)|]; cbn; split; reflexivity.
Qed.
Print Assumptions T19_resolve_rfc_inherits_authority.
Example T19_resolve_inherits_authority_nonvacuous :     (* http://usr:pw@h:8080/d/doc.xml + ../e.dtd *)
  xmlurl_resolve [104;116;116;112;58;47;47;117;115;114;58;112;119;64;104;58;56;48;56;48;47;100;47;100;111;99;46;120;109;108]
                 [46;46;47;101;46;100;116;100]
  = Some [104;116;116;112;58;47;47;117;115;114;58;112;119;64;104;58;56;48;56;48;47;101;46;100;116;100].
Proof. vm_compute. reflexivity. Qed.

(** ** T19_unescape_once (full): the unescape loop of XMLURL::makeNewStream (find '%', check two hex digits, write
    the value, shift, resume the search AFTER the decoded character) equals the single-pass specification
    [pct_decode] on every input: every %hh is decoded exactly once, a malformed escape is an error in both, and
    what was already decoded never influences what happens to the rest. *)
Theorem T19_unescape_once : forall s, unescape_once s = pct_decode s.
Proof.
  intros s. unfold unescape_once. rewrite unesc_loop_spec by lia.
  destruct (pct_decode s); reflexivity.
Qed.
Print Assumptions T19_unescape_once.
Theorem T19_unescape_independent : forall f d1 d2 rest, (length rest < f)%nat ->
  option_map (fun x => skipn (length d1) x) (unesc_loop f d1 rest) =
  option_map (fun x => skipn (length d2) x) (unesc_loop f d2 rest).
Proof.
  intros f d1 d2 rest L. rewrite !unesc_loop_spec by exact L.
  destruct (pct_decode rest) as [d|]; cbn [option_map]; [|reflexivity].
  rewrite !skipn_app, !skipn_all, !PeanoNat.Nat.sub_diag. reflexivity.
Qed.
Print Assumptions T19_unescape_independent.
(** the variant that restarts the search ON the decoded character is refuted: "ent/a%2541.ent" must give
    "ent/a%41.ent", the variant gives "ent/aA.ent"; "%20", "%2B" and text without escapes do not tell the
    two apart *)
Definition pctA : str := [101;110;116;47;97;37;50;53;52;49;46;101;110;116].       (* ent/a%2541.ent *)
Example T19_unescape_restart_refuted :
  unescape_once pctA = Some [101;110;116;47;97;37;52;49;46;101;110;116] /\               (* ent/a%41.ent *)
  unescape_restart pctA = Some [101;110;116;47;97;65;46;101;110;116] /\                  (* ent/aA.ent *)
  unescape_restart pctA <> pct_decode pctA /\
  unescape_restart [97;37;50;48;98] = unescape_once [97;37;50;48;98] /\                   (* a%20b *)
  unescape_restart [97;37;50;66;98] = unescape_once [97;37;50;66;98] /\                   (* a%2Bb *)
  unescape_once [97;37;50;53;98] = Some [97;37;98] /\                                     (* a%25b -> a%b *)
  unescape_once [97;37;52] = None /\ unescape_once [37;52;71;49] = None.                  (* a%4 , %4G1 *)
Proof. vm_compute. repeat split; try reflexivity; try (intro H; inversion H). Qed.

(** deviation of the real code (known finding C19-F2), one witness per resolver *)
Theorem T19_resolve_rfc_refuted :
  localfile_resolve baseF [97; 47; 47; 46; 46; 47; 98] <> rfc_resolve baseF [97; 47; 47; 46; 46; 47; 98] /\
  xmlurl_resolve baseU [97; 47; 47; 46; 46; 47; 98] <> Some (rfc_resolve baseU [97; 47; 47; 46; 46; 47; 98]) /\
  xmluri_resolve baseU [97; 47; 47; 46; 46; 47; 98] <> Some (rfc_resolve baseU [97; 47; 47; 46; 46; 47; 98]).
Proof.
  exact (conj localfile_rfc_refuted_empty_segment (conj xmlurl_rfc_refuted_empty_segment xmluri_rfc_refuted_empty_segment)).
Qed.
Print Assumptions T19_resolve_rfc_refuted.

(** ** T-gate obligation (tie to the source, regenerated on every run): every stream-opening call site found in
    /repo is classified in the committed table Gates19.gate_table and carries the guards the table requires;
    no classified site has vanished. *)
Theorem T19_gate_inventory :
  forallb site_ok gate_sites = true /\
  forallb (fun e => match assoc (fst e) gate_sites with Some _ => true | None => false end) gate_table = true.
Proof. exact (conj gate_inventory_classified gate_inventory_complete). Qed.
Print Assumptions T19_gate_inventory.

(** ** T-open obligation (tie to the source, regenerated on every run): the WHOLE source tree (800 files, all
    platforms) is searched for the primitives that can open a file, socket or URL (makeStream, BinFileInputStream,
    makeNewStream / makeNew, net-accessor streams, XMLPlatformUtils::openFile*, the file managers' fopen /
    CreateFile, socket / connect / curl) and for constructions of file / URL / stdin input sources; every occurrence
    is classified in the committed table Opens19.open_table with its exact count, none has vanished, and every file
    that constructs such a source is one whose call sites T19_gate_inventory classifies with their guards. *)
Theorem T19_open_inventory :
  forallb open_site_ok open_sites = true /\ forallb open_entry_present open_table = true /\
  forallb (fun s => match is_source_key (fst s) with
                    | Some f => existsb (String.eqb f) gated_files
                    | None => true
                    end) open_sites = true.
Proof. exact (conj open_inventory_classified (conj open_inventory_complete open_sources_gated)). Qed.
Print Assumptions T19_open_inventory.
