(** C19 -- induction over the model, once: a state invariant that survives the primitive steps of the machine
    (halt, a reader pushed by the DTD scanner, one counted expansion, the event blocks of createReader and of
    the schema / DTD source builders, each under the guard the scanners put in front of it) holds at the end of
    every run.  Two instances about the trace: every default stream the model opens is guarded (T19_no_fetch),
    and the resolver is asked first (T19_resolver_first). *)
From XV Require Import Base.XDefs C19.Uri19 C19.Spec19 C19.Model19.
Local Open Scope N_scope.

(** the scanners' guard in front of a fetch of kind [k]; [v] = fValidate as the DOCTYPE leaves it *)
Definition kgate (c : cfg) (v : bool) (k : kind) : bool :=
  match k with
  | KDtd => dtd_scanner c && (c_loadDTD c || v)
  | KEnt | KPE => dtd_scanner c
  | KSchema => schema_scanner c && c_loadSchema c
  end.

Lemma dtd_scanner_handles : forall c, dtd_scanner c = handles_dtd (c_scanner c).
Proof. reflexivity. Qed.

Definition vflag (c : cfg) (x : doc) : bool :=
  match d_doctype x with Some dt => validating c dt | None => false end.

(** [schema_source] and [dtd_source] are one source builder, [schema_open] and [open_resolved] emit one event, up to
    the kind *)
Definition source_of (k : kind) (c : cfg) (rs : option resolver) (base sys pub : str) : list event * ssrc :=
  let ev1 := match rs with Some _ => [EvResolve k sys base pub] | None => [] end in
  match (match rs with Some f => f sys base pub | None => None end) with
  | Some (id, ct) => (ev1 ++ [EvUse k id], SsRes id ct)
  | None =>
    if c_disableDefault c then (ev1, SsNone)
    else match default_source (c_stdUri c) base sys with
         | None => (ev1, SsThrow)
         | Some d => (ev1, SsDef d)
         end
  end.
Definition open_events (k : kind) (x : ssrc) : list event :=
  match x with SsDef d => [EvOpen k (ds_open d) (ds_sysid d)] | _ => [] end.

Lemma schema_source_of : forall c rs base loc ns, schema_source c rs base loc ns = source_of KSchema c rs base loc ns.
Proof. reflexivity. Qed.
Lemma dtd_source_of : forall c rs base sys pub, dtd_source c rs base sys pub = source_of KDtd c rs base sys pub.
Proof. reflexivity. Qed.
Lemma schema_open_events : forall fs x ev ct, schema_open fs x = (ev, ct) -> ev = open_events KSchema x.
Proof. intros fs x ev ct E. destruct x; inversion E; reflexivity. Qed.
Lemma open_resolved_events : forall fs x ev r, open_resolved fs x = (ev, r) -> ev = open_events KDtd x.
Proof. intros fs x ev r E. destruct x; inversion E; reflexivity. Qed.

Lemma content_O : forall c rs fs nd ia ext cur stk ps s,
  content O c rs fs nd ia ext cur stk ps s = if s_halt s then s else halt FFuel s.
Proof. reflexivity. Qed.
Lemma content_S : forall d c rs fs nd ia ext cur stk ps s,
  content (S d) c rs fs nd ia ext cur stk ps s =
  fold_left (fun s p => match p with
                        | PTxt => s
                        | PRef n => if s_halt s then s else expand_ref (content d c rs fs nd) c rs fs nd ia ext cur stk n s
                        end) ps s.
Proof. intros d c rs fs nd ia ext cur stk ps. induction ps as [|[|n] r IH]; intros s; [reflexivity|apply IH|apply IH]. Qed.

Lemma dtd_att_O : forall c nd ext cur stk ps s, dtd_att O c nd ext cur stk ps s = if s_halt s then s else halt FFuel s.
Proof. reflexivity. Qed.
Lemma dtd_att_S : forall d c nd ext cur stk ps s,
  dtd_att (S d) c nd ext cur stk ps s =
  fold_left (fun s p => match p with
                        | PTxt => s
                        | PRef n => if s_halt s then s else dtd_att_ref (dtd_att d c nd) c nd ext cur stk n s
                        end) ps s.
Proof. intros d c nd ext cur stk ps. induction ps as [|[|n] r IH]; intros s; [reflexivity|apply IH|apply IH]. Qed.

Lemma dtd_items_O : forall c rs fs nd ext cur stk l s,
  dtd_items O c rs fs nd ext cur stk l s = if s_halt s then s else halt FFuel s.
Proof. reflexivity. Qed.
Lemma dtd_items_S : forall d c rs fs nd ext cur stk l s,
  dtd_items (S d) c rs fs nd ext cur stk l s =
  fold_left (fun s it => if s_halt s then s
                         else dtd_item (dtd_items d c rs fs nd) (dtd_att d c nd) c rs fs ext cur stk it s) l s.
Proof. intros d c rs fs nd ext cur stk l. induction l as [|it r IH]; intros s; [reflexivity|apply IH]. Qed.

Lemma schema_refs_O : forall c rs fs url tns l s,
  schema_refs O c rs fs url tns l s = if s_halt s then s else halt FFuel s.
Proof. reflexivity. Qed.
Lemma schema_refs_S : forall d c rs fs url tns l s,
  schema_refs (S d) c rs fs url tns l s =
  fold_left (fun s r => if s_halt s then s else schema_ref (schema_refs d c rs fs) c rs fs url tns r s) l s.
Proof. intros d c rs fs url tns l. induction l as [|r rest IH]; intros s; [reflexivity|apply IH]. Qed.

Lemma fold_left_inv : forall (A : Type) (Inv : st -> Prop) (f : st -> A -> st) l,
  (forall s x, Inv s -> Inv (f s x)) -> forall s, Inv s -> Inv (fold_left f l s).
Proof. intros A Inv f l Hf. induction l as [|x l IH]; intros s Hs; [exact Hs|]. apply IH. apply Hf. exact Hs. Qed.

Section Generic.
Variables (c : cfg) (rs : option resolver) (fs : filesys) (v : bool).
Variable Inv : st -> Prop.
(** [Inv] looks at the trace, the counter and the halt flag only (not at the entity and grammar tables) *)
Hypothesis Inv_obs : forall s s', s_tr s' = s_tr s -> s_cnt s' = s_cnt s -> s_halt s' = s_halt s -> Inv s -> Inv s'.
Hypothesis Inv_halt : forall f s, Inv s -> Inv (halt f s).
Hypothesis Inv_push_dtd : forall n s, s_halt s = false -> Inv s -> Inv (push_dtd c n s).
(** the counted step of scanEntityRef: push, ++count, compare with the limit, then startEntityReference *)
Hypothesis Inv_counted : forall ia n s, s_halt s = false -> Inv s ->
  Inv (let s2 := incr (emit [EvPush n] s) in
       if over_limit c s2 then halt FLimit s2 else emit [EvExpand ia n] s2).
(** the resolver is offered [rb], the declaration's base as is; the default source resolves against [b]: the same,
    or the last external entity's system id when [rb] is empty *)
Hypothesis Inv_cr : forall k rb b sys pub ev r s,
  kgate c v k = true -> (b = rb \/ rb = []) -> create_reader c rs fs k rb b sys pub = (ev, r) -> Inv s -> Inv (emit ev s).
Hypothesis Inv_src : forall k base sys pub ev src s,
  source_of k c rs base sys pub = (ev, src) -> Inv s -> Inv (emit ev s).
Hypothesis Inv_open : forall k base sys pub ev src s,
  kgate c v k = true -> source_of k c rs base sys pub = (ev, src) -> Inv s -> Inv (emit (open_events k src) (emit ev s)).

Lemma g_expand_ref : forall (rec : rec_content) nd ia ext cur stk n,
  (forall ia ext cur stk ps s, Inv s -> Inv (rec ia ext cur stk ps s)) ->
  forall s, s_halt s = false -> Inv s -> Inv (expand_ref rec c rs fs nd ia ext cur stk n s).
Proof.
  intros rec nd ia ext cur stk n IH s Hh Hs. unfold expand_ref.
  destruct (dtd_scanner c) eqn:DS; [|apply Inv_halt; exact Hs]. cbn [negb].
  destruct (lookup n (s_ge s)) as [g|]; [|destruct nd; [apply Inv_halt|]; exact Hs].
  assert (K : forall ext' ps s1, s_halt s1 = false -> Inv s1 ->
    Inv (let s2 := incr (emit [EvPush n] s1) in
         if over_limit c s2 then halt FLimit s2
         else rec ia ext' (Some n) (push_stack cur stk) ps (emit [EvExpand ia n] s2))).
  { intros ext' ps s1 H1 I1. pose proof (Inv_counted ia n s1 H1 I1) as K. cbv zeta in *.
    destruct (over_limit c _); [exact K|apply IH; exact K]. }
  destruct (g_def g) as [vv|pub sys].
  - destruct (negb (push_ok n stk)); [apply Inv_halt; exact Hs|]. apply K; assumption.
  - destruct ia; [apply Inv_halt; exact Hs|].
    destruct (create_reader c rs fs KEnt (g_base g) _ sys pub) as [ev r] eqn:E.
    assert (H1 : Inv (emit ev s)).
    { eapply (Inv_cr KEnt); [exact DS| |exact E|exact Hs]. destruct (g_base g); [right|left]; reflexivity. }
    destruct r as [id ct| |f]; [|apply Inv_halt; exact H1|apply Inv_halt; exact H1].
    destruct (negb (push_ok n stk)); [apply Inv_halt; exact H1|].
    destruct ct as [[items|ps|refs]|]; try exact (Inv_counted false n (emit ev s) Hh H1).
    apply K; assumption.
Qed.

Lemma g_content : forall d nd ia ext cur stk ps s, Inv s -> Inv (content d c rs fs nd ia ext cur stk ps s).
Proof.
  induction d as [|d IHd]; intros nd ia ext cur stk ps s Hs.
  - rewrite content_O. destruct (s_halt s); [exact Hs|apply Inv_halt; exact Hs].
  - rewrite content_S. apply fold_left_inv; [|exact Hs]. intros s' [|n] Hs'; [exact Hs'|].
    destruct (s_halt s') eqn:Hh; [exact Hs'|]. apply g_expand_ref; [|exact Hh|exact Hs']. intros. apply IHd. assumption.
Qed.

Lemma g_dtd_att_ref : forall (rec : rec_att) nd ext cur stk n,
  (forall ext cur stk ps s, Inv s -> Inv (rec ext cur stk ps s)) ->
  forall s, s_halt s = false -> Inv s -> Inv (dtd_att_ref rec c nd ext cur stk n s).
Proof.
  intros rec nd ext cur stk n IH s Hh Hs. unfold dtd_att_ref.
  destruct (lookup n (s_ge s)) as [g|]; [|destruct nd; [apply Inv_halt|]; exact Hs].
  destruct (g_def g); [|apply Inv_halt; exact Hs].
  destruct (negb (push_ok n stk)); [apply Inv_halt; exact Hs|].
  apply IH. apply Inv_push_dtd; assumption.
Qed.

Lemma g_dtd_att : forall d nd ext cur stk ps s, Inv s -> Inv (dtd_att d c nd ext cur stk ps s).
Proof.
  induction d as [|d IHd]; intros nd ext cur stk ps s Hs.
  - rewrite dtd_att_O. destruct (s_halt s); [exact Hs|apply Inv_halt; exact Hs].
  - rewrite dtd_att_S. apply fold_left_inv; [|exact Hs]. intros s' [|n] Hs'; [exact Hs'|].
    destruct (s_halt s') eqn:Hh; [exact Hs'|]. apply g_dtd_att_ref; [|exact Hh|exact Hs']. intros. apply IHd. assumption.
Qed.

Section Dtd.
Hypothesis DS : dtd_scanner c = true.

Lemma g_dtd_item : forall (rec : rec_dtd) (datt : rec_att) ext cur stk it,
  (forall ext cur stk l s, Inv s -> Inv (rec ext cur stk l s)) ->
  (forall ext cur stk l s, Inv s -> Inv (datt ext cur stk l s)) ->
  forall s, s_halt s = false -> Inv s -> Inv (dtd_item rec datt c rs fs ext cur stk it s).
Proof.
  intros rec datt ext cur stk it IH IHa s Hh Hs. unfold dtd_item.
  destruct it as [n def|n def|n|vv].
  - destruct (lookup n (s_ge s)); [exact Hs|]. apply (Inv_obs s); [reflexivity..|exact Hs].
  - destruct (lookup n (s_pe s)); [exact Hs|]. apply (Inv_obs s); [reflexivity..|exact Hs].
  - destruct (lookup n (s_pe s)) as [p|]; [|exact Hs].
    destruct (p_def p) as [vv|pub sys].
    + destruct (negb (push_ok n stk)); [apply Inv_halt; exact Hs|].
      apply IH. apply Inv_push_dtd; assumption.
    + destruct (create_reader c rs fs KPE (p_base p) _ sys pub) as [ev r] eqn:E.
      assert (H1 : Inv (emit ev s)).
      { eapply (Inv_cr KPE); [exact DS| |exact E|exact Hs]. destruct (p_base p); [right|left]; reflexivity. }
      destruct r as [id ct| |f]; [|apply Inv_halt; exact H1|apply Inv_halt; exact H1].
      destruct (negb (push_ok n stk)); [apply Inv_halt; exact H1|].
      assert (H2 : Inv (push_dtd c n (emit ev s))) by (apply Inv_push_dtd; [exact Hh|exact H1]).
      destruct ct as [[items|ps|refs]|]; try exact H2. apply IH. exact H2.
  - apply IHa. exact Hs.
Qed.

Lemma g_dtd_items : forall d nd ext cur stk l s, Inv s -> Inv (dtd_items d c rs fs nd ext cur stk l s).
Proof.
  induction d as [|d IHd]; intros nd ext cur stk l s Hs.
  - rewrite dtd_items_O. destruct (s_halt s); [exact Hs|apply Inv_halt; exact Hs].
  - rewrite dtd_items_S. apply fold_left_inv; [|exact Hs]. intros s' it Hs'.
    destruct (s_halt s') eqn:Hh; [exact Hs'|]. apply g_dtd_item; [| |exact Hh|exact Hs'].
    + intros. apply IHd. assumption.
    + intros. apply g_dtd_att. assumption.
Qed.

End Dtd.

Lemma g_scan_doctype : forall d nd docsys dt s, validating c dt = v -> Inv s -> Inv (scan_doctype d c rs fs nd docsys dt s).
Proof.
  intros d nd docsys dt s V Hs. unfold scan_doctype.
  destruct (dtd_scanner c) eqn:DS; [|exact Hs]. cbn [negb].
  assert (H1 : Inv (match dt_int dt with Some items => dtd_items d c rs fs nd docsys None [] items s | None => s end)).
  { destruct (dt_int dt); [apply g_dtd_items; assumption|exact Hs]. }
  destruct (s_halt _); [exact H1|].
  destruct (dt_ext dt) as [[pub sys]|]; [|exact H1].
  destruct (c_loadDTD c || validating c dt) eqn:G; [|exact H1].
  destruct (create_reader c rs fs KDtd docsys docsys sys pub) as [ev r] eqn:E.
  assert (H2 : Inv (emit ev (match dt_int dt with Some items => dtd_items d c rs fs nd docsys None [] items s | None => s end))).
  { eapply (Inv_cr KDtd); [|left; reflexivity|exact E|exact H1]. cbn [kgate]. rewrite DS, <- V, G. reflexivity. }
  destruct r as [id ct| |f]; [|apply Inv_halt; exact H2|apply Inv_halt; exact H2].
  destruct ct as [[items|ps|refs]|]; try exact H2. apply g_dtd_items; assumption.
Qed.

Section Schema.
Hypothesis GS : kgate c v KSchema = true.

Lemma g_schema_open : forall (k : list sref -> st -> st) base loc ns ev src s,
  (forall refs s, Inv s -> Inv (k refs s)) ->
  source_of KSchema c rs base loc ns = (ev, src) -> Inv s ->
  Inv (let '(ev2, ct) := schema_open fs src in
       let s2 := emit ev2 (emit ev s) in
       match ct with
       | SoGot (CSchema refs) => k refs s2
       | SoThrow f => halt f s2
       | _ => s2
       end).
Proof.
  intros k base loc ns ev src s Hk E Hs. destruct (schema_open fs src) as [ev2 ct] eqn:E2.
  rewrite (schema_open_events _ _ _ _ E2). cbv zeta.
  assert (H2 : Inv (emit (open_events KSchema src) (emit ev s))) by (eapply Inv_open; eassumption).
  destruct ct as [[items|ps|refs]| |f]; try exact H2; [apply Hk|apply Inv_halt]; exact H2.
Qed.

Lemma g_schema_ref : forall (rec : rec_schema) url tns r,
  (forall url tns refs s, Inv s -> Inv (rec url tns refs s)) ->
  forall s, Inv s -> Inv (schema_ref rec c rs fs url tns r s).
Proof.
  intros rec url tns r IH s Hs. unfold schema_ref.
  destruct (schema_source c rs url (sr_loc r) _) as [ev src] eqn:E. rewrite schema_source_of in E.
  assert (H1 : Inv (emit ev s)) by (eapply Inv_src; eassumption).
  assert (K : forall id tns' refs s2, Inv s2 ->
    Inv (rec id tns' refs (add_seen id (match sr_kind r with SImport => add_ns (sr_ns r) s2 | SInclude => s2 end)))).
  { intros id tns' refs s2 H2. apply IH. apply (Inv_obs s2); [destruct (sr_kind r); reflexivity..|exact H2]. }
  (* [SsRes] and [SsDef] take the same branch *)
  destruct src; [exact H1|apply Inv_halt; exact H1| |].
  all: cbv zeta; destruct (mem _ (s_seen _)); [exact H1|].
  all: destruct (match sr_kind r with SImport => _ | SInclude => false end); [exact H1|].
  all: exact (g_schema_open _ _ _ _ _ _ _ (K _ _) E Hs).
Qed.

Lemma g_schema_refs : forall d url tns l s, Inv s -> Inv (schema_refs d c rs fs url tns l s).
Proof.
  induction d as [|d IHd]; intros url tns l s Hs.
  - rewrite schema_refs_O. destruct (s_halt s); [exact Hs|apply Inv_halt; exact Hs].
  - rewrite schema_refs_S. apply fold_left_inv; [|exact Hs]. intros s' r Hs'.
    destruct (s_halt s'); [exact Hs'|]. apply g_schema_ref; [|exact Hs']. intros. apply IHd. assumption.
Qed.
End Schema.

Lemma g_schema_hint : forall d docsys h s, schema_scanner c = true -> Inv s -> Inv (schema_hint d c rs fs docsys h s).
Proof.
  intros d docsys h s SS Hs. unfold schema_hint.
  destruct (s_halt s); [exact Hs|]. destruct (mem (h_ns h) (s_ns s)); [exact Hs|].
  destruct (c_loadSchema c) eqn:LS; [|exact Hs]. cbn [negb].
  assert (GS : kgate c v KSchema = true) by (cbn [kgate]; rewrite SS, LS; reflexivity).
  destruct (schema_source c rs docsys (h_loc h) (h_ns h)) as [ev src] eqn:E. rewrite schema_source_of in E.
  assert (H1 : Inv (emit ev s)) by (eapply Inv_src; eassumption).
  assert (K : forall id refs s2, Inv s2 -> Inv (schema_refs d c rs fs id (h_ns h) refs (add_seen id (add_ns (h_ns h) s2)))).
  { intros id refs s2 H2. apply g_schema_refs; [exact GS|]. apply (Inv_obs s2); [reflexivity..|exact H2]. }
  destruct src; [exact H1|apply Inv_halt; exact H1| |].
  all: cbv zeta; destruct (mem _ (s_seen _)); [exact H1|].
  all: exact (g_schema_open GS _ _ _ _ _ _ _ (K _) E Hs).
Qed.

Lemma g_scan_hints : forall d docsys hs s, schema_scanner c = true -> Inv s -> Inv (scan_hints d c rs fs docsys hs s).
Proof.
  intros d docsys hs. induction hs as [|h r IH]; intros s SS Hs; cbn [scan_hints]; [exact Hs|].
  apply IH; [exact SS|]. apply g_schema_hint; assumption.
Qed.

Lemma g_scan_atts : forall d nd docsys atts s, Inv s -> Inv (scan_atts d c rs fs nd docsys atts s).
Proof.
  intros d nd docsys atts. induction atts as [|a r IH]; intros s Hs; cbn [scan_atts]; [exact Hs|].
  apply IH. apply g_content. exact Hs.
Qed.

Lemma g_scan_doctype_c : forall d nd docsys dt uc s,
  validating c dt = v -> Inv s -> Inv (scan_doctype_c d c rs fs nd docsys dt uc s).
Proof.
  intros d nd docsys dt uc s V Hs. unfold scan_doctype_c.
  destruct uc as [pl|]; [|apply g_scan_doctype; assumption].
  destruct (dt_ext dt) as [[pub sys]|] eqn:DE; [|destruct (dt_int dt); apply g_scan_doctype; assumption].
  destruct (dt_int dt) eqn:DI.
  all: destruct (dtd_scanner c) eqn:DS; [|exact Hs]; cbn [negb].
  all: destruct (dtd_source c rs docsys sys pub) as [ev src] eqn:E; rewrite dtd_source_of in E.
  all: assert (H1 : Inv (emit ev s)) by (eapply Inv_src; eassumption).
  all: destruct src; [apply g_scan_doctype; assumption|apply Inv_halt; exact H1| |].
  (* [SsRes] and [SsDef] take the same branch; first checkInternalDTD, then the pool look-up *)
  1,2: destruct (lookup _ pl); [apply Inv_halt; exact H1|apply g_scan_doctype; assumption].
  all: destruct (lookup _ pl); [apply (Inv_obs (emit ev s)); [reflexivity..|exact H1]|].
  all: destruct (c_loadDTD c || validating c dt) eqn:G; [|exact H1].
  all: destruct (open_resolved fs _) as [ev2 r] eqn:E2; rewrite (open_resolved_events _ _ _ _ E2); cbv zeta.
  all: assert (H2 : Inv (emit (open_events KDtd _) (emit ev s)))
           by (eapply Inv_open; [cbn [kgate]; rewrite DS, <- V, G; reflexivity|exact E|exact Hs]).
  all: destruct r as [id' ct'| |f]; [|apply Inv_halt; exact H2|apply Inv_halt; exact H2].
  all: destruct ct' as [[items|ps|refs]|]; try exact H2; apply g_dtd_items; assumption.
Qed.

Hypothesis Inv_st0 : Inv st0.

Lemma g_run_fuel_c : forall d uc x, vflag c x = v -> Inv (run_fuel_c d c rs fs uc x).
Proof.
  intros d uc x V. unfold run_fuel_c. apply g_content.
  assert (H1 : Inv (match d_doctype x with
                    | Some dt => scan_doctype_c d c rs fs (no_dtd x) (d_sys x) dt uc st0
                    | None => st0
                    end)).
  { unfold vflag in V. destruct (d_doctype x) as [dt|]; [|exact Inv_st0]. apply g_scan_doctype_c; [exact V|exact Inv_st0]. }
  destruct (schema_scanner c) eqn:SS.
  - apply g_scan_hints; [exact SS|]. apply g_scan_atts. exact H1.
  - apply g_scan_atts. exact H1.
Qed.

Lemma g_run_fuel : forall d x, vflag c x = v -> Inv (run_fuel d c rs fs x).
Proof. intros d x. exact (g_run_fuel_c d None x). Qed.

End Generic.

(** what the source builders emit, for any property [Q] of events: resolver events always, a default open only
    when default resolution is on *)
Section FetchEvents.
Variables (c : cfg) (rs : option resolver) (fs : filesys) (k : kind) (Q : event -> Prop).
Hypothesis Q_resolve : forall sys base pub, Q (EvResolve k sys base pub).
Hypothesis Q_use : forall id, Q (EvUse k id).

Lemma source_of_events : forall base sys pub ev src,
  source_of k c rs base sys pub = (ev, src) ->
  Forall Q ev /\ (forall d, src = SsDef d -> c_disableDefault c = false).
Proof.
  intros base sys pub ev src E. unfold source_of in E.
  assert (R1 : Forall Q (match rs with Some _ => [EvResolve k sys base pub] | None => [] end))
    by (destruct rs; repeat constructor; apply Q_resolve).
  destruct (match rs with Some f => f sys base pub | None => None end) as [[id ct]|].
  - inversion E; subst. split; [|discriminate]. apply Forall_app. split; [exact R1|]. repeat constructor. apply Q_use.
  - destruct (c_disableDefault c); [inversion E; subst; split; [exact R1|discriminate]|].
    destruct (default_source (c_stdUri c) base sys); inversion E; subst; (split; [exact R1|reflexivity || discriminate]).
Qed.

Hypothesis Q_open : c_disableDefault c = false -> forall t id, Q (EvOpen k t id).

Lemma open_events_Forall : forall src, (forall d, src = SsDef d -> c_disableDefault c = false) -> Forall Q (open_events k src).
Proof. intros [| | |d] D; repeat constructor. exact (Q_open (D d eq_refl) _ _). Qed.

Lemma create_reader_events : forall rb b sys pub ev r, create_reader c rs fs k rb b sys pub = (ev, r) -> Forall Q ev.
Proof.
  intros rb b sys pub ev r E. unfold create_reader in E.
  assert (R1 : Forall Q (match rs with Some _ => [EvResolve k sys rb pub] | None => [] end))
    by (destruct rs; repeat constructor; apply Q_resolve).
  destruct (match rs with Some f => f sys rb pub | None => None end) as [[id ct]|].
  - inversion E; subst. apply Forall_app. split; [exact R1|]. repeat constructor. apply Q_use.
  - destruct (c_disableDefault c) eqn:D; [inversion E; subst; exact R1|].
    destruct (default_source (c_stdUri c) b sys) as [d|]; [|inversion E; subst; exact R1].
    destruct (ds_open d) as [p|u]; [destruct (fs p)|destruct (fs u)]; inversion E; subst;
      (apply Forall_app; split; [exact R1|]; repeat constructor; exact (Q_open eq_refl _ _)).
Qed.
End FetchEvents.

Definition allowed (c : cfg) (v : bool) (e : event) : bool :=
  match e with EvOpen k _ _ => negb (c_disableDefault c) && kgate c v k | _ => true end.

Definition TrP (P : event -> bool) (s : st) : Prop := Forall (fun e => P e = true) (s_tr s).

Lemma TrP_emit : forall P ev s, Forall (fun e => P e = true) ev -> TrP P s -> TrP P (emit ev s).
Proof.
  intros P ev s H Hs. unfold TrP, emit. cbn [s_tr]. apply Forall_app. split; [|exact Hs].
  apply Forall_rev. exact H.
Qed.
Lemma TrP_halt : forall P f s, P (EvFatal f) = true -> TrP P s -> TrP P (halt f s).
Proof. intros P f s Pf Hs. unfold TrP, halt. cbn [s_tr]. constructor; [exact Pf|exact Hs]. Qed.

Lemma set_tables_TrP : forall P tb s, TrP P s -> TrP P (set_tables tb s).
Proof. intros P tb s H. exact H. Qed.

Lemma run_c_none : forall c rs fs x, run_c c rs fs None x = run c rs fs x.
Proof. reflexivity. Qed.

Lemma run_fuel_c_allowed : forall d c rs fs uc x, TrP (allowed c (vflag c x)) (run_fuel_c d c rs fs uc x).
Proof.
  intros d c rs fs uc x. set (P := allowed c (vflag c x)). set (Q := fun e => P e = true).
  assert (E1 : forall e s, Q e -> TrP P s -> TrP P (emit [e] s))
    by (intros e s He; apply TrP_emit; repeat constructor; exact He).
  assert (Op : forall k, kgate c (vflag c x) k = true -> c_disableDefault c = false -> forall t id, Q (EvOpen k t id)).
  { intros k G D t id. unfold Q, P, allowed. rewrite D, G. reflexivity. }
  assert (Src : forall k base sys pub ev src, source_of k c rs base sys pub = (ev, src) ->
                Forall Q ev /\ (forall d, src = SsDef d -> c_disableDefault c = false))
    by (intros k; apply source_of_events; reflexivity).
  apply (g_run_fuel_c c rs fs (vflag c x) (TrP P)); [..|reflexivity].
  - (* obs *) intros s s' E _ _ H. unfold TrP. rewrite E. exact H.
  - (* halt *) intros f s. apply TrP_halt. reflexivity.
  - (* push_dtd *) intros n s _ Hs. unfold push_dtd.
    destruct (c_countDtd c); [cbv zeta; destruct (over_limit c _); [apply TrP_halt; [reflexivity|]|]|];
      (apply E1; [reflexivity|exact Hs]).
  - (* counted *) intros ia n s _ Hs. cbv zeta.
    destruct (over_limit c _); [apply TrP_halt; [reflexivity|]|apply E1; [reflexivity|]];
      (apply (E1 (EvPush n)); [reflexivity|exact Hs]).
  - (* create_reader *) intros k rb b sys pub ev r s G _ E. apply TrP_emit.
    refine (create_reader_events c rs fs k Q _ _ (Op k G) _ _ _ _ _ _ E); reflexivity.
  - (* source *) intros k base sys pub ev src s E. apply TrP_emit. exact (proj1 (Src _ _ _ _ _ _ E)).
  - (* open *) intros k base sys pub ev src s G E Hs. destruct (Src _ _ _ _ _ _ E) as [Hev D].
    apply TrP_emit; [exact (open_events_Forall c k Q (Op k G) src D)|]. apply TrP_emit; [exact Hev|exact Hs].
  - (* st0 *) constructor.
Qed.

Definition has_subset (x : doc) : bool :=
  match d_doctype x with
  | Some dt => match dt_ext dt, dt_int dt with None, None => false | _, _ => true end
  | None => false
  end.

Lemma allowed_permitted : forall c x k t id, allowed c (vflag c x) (EvOpen k t id) = true -> permitted c (has_subset x) k = true.
Proof.
  intros c x k t id. unfold allowed, permitted.
  destruct (c_disableDefault c); cbn [negb andb]; [discriminate|].
  assert (V : vflag c x = true -> validation_on c (has_subset x) = true).
  { unfold vflag, has_subset. destruct (d_doctype x) as [dt|]; [|discriminate].
    unfold validating, validation_on. destruct (c_val c); auto. }
  destruct k; cbn [kgate]; intros H; try exact H; apply andb_true_iff in H; destruct H as [H1 H2].
  - rewrite dtd_scanner_handles in H1. rewrite H1. cbn [andb].
    apply orb_true_iff in H2. destruct H2 as [H2|H2]; [rewrite H2; reflexivity|rewrite (V H2); apply orb_true_r].
  - rewrite H2, andb_true_r. unfold schema_scanner in H1. destruct (c_scanner c); try discriminate; reflexivity.
Qed.

Lemma forbidden_not_permitted : forall c hs k, forbidden c hs k -> permitted c hs k = false.
Proof.
  intros c hs k F. unfold permitted.
  destruct F as [D|[[K [L V]]|[[K L]|[[K H]|[K H]]]]].
  - rewrite D. reflexivity.
  - subst k. rewrite L, V. cbn [orb]. rewrite andb_false_r. apply andb_false_r.
  - subst k. rewrite L. rewrite andb_false_r. apply andb_false_r.
  - destruct k; try (exfalso; apply K; reflexivity); rewrite H; cbn [andb]; apply andb_false_r.
  - subst k. rewrite H. cbn [andb]. apply andb_false_r.
Qed.

Section RF.
Variables (c : cfg) (rs : option resolver) (fs : filesys).

(** with a resolver installed, every default open comes right after the resolver declined the same identifier, every
    use of a resolver source right after the resolver supplied it; [tr] is newest first *)
Fixpoint rf_ok (tr : list event) : Prop :=
  match tr with
  | [] => True
  | EvOpen k t id :: rest =>
    match rs with
    | None => True
    | Some f =>
      match rest with
      | EvResolve k' sys base pub :: _ =>
        k' = k /\ f sys base pub = None /\
        exists b, (b = base \/ base = []) /\ default_source (c_stdUri c) b sys = Some {| ds_sysid := id; ds_open := t |}
      | _ => False
      end
    end /\ rf_ok rest
  | EvUse k id :: rest =>
    match rs, rest with
    | Some f, EvResolve k' sys base pub :: _ => k' = k /\ exists ct, f sys base pub = Some (id, ct)
    | _, _ => False
    end /\ rf_ok rest
  | _ :: rest => rf_ok rest
  end.

Lemma rf_ok_app : forall l m, rf_ok (l ++ m) -> rf_ok m.
Proof.
  induction l as [|e l IH]; intros m H; [exact H|]. apply IH. cbn [app rf_ok] in H.
  destruct e; try exact H; exact (proj2 H).
Qed.

Definition RInv (s : st) : Prop := rf_ok (s_tr s).

Lemma RInv_quiet : forall e s, match e with EvOpen _ _ _ | EvUse _ _ => False | _ => True end -> RInv s -> RInv (emit [e] s).
Proof. intros e s Q H. unfold RInv, emit. cbn [s_tr rev app]. destruct e; cbn [rf_ok]; try exact H; destruct Q. Qed.

Lemma RInv_cr : forall k rb b sys pub ev r s,
  (b = rb \/ rb = []) -> create_reader c rs fs k rb b sys pub = (ev, r) -> RInv s -> RInv (emit ev s).
Proof.
  intros k rb b sys pub ev r s Hb E Hs. unfold create_reader in E. unfold RInv, emit. cbn [s_tr].
  destruct rs as [f|] eqn:R.
  - destruct (f sys rb pub) as [[id ct]|] eqn:F.
    + inversion E; subst. cbn [rev app rf_ok]. rewrite R. repeat split; auto. exists ct. exact F.
    + destruct (c_disableDefault c); [inversion E; subst; exact Hs|].
      destruct (default_source (c_stdUri c) b sys) as [d|] eqn:D; [|inversion E; subst; exact Hs].
      destruct d as [did dop]. cbn [ds_open ds_sysid] in E.
      destruct dop as [p|u]; [destruct (fs p)|destruct (fs u)]; inversion E; subst; cbn [rev app rf_ok]; rewrite R;
        repeat split; auto; exists b; split; auto.
  - destruct (c_disableDefault c); [inversion E; subst; exact Hs|].
    destruct (default_source (c_stdUri c) b sys) as [d|]; [|inversion E; subst; exact Hs].
    destruct (ds_open d) as [p|u]; [destruct (fs p)|destruct (fs u)]; inversion E; subst; cbn [rev app rf_ok]; rewrite R;
      split; auto.
Qed.

Lemma RInv_src : forall k base sys pub ev src s, source_of k c rs base sys pub = (ev, src) -> RInv s -> RInv (emit ev s).
Proof.
  intros k base sys pub ev src s E Hs. unfold source_of in E. unfold RInv, emit. cbn [s_tr].
  destruct rs as [f|] eqn:R; [destruct (f sys base pub) as [[id ct]|] eqn:F|].
  - inversion E; subst. cbn [rev app rf_ok]. rewrite R. repeat split; auto. exists ct. exact F.
  - destruct (c_disableDefault c); [|destruct (default_source (c_stdUri c) base sys)]; inversion E; subst; exact Hs.
  - destruct (c_disableDefault c); [|destruct (default_source (c_stdUri c) base sys)]; inversion E; subst; exact Hs.
Qed.

Lemma RInv_open : forall k base sys pub ev src s,
  source_of k c rs base sys pub = (ev, src) -> RInv s -> RInv (emit (open_events k src) (emit ev s)).
Proof.
  intros k base sys pub ev src s E Hs. pose proof (RInv_src _ _ _ _ _ _ _ E Hs) as H1.
  destruct src as [| |id ct'|d]; try exact H1.
  unfold source_of in E. unfold RInv, emit in *. cbn [s_tr open_events rev app rf_ok] in *.
  destruct rs as [f|] eqn:R; [|split; [exact I|exact H1]].
  destruct (f sys base pub) as [[id ct]|] eqn:F; [inversion E|].
  destruct (c_disableDefault c); [inversion E|].
  destruct (default_source (c_stdUri c) base sys) as [d'|] eqn:D; inversion E; subst.
  cbn [rev app]. repeat split; auto. exists base. split; auto. destruct d; exact D.
Qed.

Lemma run_fuel_resolver_first : forall d x, RInv (run_fuel d c rs fs x).
Proof.
  intros d x. apply (g_run_fuel c rs fs (vflag c x) RInv); [..|exact I|reflexivity].
  - (* obs *) intros s s' E _ _ H. unfold RInv. rewrite E. exact H.
  - (* halt *) intros f s H. exact H.
  - (* push_dtd *) intros n s _ H. unfold push_dtd.
    assert (H1 : RInv (emit [EvPushDtd n] s)) by (apply RInv_quiet; [exact I|exact H]).
    destruct (c_countDtd c); [|exact H1]. cbv zeta. destruct (over_limit c _); exact H1.
  - (* counted *) intros ia n s _ H. cbv zeta.
    assert (H1 : RInv (incr (emit [EvPush n] s))) by (apply (RInv_quiet (EvPush n)); [exact I|exact H]).
    destruct (over_limit c _); [exact H1|]. apply RInv_quiet; [exact I|exact H1].
  - (* create_reader *) intros k rb b sys pub ev r s _. apply RInv_cr.
  - (* source *) exact RInv_src.
  - (* open *) intros k base sys pub ev src s _. apply RInv_open.
Qed.

End RF.

Lemma trace_split : forall s pre e post, trace s = pre ++ e :: post -> s_tr s = rev post ++ e :: rev pre.
Proof.
  intros s pre e post H. rewrite <- (rev_involutive (s_tr s)). fold (trace s). rewrite H, rev_app_distr. cbn [rev].
  rewrite <- app_assoc. reflexivity.
Qed.
