(** Property C04 -- the parse result is independent of input chunking, buffer alignment and source type.
    The property theorems T04_*, derived from the lemmas of Proofs04*.v, and the concrete witnesses of the findings.
    Spec: Spec04.v ([Dec] = decoding of the whole byte string, [eol_norm] = XML line-end normalisation; neither
    mentions reads or buffers).  Model: Model04.v (XMLReader.cpp).  Contract on the transcoder: Contract04.v. *)
From XV Require Import C04.Spec04 C04.Model04 C04.Contract04 C04.Proofs04a C04.Proofs04c C04.Proofs04d
                       C04.Proofs04f C04.Proofs04g C04.Inst04 C04.Spec04t C04.Model04b C04.Proofs04i.
From Coq Require Import Lia.
Local Open Scope N_scope.

(** For every partition of the byte stream into reads, every transcoder meeting the contract, every buffer geometry, both
    variants of refreshRawBuffer and both line-end regimes.  The right-hand side does not mention the chunks: the result is
    independent of chunking and of where characters, surrogate pairs and CR LF pairs fall relative to the refill points. *)
Theorem T04_chars : forall step maxSeq c chunks cs st fuel,
  xcontract step (X c) maxSeq -> sizes_ok c maxSeq -> Forall (fun ch => ch <> []) chunks ->
  Dec step (concat chunks) cs st -> st = Clean -> (length cs < fuel)%nat ->
  deliver c fuel (mk_reader chunks) = (eol_norm (nel c) cs, EndEOF).
Proof.
  intros step maxSeq c chunks cs st fuel HC HS Hne D Hnb Hf.
  destruct (deliver_spec step maxSeq c HC HS fuel _ cs st (St_init step c chunks cs st Hne D) Hf) as [p [q [fin [Ed [Ep Hfin]]]]].
  destruct fin as [|[| |e]|]; try contradiction; [|now destruct (noBad_errOK st e)].
  destruct Hfin as [_ Eq]. subst q. rewrite app_nil_r in Ep. now rewrite Ed, Ep.
Qed.
Print Assumptions T04_chars.

Theorem T04_chunking : forall step maxSeq c chunks1 chunks2 cs st fuel,
  xcontract step (X c) maxSeq -> sizes_ok c maxSeq ->
  Forall (fun ch => ch <> []) chunks1 -> Forall (fun ch => ch <> []) chunks2 -> concat chunks1 = concat chunks2 ->
  Dec step (concat chunks1) cs st -> st = Clean -> (length cs < fuel)%nat ->
  deliver c fuel (mk_reader chunks1) = deliver c fuel (mk_reader chunks2).
Proof.
  intros step maxSeq c k1 k2 cs st fuel HC HS H1 H2 E D Hnb Hf.
  rewrite (T04_chars step maxSeq c k1 cs st fuel HC HS H1 D Hnb Hf).
  rewrite E in D. rewrite (T04_chars step maxSeq c k2 cs st fuel HC HS H2 D Hnb Hf). reflexivity.
Qed.
Print Assumptions T04_chunking.

(** ill-formed input: the same error for every chunking; how long the delivered prefix is does depend on the block
    structure (finding FA below) *)
Theorem T04_chars_error : forall step maxSeq c chunks cs e fuel,
  xcontract step (X c) maxSeq -> sizes_ok c maxSeq -> Forall (fun ch => ch <> []) chunks ->
  Dec step (concat chunks) cs (Bad e) -> (length cs < fuel)%nat ->
  exists p q, deliver c fuel (mk_reader chunks) = (p, EndErr (XErr e)) /\ eol_norm (nel c) cs = p ++ q.
Proof.
  intros step maxSeq c chunks cs e fuel HC HS Hne D Hf.
  destruct (deliver_spec step maxSeq c HC HS fuel _ cs (Bad e) (St_init step c chunks cs (Bad e) Hne D) Hf)
    as [p [q [fin [Ed [Ep Hfin]]]]].
  exists p, q. split; [|exact Ep]. destruct fin as [|[| |e']|]; try contradiction; [now destruct Hfin|].
  destruct Hfin as [E|[_ E]]; [injection E as <-; exact Ed|discriminate].
Qed.
Print Assumptions T04_chars_error.

(** input that ends inside a character: with the repair of finding F2 (XMLReader::xcodeMoreChars throws Trans_BadSrcSeq when the
    transcoder needs more bytes and the source has none) every chunking ends the delivery with that error *)
Theorem T04_chars_truncated : forall step maxSeq c chunks cs fuel,
  xcontract step (X c) maxSeq -> sizes_ok c maxSeq -> Forall (fun ch => ch <> []) chunks ->
  Dec step (concat chunks) cs Truncated -> (length cs < fuel)%nat ->
  exists p q, deliver c fuel (mk_reader chunks) = (p, EndErr (XErr E_Trans_BadSrcSeq)) /\ eol_norm (nel c) cs = p ++ q.
Proof.
  intros step maxSeq c chunks cs fuel HC HS Hne D Hf.
  destruct (deliver_spec step maxSeq c HC HS fuel _ cs Truncated (St_init step c chunks cs Truncated Hne D) Hf)
    as [p [q [fin [Ed [Ep Hfin]]]]].
  exists p, q. split; [|exact Ep]. destruct fin as [|[| |e']|]; try contradiction; [now destruct Hfin|].
  destruct Hfin as [E|[E _]]; [discriminate|subst e'; exact Ed].
Qed.
Print Assumptions T04_chars_truncated.

(** one refill keeps the remaining character sequence: the key invariant (also the C01 index invariant [good]) *)
Theorem T04_refresh_keeps_remaining : forall step maxSeq c r cs st,
  xcontract step (X c) maxSeq -> sizes_ok c maxSeq -> St step c r cs st ->
  match refresh_char c r with
  | Err Fault | Err FuelOut => False
  | Err (XErr e) => errOK st e
  | Ok (r', b) => St step c r' cs st /\ (b = false -> cs = []) /\ (exists new, ccur r' = ccur r ++ new)
  end.
Proof.
  intros step maxSeq c r cs st HC HS H. pose proof (refresh_char_spec step maxSeq c HC HS r cs st H) as Hr.
  destruct (refresh_char c r) as [[r' b]|[| |e]]; auto.
  split; [exact (rc_St Hr)|]. split; [|exact (rc_grows Hr)]. intros Hb. now destruct (rc_false Hr Hb).
Qed.
Print Assumptions T04_refresh_keeps_remaining.

(** skippedChar, peekNextChar, skippedString, peekString on cleanly ending input, without positions (with positions:
    T04_tokens_chars / T04_tokens_runs below; for getName only safety, T04_ops_keep_state): the answer is a function of the
    remaining character sequence alone *)
Theorem T04_tokens_partial : forall step maxSeq c r cs st,
  xcontract step (X c) maxSeq -> sizes_ok c maxSeq -> St step c r cs st -> st = Clean ->
  (forall ch, match skipped_char c r ch with
              | Ok (r', b) => St step c r' (snd (spec_skipped_char ch cs)) st /\ b = fst (spec_skipped_char ch cs)
              | Err _ => False end) /\
  (match peek_next c r with Ok (r', o) => St step c r' cs st /\ o = spec_peek (nel c) cs | Err _ => False end) /\
  (forall s, (length s + 1 <= cbsz c)%nat ->
             match skipped_string c r s with
             | Ok (r', b) => St step c r' (snd (spec_skipped_string s cs)) st /\ b = fst (spec_skipped_string s cs)
             | Err _ => False end) /\
  (forall s, (length s + 1 <= cbsz c)%nat ->
             match peek_string c r s with Ok (r', b) => St step c r' cs st /\ b = is_prefix s cs | Err _ => False end).
Proof.
  intros step maxSeq c r cs st HC HS H Hnb. subst st. pose proof (StAt_here step c r cs Clean H) as At. repeat split.
  - intros ch. rewrite (spec_skipped_char_tk ch (rpos r) cs).
    exact (computes_clean step c _ _ _ (skipped_char_ok step maxSeq c HC HS r _ cs Clean ch At)).
  - rewrite spec_peek_tk. exact (computes_clean step c _ _ _ (peek_next_ok step maxSeq c HC HS r _ cs Clean At)).
  - intros s Hs. rewrite (spec_skipped_string_tk s (rpos r) cs).
    exact (computes_clean step c _ _ _ (skipped_string_ok step maxSeq c HC HS r _ cs Clean s Hs At)).
  - intros s Hs. exact (computes_clean step c _ _ _ (peek_string_ok step maxSeq c HC HS r _ cs Clean s Hs At)).
Qed.
Print Assumptions T04_tokens_partial.

(** every operation of the operation language [op] keeps [St], with fewer or equally many characters left; with [St_init]
    for the initial reader this makes [St] hold in every state reachable by [run_ops] *)
Theorem T04_ops_keep_state : forall step maxSeq c fuel r cs st o,
  xcontract step (X c) maxSeq -> sizes_ok c maxSeq -> safename c = true -> St step c r cs st ->
  (2 * length cs + 2 <= fuel)%nat ->
  match do_op c fuel r o with
  | Err Fault | Err FuelOut => False
  | Err (XErr e) => errOK st e
  | Ok (r', _) => exists cs', St step c r' cs' st /\ (length cs' <= length cs)%nat
  end.
Proof.
  intros step maxSeq c fuel r cs st o HC HS Hsafe H Hf.
  pose proof (do_op_safe step maxSeq c HC HS Hsafe fuel r cs st o H Hf) as S0.
  destruct (do_op c fuel r o) as [[r' x]|[| |e]]; exact S0.
Qed.
Print Assumptions T04_ops_keep_state.

(** ReaderMgr::popReader, non-throwing path, modelled as [pop_loop] over the reader stack: a parent that still has characters
    -- buffered OR not yet decoded, e.g. because the ';' of the reference was the last character of its 16K buffer -- goes on
    with exactly those; references behave the same wherever their ';' falls relative to the refill points of the entity *)
Theorem T04_pop_keeps_remaining : forall step maxSeq c p rest cs st,
  xcontract step (X c) maxSeq -> sizes_ok c maxSeq -> St step c p cs st -> st = Clean -> cs <> [] ->
  exists p', pop_reader c (p :: rest) = Ok (Some (p', rest)) /\ St step c p' cs st /\ ccur p' <> [].
Proof.
  intros step maxSeq c p rest cs st HC HS H Hnb Hne. destruct cs as [|x t]; [now destruct Hne|].
  exact (pop_loop_spec step maxSeq c HC HS p rest (x :: t) st H Hnb).
Qed.
Print Assumptions T04_pop_keeps_remaining.

Theorem T04_pop_skips_exhausted : forall step maxSeq c p q rest st,
  xcontract step (X c) maxSeq -> sizes_ok c maxSeq -> St step c p [] st -> st = Clean ->
  pop_reader c (p :: q :: rest) = pop_reader c (q :: rest) /\ pop_reader c [p] = Ok None.
Proof.
  intros step maxSeq c p q rest st HC HS H Hnb. split.
  - exact (pop_loop_spec step maxSeq c HC HS p (q :: rest) [] st H Hnb).
  - exact (pop_loop_spec step maxSeq c HC HS p [] [] st H Hnb).
Qed.
Print Assumptions T04_pop_keeps_remaining.

(** non-vacuity / the breaking change it excludes: a parent whose 4-character buffer is exhausted while two more
    characters are still undecoded; popping refills it (dropping the refresh would report the end of the input) *)
Example T04_pop_refills_parent :
  match run_ops (mk_cfg 3 false 4 8 2 true true) 16 (mk_reader [[0x61; 0x62; 0x63; 0x3B; 0x64; 0x65]]) [OGet; OGet; OGet; OGet] with
  | (_, None, p) => ccur p = [] /\ noMore p = false /\
                    match pop_reader (mk_cfg 3 false 4 8 2 true true) [p] with
                    | Ok (Some (p', [])) => ccur p' = [0x64; 0x65]
                    | _ => False
                    end
  | _ => False
  end.
Proof. vm_compute. auto. Qed.

(** the UCS-4 byte-order-mark removal of doInitDecode loses no byte and decodes none twice (tie to the code: the
    encoding-variant oracle of checks/C04.py, same text with and without BOM) *)
Theorem T04_bom_strip : forall c r, good c r ->
  good c (ucs4_bom_strip r) /\
  (is_ucs4_bom (rcur r) = true -> pending (ucs4_bom_strip r) = skipn 4 (pending r) /\ (4 <= length (rcur r))%nat) /\
  (is_ucs4_bom (rcur r) = false -> ucs4_bom_strip r = r).
Proof.
  intros c r G. pose proof (good_raw_le c r G) as G2. unfold ucs4_bom_strip. destruct (is_ucs4_bom (rcur r)) eqn:E.
  - assert (L : (4 <= length (rcur r))%nat).
    { destruct (rcur r) as [|a [|b [|d [|e t]]]]; try discriminate. cbn. lia. }
    split; [|split; [|discriminate]].
    + apply good_raw; [exact G|rewrite skipn_length; lia|exact (good_chunks c r G)].
    + intros _. split; [|exact L]. unfold pending. cbn [rcur strm]. now rewrite skipn_app_le.
  - split; [exact G|]. split; [discriminate|reflexivity].
Qed.
Print Assumptions T04_bom_strip.

Theorem T04_spec_total : forall step X maxSeq s, xcontract step X maxSeq -> exists cs st, Dec step s cs st.
Proof. intros step X maxSeq s HC. exact (Dec_total step X maxSeq HC s). Qed.
Theorem T04_spec_deterministic : forall step X maxSeq s cs st cs' st', xcontract step X maxSeq ->
  Dec step s cs st -> Dec step s cs' st' -> cs = cs' /\ st = st'.
Proof. intros step X maxSeq s cs st cs' st' HC D1 D2. exact (Dec_det step X maxSeq HC s cs st D1 cs' st' D2). Qed.
Theorem T04_spec_function : forall step X maxSeq s, xcontract step X maxSeq ->
  Dec step s (fst (dec_fn step (length s) s)) (snd (dec_fn step (length s) s)).
Proof. intros step X maxSeq s HC. exact (dec_fn_Dec step X maxSeq HC (length s) s (le_n _)). Qed.
Print Assumptions T04_spec_function.

(** the contract is met by the transcoder models of C05 for ISO-8859-1, UTF-16 (both byte orders) and UTF-8, so the
    theorems above apply to them with the real buffer sizes regenerated from XMLReader.hpp *)
Theorem T04_contract_latin1 : xcontract step_latin1 xc_latin1 1.
Proof. exact latin1_contract. Qed.
Theorem T04_contract_utf16 : forall sw, xcontract (step_utf16 sw) (xc_utf16 sw) 2.
Proof. exact utf16_contract. Qed.
(** ... and by the UTF-8 transcoder model: C05's step function [x8_step] (the one T05_utf8_dec_sound/complete are about)
    iterated by Model04.x8_fast; at most 5 trailing bytes are ever awaited *)
Theorem T04_contract_utf8 : xcontract step_utf8 xc_utf8 6.
Proof. exact utf8_contract. Qed.
Print Assumptions T04_contract_utf8.

Theorem T04_real_sizes_ok : forall enc v11 lw fill safe, sizes_ok (real_cfg enc v11 lw fill safe) 4.
Proof. intros. apply real_sizes_ok. unfold kRawBufSize. lia. Qed.
Theorem T04_real_sizes_ok_6 : forall enc v11 lw fill safe, sizes_ok (real_cfg enc v11 lw fill safe) 6.
Proof. intros. apply real_sizes_ok. unfold kRawBufSize. lia. Qed.
Print Assumptions T04_real_sizes_ok.

Theorem T04_chars_utf16_real : forall sw v11 lw fill safe chunks cs st fuel,
  Forall (fun ch => ch <> []) chunks -> Dec (step_utf16 sw) (concat chunks) cs st -> st = Clean ->
  (length cs < fuel)%nat ->
  deliver (real_cfg (if sw then 2 else 1) v11 lw fill safe) fuel (mk_reader chunks) = (eol_norm v11 cs, EndEOF).
Proof.
  intros sw v11 lw fill safe chunks cs st fuel Hne D Hnb Hf.
  assert (HS : sizes_ok (real_cfg (if sw then 2 else 1) v11 lw fill safe) 2)
    by (apply real_sizes_ok; unfold kRawBufSize; lia).
  refine (T04_chars (step_utf16 sw) 2 _ chunks cs st fuel _ HS Hne D Hnb Hf).
  destruct sw; exact (utf16_contract _).
Qed.
Print Assumptions T04_chars_utf16_real.

Theorem T04_chars_utf8_real : forall v11 lw fill safe chunks cs st fuel,
  Forall (fun ch => ch <> []) chunks -> Dec step_utf8 (concat chunks) cs st -> st = Clean ->
  (length cs < fuel)%nat ->
  deliver (real_cfg 0 v11 lw fill safe) fuel (mk_reader chunks) = (eol_norm v11 cs, EndEOF).
Proof.
  intros v11 lw fill safe chunks cs st fuel Hne D Hnb Hf.
  exact (T04_chars step_utf8 6 (real_cfg 0 v11 lw fill safe) chunks cs st fuel utf8_contract
           (T04_real_sizes_ok_6 0 v11 lw fill safe) Hne D Hnb Hf).
Qed.
Print Assumptions T04_chars_utf8_real.

(** the character-level operations against Spec04t.v, for any input status.  [nelcol c = true] = the column repair of finding
    FD (fixes/C04-nel-column.patch); without it see T04_column_depends_on_alignment_refuted below. *)
Theorem T04_tokens_chars : forall step maxSeq c r cs st,
  xcontract step (X c) maxSeq -> sizes_ok c maxSeq -> nelcol c = true -> St step c r cs st ->
  okres st (get_next c r) (fun a => tkpost step c st (tk_get (nel c) (rpos r) cs) (fst a) (snd a)) /\
  (forall notc, okres st (get_next_if_not c r notc)
                      (fun a => tkpost step c st (tk_get_if_not (nel c) notc (rpos r) cs) (fst a) (snd a))) /\
  (forall ch, okres st (skipped_char c r ch) (fun a => tkpost step c st (tk_skipped_char ch (rpos r) cs) (fst a) (snd a))) /\
  okres st (skip_if_quote c r) (fun a => tkpost step c st (tk_skip_if_quote (rpos r) cs) (fst a) (snd a)) /\
  okres st (skipped_space c r) (fun a => tkpost step c st (tk_skipped_space (isWS c) (nel c) (rpos r) cs) (fst a) (snd a)).
Proof.
  intros step maxSeq c r cs st HC HS Hn H. pose proof (StAt_here step c r cs st H) as At. repeat split.
  - exact (computes_tkpost step c _ _ _ _ Hn (get_next_ok step maxSeq c HC HS r _ cs st At)).
  - intros notc. exact (computes_tkpost step c _ _ _ _ Hn (get_next_if_not_ok step maxSeq c HC HS r _ cs st notc At)).
  - intros ch. exact (computes_tkpost step c _ _ _ _ Hn (skipped_char_ok step maxSeq c HC HS r _ cs st ch At)).
  - exact (computes_tkpost step c _ _ _ _ Hn (skip_if_quote_ok step maxSeq c HC HS r _ cs st At)).
  - exact (computes_tkpost step c _ _ _ _ Hn (skipped_space_ok step maxSeq c HC HS r _ cs st At)).
Qed.
Print Assumptions T04_tokens_chars.

(** skipSpaces, getSpaces, getUpToCharOrWS are [tk_run], however many refills the run spans *)
Theorem T04_tokens_runs : forall step maxSeq c fuel r cs st,
  xcontract step (X c) maxSeq -> sizes_ok c maxSeq -> nelcol c = true -> St step c r cs st -> (2 * length cs + 2 <= fuel)%nat ->
  okres st (skip_spaces c fuel r false)
        (fun a => let sp := tk_run (isWS c) (nel c) (rpos r) [] cs in
                  St step c (fst a) (snd sp) st /\
                  snd a = (fst (fst (fst sp)), match snd (fst (fst sp)) with [] => false | _ => true end) /\
                  rpos (fst a) = snd (fst sp)) /\
  okres st (get_spaces c fuel r)
        (fun a => let sp := tk_run (isWS c) (nel c) (rpos r) [] cs in
                  St step c (fst a) (snd sp) st /\ snd a = (fst (fst (fst sp)), rev (snd (fst (fst sp)))) /\
                  rpos (fst a) = snd (fst sp)) /\
  (forall ch, isWS c 0xA = true ->
     okres st (get_up_to c fuel r ch)
        (fun a => let sp := tk_run (upto_take c ch) (nel c) (rpos r) [] cs in
                  St step c (fst a) (snd sp) st /\ snd a = (fst (fst (fst sp)), rev (snd (fst (fst sp)))) /\
                  rpos (fst a) = snd (fst sp))).
Proof.
  intros step maxSeq c fuel r cs st HC HS Hn H Hf. pose proof (StAt_here step c r cs st H) as At. split; [|split].
  - exact (computes_tkpost step c _ _ _ _ Hn (skip_spaces_ok step maxSeq c HC HS fuel r _ cs st At Hf)).
  - exact (computes_tkpost step c _ _ _ _ Hn (get_spaces_ok step maxSeq c HC HS fuel r _ cs st At Hf)).
  - intros ch Hlf. exact (computes_tkpost step c _ _ _ _ Hn (get_up_to_ok step maxSeq c HC HS fuel r _ cs st ch Hlf At Hf)).
Qed.
Print Assumptions T04_tokens_runs.

(** how long a prefix of the plain run movePlainContentChars moves depends on the buffer BY DESIGN (the scanners call it in a
    loop; that loop is Model04b.content_run, correspondence only) *)
Theorem T04_move_plain : forall step maxSeq c isPlain r cs st,
  xcontract step (X c) maxSeq -> sizes_ok c maxSeq -> St step c r cs st ->
  okres st (move_plain isPlain r)
        (fun a => let k := length (snd a) in
                  snd a = firstn k (plain_run isPlain cs) /\ (k <= length (plain_run isPlain cs))%nat /\
                  St step c (fst a) (skipn k cs) st /\ rpos (fst a) = col1 (rpos r) (N.of_nat k) /\
                  (ccur (fst a) = [] \/ exists x t, skipn k cs = x :: t /\ isPlain x = false)).
Proof. intros step maxSeq c isPlain r cs st HC HS H. exact (move_plain_ok step c isPlain r cs st H). Qed.
Print Assumptions T04_move_plain.

(** FD: as written (nelcol = false) handleEOL does not count a column for U+0085 / U+2028 under XML 1.0 rules, but
    movePlainContentChars (and skippedChar, getName, ...) do: the same characters consumed by the scanner's loop
    "movePlainContentChars; getNextChar" leave a different column depending on whether the character is the first of a
    refilled buffer -- 4-character buffer, the NEL at index 4 (first of the second buffer) vs index 3 *)
Definition fd_ops : list xop := [XBase OGet; XMovePlain; XBase OGet; XMovePlain; XBase OGet; XMovePlain].
Fixpoint run_xops (c : cfg) (isPlain : N -> bool) (fuel : nat) (r : reader) (ops : list xop) : option reader :=
  match ops with
  | [] => Some r
  | o :: rest => match do_xop c isPlain fuel r o with Ok (r', _) => run_xops c isPlain fuel r' rest | Err _ => None end
  end.
Theorem T04_column_depends_on_alignment_refuted :
  (* 'x' x x x NEL y  : all six characters consumed, column 6 instead of 7 *)
  option_map col (run_xops (mk_cfg 3 false 4 8 2 true true) (is_plain false) 16
                           (mk_reader [[0x78; 0x78; 0x78; 0x78; 0x85; 0x79]]) fd_ops) = Some 6 /\
  (* 'x' x x NEL x y  : the same number of characters, column 7 *)
  option_map col (run_xops (mk_cfg 3 false 4 8 2 true true) (is_plain false) 16
                           (mk_reader [[0x78; 0x78; 0x78; 0x85; 0x78; 0x79]]) fd_ops) = Some 7 /\
  (* repaired: 7 in both alignments *)
  option_map col (run_xops (with_nelcol (mk_cfg 3 false 4 8 2 true true) true) (is_plain false) 16
                           (mk_reader [[0x78; 0x78; 0x78; 0x78; 0x85; 0x79]]) fd_ops) = Some 7.
Proof. repeat split; vm_compute; reflexivity. Qed.

(** non-vacuity of T04_tokens_runs' side condition and a run across three refills of a 4-character buffer *)
Example T04_tokens_nonvacuous :
  isWS (mk_cfg 1 false 4 8 2 true true) 0xA = true /\ nelcol (with_nelcol (mk_cfg 1 false 4 8 2 true true) true) = true /\
  match get_spaces (with_nelcol (mk_cfg 3 false 4 8 2 true true) true) 64
                   (mk_reader [[0x20; 0x0D]; [0x0A; 0x09; 0x0D; 0x0D; 0x0A; 0x20; 0x0A; 0x78]]) with
  | Ok (r', (b, l)) => b = true /\ l = [0x20; 0x0A; 0x09; 0x0A; 0x0A; 0x20; 0x0A] /\ rpos r' = (5, 1) /\ ccur r' = [0x78]
  | Err _ => False
  end.
Proof. vm_compute. repeat split; reflexivity. Qed.

(** findings, on the as-written model, by evaluation of concrete witnesses *)

Definition b_A : N := 0x41.
(** FA: ill-formed input -- how many characters are delivered before the error depends on the read sizes
    (as written) and on the position relative to the block structure (in both variants) *)
Theorem T04_error_prefix_depends_on_chunking_refuted :
  exists k1 k2, concat k1 = concat k2 /\
    fst (deliver (mk_cfg 0 false 4 8 2 false false) 16 (mk_reader k1)) <>
    fst (deliver (mk_cfg 0 false 4 8 2 false false) 16 (mk_reader k2)).
Proof.
  exists [[b_A; b_A; 0xFF; b_A; b_A; b_A; b_A; b_A]], [[b_A]; [b_A]; [0xFF; b_A; b_A; b_A; b_A; b_A]].
  split; [reflexivity|]. vm_compute. discriminate.
Qed.
Theorem T04_error_prefix_depends_on_alignment_refuted :
  deliver (mk_cfg 0 false 4 16 2 true true) 16 (mk_reader [[b_A; b_A; b_A; b_A; b_A; 0xFF; b_A; b_A; b_A; b_A; b_A; b_A]])
    = ([b_A; b_A; b_A; b_A], EndErr (XErr E_UTF8_FormatError)).
Proof. vm_compute. reflexivity. Qed.

(** F2 (property C02, fixed in /repo by 752899c): a truncated sequence at the end of the input is reported, for every chunking *)
Theorem T04_truncated_tail_is_reported :
  deliver (mk_cfg 1 false 4 8 2 false false) 16 (mk_reader [[0x3C; 0; 0x61]]) = ([0x3C], EndErr (XErr E_Trans_BadSrcSeq)) /\
  deliver (mk_cfg 1 false 4 8 2 true false) 16 (mk_reader [[0x3C]; [0]; [0x61]]) = ([0x3C], EndErr (XErr E_Trans_BadSrcSeq)) /\
  dec_fn (step_utf16 false) 3 [0x3C; 0; 0x61] = ([0x3C], Truncated).
Proof. repeat split; vm_compute; reflexivity. Qed.

(** F1: getName as written reads fCharBuf[fCharIndex+1] beyond fCharsAvail after the refresh at a trailing high
    surrogate ([Fault]); with the repair it reports "no name" *)
Definition f1_doc : list N := [0x40; 0xD8; 0x00; 0xDC; 0x3C; 0x00; 0x40; 0xD8].   (* D840 DC00 '<' D840, UTF-16LE *)
Theorem T04_getName_stale_read_refuted :
  snd (fst (run_ops (mk_cfg 1 false 8 16 2 false false) 16 (mk_reader [f1_doc]) [OName true; OSkipChar 0x3C; OName false]))
    = Some Fault.
Proof. vm_compute. reflexivity. Qed.
Theorem T04_getName_repaired :
  fst (run_ops (mk_cfg 1 false 8 16 2 false true) 16 (mk_reader [f1_doc]) [OName true; OSkipChar 0x3C; OName false; OGet; OGet])
    = ([RName true [0xD840; 0xDC00]; RBool true; RName false []; RCh (Some 0xD840); RCh None], None).
Proof. vm_compute. reflexivity. Qed.

Example T04_nonvacuous_sizes : sizes_ok (mk_cfg 1 true 4 8 2 false true) 2.
Proof. unfold sizes_ok. cbn. lia. Qed.
Example T04_nonvacuous_dec :
  Dec (step_utf16 false) [0x3C; 0; 0x0D; 0; 0x0A; 0; 0x40; 0xD8; 0x00; 0xDC; 0x28; 0x20] [0x3C; 0x0D; 0x0A; 0xD840; 0xDC00; 0x2028] Clean.
Proof. repeat (eapply (Dec_out _ _ [_] 2); [reflexivity|cbn [skipn app]]). constructor. Qed.
Example T04_nonvacuous_deliver :   (* CR LF and a line separator across refills of a 4-character buffer, 1-byte reads *)
  deliver (mk_cfg 1 true 4 8 2 false true) 16
          (mk_reader (map (fun b => [b]) [0x3C; 0; 0x0D; 0; 0x0A; 0; 0x40; 0xD8; 0x00; 0xDC; 0x28; 0x20]))
  = ([0x3C; 0x0A; 0xD840; 0xDC00; 0x0A], EndEOF).
Proof. vm_compute. reflexivity. Qed.
