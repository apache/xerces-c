(** The contract between the reader and a transcoder (the only thing the reader theorems assume about the
    block transcoder [X]): there is a character-level decoding function [step] (decode the first character of a
    byte string) which is prefix-stable, needs fewer than [maxSeq] bytes of look-ahead, and [X] does nothing but
    apply it repeatedly: whatever [X] returns is the decoding of some number of whole characters from the
    front of its input, it makes progress (when given room) unless the first character is incomplete or does not fit, and it
    throws only the error of the first ill-formed sequence.  Proofs04g.v shows the transcoder models of C05
    (ISO-8859-1, UTF-16 in both byte orders, UTF-8) meet it. *)
From XV Require Export C04.Model04.

Record xcontract (step : list N -> dres) (X : xcoder) (maxSeq : nat) : Prop := {
  xc_nil : step [] = DNeed;
  xc_out_bounds : forall s u n, step s = DOut u n -> (0 < n <= length s)%nat /\ (1 <= length u <= 2)%nat;
  xc_out_ext : forall s t u n, step s = DOut u n -> step (s ++ t) = DOut u n;
  xc_err_ext : forall s t e, step s = DErr e -> step (s ++ t) = DErr e;
  xc_need : forall s, step s = DNeed -> (length s < maxSeq)%nat;
  xc_ok : forall s m out eaten, X s m = Ok (out, eaten) ->
          (length out <= m)%nat /\ exists k, nsteps step k s = Some (out, eaten);
  xc_progress : forall s m out, (0 < m)%nat -> X s m = Ok (out, 0%nat) ->
          step s = DNeed \/ exists u n, step s = DOut u n /\ (m < length u)%nat;
  xc_err : forall s m e, X s m = Err e ->
          exists k o n, nsteps step k s = Some (o, n) /\ step (skipn n s) = DErr e
}.

(** the only transcoder exceptions a reader operation may raise: the error of the first ill-formed sequence, or
    Trans_BadSrcSeq when the input ends inside a character *)
Definition errOK (st : dstatus) (e : xerr) : Prop := st = Bad e \/ (e = E_Trans_BadSrcSeq /\ st = Truncated).

(** the bytes the reader has not decoded yet *)
Definition pending (r : reader) : list N := rcur r ++ concat (strm r).

(** index invariant of C01 on the two buffers, and the stream's chunks are real reads (non-empty) *)
Definition good (c : cfg) (r : reader) : Prop :=
  (cidx r + length (ccur r) <= cbsz c)%nat /\ (ridx r + length (rcur r) <= rbsz c)%nat /\
  Forall (fun ch => ch <> []) (strm r).

(** sizes for which the theorems hold: the character buffer holds a surrogate pair plus one more character,
    the raw buffer holds one longest byte sequence *)
Definition sizes_ok (c : cfg) (maxSeq : nat) : Prop :=
  (3 <= cbsz c)%nat /\ (1 <= maxSeq <= rbsz c)%nat.
