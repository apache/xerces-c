(** Safety of the operation language [op] of Model04.v (C01: no access outside the valid window, no index overrun, fuel
    never runs out) and preservation of the abstract state, for arbitrary operation sequences. *)
From XV Require Export C04.Proofs04i.
From Coq Require Import Lia Arith.
Local Open Scope N_scope.

Section Safety.
  Variable step : list N -> dres.
  Variable maxSeq : nat.
  Variable c : cfg.
  Hypothesis HC : xcontract step (X c) maxSeq.
  Hypothesis HS : sizes_ok c maxSeq.

  Notation St := (St step c).

  (** the reader is in a consistent state with at most [n] characters left *)
  Definition StL (r : reader) (n : nat) (st : dstatus) : Prop := exists cs, St r cs st /\ (length cs <= n)%nat.

  Definition safe {A : Type} (st : dstatus) (n : nat) (x : res (reader * A) rerr) : Prop :=
    okres st x (fun a => StL (fst a) n st).

  Lemma StL_pos : forall r l cl n st, StL r n st -> StL (set_pos r l cl) n st.
  Proof. intros r l cl n st H. exact H. Qed.

  Lemma StL_le : forall r n m st, StL r n st -> (n <= m)%nat -> StL r m st.
  Proof. intros r n m st [cs [H L]] Hle. exists cs. split; [exact H|lia]. Qed.

  Lemma Dec_len : forall s D st, Dec step s D st -> (length D <= 2 * length s)%nat.
  Proof.
    intros s D st H. induction H; try (cbn; lia).
    destruct (xc_out_bounds _ _ _ HC _ _ _ H) as [[Hn1 Hn2] [Hu1 Hu2]].
    rewrite app_length. rewrite skipn_length in IHDec. lia.
  Qed.

  Lemma safe_le : forall A st n m (x : res (reader * A) rerr), safe st n x -> (n <= m)%nat -> safe st m x.
  Proof. intros A st n m x H L. apply (okres_imp _ _ _ _ _ H). intros a Ha. exact (StL_le _ n m st Ha L). Qed.

  Lemma safe_map : forall A B (f : A -> B) st n (x : res (reader * A) rerr), safe st n x ->
    safe st n (match x with Ok (r', v) => Ok (r', f v) | Err e => Err e end).
  Proof. intros A B f st n [[r' v]|[| |e]] H; exact H. Qed.

  Lemma safe_ret : forall A r cs st (a : A), St r cs st -> safe st (length cs) (Ok (r, a)).
  Proof. intros A r cs st a H. exists cs. split; [exact H|lia]. Qed.

  Lemma computes_safe : forall A st (x : res (reader * A) rerr) spec n,
    computes step c st x spec -> (length (snd spec) <= n)%nat -> safe st n x.
  Proof.
    intros A st x spec n H L. apply (okres_imp _ _ _ _ _ H). intros a Ha. exists (snd spec). split; [exact (proj1 (proj1 Ha))|exact L].
  Qed.

  (** strings of any length, also longer than the buffer *)
  Lemma skipped_string_safe : forall r cs st s, St r cs st -> safe st (length cs) (skipped_string c r s).
  Proof.
    intros r cs st s H. unfold skipped_string, safe.
    apply okres_bind with (1 := want_chars_ok step maxSeq c HC HS (S (length s)) true r _ cs st (length s)
                                              (StAt_here step c r cs st H) ltac:(lia)).
    intros [r1 b] [[H1 _] [Hb _]]. cbn [fst snd] in *. destruct b; [|exact (safe_ret _ _ cs st _ H1)].
    destruct (eq_list (firstn (length s) (ccur r1)) s); [|exact (safe_ret _ _ cs st _ H1)].
    destruct (adv_St step c r1 (length s) cs st H1 (Hb eq_refl)) as [r2 [Ea [H2 _]]]. rewrite Ea.
    exists (skipn (length s) cs). split; [exact H2|]. rewrite skipn_length. lia.
  Qed.

  Lemma peek_string_safe : forall r cs st s, St r cs st -> safe st (length cs) (peek_string c r s).
  Proof.
    intros r cs st s H. unfold peek_string, safe.
    apply okres_bind with (1 := want_chars_ok step maxSeq c HC HS (S (length s)) false r _ cs st (length s)
                                              (StAt_here step c r cs st H) ltac:(lia)).
    intros [r1 b] [[H1 _] _]. cbn [fst snd] in *. destruct b; exact (safe_ret _ _ cs st _ H1).
  Qed.

  (** getName with the repaired look-ahead *)
  Hypothesis Hsafe : safename c = true.

  Lemma flush_St : forall r acc name cs st, St r cs st -> St (fst (flush r acc name)) cs st /\
    ccur (fst (flush r acc name)) = ccur r.
  Proof. intros r acc name cs st H. unfold flush. destruct acc; cbn [fst]; split; auto. Qed.

  Lemma flush_safe : forall r acc name cs st, St r cs st ->
    safe st (length cs) (let (r1, n1) := flush r acc name in Ok (r1, n1)).
  Proof.
    intros r acc name cs st H. destruct (flush_St r acc name cs st H) as [Hf _].
    destruct (flush r acc name) as [r1 n1]. exact (safe_ret _ r1 cs st n1 Hf).
  Qed.

  (** the look-ahead "fCharBuf[fCharIndex+1]" at a high surrogate, made in three places of getName *)
  Lemma lookahead_safe : forall A (K : reader -> N -> N -> res (reader * A) rerr) (B : res (reader * A) rerr) r cs st,
    St r cs st -> ccur r <> [] -> safe st (length cs) B ->
    (forall r2 x y, St r2 (skipn 2 cs) st -> (2 <= length cs)%nat -> safe st (length cs) (K r2 x y)) ->
    safe st (length cs)
         (match rd r 0, rd r 1 with
          | Some x, Some y => if is_low y then match adv r 2 with Ok r2 => K r2 x y | Err e => Err e end else B
          | Some _, None => if safename c then B else Err Fault
          | None, _ => Err Fault
          end).
  Proof.
    intros A K B r cs st H Hne HB HK. unfold rd.
    destruct (ccur r) as [|x [|y t]] eqn:Ec; [now destruct Hne| |]; cbn [nth_error].
    - rewrite Hsafe. exact HB.
    - destruct (is_low y); [|exact HB].
      destruct (adv_St step c r 2 cs st H ltac:(rewrite Ec; cbn; lia)) as [r2 [Ea [H2 _]]]. rewrite Ea.
      pose proof (St_len step c r cs st H) as Hl. rewrite Ec in Hl. cbn [length] in Hl. apply HK; [exact H2|lia].
  Qed.

  Lemma pair_step_safe : forall r acc name cs st K, St r cs st -> ccur r <> [] ->
    (forall r2 acc2 name2 cs2, St r2 cs2 st -> (length cs2 + 2 <= length cs)%nat -> safe st (length cs2) (K r2 acc2 name2)) ->
    safe st (length cs) (pair_step c r acc name K).
  Proof.
    intros r acc name cs st K H Hne HK. unfold pair_step.
    apply lookahead_safe; [exact H|exact Hne|exact (flush_safe r acc name cs st H)|].
    intros r2 x y H2 Hl. eapply safe_le; [apply HK; [exact H2|]|]; rewrite skipn_length; lia.
  Qed.

  (** Fuel as for the run loops: a pass consumes a character or refills an empty buffer; the refill at a trailing high
      surrogate leaves the window non-empty, but the pair step that follows consumes two characters (the bound in [HK]) *)
  Lemma name_loop_safe : forall fuel r acc name cs st, St r cs st ->
    (2 * length cs + (match ccur r with [] => 2 | _ => 1 end) <= fuel)%nat ->
    safe st (length cs) (name_loop c fuel r acc name).
  Proof.
    induction fuel as [|f IH]; intros r acc name cs st H Hf; [destruct (ccur r); lia|].
    cbn [name_loop]. destruct (ccur r) as [|x t] eqn:Ec.
    - destruct (flush_St r acc name cs st H) as [Hfl Hcc]. destruct (flush r acc name) as [r1 n1]. cbn [fst] in *.
      apply okres_bind with (1 := refresh_char_spec step maxSeq c HC HS r1 cs st Hfl). intros [r2 b] Hr.
      pose proof (rc_St Hr) as H2. destruct b.
      + apply IH; [exact H2|]. pose proof (rc_true Hr eq_refl) as Hb1. destruct (ccur r2); [now destruct Hb1|lia].
      + exact (safe_ret _ _ cs st _ H2).
    - pose proof (St_len step c r cs st H) as Hl. rewrite Ec in Hl. cbn [length] in Hl.
      destruct (is_high x).
      + assert (HK : forall r2 acc2 name2 cs2, St r2 cs2 st -> (length cs2 + 2 <= length cs)%nat ->
                     safe st (length cs2) (name_loop c f r2 acc2 name2)).
        { intros r2 acc2 name2 cs2 H2 L2. apply IH; [exact H2|]. destruct (ccur r2); lia. }
        destruct t as [|y t'].
        * destruct (flush_St r acc name cs st H) as [Hfl Hcc]. destruct (flush r acc name) as [r1 n1]. cbn [fst] in *.
          apply okres_bind with (1 := refresh_char_spec step maxSeq c HC HS r1 cs st Hfl). intros [r2 b] Hr.
          pose proof (rc_St Hr) as H2. destruct (rc_grows Hr) as [new Enew]. destruct b.
          -- apply pair_step_safe; [exact H2| |exact HK]. rewrite Enew, Hcc, Ec. discriminate.
          -- exact (flush_safe r2 acc n1 cs st H2).
        * apply pair_step_safe; [exact H| |exact HK]. rewrite Ec. discriminate.
      + destruct (isName c x).
        * destruct (adv1_St step c r x t cs st H Ec) as [r2 [cs2 [Ea [Ecs [H2 _]]]]]. rewrite Ea.
          subst cs. cbn [length] in *. eapply safe_le; [apply IH; [exact H2|destruct (ccur r2); lia]|lia].
        * exact (flush_safe r acc name cs st H).
  Qed.

  Lemma get_name_safe : forall fuel r cs st tok, St r cs st -> (2 * length cs + 2 <= fuel)%nat ->
    safe st (length cs) (get_name c fuel r tok).
  Proof.
    intros fuel r cs st tok H Hf. unfold get_name.
    assert (Hloop : forall r2 acc cs2, St r2 cs2 st -> (length cs2 <= length cs)%nat ->
              safe st (length cs) (name_loop c fuel r2 acc [])).
    { intros r2 acc cs2 H2 L2. eapply safe_le; [apply name_loop_safe; [exact H2|destruct (ccur r2); lia]|exact L2]. }
    assert (Hpair : forall r2 (x0 y : N), St r2 (skipn 2 cs) st -> (2 <= length cs)%nat ->
              safe st (length cs) (name_loop c fuel r2 [y; x0] [])).
    { intros r2 x0 y H2 L2. apply (Hloop r2 _ _ H2). rewrite skipn_length. lia. }
    pose proof (ensure_spec step maxSeq c HC HS r cs st H) as He.
    destruct (ensure c r) as [[r1 b]|[| |e]]; auto.
    destruct He as [H1 [_ [_ [Hb1 Hb0]]]]. destruct b; [|exact (safe_ret _ _ cs st _ H1)].
    destruct (Hb1 eq_refl) as [x [t Ec]].
    destruct tok; [apply safe_map; exact (Hloop r1 [] cs H1 (le_n _))|].
    rewrite Ec. destruct (is_high x).
    - destruct t as [|y t'].
      + apply okres_bind with (1 := refresh_char_spec step maxSeq c HC HS r1 cs st H1). intros [r2 b] Hr.
        pose proof (rc_St Hr) as H2. destruct (rc_grows Hr) as [new Enew]. destruct b; [|exact (safe_ret _ _ cs st _ H2)].
        apply lookahead_safe; [exact H2| |exact (safe_ret _ _ cs st _ H2)|].
        * rewrite Enew, Ec. discriminate.
        * intros r3 x0 y0 H3 L3. apply safe_map. exact (Hpair r3 x0 y0 H3 L3).
      + apply lookahead_safe; [exact H1| |exact (safe_ret _ _ cs st _ H1)|].
        * rewrite Ec. discriminate.
        * intros r3 x0 y0 H3 L3. apply safe_map. exact (Hpair r3 x0 y0 H3 L3).
    - destruct (isFirstName c x); [|exact (safe_ret _ _ cs st _ H1)].
      destruct (adv1_St step c r1 x t cs st H1 Ec) as [r2 [cs2 [Ea [Ecs [H2 _]]]]]. rewrite Ea.
      apply safe_map. apply (Hloop r2 _ cs2 H2). subst cs. cbn. lia.
  Qed.

  Lemma do_op_safe : forall fuel r cs st o, St r cs st -> (2 * length cs + 2 <= fuel)%nat ->
    safe st (length cs) (do_op c fuel r o).
  Proof.
    intros fuel r cs st o H Hf. pose proof (StAt_here step c r cs st H) as At. destruct o; cbn [do_op].
    - apply safe_map. exact (computes_safe _ _ _ _ _ (get_next_ok step maxSeq c HC HS r _ cs st At) (tk_get_rest_le _ _ _)).
    - apply safe_map. exact (computes_safe _ _ _ _ _ (peek_next_ok step maxSeq c HC HS r _ cs st At) (le_n _)).
    - apply safe_map. exact (computes_safe _ _ _ _ _ (get_next_if_not_ok step maxSeq c HC HS r _ cs st ch At)
                                           (tk_get_if_not_rest_le _ _ _ _)).
    - apply safe_map. exact (computes_safe _ _ _ _ _ (skipped_char_ok step maxSeq c HC HS r _ cs st ch At)
                                           (tk_skipped_char_rest_le _ _ _)).
    - apply safe_map. exact (computes_safe _ _ _ _ _ (skipped_space_ok step maxSeq c HC HS r _ cs st At)
                                           (tk_skipped_space_rest_le _ _ _ _)).
    - pose proof (computes_safe _ _ _ _ _ (skip_spaces_ok step maxSeq c HC HS fuel r _ cs st At Hf)
                                (tk_run_rest_le _ _ _ _ _)) as S0.
      destruct (skip_spaces c fuel r false) as [[r' [x y]]|[| |e]]; exact S0.
    - apply safe_map. exact (skipped_string_safe r cs st s H).
    - apply safe_map. exact (peek_string_safe r cs st s H).
    - pose proof (get_name_safe fuel r cs st token H Hf) as S0.
      destruct (get_name c fuel r token) as [[r' [x y]]|[| |e]]; exact S0.
  Qed.

  (** for C01's T01_reader_inv *)
  Lemma run_ops_safe : forall ops fuel r cs st, St r cs st -> (2 * length cs + 2 <= fuel)%nat ->
    match run_ops c fuel r ops with
    | (_, Some Fault, _) | (_, Some FuelOut, _) => False
    | (_, Some (XErr e), rf) => errOK st e /\ good c rf
    | (_, None, rf) => good c rf
    end.
  Proof.
    induction ops as [|o rest IH]; intros fuel r cs st H Hf; cbn [run_ops].
    - destruct H as [G _]. exact G.
    - pose proof (do_op_safe fuel r cs st o H Hf) as S0. unfold safe in S0.
      destruct (do_op c fuel r o) as [[r' x]|[| |e]]; try contradiction.
      + destruct S0 as [cs' [H' L']]. specialize (IH fuel r' cs' st H' ltac:(lia)).
        destruct (run_ops c fuel r' rest) as [[l e] rf]. exact IH.
      + destruct H as [G _]. auto.
  Qed.
End Safety.
