(** In every reachable state each token operation (names apart) computes its function of Spec04t.v on (position, remaining
    characters); from getNextChar, what repeated delivery yields. *)
From XV Require Export C04.Proofs04c C04.Proofs04f C04.Model04b.
From Coq Require Import Lia Arith.
Local Open Scope N_scope.

Definition rpos (r : reader) : pos := (line r, col r).

(** no model fault, transcoder errors only as the input's status allows, and [P] on a normal return *)
Definition okres {A : Type} (st : dstatus) (x : res A rerr) (P : A -> Prop) : Prop :=
  match x with
  | Err Fault | Err FuelOut => False
  | Err (XErr e) => errOK st e
  | Ok a => P a
  end.

Lemma okres_imp : forall A st (x : res A rerr) (P Q : A -> Prop), okres st x P -> (forall a, P a -> Q a) -> okres st x Q.
Proof. intros A st x P Q H HI. destruct x as [a|[| |e]]; cbn in *; auto. Qed.

Lemma okres_clean : forall A (x : res A rerr) (P : A -> Prop), okres Clean x P -> match x with Ok a => P a | Err _ => False end.
Proof. intros A [a|[| |e]] P H; cbn in *; auto. exact (noBad_errOK Clean e eq_refl H). Qed.

Lemma okres_bind : forall A B st (x : res A rerr) (k : A -> res B rerr) (P : A -> Prop) (Q : B -> Prop),
  okres st x P -> (forall a, P a -> okres st (k a) Q) -> okres st (match x with Ok a => k a | Err e => Err e end) Q.
Proof. intros A B st [a|[| |e]] k P Q H HK; cbn in *; auto. Qed.

(** [x] is none of CR, LF, NEL, LS: consuming it moves one column and nothing else *)
Definition ordinary (x : N) : Prop :=
  (x =? 0xD) = false /\ (x =? 0xA) = false /\ (x =? 0x85) = false /\ (x =? 0x2028) = false.

Lemma ordinary_eol : forall nl x t p, ordinary x ->
  eol_rest nl x t = t /\ eol_ch nl x = x /\ eol_pos nl p x = col1 p 1.
Proof.
  intros nl x t p [H1 [H2 [H3 H4]]]. unfold eol_rest, eol_ch, eol_pos. rewrite H1, H2, H3, H4. cbn [orb]. auto.
Qed.

Lemma plain_ch_ordinary : forall x, plain_ch x = true -> ordinary x.
Proof.
  intros x H. repeat split; apply N.eqb_neq; intros E; subst x; vm_compute in H; discriminate.
Qed.

Lemma ws_plain_ordinary : forall x, ws_plain x = true -> ordinary x.
Proof.
  intros x H. unfold ws_plain in H. apply Bool.orb_true_iff in H.
  destruct H as [H|H]; apply N.eqb_eq in H; subst x; repeat split; reflexivity.
Qed.

(** the fast test of getUpToCharOrWS lets LF through (it is meant for characters that are not white space) *)
Lemma upto_fast_not_eol : forall x, upto_fast x = true ->
  (x =? 0xD) = false /\ (x =? 0x85) = false /\ (x =? 0x2028) = false.
Proof.
  intros x H. repeat split; apply N.eqb_neq; intros E; subst x; vm_compute in H; discriminate.
Qed.

Lemma eol_rest_le : forall nl x t, (length (eol_rest nl x t) <= length t)%nat.
Proof.
  intros nl x t. unfold eol_rest. destruct (x =? 0xD); [|lia]. destruct t as [|y t']; [cbn; lia|].
  destruct ((y =? 0xA) || (y =? 0x85) && nl); cbn; lia.
Qed.

Lemma eol_norm_cons : forall nl x t, eol_norm nl (x :: t) = eol_ch nl x :: eol_norm nl (eol_rest nl x t).
Proof.
  intros nl x t. unfold eol_ch, eol_rest. cbn [eol_norm]. destruct (N.eqb_spec x 0xD) as [ED|ND].
  - subst x. destruct t as [|y t']; [reflexivity|]. cbn [orb]. now destruct ((y =? 0xA) || (y =? 0x85) && nl).
  - cbn [orb]. destruct (N.eqb_spec x 0xA) as [EA|NA]; [subst x; now destruct nl|].
    destruct ((x =? 0x85) || (x =? 0x2028)); now destruct nl.
Qed.

Lemma tk_run_cons : forall take nl p acc x t, tk_run take nl p acc (x :: t) =
  if take x then tk_run take nl (eol_pos nl p x) (eol_ch nl x :: acc) (eol_rest nl x t) else (true, acc, p, x :: t).
Proof.
  intros take nl p acc x t. cbn [tk_run]. destruct (take x); [|reflexivity].
  unfold eol_rest, eol_ch. destruct (N.eqb_spec x 0xD) as [E|NE].
  - subst x. cbn [orb N.eqb Pos.eqb]. destruct t as [|y t']; [reflexivity|].
    destruct ((y =? 0xA) || (y =? 0x85) && nl); reflexivity.
  - cbn [orb]. reflexivity.
Qed.

Lemma tk_run_rest_le : forall take nl cs p acc, (length (snd (tk_run take nl p acc cs)) <= length cs)%nat.
Proof.
  intros take nl cs. assert (G : forall n cs p acc, (length cs <= n)%nat ->
                                (length (snd (tk_run take nl p acc cs)) <= length cs)%nat); [|intros p acc; now apply (G (length cs))].
  induction n as [|n IH]; intros [|x t] p acc L; try (cbn in *; lia).
  rewrite tk_run_cons. destruct (take x); [|cbn; lia].
  pose proof (eol_rest_le nl x t) as Hr. cbn [length] in *.
  specialize (IH (eol_rest nl x t) (eol_pos nl p x) (eol_ch nl x :: acc) ltac:(lia)). lia.
Qed.

Lemma tk_get_rest_le : forall nl p cs, (length (snd (tk_get nl p cs)) <= length cs)%nat.
Proof. intros nl p [|x t]; cbn [tk_get snd length]; [lia|]. pose proof (eol_rest_le nl x t). lia. Qed.
Lemma tk_get_if_not_rest_le : forall nl notc p cs, (length (snd (tk_get_if_not nl notc p cs)) <= length cs)%nat.
Proof. intros nl notc p [|x t]; cbn [tk_get_if_not]; [cbn; lia|]. destruct (x =? notc); [cbn; lia|apply tk_get_rest_le]. Qed.
Lemma tk_skipped_char_rest_le : forall ch p cs, (length (snd (tk_skipped_char ch p cs)) <= length cs)%nat.
Proof. intros ch p [|x t]; cbn [tk_skipped_char]; [cbn; lia|]. destruct (x =? ch); cbn; lia. Qed.
Lemma tk_skipped_space_rest_le : forall isWS nl p cs, (length (snd (tk_skipped_space isWS nl p cs)) <= length cs)%nat.
Proof.
  intros isWS nl p [|x t]; cbn [tk_skipped_space]; [cbn; lia|]. pose proof (eol_rest_le nl x t).
  destruct (isWS x); cbn [snd length]; lia.
Qed.

Lemma plain_count_prefix : forall isPlain a b,
  firstn (plain_count isPlain a) a = firstn (plain_count isPlain a) (plain_run isPlain (a ++ b)).
Proof.
  intros isPlain a b. induction a as [|x a IH]; [reflexivity|].
  cbn [plain_count plain_run app]. destruct (isPlain x); [|reflexivity]. cbn [firstn]. now rewrite IH.
Qed.
Lemma plain_count_le : forall isPlain a, (plain_count isPlain a <= length a)%nat.
Proof. intros isPlain a. induction a as [|x a IH]; cbn; [lia|]. destruct (isPlain x); cbn; lia. Qed.
Lemma plain_run_len : forall isPlain a b, (plain_count isPlain a <= length (plain_run isPlain (a ++ b)))%nat.
Proof.
  intros isPlain a b. induction a as [|x a IH]; cbn [plain_count app plain_run]; [lia|].
  destruct (isPlain x); cbn [length]; lia.
Qed.
Lemma plain_count_stop : forall isPlain a b,
  skipn (plain_count isPlain a) a = [] \/ exists x t, skipn (plain_count isPlain a) a ++ b = x :: t /\ isPlain x = false.
Proof.
  intros isPlain a b. induction a as [|x a IH]; [left; reflexivity|].
  cbn [plain_count]. destruct (isPlain x) eqn:Ex; [exact IH|]. right. cbn [skipn app]. eauto.
Qed.

Section Tok.
  Variable step : list N -> dres.
  Variable maxSeq : nat.
  Variable c : cfg.
  Hypothesis HC : xcontract step (X c) maxSeq.
  Hypothesis HS : sizes_ok c maxSeq.
  Notation St := (St step c).

  (** the reader is in abstract state (position, remaining characters) = the third and second component of a spec result,
      and returned the first *)
  Definition tkpost {A : Type} (st : dstatus) (spec : A * pos * list N) (r' : reader) (a : A) : Prop :=
    St r' (snd spec) st /\ a = fst (fst spec) /\ rpos r' = snd (fst spec).

  (** [St] with the position; the column is claimed only under the column repair of finding FD (as written, handleEOL
      does not count NEL / LS under XML 1.0 rules) *)
  Definition StAt (r : reader) (p : pos) (cs : list N) (st : dstatus) : Prop :=
    St r cs st /\ (nelcol c = true -> rpos r = p).

  (** outcome [x] of an operation is the (answer, position, remaining characters) a specification function returned *)
  Definition computes {A : Type} (st : dstatus) (x : res (reader * A) rerr) (spec : A * pos * list N) : Prop :=
    okres st x (fun a => StAt (fst a) (snd (fst spec)) (snd spec) st /\ snd a = fst (fst spec)).

  (** nothing consumed: the state stays, the answer is [a] *)
  Lemma computes_ret : forall A st r p cs (a : A), StAt r p cs st -> computes st (Ok (r, a)) (a, p, cs).
  Proof. intros A st r p cs a H. split; [exact H|reflexivity]. Qed.

  Lemma computes_tkpost : forall A st (x : res (reader * A) rerr) spec, nelcol c = true -> computes st x spec ->
    okres st x (fun a => tkpost st spec (fst a) (snd a)).
  Proof. intros A st x spec Hn H. apply (okres_imp _ _ _ _ _ H). intros a [[H1 H2] H3]. unfold tkpost. auto. Qed.

  Lemma computes_clean : forall A (x : res (reader * A) rerr) spec, computes Clean x spec ->
    match x with Ok (r', a) => St r' (snd spec) Clean /\ a = fst (fst spec) | Err _ => False end.
  Proof.
    intros A [[r' a]|e] spec H; unfold computes in H; apply okres_clean in H; [exact (conj (proj1 (proj1 H)) (proj2 H))|exact H].
  Qed.

  Lemma StAt_here : forall r cs st, St r cs st -> StAt r (rpos r) cs st.
  Proof. intros r cs st H. split; [exact H|reflexivity]. Qed.

  Lemma StAt_move : forall r r' p cs cs' st, StAt r p cs st -> St r' cs' st -> line r' = line r -> col r' = col r ->
    StAt r' p cs' st.
  Proof. intros r r' p cs cs' st [_ Hp] H L C. split; [exact H|]. intros Hn. rewrite <- (Hp Hn). unfold rpos. now rewrite L, C. Qed.

  Lemma rc_At : forall r r' b p cs st, rc_post step c r cs st r' b -> StAt r p cs st -> StAt r' p cs st.
  Proof. intros r r' b p cs st Hr H. exact (StAt_move r r' p cs cs st H (rc_St Hr) (rc_line Hr) (rc_col Hr)). Qed.

  Lemma StAt_newline : forall r p cs st, StAt r p cs st -> StAt (set_pos r (line r + 1) 1) (fst p + 1, 1) cs st.
  Proof. intros r p cs st [H Hp]. split; [exact H|]. intros Hn. rewrite <- (Hp Hn). reflexivity. Qed.

  Lemma StAt_col : forall r p cs st k, StAt r p cs st -> StAt (add_col r k) (col1 p k) cs st.
  Proof. intros r p cs st k [H Hp]. split; [exact H|]. intros Hn. rewrite <- (Hp Hn). reflexivity. Qed.

  (** how the character-level operations begin: "if (fCharIndex == fCharsAvail && !refreshCharBuffer()) [K0];
      ch = fCharBuf[fCharIndex]; [K1]" *)
  Lemma ensure_head : forall (A : Type) (K0 : reader -> res A rerr) (K1 : reader -> N -> res A rerr) (P : A -> Prop) r p cs st,
    StAt r p cs st ->
    (forall r1, StAt r1 p [] st -> cs = [] -> okres st (K0 r1) P) ->
    (forall r1 x t cs2, StAt r1 p cs st -> ccur r1 = x :: t -> cs = x :: cs2 -> okres st (K1 r1 x) P) ->
    okres st (match ensure c r with
              | Err e => Err e
              | Ok (r1, false) => K0 r1
              | Ok (r1, true) => match rd r1 0 with None => Err Fault | Some ch => K1 r1 ch end
              end) P.
  Proof.
    intros A K0 K1 P r p cs st H H0 H1. pose proof (ensure_spec step maxSeq c HC HS r cs st (proj1 H)) as He.
    destruct (ensure c r) as [[r1 b]|[| |e]]; cbn [okres]; auto.
    destruct He as [Hs [L1 [C1 [Hb1 Hb0]]]]. pose proof (StAt_move r r1 p cs cs st H Hs L1 C1) as At. destruct b.
    - destruct (Hb1 eq_refl) as [x [t Ec]]. unfold rd. rewrite Ec. cbn [nth_error].
      destruct (St_ccur_prefix step c r1 cs st Hs) as [D ED]. rewrite Ec in ED. exact (H1 r1 x t (t ++ D) At Ec ED).
    - destruct (Hb0 eq_refl) as [E0 _]. apply H0; [rewrite <- E0; exact At|exact E0].
  Qed.

  Lemma adv1_At : forall r p x t cs2 st, StAt r p (x :: cs2) st -> ccur r = x :: t ->
    exists r2, adv1 r = Ok r2 /\ StAt r2 p cs2 st.
  Proof.
    intros r p x t cs2 st H Ec. destruct (adv1_St step c r x t _ st (proj1 H) Ec) as [r2 [cs' [Ea [E [H2 [_ [L2 C2]]]]]]].
    injection E as <-. exists r2. split; [exact Ea|]. exact (StAt_move r r2 p _ _ st H H2 L2 C2).
  Qed.

  Lemma handle_eol_ok : forall r p ch cs2 st, StAt r p cs2 st ->
    computes st (handle_eol c r ch) (eol_ch (nel c) ch, eol_pos (nel c) p ch, eol_rest (nel c) ch cs2).
  Proof.
    intros r p ch cs2 st H. unfold handle_eol, computes. cbn [fst snd].
    destruct (N.eqb_spec ch 0xD) as [ED|ND].
    - subst ch. apply ensure_head with (1 := StAt_newline r p cs2 st H).
      + intros r1 H1 E0. subst cs2. cbn [okres fst snd]. exact (computes_ret _ _ _ _ _ _ H1).
      + intros r1 x t cs3 H1 Ec E. subst cs2. unfold eol_rest. rewrite N.eqb_refl.
        destruct ((x =? 0xA) || (x =? 0x85) && nel c).
        * destruct (adv1_At r1 _ x t cs3 st H1 Ec) as [r2 [Ea H2]]. rewrite Ea. split; [exact H2|reflexivity].
        * exact (computes_ret _ _ _ _ _ _ H1).
    - apply N.eqb_neq in ND. unfold eol_rest, eol_ch, eol_pos. rewrite ND. cbn [orb okres fst snd].
      destruct (N.eqb_spec ch 0xA) as [EA|NA]; cbn [orb okres fst snd]; [split; [exact (StAt_newline r p cs2 st H)|exact EA]|].
      destruct ((ch =? 0x85) || (ch =? 0x2028)); cbn [okres fst snd].
      + destruct (nel c); cbn [okres fst snd]; [split; [exact (StAt_newline r p cs2 st H)|reflexivity]|].
        split; [|reflexivity]. destruct (nelcol c) eqn:Enc; [exact (StAt_col r p cs2 st 1 H)|].
        split; [exact (proj1 H)|congruence].
      + split; [exact (StAt_col r p cs2 st 1 H)|reflexivity].
  Qed.

  (** a consumed character that takes the fast path "fCurCol++" of its operation *)
  Lemma fast_step : forall r p x cs2 st, StAt r p cs2 st -> ordinary x ->
    StAt (add_col r 1) (eol_pos (nel c) p x) (eol_rest (nel c) x cs2) st /\ x = eol_ch (nel c) x.
  Proof.
    intros r p x cs2 st H Hx. destruct (ordinary_eol (nel c) x cs2 p Hx) as [P1 [P2 P3]].
    rewrite P1, P2, P3. split; [exact (StAt_col r p cs2 st 1 H)|reflexivity].
  Qed.

  Lemma after_get_ok : forall r p ch cs2 st, StAt r p cs2 st ->
    computes st (after_get c r ch) (eol_ch (nel c) ch, eol_pos (nel c) p ch, eol_rest (nel c) ch cs2).
  Proof.
    intros r p ch cs2 st H. unfold after_get. destruct (plain_ch ch) eqn:Ep; [|exact (handle_eol_ok r p ch cs2 st H)].
    destruct (fast_step r p ch cs2 st H (plain_ch_ordinary _ Ep)) as [A B]. split; [exact A|exact B].
  Qed.

  Lemma consume_ok : forall r p x t cs2 st, StAt r p (x :: cs2) st -> ccur r = x :: t ->
    computes st (match adv1 r with
                 | Err e => Err e
                 | Ok r2 => match after_get c r2 x with Ok (r3, ch') => Ok (r3, Some ch') | Err e => Err e end
                 end) (tk_get (nel c) p (x :: cs2)).
  Proof.
    intros r p x t cs2 st H Ec. destruct (adv1_At r p x t cs2 st H Ec) as [r2 [Ea H2]]. rewrite Ea.
    apply okres_bind with (1 := after_get_ok r2 p x cs2 st H2). intros [r3 ch'] [A B]. cbn [fst snd] in *.
    subst ch'. exact (computes_ret _ _ _ _ _ _ A).
  Qed.

  Theorem get_next_ok : forall r p cs st, StAt r p cs st -> computes st (get_next c r) (tk_get (nel c) p cs).
  Proof.
    intros r p cs st H. unfold get_next, computes. apply ensure_head with (1 := H).
    - intros r1 H1 E. subst cs. exact (computes_ret _ _ _ _ _ _ H1).
    - intros r1 x t cs2 H1 Ec E. subst cs. exact (consume_ok r1 p x t cs2 st H1 Ec).
  Qed.

  Theorem get_next_if_not_ok : forall r p cs st notc, StAt r p cs st ->
    computes st (get_next_if_not c r notc) (tk_get_if_not (nel c) notc p cs).
  Proof.
    intros r p cs st notc H. unfold get_next_if_not, computes. apply ensure_head with (1 := H).
    - intros r1 H1 E. subst cs. exact (computes_ret _ _ _ _ _ _ H1).
    - intros r1 x t cs2 H1 Ec E. subst cs. cbn [tk_get_if_not]. destruct (x =? notc); [exact (computes_ret _ _ _ _ _ _ H1)|].
      exact (consume_ok r1 p x t cs2 st H1 Ec).
  Qed.

  Lemma skip_if_ok : forall (A : Type) (test : N -> bool) (yes : N -> A) (no : A) r p cs st, StAt r p cs st ->
    computes st (match ensure c r with
                 | Err e => Err e
                 | Ok (r1, false) => Ok (r1, no)
                 | Ok (r1, true) =>
                   match rd r1 0 with
                   | None => Err Fault
                   | Some ch => if test ch then match adv1 r1 with Ok r2 => Ok (add_col r2 1, yes ch) | Err e => Err e end
                                else Ok (r1, no)
                   end
                 end)
             (match cs with
              | x :: t => if test x then (yes x, col1 p 1, t) else (no, p, cs)
              | [] => (no, p, [])
              end).
  Proof.
    intros A test yes no r p cs st H. unfold computes. apply ensure_head with (1 := H).
    - intros r1 H1 E. subst cs. exact (computes_ret _ _ _ _ _ _ H1).
    - intros r1 x t cs2 H1 Ec E. subst cs. destruct (test x); [|exact (computes_ret _ _ _ _ _ _ H1)].
      destruct (adv1_At r1 p x t cs2 st H1 Ec) as [r2 [Ea H2]]. rewrite Ea.
      split; [exact (StAt_col r2 p cs2 st 1 H2)|reflexivity].
  Qed.

  Theorem skipped_char_ok : forall r p cs st ch, StAt r p cs st ->
    computes st (skipped_char c r ch) (tk_skipped_char ch p cs).
  Proof. intros r p cs st ch H. exact (skip_if_ok bool (fun x => x =? ch) (fun _ => true) false r p cs st H). Qed.

  Theorem skip_if_quote_ok : forall r p cs st, StAt r p cs st -> computes st (skip_if_quote c r) (tk_skip_if_quote p cs).
  Proof.
    intros r p cs st H. exact (skip_if_ok (option N) (fun x => (x =? 0x22) || (x =? 0x27)) Some None r p cs st H).
  Qed.

  Theorem skipped_space_ok : forall r p cs st, StAt r p cs st ->
    computes st (skipped_space c r) (tk_skipped_space (isWS c) (nel c) p cs).
  Proof.
    intros r p cs st H. unfold skipped_space, computes. apply ensure_head with (1 := H).
    - intros r1 H1 E. subst cs. exact (computes_ret _ _ _ _ _ _ H1).
    - intros r1 x t cs2 H1 Ec E. subst cs. cbn [tk_skipped_space]. destruct (isWS c x); [|exact (computes_ret _ _ _ _ _ _ H1)].
      destruct (adv1_At r1 p x t cs2 st H1 Ec) as [r2 [Ea H2]]. rewrite Ea. destruct (ws_plain x) eqn:Ew.
      + destruct (fast_step r2 p x cs2 st H2 (ws_plain_ordinary x Ew)) as [A _]. split; [exact A|reflexivity].
      + apply okres_bind with (1 := handle_eol_ok r2 p x cs2 st H2). intros [r3 ch'] [A _].
        exact (computes_ret _ _ _ _ _ _ A).
  Qed.

  (** getSpaces / getUpToCharOrWS: [fast] characters are never line ends.  Fuel: every iteration consumes a character or
      refills an empty buffer *)
  Lemma scan_loop_ok : forall take fast, (forall x, take x = true -> fast x = true -> ordinary x) ->
    forall fuel r p cs st acc, StAt r p cs st ->
    (2 * length cs + (match ccur r with [] => 2 | _ => 1 end) <= fuel)%nat ->
    computes st (scan_loop c fuel take fast r acc) (tk_run take (nel c) p acc cs).
  Proof.
    intros take fast Hfast. induction fuel as [|f IH]; intros r p cs st acc H Hf; [destruct (ccur r); lia|].
    cbn [scan_loop]. destruct (ccur r) as [|x t] eqn:Ec.
    - apply okres_bind with (1 := refresh_char_spec step maxSeq c HC HS r cs st (proj1 H)). intros [r1 b] Hr.
      pose proof (rc_At r r1 b p cs st Hr H) as At. destruct b.
      + apply IH; [exact At|]. pose proof (rc_true Hr eq_refl) as Hb1. destruct (ccur r1); [now destruct Hb1|lia].
      + destruct (rc_false Hr eq_refl) as [E0 _]. subst cs. exact (computes_ret _ _ _ _ _ _ At).
    - destruct (St_ccur_prefix step c r cs st (proj1 H)) as [D ED]. rewrite Ec in ED. cbn [app] in ED. subst cs.
      rewrite tk_run_cons. destruct (take x) eqn:Etk; [|exact (computes_ret _ _ _ _ _ _ H)].
      destruct (adv1_At r p x t (t ++ D) st H Ec) as [r2 [Ea H2]]. rewrite Ea.
      pose proof (eol_rest_le (nel c) x (t ++ D)) as Hl. cbn [length app] in Hf. destruct (fast x) eqn:Ef.
      + destruct (fast_step r2 p x (t ++ D) st H2 (Hfast x Etk Ef)) as [A B]. rewrite <- B.
        apply IH; [exact A|]. destruct (ccur (add_col r2 1)); lia.
      + apply okres_bind with (1 := handle_eol_ok r2 p x (t ++ D) st H2). intros [r3 ch'] [A B]. cbn [fst snd] in *.
        subst ch'. apply IH; [exact A|]. destruct (ccur r3); lia.
  Qed.

  Definition run_out (sp : bool * list N * pos * list N) : (bool * list N) * pos * list N :=
    ((fst (fst (fst sp)), rev (snd (fst (fst sp)))), snd (fst sp), snd sp).

  Lemma scan_rev_ok : forall st (x : res (reader * (bool * list N)) rerr) sp, computes st x sp ->
    computes st (match x with Ok (r', (b, acc)) => Ok (r', (b, rev acc)) | Err e => Err e end) (run_out sp).
  Proof.
    intros st [[r' [b acc]]|[| |e]] sp H; cbn [computes okres fst snd run_out] in *; auto.
    destruct H as [A B]. split; [exact A|]. now rewrite <- B.
  Qed.

  Theorem get_spaces_ok : forall fuel r p cs st, StAt r p cs st -> (2 * length cs + 2 <= fuel)%nat ->
    computes st (get_spaces c fuel r) (run_out (tk_run (isWS c) (nel c) p [] cs)).
  Proof.
    intros fuel r p cs st H Hf. apply scan_rev_ok.
    apply (scan_loop_ok (isWS c) ws_plain (fun x _ => ws_plain_ordinary x)); [exact H|destruct (ccur r); lia].
  Qed.

  Theorem get_up_to_ok : forall fuel r p cs st ch, isWS c 0xA = true -> StAt r p cs st -> (2 * length cs + 2 <= fuel)%nat ->
    computes st (get_up_to c fuel r ch) (run_out (tk_run (upto_take c ch) (nel c) p [] cs)).
  Proof.
    intros fuel r p cs st ch Hlf H Hf. apply scan_rev_ok. apply scan_loop_ok with (fast := upto_fast); [|exact H|destruct (ccur r); lia].
    intros x Ht Hf0. destruct (upto_fast_not_eol x Hf0) as [A1 [A3 A4]]. repeat split; auto.
    apply N.eqb_neq. intros E. subst x. unfold upto_take in Ht. rewrite Hlf in Ht. discriminate.
  Qed.

  (** skipSpaces is the same loop without the buffer: it skips exactly the run getSpaces would return *)
  Definition same_run (sk : bool) (acc : list N) (x : res (reader * (bool * bool)) rerr)
             (y : res (reader * (bool * list N)) rerr) : Prop :=
    match x, y with
    | Ok (r1, (b1, s1)), Ok (r2, (b2, acc2)) =>
        r1 = r2 /\ b1 = b2 /\ exists l, acc2 = l ++ acc /\ s1 = (sk || match l with [] => false | _ => true end)%bool
    | Err e1, Err e2 => e1 = e2
    | _, _ => False
    end.

  Lemma skip_spaces_scan : forall fuel r sk acc,
    same_run sk acc (skip_spaces c fuel r sk) (scan_loop c fuel (isWS c) ws_plain r acc).
  Proof.
    induction fuel as [|f IH]; intros r sk acc; [reflexivity|].
    assert (Hstop : forall r0 b, same_run sk acc (Ok (r0, (b, sk))) (Ok (r0, (b, acc)))).
    { intros r0 b. split; [reflexivity|]. split; [reflexivity|]. exists []. split; [reflexivity|]. now rewrite Bool.orb_false_r. }
    cbn [skip_spaces scan_loop]. destruct (ccur r) as [|x t] eqn:Ec.
    - destruct (refresh_char c r) as [[r1 [|]]|e]; [apply IH|apply Hstop|reflexivity].
    - destruct (isWS c x); [|apply Hstop].
      destruct (adv1 r) as [r2|e]; [|reflexivity].
      (* both loops go on with the same reader [r3] and one more character [y] taken *)
      assert (Hstep : forall r3 y, same_run sk acc (skip_spaces c f r3 true) (scan_loop c f (isWS c) ws_plain r3 (y :: acc))).
      { intros r3 y. specialize (IH r3 true (y :: acc)). unfold same_run in *.
        destruct (skip_spaces c f r3 true) as [[r5 [b5 s5]]|e1];
          destruct (scan_loop c f (isWS c) ws_plain r3 (y :: acc)) as [[r4 [b4 a4]]|e2]; auto.
        destruct IH as [A [B [l [D E]]]]. split; [exact A|]. split; [exact B|]. exists (l ++ [y]).
        split; [rewrite <- app_assoc; exact D|]. rewrite E. cbn [orb].
        destruct (l ++ [y]) eqn:El; [now destruct l|now rewrite Bool.orb_true_r]. }
      destruct (ws_plain x); [apply Hstep|]. destruct (handle_eol c r2 x) as [[r3 ch']|e]; [apply Hstep|reflexivity].
  Qed.

  Theorem skip_spaces_ok : forall fuel r p cs st, StAt r p cs st -> (2 * length cs + 2 <= fuel)%nat ->
    computes st (skip_spaces c fuel r false)
             (let sp := tk_run (isWS c) (nel c) p [] cs in
              ((fst (fst (fst sp)), match snd (fst (fst sp)) with [] => false | _ => true end), snd (fst sp), snd sp)).
  Proof.
    intros fuel r p cs st H Hf.
    pose proof (scan_loop_ok (isWS c) ws_plain (fun x _ => ws_plain_ordinary x) fuel r p cs st [] H
                  ltac:(destruct (ccur r); lia)) as Hs.
    pose proof (skip_spaces_scan fuel r false []) as Hq. unfold same_run in Hq.
    destruct (skip_spaces c fuel r false) as [[r1 [b1 s1]]|e1];
      destruct (scan_loop c fuel (isWS c) ws_plain r []) as [[r2 [b2 acc2]]|e2]; try contradiction.
    - destruct Hq as [A [B [l [D E]]]]. subst r2 b2. rewrite app_nil_r in D. subst l.
      cbn [computes okres fst snd] in *. destruct Hs as [S1 S2]. split; [exact S1|]. rewrite <- S2. now rewrite E.
    - subst e2. exact Hs.
  Qed.

  Theorem move_plain_ok : forall isPlain r cs st, St r cs st ->
    okres st (move_plain isPlain r)
          (fun a => let k := length (snd a) in
                    snd a = firstn k (plain_run isPlain cs) /\ (k <= length (plain_run isPlain cs))%nat /\
                    St (fst a) (skipn k cs) st /\ rpos (fst a) = col1 (rpos r) (N.of_nat k) /\
                    (** it stops only at a character that is not plain content or at the end of the BUFFER *)
                    (ccur (fst a) = [] \/ exists x t, skipn k cs = x :: t /\ isPlain x = false)).
  Proof.
    intros isPlain r cs st H. unfold move_plain.
    destruct (St_ccur_prefix step c r cs st H) as [D ED].
    pose proof (plain_count_le isPlain (ccur r)) as Hle.
    destruct (Nat.eqb_spec (plain_count isPlain (ccur r)) 0) as [E0|Hnz].
    - cbn [okres fst snd length firstn skipn]. split; [reflexivity|]. split; [lia|]. split; [exact H|].
      split; [unfold col1, rpos; cbn [fst snd]; now rewrite N.add_0_r|].
      pose proof (plain_count_stop isPlain (ccur r) D) as Hs. rewrite E0 in Hs. cbn [skipn] in Hs. rewrite <- ED in Hs. exact Hs.
    - destruct (adv_St step c r _ cs st H Hle) as [r2 [Ea [H2 [Ec2 [L2 C2]]]]]. rewrite Ea.
      cbn [okres fst snd]. rewrite firstn_length, Nat.min_l by exact Hle.
      split; [subst cs; apply plain_count_prefix|]. split; [subst cs; apply plain_run_len|].
      split; [exact H2|]. split; [unfold rpos, col1; cbn [add_col set_pos line col fst snd]; now rewrite L2, C2|].
      cbn [add_col set_pos ccur]. rewrite Ec2. subst cs. rewrite skipn_app_le by exact Hle. apply plain_count_stop.
  Qed.

  Theorem peek_next_ok : forall r p cs st, StAt r p cs st -> computes st (peek_next c r) (tk_peek (nel c) cs, p, cs).
  Proof.
    intros r p cs st H. unfold peek_next, computes. apply ensure_head with (1 := H).
    - intros r1 H1 E. subst cs. exact (computes_ret _ _ _ _ _ _ H1).
    - intros r1 x t cs2 H1 Ec E. subst cs. cbn [tk_peek fst snd].
      destruct ((x =? 0xD) || nel c && ((x =? 0x85) || (x =? 0x2028))); split; auto.
  Qed.

  Lemma want_chars_ok : forall fuel strict r p cs st n, StAt r p cs st -> (n - length (ccur r) + 1 <= fuel)%nat ->
    okres st (want_chars c fuel strict r n)
          (fun a => StAt (fst a) p cs st /\ (snd a = true -> (n <= length (ccur (fst a)))%nat) /\
                    (snd a = false -> (n + 1 <= cbsz c)%nat -> (length cs < n)%nat)).
  Proof.
    induction fuel as [|f IH]; intros strict r p cs st n H Hf; [lia|].
    cbn [want_chars]. destruct (Nat.ltb_spec (length (ccur r)) n) as [Hlt|Hge].
    - apply okres_bind with (1 := refresh_char_spec step maxSeq c HC HS r cs st (proj1 H)). intros [r1 b] Hr.
      pose proof (rc_At r r1 b p cs st Hr H) as At. destruct (rc_grows Hr) as [new Enew].
      destruct (strict && negb b) eqn:Esb.
      { cbn [okres fst snd]. split; [exact At|]. split; [discriminate|]. intros _ _.
        apply Bool.andb_true_iff in Esb. destruct Esb as [_ Eb]. destruct b; [discriminate|].
        destruct (rc_false Hr eq_refl) as [E0 _]. subst cs. cbn. lia. }
      destruct (Nat.eqb_spec (length (ccur r1)) (length (ccur r))) as [Esame_len|Hgrew].
      { cbn [okres fst snd]. split; [exact At|]. split; [discriminate|]. intros _ Hn.
        assert (Esame : ccur r1 = ccur r).
        { rewrite Enew in Esame_len. rewrite app_length in Esame_len. destruct new; [now rewrite Enew, app_nil_r|cbn in Esame_len; lia]. }
        destruct (rc_stuck Hr ltac:(lia) Esame) as [Ecs _]. rewrite Ecs. exact Hlt. }
      apply IH; [exact At|]. rewrite Enew, app_length in *. lia.
    - cbn [okres fst snd]. split; [exact H|]. split; [intros _; lia|discriminate].
  Qed.

  Theorem skipped_string_ok : forall r p cs st s, (length s + 1 <= cbsz c)%nat -> StAt r p cs st ->
    computes st (skipped_string c r s) (tk_skipped_string s p cs).
  Proof.
    intros r p cs st s Hn H. unfold skipped_string, tk_skipped_string, computes.
    apply okres_bind with (1 := want_chars_ok (S (length s)) true r p cs st (length s) H ltac:(lia)).
    intros [r1 b] [H1 [Hb1 Hb0]]. cbn [fst snd] in *. destruct b.
    - specialize (Hb1 eq_refl). destruct (St_ccur_prefix step c r1 cs st (proj1 H1)) as [D ED].
      assert (Hfe : firstn (length s) cs = firstn (length s) (ccur r1)) by (rewrite ED; apply firstn_app_le; exact Hb1).
      rewrite starts_with_firstn, Hfe.
      destruct (eq_list (firstn (length s) (ccur r1)) s); cbn [okres fst snd]; [|exact (computes_ret _ _ _ _ _ _ H1)].
      destruct (adv_St step c r1 (length s) cs st (proj1 H1) Hb1) as [r2 [Ea [H2 [_ [L2 C2]]]]]. rewrite Ea.
      split; [|reflexivity]. apply StAt_col. exact (StAt_move r1 r2 p cs _ st H1 H2 L2 C2).
    - rewrite (starts_with_short s cs (Hb0 eq_refl Hn)). exact (computes_ret _ _ _ _ _ _ H1).
  Qed.

  Theorem peek_string_ok : forall r p cs st s, (length s + 1 <= cbsz c)%nat -> StAt r p cs st ->
    computes st (peek_string c r s) (starts_with s cs, p, cs).
  Proof.
    intros r p cs st s Hn H. unfold peek_string, computes.
    apply okres_bind with (1 := want_chars_ok (S (length s)) false r p cs st (length s) H ltac:(lia)).
    intros [r1 b] [H1 [Hb1 Hb0]]. cbn [fst snd] in *. destruct b; (split; [exact H1|]); cbn [fst snd].
    - destruct (St_ccur_prefix step c r1 cs st (proj1 H1)) as [D ED].
      rewrite starts_with_firstn, ED, firstn_app_le by exact (Hb1 eq_refl). reflexivity.
    - symmetry. exact (starts_with_short s cs (Hb0 eq_refl Hn)).
  Qed.

  Lemma get_next_none : forall r r', get_next c r = Ok (r', None) -> ensure c r = Ok (r', false).
  Proof.
    intros r r'. unfold get_next. destruct (ensure c r) as [[r1 [|]]|e]; try discriminate; [|congruence].
    destruct (rd r1 0) as [ch|]; [|discriminate]. destruct (adv1 r1) as [r2|e]; [|discriminate].
    destruct (after_get c r2 ch) as [[r3 ch']|e]; discriminate.
  Qed.

  (** T04_chars for every input status *)
  Lemma deliver_spec : forall fuel r cs st, St r cs st -> (length cs < fuel)%nat ->
    exists p q fin, deliver c fuel r = (p, fin) /\ eol_norm (nel c) cs = p ++ q /\
      match fin with
      | EndEOF => noBad st /\ q = []
      | EndErr (XErr e) => errOK st e
      | _ => False
      end.
  Proof.
    induction fuel as [|f IH]; intros r cs st H Hf; [lia|].
    cbn [deliver]. pose proof (get_next_ok r (rpos r) cs st (StAt_here r cs st H)) as Hg.
    destruct (get_next c r) as [[r' [ch|]]|[| |e]] eqn:Eg; cbn [computes okres fst snd] in Hg; try contradiction.
    - destruct Hg as [[H' _] Eo]. destruct cs as [|x t]; [discriminate|]. cbn [tk_get fst snd] in *.
      pose proof (eol_rest_le (nel c) x t) as Hl. cbn [length] in Hf.
      destruct (IH r' _ st H' ltac:(lia)) as [p [q [fin [Ed [Ep Hfin]]]]].
      rewrite Ed. exists (ch :: p), q, fin. split; [reflexivity|]. split; [|exact Hfin].
      injection Eo as ->. now rewrite eol_norm_cons, Ep.
    - apply get_next_none in Eg. pose proof (ensure_spec step maxSeq c HC HS r cs st H) as He. rewrite Eg in He.
      destruct He as [_ [_ [_ [_ Hb0]]]]. destruct (Hb0 eq_refl) as [E0 [Hnb _]]. subst cs.
      exists [], [], EndEOF. auto.
    - exists [], (eol_norm (nel c) cs), (EndErr (XErr e)). auto.
  Qed.
End Tok.
