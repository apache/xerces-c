(** Refills -- readBytes on a chunked stream, refreshRawBuffer, one transcoder call, xcodeMoreChars -- and then the abstract
    state of a reader and what refreshCharBuffer, the buffer-index steps and ReaderMgr::popReader do to it. *)
From XV Require Export C04.Proofs04a.
From Coq Require Import Lia Arith.
Local Open Scope N_scope.

Definition nonempty (ch : list N) : Prop := ch <> [].

(** a read of at most [req] bytes: the next bytes, none lost; nothing only if nothing was asked for or the stream has ended *)
Record read_post (s : list (list N)) (req : nat) (got : list N) (s' : list (list N)) : Prop := {
  rp_bytes : got ++ concat s' = concat s;
  rp_len : (length got <= req)%nat;
  rp_chunks : Forall nonempty s';
  rp_none : got = [] -> req = 0%nat \/ s = [];
  rp_end : s = [] -> s' = [] }.

Lemma sread_spec : forall s req got s', Forall nonempty s -> sread s req = (got, s') -> read_post s req got s'.
Proof.
  intros s req got s' Hs H. destruct s as [|c rest]; cbn [sread] in H.
  - inversion H; subst. repeat split; cbn; auto; lia.
  - inversion Hs as [|? ? Hc Hrest]; subst.
    destruct (Nat.leb_spec (length c) req) as [Hle|Hgt]; inversion H; subst; clear H.
    + repeat split; auto. intros E. subst. now destruct Hc. discriminate.
    + split.
      * cbn [concat]. now rewrite app_assoc, firstn_skipn.
      * rewrite firstn_length. lia.
      * constructor; [|exact Hrest]. intros E. apply (f_equal (@length N)) in E. rewrite skipn_length in E. cbn in E. lia.
      * intros E. apply (f_equal (@length N)) in E. rewrite firstn_length in E. cbn in E. lia.
      * discriminate.
Qed.

Lemma sfill_spec : forall s req got s', Forall nonempty s -> sfill s req = (got, s') -> read_post s req got s'.
Proof.
  induction s as [|c rest IH]; intros req got s' Hs H; cbn [sfill] in H.
  - inversion H; subst. repeat split; cbn; auto; lia.
  - inversion Hs as [|? ? Hc Hrest]; subst.
    destruct c as [|b c']; [now destruct Hc|].
    destruct (Nat.eqb_spec req 0) as [E0|Hnz].
    + inversion H; subst. repeat split; cbn; auto; try lia; try discriminate.
    + destruct (Nat.leb (length (b :: c')) req) eqn:El.
      * destruct (sfill rest (req - length (b :: c'))) as [g s2] eqn:Ef. inversion H; subst; clear H.
        apply Nat.leb_le in El. destruct (IH _ _ _ Hrest Ef) as [A B C D E].
        repeat split; auto.
        -- cbn [concat]. rewrite <- A. cbn. f_equal. now rewrite <- app_assoc.
        -- cbn [length app] in *. rewrite ?app_length. lia.
        -- discriminate.
        -- discriminate.
      * apply sread_spec; [exact Hs|]. cbn [sread]. rewrite El. exact H.
Qed.

Section Refill.
  Variable step : list N -> dres.
  Variable maxSeq : nat.
  Variable c : cfg.
  Hypothesis HC : xcontract step (X c) maxSeq.
  Hypothesis HS : sizes_ok c maxSeq.

  (** if the raw window does not grow although there was room, the stream has ended and the window holds all that is left *)
  Lemma refresh_raw_spec : forall r, good c r -> exists r1,
    refresh_raw c r = Ok r1 /\ good c r1 /\ pending r1 = pending r /\ line r1 = line r /\ col r1 = col r /\
    (length (rcur r) <= length (rcur r1))%nat /\
    (length (rcur r1) = length (rcur r) -> (length (rcur r) < rbsz c)%nat ->
     rcur r1 = rcur r /\ pending r = rcur r /\ strm r1 = []).
  Proof.
    intros r G. pose proof (good_raw_le c r G) as G2. unfold refresh_raw.
    destruct (Nat.ltb_spec (rbsz c) (length (rcur r))) as [Hlt|Hge]; [lia|].
    destruct (if fillraw c then sfill (strm r) (rbsz c - length (rcur r)) else sread (strm r) (rbsz c - length (rcur r)))
      as [got s'] eqn:Eg.
    assert (Hsp : read_post (strm r) (rbsz c - length (rcur r)) got s')
      by (destruct (fillraw c); [eapply sfill_spec|eapply sread_spec]; eauto; exact (good_chunks c r G)).
    pose proof (rp_len _ _ _ _ Hsp) as B.
    destruct (Nat.ltb_spec (rbsz c - length (rcur r)) (length got)) as [Hlt|Hge2]; [lia|].
    eexists. split; [reflexivity|].
    split; [apply good_raw; [exact G|rewrite app_length; lia|exact (rp_chunks _ _ _ _ Hsp)]|].
    unfold pending. cbn [rcur strm line col]. rewrite app_length.
    split; [now rewrite <- app_assoc, (rp_bytes _ _ _ _ Hsp)|].
    split; [reflexivity|]. split; [reflexivity|]. split; [lia|].
    intros El Hroom. assert (Eg0 : got = []) by (destruct got; [reflexivity|cbn in El; lia]).
    destruct (rp_none _ _ _ _ Hsp Eg0) as [?|Hst]; [lia|]. subst got.
    rewrite Hst, (rp_end _ _ _ _ Hsp Hst). cbn. now rewrite !app_nil_r.
  Qed.

  (** what xcodeMoreChars guarantees; [cs]/[st] = the decoding of everything not yet decoded *)
  Record xm_post (r : reader) (m : nat) (cs : list N) (st : dstatus) (r' : reader) (new : list N) : Prop := {
    xm_good : good c r';
    xm_line : line r' = line r;
    xm_col : col r' = col r;
    xm_len : (length new <= m)%nat;
    xm_rest : exists rest, cs = new ++ rest /\ Dec step (pending r') rest st /\
                (new = [] -> (rest = [] /\ st = Clean /\ strm r' = []) \/
                             (exists u n, step (rcur r') = DOut u n /\ (m < length u)%nat)) }.

  Lemma nsteps_err_Dec_app : forall s t k o n e, nsteps step k s = Some (o, n) -> step (skipn n s) = DErr e ->
    forall cs st, Dec step (s ++ t) cs st -> st = Bad e.
  Proof.
    intros s t k o n e Hn He cs st D.
    destruct (nsteps_bounds step (X c) maxSeq HC _ _ _ _ Hn) as [B1 _].
    eapply (nsteps_err_Dec step (X c) maxSeq HC k (s ++ t) o n e cs st).
    - eapply nsteps_app; eauto.
    - rewrite skipn_app_le by lia. eapply xc_err_ext; eauto.
    - exact D.
  Qed.

  (** the invariant of the "while (!bytesEaten)" loop: a pass with [needMore] set follows a transcoder call that ate nothing,
      so the first character of the raw window is incomplete or does not fit into [m] units *)
  Definition starved (r : reader) (m : nat) : Prop :=
    step (rcur r) = DNeed \/ exists u n, step (rcur r) = DOut u n /\ (m < length u)%nat.

  Lemma transcode_spec : forall r m cs st, good c r -> (0 < m)%nat -> Dec step (pending r) cs st ->
    match X c (rcur r) m with
    | Err e => st = Bad e
    | Ok (out, eaten) =>
      (length out <= m)%nat /\ (eaten <= length (rcur r))%nat /\
      if Nat.eqb eaten 0
      then starved r m
      else xm_post r m cs st (mkR (ccur r) (cidx r) (skipn eaten (rcur r)) (ridx r + eaten) (strm r) (noMore r) (line r) (col r)) out
    end.
  Proof.
    intros r m cs st G Hm0 D. pose proof (good_raw_le c r G) as Gb. destruct (X c (rcur r) m) as [[out eaten]|e] eqn:EX.
    - destruct (xc_ok _ _ _ HC _ _ _ _ EX) as [Hm [k Hk]].
      destruct (nsteps_bounds step (X c) maxSeq HC _ _ _ _ Hk) as [B1 [B2 [B3 B4]]].
      split; [exact Hm|]. split; [exact B1|]. destruct (Nat.eqb_spec eaten 0) as [E0|Hnz].
      + subst eaten. exact (xc_progress _ _ _ HC _ _ _ Hm0 EX).
      + pose proof (nsteps_app step (X c) maxSeq HC _ _ (concat (strm r)) _ _ Hk) as Hk2.
        destruct (nsteps_Dec step (X c) maxSeq HC _ _ _ _ _ _ Hk2 D) as [rest [Er Dr]].
        rewrite skipn_app_le in Dr by lia.
        split; [apply good_raw; [exact G|rewrite skipn_length; lia|exact (good_chunks c r G)]|reflexivity|reflexivity|exact Hm|].
        exists rest. split; [exact Er|]. split; [exact Dr|].
        intros En. subst out. assert (k = 0)%nat by (cbn in B2; lia). subst k. cbn in Hk. inversion Hk. lia.
    - destruct (xc_err _ _ _ HC _ _ _ EX) as [k [o [n [Hn He]]]]. exact (nsteps_err_Dec_app _ _ _ _ _ _ Hn He cs st D).
  Qed.

  (** what xcodeMoreChars may end with.  [m < 2]: with room for one unit a surrogate pair never fits (refreshCharBuffer
      does not ask with less than two) *)
  Definition xm_ok (r : reader) (m : nat) (cs : list N) (st : dstatus) (x : res (reader * list N) rerr) : Prop :=
    match x with
    | Err Fault | Err FuelOut => False
    | Err (XErr e) => st = Bad e \/ (e = E_Trans_BadSrcSeq /\ (st = Truncated \/ (m < 2)%nat))
    | Ok (r', new) => xm_post r m cs st r' new
    end.

  (** one pass through the transcoding part of the loop, on the reader [r1] the optional raw refresh left; [again] is the
      next pass, taken when nothing was eaten *)
  Lemma xcode_pass_spec : forall (again : res (reader * list N) rerr) r r1 m cs st,
    good c r1 -> pending r1 = pending r -> line r1 = line r -> col r1 = col r -> (0 < m)%nat ->
    Dec step (pending r) cs st -> (starved r1 m -> xm_ok r1 m cs st again) ->
    xm_ok r m cs st
          (match X c (rcur r1) m with
           | Err e => Err (XErr e)
           | Ok (out, eaten) =>
             if Nat.ltb m (length out) || Nat.ltb (length (rcur r1)) eaten then Err Fault
             else if Nat.eqb eaten 0 then again
             else Ok (mkR (ccur r1) (cidx r1) (skipn eaten (rcur r1)) (ridx r1 + eaten) (strm r1) (noMore r1)
                          (line r1) (col r1), out)
           end).
  Proof.
    intros again r r1 m cs st G1 P1 Hline Hcol Hm0 D Hagain. rewrite <- P1 in D.
    assert (Hsame : forall r' new, xm_post r1 m cs st r' new -> xm_post r m cs st r' new).
    { intros r' new [Hg Hl Hc Hlen Hrest]. split; [exact Hg|congruence|congruence|exact Hlen|exact Hrest]. }
    pose proof (transcode_spec r1 m cs st G1 Hm0 D) as HT.
    destruct (X c (rcur r1) m) as [[out eaten]|e]; [|left; exact HT]. destruct HT as [Hm [Heaten HT]].
    destruct (Nat.ltb_spec m (length out)) as [?|_]; [lia|].
    destruct (Nat.ltb_spec (length (rcur r1)) eaten) as [?|_]; [lia|]. cbn [orb].
    destruct (Nat.eqb eaten 0); [|exact (Hsame _ _ HT)].
    specialize (Hagain HT). destruct again as [[r' new]|[| |e]]; cbn [xm_ok] in *; auto.
  Qed.

  (** Fuel: a pass entered with [needMore] set either ends the loop or enlarges the raw window, which [rbsz c] bounds *)
  Lemma xcode_more_spec : forall (fuel : nat) (needMore : bool) (r : reader) (m : nat),
    good c r -> (0 < m)%nat ->
    (rbsz c - length (rcur r) + (if needMore then 1 else 2) <= fuel)%nat ->
    (needMore = true -> starved r m) ->
    forall cs st, Dec step (pending r) cs st -> xm_ok r m cs st (xcode_more c fuel needMore r m).
  Proof.
    induction fuel as [|f IH]; intros needMore r m G Hm0 Hf Hinv cs st D.
    { destruct needMore; lia. }
    cbn [xcode_more].
    assert (Hpass : forall r1, good c r1 -> pending r1 = pending r -> line r1 = line r -> col r1 = col r ->
              (rbsz c - length (rcur r1) + 1 <= f)%nat ->
              xm_ok r m cs st
                    (match X c (rcur r1) m with
                     | Err e => Err (XErr e)
                     | Ok (out, eaten) =>
                       if Nat.ltb m (length out) || Nat.ltb (length (rcur r1)) eaten then Err Fault
                       else if Nat.eqb eaten 0 then xcode_more c f true r1 m
                       else Ok (mkR (ccur r1) (cidx r1) (skipn eaten (rcur r1)) (ridx r1 + eaten) (strm r1) (noMore r1)
                                    (line r1) (col r1), out)
                     end)).
    { intros r1 G1 P1 Hline Hcol Hf1. apply xcode_pass_spec; auto.
      (* the invariant is re-established: the next pass is entered because this one ate nothing *)
      intros Hst. apply (IH true r1 m G1 Hm0 Hf1 (fun _ => Hst)). rewrite P1. exact D. }
    destruct (needMore || Nat.eqb (length (rcur r)) 0 || Nat.ltb (length (rcur r)) (low c)) eqn:Econd.
    - destruct (refresh_raw_spec r G) as [r1 [ER [G1 [P1 [L1 [C1 [Hle Hend]]]]]]]. rewrite ER.
      destruct HS as [_ [Hms1 Hms2]].
      destruct (Nat.eqb_spec (length (rcur r1)) 0) as [E0|Hnz].
      + (* fRawBytesAvail == 0: return 0; the input is exhausted (there was room: 1 <= maxSeq <= rbsz c) *)
        destruct (Hend ltac:(lia) ltac:(lia)) as [Er [Ep Es]].
        assert (Hp : pending r = []) by (rewrite Ep; apply length_zero_iff_nil; lia).
        rewrite Hp in D. destruct (Dec_nil_inv step (X c) maxSeq HC _ _ D). subst cs st.
        split; [exact G1|exact L1|exact C1|cbn; lia|].
        exists []. split; [reflexivity|]. split; [rewrite P1, Hp; constructor|]. auto.
      + destruct (needMore && Nat.eqb (length (rcur r)) (length (rcur r1))) eqn:E1.
        * (* the transcoder needs more and the source has none: Trans_BadSrcSeq *)
          apply Bool.andb_true_iff in E1. destruct E1 as [En1 E1]. apply Nat.eqb_eq in E1.
          right. split; [reflexivity|].
          destruct (Hinv En1) as [Hneed|[u [n [Hu Hlen]]]].
          -- left. pose proof (xc_need _ _ _ HC _ Hneed) as Hl.
             (* an incomplete character is shorter than maxSeq <= rbsz c: there was room, so the stream has ended *)
             destruct (Hend ltac:(lia) ltac:(lia)) as [_ [Ep _]]. rewrite Ep in D.
             assert (Hne : rcur r <> []) by (intros E; rewrite E in E1; cbn in E1; lia).
             destruct (Dec_need_inv step _ _ _ Hne Hneed D). assumption.
          -- right. destruct (xc_out_bounds _ _ _ HC _ _ _ Hu) as [_ [_ Hu2]]. lia.
        * apply (Hpass r1 G1 P1 L1 C1). pose proof (good_raw_le c r1 G1) as G1b.
          destruct needMore; [cbn [andb] in E1; apply Nat.eqb_neq in E1|]; lia.
    - apply Bool.orb_false_iff in Econd. destruct Econd as [Ec _]. apply Bool.orb_false_iff in Ec. destruct Ec as [Ec _].
      subst needMore. apply Hpass; auto. lia.
  Qed.
End Refill.

(** the input is well-formed in its encoding up to its very end *)
Definition noBad (st : dstatus) : Prop := st = Clean.

Lemma noBad_errOK : forall st e, noBad st -> errOK st e -> False.
Proof. unfold noBad, errOK. intros st e H [E|[_ E]]; congruence. Qed.

Section Chars.
  Variable step : list N -> dres.
  Variable maxSeq : nat.
  Variable c : cfg.
  Hypothesis HC : xcontract step (X c) maxSeq.
  Hypothesis HS : sizes_ok c maxSeq.

  (** once fNoMore is set the buffer is empty and nothing decodable is left *)
  Definition nm_ok (r : reader) : Prop :=
    noMore r = true -> ccur r = [] /\ exists st', noBad st' /\ Dec step (pending r) [] st'.

  (** the abstract state: reader [r] still has the (raw, not yet normalised) characters [cs] to deliver and the
      input ends with status [st] *)
  Definition St (r : reader) (cs : list N) (st : dstatus) : Prop :=
    good c r /\ nm_ok r /\ exists D, Dec step (pending r) D st /\ cs = ccur r ++ D.

  Lemma St_init : forall chunks cs st, Forall nonempty chunks -> Dec step (concat chunks) cs st -> St (mk_reader chunks) cs st.
  Proof.
    intros chunks cs st Hne D. unfold St, good, nm_ok, mk_reader, pending. cbn [ccur cidx rcur ridx strm noMore].
    repeat split; try (cbn; lia); auto; try discriminate.
    exists cs. cbn. auto.
  Qed.

  Lemma St_pos : forall r l cl cs st, St r cs st -> St (set_pos r l cl) cs st.
  Proof. intros r l cl cs st H. exact H. Qed.

  (** last clause: a refill that adds nothing although a surrogate pair would fit means that the buffered characters are
      all there is (the give-up test of skippedString / peekString relies on it) *)
  Record rc_post (r : reader) (cs : list N) (st : dstatus) (r' : reader) (b : bool) : Prop := {
    rc_St : St r' cs st;
    rc_line : line r' = line r;
    rc_col : col r' = col r;
    rc_grows : exists new, ccur r' = ccur r ++ new;
    rc_true : b = true -> ccur r' <> [];
    rc_false : b = false -> cs = [] /\ noBad st /\ ccur r' = [];
    rc_stuck : (length (ccur r) + 2 <= cbsz c)%nat -> ccur r' = ccur r -> cs = ccur r /\ noBad st }.

  Lemma refresh_char_spec : forall r cs st, St r cs st ->
    match refresh_char c r with
    | Err Fault | Err FuelOut => False
    | Err (XErr e) => errOK st e
    | Ok (r', b) => rc_post r cs st r' b
    end.
  Proof.
    intros r cs st H. pose proof H as [G [NM [D [HD Ecs]]]]. unfold refresh_char.
    destruct HS as [Hcb [Hms1 Hms2]].
    destruct (noMore r) eqn:Enm.
    { destruct (NM Enm) as [Ec [st' [Hnb HD']]].
      destruct (Dec_det step (X c) maxSeq HC _ _ _ HD _ _ HD') as [E1 E2]. subst D st'.
      split; [exact H|reflexivity|reflexivity|exists []; now rewrite app_nil_r|discriminate| |]; rewrite Ecs, Ec; auto. }
    destruct (Nat.leb_spec (cbsz c) (S (length (ccur r)))) as [Efull|Nfull].
    { split; [exact H|reflexivity|reflexivity|exists []; now rewrite app_nil_r| |discriminate|lia].
      intros _ E. rewrite E in Efull. cbn in Efull. lia. }
    destruct (Nat.ltb_spec (cbsz c) (length (ccur r))) as [?|_]; [lia|].
    pose proof (xcode_more_spec step maxSeq c HC HS (S (S (rbsz c))) false r (cbsz c - length (ccur r))
                  G ltac:(lia) ltac:(cbn [Nat.add]; lia) ltac:(discriminate) D st HD) as Hx.
    destruct (xcode_more c (S (S (rbsz c))) false r (cbsz c - length (ccur r))) as [[r1 new]|[| |e]]; auto.
    (* m < 2 cannot be: the "spareChars + 1 >= kCharBufSize" test above left room for at least two units *)
    2:{ destruct Hx as [E|[E1 [E2|E2]]]; [left; exact E|right; auto|lia]. }
    destruct Hx as [Gr1 Hline Hcol Hnew [rest [R1 [R2 R3]]]].
    set (cc := ccur r ++ new) in *.
    set (r' := mkR cc 0 (rcur r1) (ridx r1) (strm r1) (match cc with [] => true | _ :: _ => false end) (line r1) (col r1)).
    assert (Hgood : good c r').
    { apply good_chars; [exact Gr1|]. unfold cc. rewrite app_length. lia. }
    assert (Hend : new = [] -> (length (ccur r) + 2 <= cbsz c)%nat -> cs = ccur r /\ noBad st /\ rest = []).
    { intros En Hroom. destruct (R3 En) as [[Ra [Rb Rc]]|[u [n [Hu Hlen]]]].
      - subst cs D rest new. rewrite !app_nil_r. auto.
      - destruct (xc_out_bounds _ _ _ HC _ _ _ Hu) as [_ [_ Hu2]]. lia. }
    assert (Hnil : cc = [] -> cs = [] /\ noBad st /\ rest = []).
    { intros Ecc. apply app_eq_nil in Ecc. destruct Ecc as [Ec0 En0].
      destruct (Hend En0 ltac:(rewrite Ec0; cbn; lia)) as [E0 [Hnb Hr]]. rewrite E0, Ec0. auto. }
    assert (Hst : St r' cs st).
    { unfold St. split; [exact Hgood|]. split.
      - unfold nm_ok, r'. cbn [noMore ccur]. intros Hnm. destruct cc; [|discriminate]. split; [reflexivity|].
        destruct (Hnil eq_refl) as [_ [Hnb Hr]]. exists st. split; [exact Hnb|]. rewrite <- Hr. exact R2.
      - exists rest. split; [exact R2|]. unfold r'. cbn [ccur]. unfold cc. subst cs D. now rewrite app_assoc. }
    unfold r'. split; cbn [line col ccur]; [exact Hst|congruence|congruence|exists new; reflexivity| | |].
    - destruct cc; [discriminate|]. intros _. discriminate.
    - intros Hb. destruct cc; [|discriminate]. destruct (Hnil eq_refl) as [E0 [Hnb _]]. auto.
    - intros Hroom Esame. unfold cc in Esame.
      assert (En0 : new = []).
      { apply (f_equal (@length N)) in Esame. rewrite app_length in Esame. destruct new; [reflexivity|cbn in Esame; lia]. }
      destruct (Hend En0 Hroom) as [E0 [Hnb _]]. auto.
  Qed.

  Lemma ensure_spec : forall r cs st, St r cs st ->
    match ensure c r with
    | Err Fault | Err FuelOut => False
    | Err (XErr e) => errOK st e
    | Ok (r', b) => St r' cs st /\ line r' = line r /\ col r' = col r /\
                    (b = true -> exists x t, ccur r' = x :: t) /\ (b = false -> cs = [] /\ noBad st /\ ccur r' = [])
    end.
  Proof.
    intros r cs st H. unfold ensure. destruct (ccur r) as [|x t] eqn:Ec.
    - pose proof (refresh_char_spec r cs st H) as Hr.
      destruct (refresh_char c r) as [[r' b]|[| |e]]; auto.
      split; [exact (rc_St _ _ _ _ _ Hr)|]. split; [exact (rc_line _ _ _ _ _ Hr)|]. split; [exact (rc_col _ _ _ _ _ Hr)|].
      split; [|exact (rc_false _ _ _ _ _ Hr)].
      intros Hb. pose proof (rc_true _ _ _ _ _ Hr Hb) as E. destruct (ccur r') as [|x t]; [now destruct E|]. eauto.
    - split; [exact H|]. split; [reflexivity|]. split; [reflexivity|]. split; [intros _; eauto|discriminate].
  Qed.

  Lemma St_ccur_prefix : forall r cs st, St r cs st -> exists D, cs = ccur r ++ D.
  Proof. intros r cs st [_ [_ [D [_ E]]]]. eauto. Qed.

  Lemma St_len : forall r cs st, St r cs st -> (length (ccur r) <= length cs)%nat.
  Proof. intros r cs st H. destruct (St_ccur_prefix r cs st H) as [D E]. rewrite E, app_length. lia. Qed.

  Lemma skipn_chk_some : forall (k : nat) (l : list N), (k <= length l)%nat -> skipn_chk k l = Some (skipn k l).
  Proof.
    induction k as [|k IH]; intros l H; [reflexivity|].
    destruct l as [|x l]; [cbn in H; lia|]. cbn. apply IH. cbn in H. lia.
  Qed.

  (** consuming [k] buffered characters: "fCharIndex += k" *)
  Lemma St_skip : forall r k ci cs st, St r cs st -> (k <= length (ccur r))%nat -> ci = (cidx r + k)%nat ->
    St (mkR (skipn k (ccur r)) ci (rcur r) (ridx r) (strm r) (noMore r) (line r) (col r)) (skipn k cs) st.
  Proof.
    intros r k ci cs st [G [NM [D [HD Ecs]]]] Hk Eci. split; [|split].
    - apply good_chars; [exact G|]. pose proof (good_char_le c r G). rewrite skipn_length. lia.
    - unfold nm_ok. cbn [noMore ccur]. intros Hn. destruct (NM Hn) as [E0 HD'].
      rewrite E0, skipn_nil. split; [reflexivity|exact HD'].
    - exists D. split; [exact HD|]. cbn [ccur]. subst cs. now rewrite skipn_app_le.
  Qed.

  Lemma adv1_St : forall r x t cs st, St r cs st -> ccur r = x :: t ->
    exists r2 cs2, adv1 r = Ok r2 /\ cs = x :: cs2 /\ St r2 cs2 st /\ ccur r2 = t /\ line r2 = line r /\ col r2 = col r.
  Proof.
    intros r x t cs st H Ec. destruct (St_ccur_prefix r cs st H) as [D Ecs]. unfold adv1. rewrite Ec.
    eexists. exists (t ++ D). split; [reflexivity|]. split; [rewrite Ecs, Ec; reflexivity|]. split; [|cbn; auto].
    pose proof (St_skip r 1 (S (cidx r)) cs st H ltac:(rewrite Ec; cbn; lia) ltac:(lia)) as H2.
    rewrite Ecs, Ec in H2. exact H2.
  Qed.

  Lemma adv_St : forall r k cs st, St r cs st -> (k <= length (ccur r))%nat ->
    exists r2, adv r k = Ok r2 /\ St r2 (skipn k cs) st /\ ccur r2 = skipn k (ccur r) /\ line r2 = line r /\ col r2 = col r.
  Proof.
    intros r k cs st H Hk. unfold adv. rewrite skipn_chk_some by exact Hk.
    eexists. split; [reflexivity|]. split; [exact (St_skip r k _ cs st H Hk eq_refl)|cbn; auto].
  Qed.

  Lemma pop_loop_eq : forall p rest, pop_loop c p rest =
    match ccur p with
    | _ :: _ => Ok (Some (p, rest))
    | [] => match refresh_char c p with
            | Err e => Err e
            | Ok (p', _) => match ccur p' with _ :: _ => Ok (Some (p', rest)) | [] => pop_reader c rest end
            end
    end.
  Proof. intros p rest. destruct rest; reflexivity. Qed.

  (** a parent with characters left -- buffered or still undecoded -- is the reader found; an exhausted one is skipped *)
  Lemma pop_loop_spec : forall p rest cs st, St p cs st -> noBad st ->
    match cs with
    | [] => pop_loop c p rest = pop_reader c rest
    | _ :: _ => exists p', pop_loop c p rest = Ok (Some (p', rest)) /\ St p' cs st /\ ccur p' <> []
    end.
  Proof.
    intros p rest cs st H Hnb.
    rewrite pop_loop_eq. destruct (St_ccur_prefix p cs st H) as [D ED].
    destruct (ccur p) as [|x t] eqn:Ec.
    - pose proof (refresh_char_spec p cs st H) as Hr.
      destruct (refresh_char c p) as [[p' b]|[| |e]]; try contradiction; [|now destruct (noBad_errOK st e)].
      pose proof (rc_St _ _ _ _ _ Hr) as H1. destruct (St_ccur_prefix p' cs st H1) as [D' ED'].
      destruct (ccur p') as [|y t'] eqn:Ec'.
      + destruct b; [now destruct (rc_true _ _ _ _ _ Hr eq_refl)|].
        destruct (rc_false _ _ _ _ _ Hr eq_refl) as [E _]. rewrite E. reflexivity.
      + rewrite ED' in *. exists p'. split; [reflexivity|]. split; [exact H1|]. rewrite Ec'. discriminate.
    - rewrite ED in *. exists p. split; [reflexivity|]. split; [exact H|]. rewrite Ec. discriminate.
  Qed.
End Chars.

Arguments rc_St {step c r cs st r' b}.
Arguments rc_line {step c r cs st r' b}.
Arguments rc_col {step c r cs st r' b}.
Arguments rc_grows {step c r cs st r' b}.
Arguments rc_true {step c r cs st r' b}.
Arguments rc_false {step c r cs st r' b}.
Arguments rc_stuck {step c r cs st r' b}.
