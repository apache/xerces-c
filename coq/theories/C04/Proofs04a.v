(** Lemmas about the decoding specification ([Dec], [nsteps], [dec_fn]) under the transcoder contract. *)
From XV Require Export C04.Contract04.
From Coq Require Import Lia Arith.
Local Open Scope N_scope.

Lemma skipn_app_le : forall (n : nat) (s t : list N), (n <= length s)%nat -> skipn n (s ++ t) = skipn n s ++ t.
Proof.
  intros n s t H. rewrite skipn_app. replace (n - length s)%nat with 0%nat by lia. reflexivity.
Qed.

Lemma firstn_app_le : forall (n : nat) (a b : list N), (n <= length a)%nat -> firstn n (a ++ b) = firstn n a.
Proof.
  intros n a b H. rewrite firstn_app. replace (n - length a)%nat with 0%nat by lia. cbn. apply app_nil_r.
Qed.

Lemma skipn_skipn : forall (a b : nat) (l : list N), skipn a (skipn b l) = skipn (b + a) l.
Proof.
  intros a b. revert a. induction b as [|b IH]; intros a l; [reflexivity|].
  destruct l as [|x l]; [now rewrite !skipn_nil|]. cbn. apply IH.
Qed.

Lemma good_char_le : forall c r, good c r -> (cidx r + length (ccur r) <= cbsz c)%nat.
Proof. intros c r G. exact (proj1 G). Qed.
Lemma good_raw_le : forall c r, good c r -> (ridx r + length (rcur r) <= rbsz c)%nat.
Proof. intros c r G. exact (proj1 (proj2 G)). Qed.
Lemma good_chunks : forall c r, good c r -> Forall (fun ch => ch <> []) (strm r).
Proof. intros c r G. exact (proj2 (proj2 G)). Qed.
(** the index invariant looks at the two windows' lengths and indices only: replacing one side *)
Lemma good_chars : forall c r cc ci nm l cl, good c r -> (ci + length cc <= cbsz c)%nat ->
  good c (mkR cc ci (rcur r) (ridx r) (strm r) nm l cl).
Proof. intros c r cc ci nm l cl [_ G] H. exact (conj H G). Qed.
Lemma good_raw : forall c r rc ri s, good c r -> (ri + length rc <= rbsz c)%nat -> Forall (fun ch => ch <> []) s ->
  good c (mkR (ccur r) (cidx r) rc ri s (noMore r) (line r) (col r)).
Proof. intros c r rc ri s [G _] H Hs. exact (conj G (conj H Hs)). Qed.

Section DecLemmas.
  Variable step : list N -> dres.
  Variable xc : xcoder.
  Variable maxSeq : nat.
  Hypothesis HC : xcontract step xc maxSeq.

  Lemma Dec_nil_inv : forall cs st, Dec step [] cs st -> cs = [] /\ st = Clean.
  Proof.
    intros cs st H. pose proof (xc_nil _ _ _ HC) as Hn. inversion H; subst; auto; congruence.
  Qed.

  Lemma Dec_need_inv : forall s cs st, s <> [] -> step s = DNeed -> Dec step s cs st -> cs = [] /\ st = Truncated.
  Proof. intros s cs st Hne Hs H. inversion H; subst; auto; congruence. Qed.

  Lemma Dec_err_inv : forall s e cs st, step s = DErr e -> Dec step s cs st -> cs = [] /\ st = Bad e.
  Proof.
    intros s e cs st Hs H. inversion H; subst; try congruence.
    - pose proof (xc_nil _ _ _ HC). congruence.
    - rewrite Hs in H0. inversion H0. auto.
  Qed.

  Lemma Dec_out_inv : forall s u n cs st, step s = DOut u n -> Dec step s cs st ->
    exists cs', cs = u ++ cs' /\ Dec step (skipn n s) cs' st.
  Proof.
    intros s u n cs st Hs H. inversion H; subst; try congruence.
    - pose proof (xc_nil _ _ _ HC). congruence.
    - rewrite Hs in H0. inversion H0; subst. eauto.
  Qed.

  Lemma Dec_det : forall s cs st, Dec step s cs st -> forall cs' st', Dec step s cs' st' -> cs = cs' /\ st = st'.
  Proof.
    intros s cs st H. induction H; intros cs' st' H'.
    - apply Dec_nil_inv in H'. destruct H'; subst; auto.
    - destruct (Dec_need_inv _ _ _ H H0 H'); subst; auto.
    - destruct (Dec_err_inv _ _ _ _ H H'); subst; auto.
    - destruct (Dec_out_inv _ _ _ _ _ H H') as [c2 [E D2]]. subst.
      destruct (IHDec _ _ D2); subst; auto.
  Qed.

  Lemma dec_fn_Dec : forall fuel s, (length s <= fuel)%nat ->
    Dec step s (fst (dec_fn step fuel s)) (snd (dec_fn step fuel s)).
  Proof.
    induction fuel as [|f IH]; intros s Hl.
    - destruct s; [|cbn in Hl; lia]. cbn. constructor.
    - destruct s as [|b s']; [cbn; constructor|].
      cbn [dec_fn]. destruct (step (b :: s')) as [|e|u n] eqn:Es.
      + cbn. apply Dec_need; [discriminate|exact Es].
      + cbn. apply Dec_err. exact Es.
      + destruct (xc_out_bounds _ _ _ HC _ _ _ Es) as [[Hn1 Hn2] _].
        specialize (IH (skipn n (b :: s'))).
        destruct (dec_fn step f (skipn n (b :: s'))) as [cs st] eqn:Ed. cbn [fst snd] in *.
        eapply Dec_out; [exact Es|]. apply IH. rewrite skipn_length. cbn [length] in *. lia.
  Qed.

  Lemma Dec_total : forall s, exists cs st, Dec step s cs st.
  Proof. intros s. eexists _, _. exact (dec_fn_Dec (length s) s (le_n _)). Qed.

  Lemma nsteps_bounds : forall k s o e, nsteps step k s = Some (o, e) ->
    (e <= length s)%nat /\ (k <= length o)%nat /\ (k <= e)%nat /\ (length o <= 2 * k)%nat.
  Proof.
    induction k as [|k IH]; intros s o e H; cbn [nsteps] in H.
    - inversion H; subst. cbn. lia.
    - destruct (step s) as [| |u n] eqn:Es; try discriminate.
      destruct (nsteps step k (skipn n s)) as [[o' e']|] eqn:En; try discriminate.
      inversion H; subst. destruct (IH _ _ _ En) as [B1 [B2 [B3 B4]]].
      destruct (xc_out_bounds _ _ _ HC _ _ _ Es) as [[Hn1 Hn2] [Hu1 Hu2]].
      rewrite skipn_length in B1. rewrite app_length. lia.
  Qed.

  Lemma nsteps_app : forall k s t o e, nsteps step k s = Some (o, e) -> nsteps step k (s ++ t) = Some (o, e).
  Proof.
    induction k as [|k IH]; intros s t o e H; cbn [nsteps] in *; [exact H|].
    destruct (step s) as [| |u n] eqn:Es; try discriminate.
    rewrite (xc_out_ext _ _ _ HC _ t _ _ Es).
    destruct (xc_out_bounds _ _ _ HC _ _ _ Es) as [[Hn1 Hn2] _].
    rewrite skipn_app_le by lia.
    destruct (nsteps step k (skipn n s)) as [[o' e']|] eqn:En; try discriminate.
    rewrite (IH _ t _ _ En). exact H.
  Qed.

  (** decoding [k] characters from the front and then the rest = decoding the whole *)
  Lemma nsteps_Dec : forall k s o e cs st, nsteps step k s = Some (o, e) -> Dec step s cs st ->
    exists rest, cs = o ++ rest /\ Dec step (skipn e s) rest st.
  Proof.
    induction k as [|k IH]; intros s o e cs st H D; cbn [nsteps] in H.
    - inversion H; subst. exists cs. auto.
    - destruct (step s) as [| |u n] eqn:Es; try discriminate.
      destruct (nsteps step k (skipn n s)) as [[o' e']|] eqn:En; try discriminate.
      inversion H; subst.
      destruct (Dec_out_inv _ _ _ _ _ Es D) as [c1 [E1 D1]]. subst cs.
      destruct (IH _ _ _ _ _ En D1) as [rest [E2 D2]]. subst c1.
      exists rest. split; [now rewrite app_assoc|]. rewrite skipn_skipn in D2. exact D2.
  Qed.

  (** if the first [k] characters decode and then an ill-formed sequence follows, the whole is [Bad] *)
  Lemma nsteps_err_Dec : forall k s o n e cs st, nsteps step k s = Some (o, n) -> step (skipn n s) = DErr e ->
    Dec step s cs st -> st = Bad e.
  Proof.
    intros k s o n e cs st H He D. destruct (nsteps_Dec _ _ _ _ _ _ H D) as [rest [E D2]].
    destruct (Dec_err_inv _ _ _ _ He D2). assumption.
  Qed.
End DecLemmas.
