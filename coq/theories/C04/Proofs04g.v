(** The hypotheses of the reader theorems are met: the transcoder models of C05 -- ISO-8859-1, UTF-16 in both byte orders,
    UTF-8 as C05's step function [x8_step] iterated by [x8_fast] -- meet the contract, and the buffer sizes of
    XMLReader.hpp meet [sizes_ok].  (The UCS-4 transcoder of Model04.v, xc_ucs4 / step_ucs4, has no contract proof.) *)
From XV Require Export C04.Proofs04a C04.Inst04.
From Coq Require Import Lia Arith.
Local Open Scope N_scope.

Lemma nsteps_latin1 : forall k s, (k <= length s)%nat -> nsteps step_latin1 k s = Some (firstn k s, k).
Proof.
  induction k as [|k IH]; intros s H; [reflexivity|].
  destruct s as [|b s]; [cbn in H; lia|]. cbn [nsteps step_latin1 skipn].
  rewrite IH by (cbn in H; lia). reflexivity.
Qed.

Lemma latin1_contract : xcontract step_latin1 xc_latin1 1.
Proof.
  constructor.
  - reflexivity.
  - intros s u n H. destruct s; inversion H; subst. cbn. lia.
  - intros s t u n H. destruct s; inversion H; subst. reflexivity.
  - intros s t e H. destruct s; discriminate.
  - intros s H. destruct s; [cbn; lia|discriminate].
  - intros s m out eaten H. unfold xc_latin1, l1_from in H. inversion H; subst; clear H.
    rewrite firstn_length. split; [lia|].
    exists (Nat.min (Nat.min (length s) m) (length s)). rewrite nsteps_latin1 by lia.
    replace (Nat.min (Nat.min (length s) m) (length s)) with (Nat.min (length s) m) by lia. reflexivity.
  - intros s m out Hm H. unfold xc_latin1, l1_from in H. inversion H as [[H1 H2]]; clear H.
    rewrite firstn_length in H2. destruct s as [|b s]; [left; reflexivity|].
    right. exists [b], 1%nat. split; [reflexivity|]. cbn [length] in *. lia.
  - intros s m e H. discriminate.
Qed.

Lemma u16_from_nsteps : forall sw m s, nsteps (step_utf16 sw) (length (u16_from sw s m)) s =
                                       Some (u16_from sw s m, (2 * length (u16_from sw s m))%nat).
Proof.
  induction m as [|m IH]; intros s; [destruct s as [|b0 [|b1 s]]; reflexivity|].
  destruct s as [|b0 [|b1 s]]; try reflexivity.
  cbn [u16_from length nsteps step_utf16 skipn]. rewrite IH. cbn [app]. f_equal. f_equal. lia.
Qed.

Lemma u16_from_len : forall sw m s, (length (u16_from sw s m) <= m)%nat.
Proof.
  induction m as [|m IH]; intros s; [destruct s as [|b0 [|b1 s]]; cbn; lia|].
  destruct s as [|b0 [|b1 s]]; cbn [u16_from length]; try lia. specialize (IH s). lia.
Qed.

Lemma utf16_contract : forall sw, xcontract (step_utf16 sw) (xc_utf16 sw) 2.
Proof.
  intros sw. constructor.
  - reflexivity.
  - intros s u n H. destruct s as [|b0 [|b1 s]]; inversion H; subst. cbn. lia.
  - intros s t u n H. destruct s as [|b0 [|b1 s]]; inversion H; subst. reflexivity.
  - intros s t e H. destruct s as [|b0 [|b1 s]]; discriminate.
  - intros s H. destruct s as [|b0 [|b1 s]]; try discriminate; cbn; lia.
  - intros s m out eaten H. unfold xc_utf16 in H. inversion H; subst; clear H.
    split; [apply u16_from_len|]. eexists. apply u16_from_nsteps.
  - intros s m out Hm H. unfold xc_utf16 in H. inversion H as [[H1 H2]]; clear H.
    assert (E : u16_from sw s m = []) by (destruct (u16_from sw s m); [reflexivity|cbn in H2; lia]).
    destruct s as [|b0 [|b1 s]]; [left; reflexivity|left; reflexivity|].
    right. eexists. exists 2%nat. split; [reflexivity|].
    destruct m; [cbn; lia|]. cbn in E. discriminate.
  - intros s m e H. discriminate.
Qed.

(** the tail of one loop iteration ("finish" in Model05.x8_step), as a function of the accumulated value *)
Definition fin8 (tb : N) (room produced : nat) (tmp : N) : sres :=
  let v := sub32 tmp (tbl gUTFOffsets tb) in
  if N.land v 0xFFFF0000 =? 0 then SOut [v] (N.to_nat tb + 1)
  else if 0x10FFFF <? v then (if Nat.ltb 32 produced then SBreak32 else SErr E_Trans_BadSrcSeq)
  else if Nat.leb room 1 then SStop
  else let w := v - 0x10000 in SOut [N.shiftr w 10 + 0xD800; N.land w 0x3FF + 0xDC00] (N.to_nat tb + 1).

(** the multi-byte part of the iteration with the tail abstracted *)
Definition body8 (F : N -> sres) (b0 tb : N) (rest : list N) : sres :=
  match tb, rest with
  | 1, b1 :: _ =>
      if trail_bad b1 then SErr E_UTF8_FormatError else F (N.shiftl b0 6 + b1)
  | 2, b1 :: b2 :: _ =>
      if (b0 =? 0xE0) && (b1 <? 0xA0) then SErr E_UTF8_Invalid_3BytesSeq else
      if trail_bad b1 then SErr E_UTF8_FormatError else
      if trail_bad b2 then SErr E_UTF8_FormatError else
      if (b0 =? 0xED) && (0xA0 <=? b1) then SErr E_UTF8_Irregular_3BytesSeq else
      F (N.shiftl (N.shiftl b0 6 + b1) 6 + b2)
  | 3, b1 :: b2 :: b3 :: _ =>
      if ((b0 =? 0xF0) && (b1 <? 0x90)) || ((b0 =? 0xF4) && (0x8F <? b1)) then SErr E_UTF8_Invalid_4BytesSeq else
      if trail_bad b1 then SErr E_UTF8_FormatError else
      if trail_bad b2 then SErr E_UTF8_FormatError else
      if trail_bad b3 then SErr E_UTF8_FormatError else
      F (N.shiftl (N.shiftl (N.shiftl b0 6 + b1) 6 + b2) 6 + b3)
  | _, _ => SErr E_UTF8_Exceeds_BytesLimit
  end.

Lemma x8_step_eq : forall s room p, x8_step s room p =
  match s with
  | [] => SStop
  | b0 :: rest =>
    if Nat.eqb room 0 then SStop else
    if b0 <=? 127 then SOut [b0] 1 else
    let tb := tbl gUTFBytes b0 in
    if Nat.ltb (length rest) (N.to_nat tb) then SStop else
    if negb (N.land (tbl gUTFByteIndicatorTest tb) b0 =? tbl gUTFByteIndicator tb) then SErr E_UTF8_FormatError else
    body8 (fin8 tb room p) b0 tb rest
  end.
Proof. intros s room p. destruct s; reflexivity. Qed.

(** relation between an iteration with any room / count and the canonical one (room 2, count 0) *)
Definition rel8 (tbn : nat) (room : nat) (x y : sres) : Prop :=
  match x with
  | SOut u n => y = SOut u n /\ n = (tbn + 1)%nat /\ (1 <= length u <= 2)%nat /\ (length u <= room)%nat
  | SErr e => y = SErr e
  | SBreak32 => True
  | SStop => (room <= 1)%nat /\ exists a b n, y = SOut [a; b] n
  end.

Lemma fin8_rel : forall tb room p tmp, (1 <= room)%nat -> rel8 (N.to_nat tb) room (fin8 tb room p tmp) (fin8 tb 2 0 tmp).
Proof.
  intros tb room p tmp Hr. unfold fin8, rel8.
  set (v := sub32 tmp (tbl gUTFOffsets tb)). clearbody v.
  change (Nat.ltb 32 0) with false. change (Nat.leb 2 1) with false.
  destruct (N.land v 4294901760 =? 0); [cbn [length]; repeat split; lia|].
  destruct (1114111 <? v); [destruct (Nat.ltb 32 p); [exact I|reflexivity]|].
  destruct (Nat.leb_spec room 1) as [Hle|Hgt]; [split; [exact Hle|eauto]|]. cbn [length]. repeat split; lia.
Qed.

Lemma fin8_no_break : forall tb room tmp, fin8 tb room 0 tmp <> SBreak32.
Proof.
  intros tb room tmp. unfold fin8.
  set (v := sub32 tmp (tbl gUTFOffsets tb)). clearbody v.
  destruct (N.land v 4294901760 =? 0); [discriminate|].
  destruct (1114111 <? v); [cbn [Nat.ltb Nat.leb]; discriminate|].
  destruct (Nat.leb room 1); discriminate.
Qed.

(** two tails related pointwise give related bodies *)
Lemma body8_rel : forall (F G : N -> sres) b0 tb rest (R : sres -> sres -> Prop),
  (forall e, R (SErr e) (SErr e)) -> (forall tmp, R (F tmp) (G tmp)) -> R (body8 F b0 tb rest) (body8 G b0 tb rest).
Proof.
  intros F G b0 tb rest R He HF. unfold body8.
  destruct tb as [|[[q|q|]|[q|q|]|]]; try apply He.   (* the arms left: tb = 3, 2, 1 trailing bytes, in this order *)
  - destruct rest as [|b1 [|b2 [|b3 r]]]; try apply He.
    destruct ((b0 =? 240) && (b1 <? 144) || (b0 =? 244) && (143 <? b1)); [apply He|].
    destruct (trail_bad b1); [apply He|]. destruct (trail_bad b2); [apply He|]. destruct (trail_bad b3); [apply He|]. apply HF.
  - destruct rest as [|b1 [|b2 r]]; try apply He.
    destruct ((b0 =? 224) && (b1 <? 160)); [apply He|].
    destruct (trail_bad b1); [apply He|]. destruct (trail_bad b2); [apply He|].
    destruct ((b0 =? 237) && (160 <=? b1)); [apply He|]. apply HF.
  - destruct rest as [|b1 r]; try apply He.
    destruct (trail_bad b1); [apply He|]. apply HF.
Qed.

(** [body8] passes properties of the tail through *)
Lemma body8_cases : forall (F : N -> sres) b0 tb rest (P : sres -> Prop),
  (forall e, P (SErr e)) -> (forall tmp, P (F tmp)) -> P (body8 F b0 tb rest).
Proof. intros F b0 tb rest P He HF. exact (body8_rel F F b0 tb rest (fun x _ => P x) He HF). Qed.

Lemma utf8_bytes_le5 : forall b, tbl gUTFBytes b <= 5.
Proof.
  intros b. unfold tbl. destruct (Nat.lt_ge_cases (N.to_nat b) (length gUTFBytes)) as [Hlt|Hge].
  - assert (H : forallb (fun v => v <=? 5) gUTFBytes = true) by (vm_compute; reflexivity).
    apply N.leb_le. exact (proj1 (forallb_forall _ _) H _ (nth_In _ _ Hlt)).
  - rewrite nth_overflow by exact Hge. lia.
Qed.

Lemma x8_step_rel : forall s room p, (1 <= room)%nat ->
  match x8_step s room p with
  | SOut u n => x8_step s 2 0 = SOut u n /\ (0 < n <= length s)%nat /\ (1 <= length u <= 2)%nat /\ (length u <= room)%nat
  | SErr e => x8_step s 2 0 = SErr e
  | SBreak32 => True
  | SStop => x8_step s 2 0 = SStop \/ ((room <= 1)%nat /\ exists a b n, x8_step s 2 0 = SOut [a; b] n)
  end.
Proof.
  intros s room p Hr. rewrite !x8_step_eq. destruct s as [|b0 rest]; [left; reflexivity|].
  destruct (Nat.eqb_spec room 0) as [E0|_]; [lia|]. cbn [Nat.eqb].
  destruct (b0 <=? 127); [cbn [length]; repeat split; lia|].
  cbv zeta. set (tb := tbl gUTFBytes b0).
  destruct (Nat.ltb_spec (length rest) (N.to_nat tb)) as [Hlt|Hge]; [left; reflexivity|].
  destruct (negb (N.land (tbl gUTFByteIndicatorTest tb) b0 =? tbl gUTFByteIndicator tb)); [reflexivity|].
  pose proof (body8_rel (fin8 tb room p) (fin8 tb 2 0) b0 tb rest (rel8 (N.to_nat tb) room)) as HR.
  assert (H1 : forall e, rel8 (N.to_nat tb) room (SErr e) (SErr e)) by (intros; reflexivity).
  pose proof (fun tmp => fin8_rel tb room p tmp Hr) as H2.
  specialize (HR H1 H2). unfold rel8 in HR.
  destruct (body8 (fin8 tb room p) b0 tb rest) as [| |e|u n]; auto.
  destruct HR as [A [B [C D]]]. split; [exact A|]. cbn [length]. repeat split; lia.
Qed.

Lemma x8_step_no_break : forall s room, x8_step s room 0 <> SBreak32.
Proof.
  intros s room. rewrite x8_step_eq. destruct s as [|b0 rest]; [discriminate|].
  destruct (Nat.eqb room 0); [discriminate|]. destruct (b0 <=? 127); [discriminate|].
  cbv zeta. set (tb := tbl gUTFBytes b0).
  destruct (Nat.ltb (length rest) (N.to_nat tb)); [discriminate|].
  destruct (negb (N.land (tbl gUTFByteIndicatorTest tb) b0 =? tbl gUTFByteIndicator tb)); [discriminate|].
  apply (body8_cases (fin8 tb room 0) b0 tb rest (fun x => x <> SBreak32)); [discriminate|apply fin8_no_break].
Qed.

Lemma x8_step_stop_short : forall s, x8_step s 2 0 = SStop -> (length s < 6)%nat.
Proof.
  intros s H. rewrite x8_step_eq in H. destruct s as [|b0 rest]; [cbn; lia|].
  cbn [Nat.eqb] in H. destruct (b0 <=? 127); [discriminate|].
  cbv zeta in H. set (tb := tbl gUTFBytes b0) in *.
  destruct (Nat.ltb_spec (length rest) (N.to_nat tb)) as [Hlt|Hge].
  - pose proof (utf8_bytes_le5 b0) as Hb. fold tb in Hb. cbn [length]. lia.
  - destruct (negb (N.land (tbl gUTFByteIndicatorTest tb) b0 =? tbl gUTFByteIndicator tb)); [discriminate|].
    exfalso. revert H. apply (body8_cases (fin8 tb 2 0) b0 tb rest (fun x => x = SStop -> False)); [discriminate|].
    intros tmp Hs. pose proof (fin8_rel tb 2 0 tmp ltac:(lia)) as R. rewrite Hs in R. destruct R as [Hle _]. lia.
Qed.

Lemma body8_app : forall F b0 tb rest t, (N.to_nat tb <= length rest)%nat -> body8 F b0 tb (rest ++ t) = body8 F b0 tb rest.
Proof.
  intros F b0 tb rest t H. unfold body8. destruct tb as [|[[q|q|]|[q|q|]|]]; try reflexivity.   (* tb = 3, 2, 1 *)
  - destruct rest as [|b1 [|b2 [|b3 r]]]; try (cbn in H; lia). reflexivity.
  - destruct rest as [|b1 [|b2 r]]; try (cbn in H; lia). reflexivity.
  - destruct rest as [|b1 r]; try (cbn in H; lia). reflexivity.
Qed.

Lemma x8_step_app : forall s t room p, x8_step s room p <> SStop -> x8_step (s ++ t) room p = x8_step s room p.
Proof.
  intros s t room p H. rewrite x8_step_eq in H. rewrite !x8_step_eq.
  destruct s as [|b0 rest]; [now destruct H|]. cbn [app].
  destruct (Nat.eqb room 0); [now destruct H|].
  destruct (b0 <=? 127); [reflexivity|].
  cbv zeta in *. set (tb := tbl gUTFBytes b0) in *.
  destruct (Nat.ltb_spec (length rest) (N.to_nat tb)) as [Hlt|Hge]; [now destruct H|].
  destruct (Nat.ltb_spec (length (rest ++ t)) (N.to_nat tb)) as [Hlt2|_]; [rewrite app_length in Hlt2; lia|].
  destruct (negb (N.land (tbl gUTFByteIndicatorTest tb) b0 =? tbl gUTFByteIndicator tb)); [reflexivity|].
  apply body8_app. exact Hge.
Qed.

Lemma x8_step_room0 : forall s p, x8_step s 0 p = SStop.
Proof. intros s p. rewrite x8_step_eq. destruct s; reflexivity. Qed.

Lemma step_utf8_out : forall s u n, x8_step s 2 0 = SOut u n -> step_utf8 s = DOut u n.
Proof. intros s u n H. unfold step_utf8. rewrite H. reflexivity. Qed.
Lemma step_utf8_err : forall s e, x8_step s 2 0 = SErr e -> step_utf8 s = DErr e.
Proof. intros s e H. unfold step_utf8. rewrite H. reflexivity. Qed.
Lemma step_utf8_stop : forall s, x8_step s 2 0 = SStop -> step_utf8 s = DNeed.
Proof. intros s H. unfold step_utf8. rewrite H. reflexivity. Qed.

Lemma x8_fast_spec : forall fuel src room p, (length src < fuel)%nat ->
  match x8_fast fuel src room p with
  | Ok (out, eaten) => (length out <= room)%nat /\ exists k, nsteps step_utf8 k src = Some (out, eaten)
  | Err e => exists k o n, nsteps step_utf8 k src = Some (o, n) /\ step_utf8 (skipn n src) = DErr e
  end.
Proof.
  induction fuel as [|f IH]; intros src room p Hf; [lia|].
  cbn [x8_fast].
  destruct room as [|room'].
  { rewrite x8_step_room0. split; [cbn; lia|]. exists 0%nat. reflexivity. }
  pose proof (x8_step_rel src (S room') p ltac:(lia)) as HR.
  destruct (x8_step src (S room') p) as [| |e|u n].
  - split; [cbn; lia|]. exists 0%nat. reflexivity.
  - split; [cbn; lia|]. exists 0%nat. reflexivity.
  - exists 0%nat, [], 0%nat. split; [reflexivity|]. apply step_utf8_err. exact HR.
  - destruct HR as [A [[B1 B2] [C D]]].
    specialize (IH (skipn n src) (S room' - length u)%nat (if Nat.ltb 32 p then p else (p + length u)%nat)
                   ltac:(rewrite skipn_length; lia)).
    destruct (x8_fast f (skipn n src) (S room' - length u)
                (if Nat.ltb 32 p then p else (p + length u)%nat)) as [[o e]|e].
    + destruct IH as [L [k Hk]]. split; [rewrite app_length; lia|].
      exists (S k). cbn [nsteps]. rewrite (step_utf8_out _ _ _ A), Hk. reflexivity.
    + destruct IH as [k [o [n' [Hk He]]]]. exists (S k), (u ++ o), (n + n')%nat. split.
      * cbn [nsteps]. rewrite (step_utf8_out _ _ _ A), Hk. reflexivity.
      * rewrite <- (skipn_skipn n' n src). exact He.
Qed.

(** prefix stability of the character-level function: a decided first character stays what it is *)
Lemma step_utf8_app : forall s t, step_utf8 s <> DNeed -> step_utf8 (s ++ t) = step_utf8 s.
Proof.
  intros s t H. unfold step_utf8 in *.
  destruct (x8_step s 2 0) as [| |e|u n] eqn:E; try (now destruct H).
  - rewrite x8_step_app, E; [reflexivity|]. rewrite E. discriminate.
  - rewrite x8_step_app, E; [reflexivity|]. rewrite E. discriminate.
Qed.

(** the block transcoder started with nothing produced yet *)
Lemma xc_utf8_spec : forall s m,
  match xc_utf8 s m with
  | Ok (out, eaten) => (length out <= m)%nat /\ exists k, nsteps step_utf8 k s = Some (out, eaten)
  | Err e => exists k o n, nsteps step_utf8 k s = Some (o, n) /\ step_utf8 (skipn n s) = DErr e
  end.
Proof. intros s m. exact (x8_fast_spec (S (length s)) s m 0 (Nat.lt_succ_diag_r _)). Qed.

Lemma utf8_contract : xcontract step_utf8 xc_utf8 6.
Proof.
  constructor.
  - (* xc_nil *) reflexivity.
  - (* xc_out_bounds *) intros s u n H. unfold step_utf8 in H.
    pose proof (x8_step_rel s 2 0 ltac:(lia)) as HR.
    destruct (x8_step s 2 0) as [| |e|u0 n0]; try discriminate. inversion H; subst.
    destruct HR as [_ [B [C _]]]. split; assumption.
  - (* xc_out_ext *) intros s t u n H. rewrite step_utf8_app; [exact H|]. rewrite H. discriminate.
  - (* xc_err_ext *) intros s t e H. rewrite step_utf8_app; [exact H|]. rewrite H. discriminate.
  - (* xc_need: at most five trailing bytes are awaited *) intros s H. unfold step_utf8 in H.
    destruct (x8_step s 2 0) as [| |e|u0 n0] eqn:E; try discriminate.
    + apply x8_step_stop_short. exact E.
    + exfalso. exact (x8_step_no_break s 2 E).
  - (* xc_ok *) intros s m out eaten H. pose proof (xc_utf8_spec s m) as Hs. rewrite H in Hs. exact Hs.
  - (* xc_progress *) intros s m out Hm H. unfold xc_utf8 in H. cbn [x8_fast] in H.
    pose proof (x8_step_rel s m 0 Hm) as HR.
    destruct (x8_step s m 0) as [| |e|u n] eqn:E.
    + destruct HR as [A|[A [a [b [n B]]]]].
      * left. apply step_utf8_stop. exact A.
      * right. exists [a; b], n. split; [apply step_utf8_out; exact B|cbn; lia].
    + exfalso. exact (x8_step_no_break s m E).
    + discriminate.
    + destruct HR as [A [[B1 B2] _]].
      destruct (x8_fast (length s) (skipn n s) (m - length u) (if Nat.ltb 32 0 then 0%nat else (0 + length u)%nat)) as [[o e]|e];
        [|discriminate].
      inversion H. lia.
  - (* xc_err *) intros s m e H. pose proof (xc_utf8_spec s m) as Hs. rewrite H in Hs. exact Hs.
Qed.

Lemma real_sizes_ok : forall enc v11 lw fill safe m, (1 <= m <= N.to_nat kRawBufSize)%nat ->
  sizes_ok (real_cfg enc v11 lw fill safe) m.
Proof.
  intros enc v11 lw fill safe m Hm. unfold sizes_ok, real_cfg, mk_cfg. cbn [cbsz rbsz].
  unfold kCharBufSize, kRawBufSize in *. lia.
Qed.
