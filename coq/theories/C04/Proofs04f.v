(** skippedChar, peekNextChar, skippedString, peekString on the remaining characters alone (T04_tokens_partial), and
    how these specifications sit inside the functions of Spec04t.v. *)
From XV Require Export C04.Model04 C04.Spec04t.

Local Open Scope N_scope.

Definition spec_skipped_char (ch : N) (cs : list N) : bool * list N :=
  match cs with
  | x :: t => if x =? ch then (true, t) else (false, cs)
  | [] => (false, [])
  end.

Definition spec_peek (nl : bool) (cs : list N) : option N :=
  match cs with
  | x :: _ => if (x =? 0xD) || (nl && ((x =? 0x85) || (x =? 0x2028))) then Some 0xA else Some x
  | [] => None
  end.

Fixpoint is_prefix (s cs : list N) : bool :=
  match s, cs with
  | [], _ => true
  | a :: s', b :: cs' => (a =? b) && is_prefix s' cs'
  | _ :: _, [] => false
  end.

Definition spec_skipped_string (s cs : list N) : bool * list N :=
  if is_prefix s cs then (true, skipn (length s) cs) else (false, cs).

Lemma spec_skipped_char_tk : forall ch p cs,
  spec_skipped_char ch cs = (fst (fst (tk_skipped_char ch p cs)), snd (tk_skipped_char ch p cs)).
Proof. intros ch p [|x t]; [reflexivity|]. cbn. now destruct (x =? ch). Qed.

Lemma spec_peek_tk : forall nl cs, spec_peek nl cs = tk_peek nl cs.
Proof. intros nl [|x t]; [reflexivity|]. unfold spec_peek, tk_peek. now destruct ((x =? 0xD) || _). Qed.

Lemma is_prefix_starts_with : forall s cs, is_prefix s cs = starts_with s cs.
Proof. reflexivity. Qed.   (* the two definitions have the same body *)

Lemma spec_skipped_string_tk : forall s p cs,
  spec_skipped_string s cs = (fst (fst (tk_skipped_string s p cs)), snd (tk_skipped_string s p cs)).
Proof.
  intros s p cs. unfold spec_skipped_string, tk_skipped_string. rewrite is_prefix_starts_with.
  now destruct (starts_with s cs).
Qed.

Lemma eq_list_true : forall a b, eq_list a b = true <-> a = b.
Proof.
  induction a as [|x a IH]; destruct b as [|y b]; cbn [eq_list]; split; intros H; try discriminate; auto.
  - apply Bool.andb_true_iff in H. destruct H as [H1 H2]. apply N.eqb_eq in H1. apply IH in H2. congruence.
  - inversion H; subst. rewrite N.eqb_refl. cbn. apply IH. reflexivity.
Qed.

Lemma starts_with_firstn : forall s cs, starts_with s cs = eq_list (firstn (length s) cs) s.
Proof.
  induction s as [|a s IH]; intros cs; [reflexivity|].
  destruct cs as [|b cs]; [reflexivity|]. cbn [starts_with length firstn eq_list]. rewrite IH, N.eqb_sym. reflexivity.
Qed.

Lemma starts_with_short : forall s cs, (length cs < length s)%nat -> starts_with s cs = false.
Proof.
  induction s as [|a s IH]; intros cs H; [cbn in H; lia|].
  destruct cs as [|b cs]; [reflexivity|]. cbn [starts_with]. rewrite IH; [apply Bool.andb_false_r|cbn in H; lia].
Qed.
