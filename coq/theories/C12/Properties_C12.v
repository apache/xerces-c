(** Property C12 -- Serialised DOM re-parses to an equal tree; output is always well-formed.
    The property theorems, each derived from the lemmas of Proofs*12*.v and followed by [Print Assumptions].
    Models: Model12.v (escape tables, reference strings and markup strings come from
    Gen/GenEsc.v, regenerated from /repo on every run; transcoders are C05's models), ModelDt12.v, ModelNs12.v,
    ModelNsSer12.v, ModelSeq12.v.  Spec: Spec12.v, SpecTree12.v, SpecDt12.v.
    The models describe the code with fixes/C12-*.patch applied; the [_old_refuted] statements show on the model of
    the code as found that each repair is needed. *)
From Coq Require Import ZArith ZifyBool ZifyN ZifyNat Lia.
From XV Require Import C05.Spec05 C05.Model05 C12.Spec12 C12.Model12 C12.SpecTree12 C12.ModelNs12 C12.ModelNsSer12
  C12.ModelSeq12 C12.ModelDt12 C12.SpecDt12
  C12.Proofs12a C12.Proofs12b C12.Proofs12c C12.Proofs12d C12.Proofs12f
  C12.ProofsTree12a C12.ProofsTree12b C12.ProofsTree12e C12.ProofsTree12g C12.ProofsTree12h
  C12.ProofsNsSer12 C12.ProofsDt12.
Local Open Scope N_scope.

(** T12_escape_exact: what formatBuf hands to the transcoder is a character-wise map of the input, in which a mode rewrites
    exactly its generated table row plus, for XML 1.1 output, the restricted controls, NEL and LSEP *)
Theorem T12_escape_exact_map : forall can x m s, format16 can x m UnRep_Fail s = flat_map (esc1 x m) s.
Proof. intros. unfold format16, format_calls, format_calls_gen. apply format_fail_concat. Qed.
Print Assumptions T12_escape_exact_map.

Theorem T12_escape_exact_map_charref : forall can x m s, forallb can s = true ->
  format16 can x m UnRep_CharRef s = flat_map (esc1 x m) s.
Proof.
  intros can x m s. rewrite format16_charref. induction s as [|c r IH]; intros H; [reflexivity|].
  cbn [forallb] in H. apply andb_true_iff in H. destruct H as [Hc Hr].
  cbn [special16 flat_map]. rewrite Hc, IH by exact Hr. reflexivity.
Qed.
Print Assumptions T12_escape_exact_map_charref.

Theorem T12_escape_exact : forall x m c,
  (in_escape_list x m c = true <->
   In c (zprefix (esc_row m)) \/ (x = true /\ (restricted11 c \/ c = 0x85 \/ c = 0x2028))) /\
  (esc1 x m c = [c] <-> (m = NoEscapes \/ in_escape_list x m c = false)) /\
  (m <> NoEscapes -> in_escape_list x m c = true -> esc1 x m c = esc_ref c).
Proof.
  intros x m c. split; [apply in_escape_list_spec|].
  assert (Hm : m = NoEscapes \/ m <> NoEscapes) by (destruct m; [left; reflexivity|right; discriminate..]).
  split.
  - destruct Hm as [->|Hm]; [split; [left; reflexivity|reflexivity]|].
    rewrite (esc1_self_iff x m c Hm). split; [right; assumption|intros [E|E]; [contradiction|exact E]].
  - intros Hm' H. rewrite (esc1_escaping x m c Hm'), H. reflexivity.
Qed.
Print Assumptions T12_escape_exact.

Theorem T12_escape_rows :
  zprefix (esc_row NoEscapes) = [] /\ zprefix (esc_row StdEscapes) = [38; 62; 34; 60; 39] /\
  zprefix (esc_row AttrEscapes) = [38; 60; 34; 10; 13; 9] /\ zprefix (esc_row CharEscapes) = [38; 60; 62; 13].
Proof. split; [vm_compute; reflexivity|]. split; [vm_compute; reflexivity|]. exact (conj attr_row_eq char_row_eq). Qed.
Print Assumptions T12_escape_rows.

(** T12_escape_roundtrip (full): for every string of XML characters (UTF-16 units, XML 1.0 or 1.1), every
    canTranscodeTo that does not separate surrogate pairs: what the formatter writes for character data
    (CharEscapes) resp. an attribute value (AttrEscapes) is read back by an XML processor as the same string.
    Hence &, <, >, CR are protected in text (and "]]>" can never appear), &, <, the double quote, TAB, LF, CR in attribute values,
    unrepresentable characters arrive as the references that denote them. *)
Theorem T12_escape_roundtrip_text : forall x can s, can_uniform can -> xml_string x s = true ->
  unescape_parse false x (format16 can x CharEscapes UnRep_CharRef s) = Some s.
Proof.
  intros x can s Hu Hs. apply reads_parse, (format16_reads false CharEscapes); [left; split; reflexivity|exact Hu|exact Hs].
Qed.
Print Assumptions T12_escape_roundtrip_text.

Theorem T12_escape_roundtrip_attr : forall x can s, can_uniform can -> xml_string x s = true ->
  unescape_parse true x (format16 can x AttrEscapes UnRep_CharRef s) = Some s.
Proof.
  intros x can s Hu Hs. apply reads_parse, (format16_reads true AttrEscapes); [right; split; reflexivity|exact Hu|exact Hs].
Qed.
Print Assumptions T12_escape_roundtrip_attr.

Theorem T12_can_uniform : forall e, can_uniform (enc_can e).
Proof.
  intros e c d Hc Hd. destruct (hi_lo_bounds c d Hc Hd) as [Bc Bd]. destruct e; cbn [enc_can].
  - unfold x8_can. lia.
  - unfold id_can. lia.
  - unfold id_can. lia.
  - rewrite !win1252_no_surrogate by lia. reflexivity.
  - reflexivity.
Qed.
Print Assumptions T12_can_uniform.

(** T12_unrep: with UnRep_CharRef every code point the target cannot represent is written as exactly one
    reference made from that code point (surrogate pairs combined), every other one goes through the escaping of
    the mode; and such a reference denotes the code point. *)
Theorem T12_unrep : forall x can m cps, can_uniform can -> forallb (xml_cp x) cps = true ->
  format16 can x m UnRep_CharRef (flat_map utf16_enc cps) =
  flat_map (fun cp => if canp can cp then flat_map (esc1 x m) (utf16_enc cp) else charref cp) cps.
Proof.
  intros x can m cps Hu. rewrite format16_charref. induction cps as [|cp r IH]; intros H; [reflexivity|].
  cbn [forallb] in H. apply andb_true_iff in H. destruct H as [Hc Hr].
  cbn [flat_map]. rewrite <- (IH Hr). unfold canp. destruct (N.ltb_spec cp 0x10000) as [Hlt|Hge].
  - rewrite utf16_enc_bmp by exact Hlt. cbn [app flat_map]. rewrite app_nil_r.
    apply special16_bmp. apply xml_cp_bmp; assumption.
  - assert (Hrange : 0x10000 <= cp <= 0x10FFFF) by (unfold xml_cp, ref_ok in Hc; destruct x; lia).
    destruct (utf16_enc_supp cp Hrange) as [c [d [E [Hh [Hl Hcomb]]]]]. rewrite E. cbn [app flat_map]. rewrite app_nil_r.
    rewrite special16_pair by assumption. rewrite Hcomb.
    (* canp judges the pair by U+D800; [can] is the same on all surrogates *)
    rewrite (Hu c d Hh Hl), <- (Hu 0xD800 d eq_refl Hl). reflexivity.
Qed.
Print Assumptions T12_unrep.

Theorem T12_unrep_denotes : forall attr x cp, xml_cp x cp = true ->
  unescape_parse attr x (charref cp) = Some (utf16_enc cp).
Proof.
  intros attr x cp H. apply reads_parse. apply reads_charref; [|exact H].
  unfold xml_cp, ref_ok in H. destruct x; lia.
Qed.
Print Assumptions T12_unrep_denotes.

Theorem T12_idempotent : forall attr m x can s, mode_pair attr m -> can_uniform can -> xml_string x s = true ->
  exists t, unescape_parse attr x (format16 can x m UnRep_CharRef s) = Some t /\
            format16 can x m UnRep_CharRef t = format16 can x m UnRep_CharRef s.
Proof.
  intros attr m x can s Hm Hu Hs. exists s. split; [|reflexivity].
  apply reads_parse, format16_reads; assumption.
Qed.
Print Assumptions T12_idempotent.

(** T12_cdata (after fixes/C12-cdata-split.patch): the sections written for a CDATASection node hold its data, none contains
    "]]>", and the specification parser reads them back *)
Theorem T12_cdata_text : forall can s, forallb can s = true -> flat_map citem_text (cdata_items can s) = s.
Proof.
  intros can s H. destruct (cdata_items_sections can s H) as [l [E [Ec _]]]. rewrite E, <- Ec. clear.
  induction l as [|p l IH]; [reflexivity|]. cbn [map flat_map citem_text concat]. rewrite IH. reflexivity.
Qed.
Print Assumptions T12_cdata_text.

Theorem T12_cdata_sections : forall can s, forallb can s = true ->
  forall it, In it (cdata_items can s) -> match it with CSect l => no_cdata_end l = true | CRef _ => True end.
Proof.
  intros can s H it Hin. destruct (cdata_items_sections can s H) as [l [E [_ [HF _]]]]. rewrite E in Hin.
  apply in_map_iff in Hin. destruct Hin as [p [<- Hp]]. rewrite Forall_forall in HF. apply HF, Hp.
Qed.
Print Assumptions T12_cdata_sections.

Theorem T12_cdata_reparse : forall can s, forallb can s = true ->
  parse_sections (S (length s)) (flat_map citem_out (cdata_items can s)) = Some s.
Proof.
  intros can s H. destruct (cdata_items_sections can s H) as [l [E [Ec [HF Hlen]]]].
  rewrite E, parse_sections_pieces, Ec by assumption. reflexivity.
Qed.
Print Assumptions T12_cdata_reparse.

(** T12_roundtrip, leaf level *)
Theorem T12_roundtrip_text_node : forall cf s out, c_fixed cf = true -> can_uniform (c_can cf) -> units16 s ->
  ser_node cf (Text s) = Ok out -> unescape_parse false (c_xml11 cf) out = Some s.
Proof.
  intros cf s out Hf Hu H16 H. destruct (ser_text_ok cf s out H) as [Ev ->]. rewrite data16_fixed by exact Hf.
  apply T12_escape_roundtrip_text; [exact Hu|]. apply (valid_is_xml _ _ s Ev H16).
Qed.
Print Assumptions T12_roundtrip_text_node.

Theorem T12_roundtrip_attribute : forall cf n v out, c_fixed cf = true -> can_uniform (c_can cf) -> units16 v ->
  ser_attrs cf [(n, v)] = Ok out ->
  forallb (c_can cf) n = true /\
  out = [32] ++ n ++ [61; 34] ++ data16 cf AttrEscapes v ++ [34] /\
  unescape_parse true (c_xml11 cf) (data16 cf AttrEscapes v) = Some v.
Proof.
  intros cf n v out Hf Hu H16 H. destruct (ser_attrs_cons_ok cf n v [] out Hf H) as [o [En [Ev [Eo ->]]]].
  injection Eo as <-. cbn [forallb] in En. apply andb_true_iff in En. split; [apply En|]. split; [reflexivity|].
  rewrite data16_fixed by exact Hf.
  apply T12_escape_roundtrip_attr; [exact Hu|]. apply (valid_is_xml _ _ v Ev H16).
Qed.
Print Assumptions T12_roundtrip_attribute.

Theorem T12_roundtrip_cdata_node : forall cf s out, c_fixed cf = true -> c_split cf = true ->
  forallb (c_can cf) s = true -> ser_node cf (CData s) = Ok out -> parse_sections (S (length s)) out = Some s.
Proof.
  intros cf s out Hf Hs Hc H. cbn [ser_node] in H. rewrite Hs, Hf in H.
  destruct (valid_string false (c_xml11 cf) s); cbn [negb] in H; [|discriminate].
  injection H as <-. apply T12_cdata_reparse. exact Hc.
Qed.
Print Assumptions T12_roundtrip_cdata_node.

(** T12_roundtrip (tree level, on the serializer model with the committed fixes): for every tree that the model
    writes ([ser_doc] = Ok), whose content XML can express ([expressible]: names are made of name characters, no "--"
    in comments, no "?>" / leading white space in PI data, no CR -- XML 1.1: NEL, LSEP -- in comments, PIs and CDATA
    sections; of these the model refuses "--" and "?>" itself, T12_comment_pi_refused, and checks none of the others, see
    the refutations below and the known finding F47) and that is in the scope of
    the proof ([in_scope]: 16-bit units, CDATA data representable), in every modelled configuration (any
    canTranscodeTo that keeps surrogate pairs together, XML 1.0/1.1, split-cdata-sections on/off, with or without
    XML declaration): the specification scanner [reparse] reads the written document back as [normalise t] -- the tree
    itself, except that a CDATASection that had to be split is its sections and adjacent/empty Text nodes are merged.
    [fuel] is only a recursion bound. *)
Theorem T12_roundtrip : forall cf kids out fuel, c_fixed cf = true -> can_uniform (c_can cf) ->
  ser_doc cf kids = Ok out -> expressible_list cf kids = true -> in_scope_list cf kids = true ->
  (c_decl cf = true -> none_is 62 (c_enc cf) = true) -> (list_weight kids + 4 <= fuel)%nat ->
  reparse (c_xml11 cf) fuel out = Some (normalise cf kids).
Proof.
  intros cf kids out fuel Hf Hu Hs He Hg Hdecl Hfu. rewrite ser_doc_eq in Hs.
  destruct (ser_kids cf kids) as [body|] eqn:Eb; cbn [bind] in Hs; [|discriminate]. injection Hs as Hs. subst out.
  pose proof (kids_parse cf Hf Hu kids body Eb He Hg [] [] [] 2%nat
                (parses_base (c_xml11 cf) [] (or_introl eq_refl))) as HP.
  assert (Hbody : forall f', (2 + list_weight kids <= f')%nat ->
                  parse_content (c_xml11 cf) f' body = Some (normalise cf kids, [])).
  { intros f' Hf'. pose proof (parses_nil _ _ _ _ _ f' HP Hf') as E. rewrite !app_nil_r in E. exact E. }
  (* of the 4: two units for the end of the input ([parses_base]), one for the XML declaration; one is spare *)
  unfold reparse. destruct (c_decl cf) eqn:Ed.
  - destruct fuel as [|f]; [exfalso; clear -Hfu; lia|]. rewrite (decl_skipped cf f body Ed (Hdecl eq_refl)).
    rewrite Hbody by (clear -Hfu; lia). reflexivity.
  - unfold decl_of. rewrite Ed. cbn [app]. rewrite Hbody by (clear -Hfu; lia). reflexivity.
Qed.
Print Assumptions T12_roundtrip.

Definition sample_cfg : scfg := mk_cfg ELatin1 false true true true [73; 83; 79; 45; 56; 56; 53; 57; 45; 49].
Definition sample_doc : list node :=
  [Comment [97; 32; 98];
   Elem [114] [([107], [34; 0x20AC; 60; 9]); ([109], [])]
     [Text [97; 38; 60; 62; 13; 0xD800; 0xDC00]; Text [98];
      CData [120; 93; 93; 62; 121]; Elem [101] [] []; PI [116] [100; 63; 100]; Text []];
   PI [112] []].
Definition reparses_to (cf : scfg) (fuel : nat) (doc expected : list node) : Prop :=
  match ser_doc cf doc with
  | Ok out => reparse (c_xml11 cf) fuel out = Some expected
  | Err _ => False
  end.
Example T12_roundtrip_nonvacuous :
  expressible_list sample_cfg sample_doc = true /\ in_scope_list sample_cfg sample_doc = true /\
  reparses_to sample_cfg 60 sample_doc (normalise sample_cfg sample_doc) /\
  normalise sample_cfg sample_doc =
  [Comment [97; 32; 98];
   Elem [114] [([107], [34; 0x20AC; 60; 9]); ([109], [])]
     [Text [97; 38; 60; 62; 13; 0xD800; 0xDC00; 98];
      CData [120; 93; 93]; CData [62; 121]; Elem [101] [] []; PI [116] [100; 63; 100]];
   PI [112] []].
Proof. vm_compute. repeat split; reflexivity. Qed.

(** what [expressible] guards: the model of the code as found (known findings F40, F41) writes these trees, and the
    result is not the tree *)
Definition sample_cfg_old : scfg := mk_cfg ELatin1 false true true false [73; 83; 79; 45; 56; 56; 53; 57; 45; 49].
Example T12_comment_dashes_old_refuted :
  match ser_doc sample_cfg_old [Elem [114] [] [Comment [97; 45; 45; 98]]] with
  | Ok out => reparse false 20 out = None | Err _ => False end.
Proof. vm_compute. reflexivity. Qed.
Example T12_pi_data_old_refuted :
  reparses_to sample_cfg_old 20 [Elem [114] [] [PI [116] [97; 63; 62; 98]]] [Elem [114] [] [PI [116] [97]; Text [98; 63; 62]]].
Proof. vm_compute. reflexivity. Qed.
(** with fixes/C12-comment-pi-wf.patch both are refused (also a comment that ends in "-") *)
Example T12_comment_pi_refused :
  ser_doc sample_cfg [Elem [114] [] [Comment [97; 45; 45; 98]]] = Err S_InvalidChar /\
  ser_doc sample_cfg [Elem [114] [] [Comment [97; 45]]] = Err S_InvalidChar /\
  ser_doc sample_cfg [Elem [114] [] [PI [116] [97; 63; 62; 98]]] = Err S_InvalidChar.
Proof. vm_compute. repeat split; reflexivity. Qed.
(** what remains outside the model's checks: PI data that begins with white space (it is read back without it) *)
Example T12_pi_leading_space_refuted :
  reparses_to sample_cfg 20 [Elem [114] [] [PI [116] [32; 97]]] [Elem [114] [] [PI [116] [97]]].
Proof. vm_compute. reflexivity. Qed.
Example T12_literal_cr_refuted :
  reparses_to sample_cfg 20 [Elem [114] [] [CData [97; 13; 98]; Comment [99; 13; 100]]]
                            [Elem [114] [] [CData [97; 10; 98]; Comment [99; 10; 100]]].
Proof. vm_compute. reflexivity. Qed.

(** T12_idempotent (tree level): serialising what was read back gives the same document, for trees without empty
    Text nodes and without a CDATA section that has to be split ([plain]; an element whose only children are empty
    Text nodes is written <a></a> and read back without children, i.e. <a/>: excluded).  Adjacent Text nodes may be
    merged by the round trip; the bytes do not change. *)
Theorem T12_idempotent_tree : forall cf kids out fuel, c_fixed cf = true -> can_uniform (c_can cf) ->
  ser_doc cf kids = Ok out -> expressible_list cf kids = true -> in_scope_list cf kids = true -> plain_list kids = true ->
  (c_decl cf = true -> none_is 62 (c_enc cf) = true) -> (list_weight kids + 4 <= fuel)%nat ->
  exists t', reparse (c_xml11 cf) fuel out = Some t' /\ ser_doc cf t' = Ok out.
Proof.
  intros cf kids out fuel Hf Hu Hs He Hg Hp Hd Hfu. exists (normalise cf kids). split.
  - apply T12_roundtrip; assumption.
  - apply tree_idempotent; assumption.
Qed.
Print Assumptions T12_idempotent_tree.

Example T12_empty_text_not_idempotent :
  match ser_doc sample_cfg [Elem [97] [] [Text []]] with
  | Ok out => reparse false 20 out = Some [Elem [97] [] []] /\ ser_doc sample_cfg [Elem [97] [] []] <> Ok out
  | Err _ => False end.
Proof. vm_compute. split; [reflexivity|discriminate]. Qed.

(** T12_no_hidden_state: a serializer (formatter) object used for several writes.  In the model the k-th result of a
    sequence is the result of a fresh write of the k-th job, whatever was written before; the tie to the code is the
    "seq" / "fseq" correspondence of checks/C12.py (k-th output of a re-used DOMLSSerializer / XMLFormatter = output
    of a fresh instance = model). *)
Theorem T12_no_hidden_state : forall jobs k, nth_error (write_seq jobs) k = option_map write1 (nth_error jobs k).
Proof. intros jobs k. unfold write_seq. apply nth_error_map. Qed.
Print Assumptions T12_no_hidden_state.

Theorem T12_no_hidden_state_after : forall before job, write_seq (before ++ [job]) = write_seq before ++ [write1 job].
Proof. intros before job. unfold write_seq. rewrite map_app. reflexivity. Qed.
Print Assumptions T12_no_hidden_state_after.

Theorem T12_formatter_no_hidden_state : forall e x u jobs k,
  nth_error (format_seq e x u jobs) k = option_map (format1 e x u) (nth_error jobs k).
Proof. intros e x u jobs k. unfold format_seq. apply nth_error_map. Qed.
Print Assumptions T12_formatter_no_hidden_state.

(** T12_unserialisable: content that the model's checks refuse (characters that are not XML Chars, names / comments /
    PIs with characters the encoding cannot represent, "]]>" or unrepresentable data in a CDATA section when
    split-cdata-sections is off, ...) is refused wherever it occurs in the tree: the result is an error and no
    document.  (What the model does not check is part of [expressible]; see the refutations above.) *)
Theorem T12_unserialisable_node : forall cf n, c_fixed cf = true -> unwritable cf n -> exists e, ser_node cf n = Err e.
Proof.
  (* one constructor of [unwritable] for each test of [ser_node] that fails, in the order of the definition *)
  intros cf n Hf H. induction H as [s H|s H|s Hs H|s Hs H|s H|s H|s H|t d H|t d H|t d H|n a k H|n a k an av Hin H|n a k an av Hin H|n a kids k Hin H IH].
  - (* UW_text *) cbn [ser_node]. rewrite Hf, H. eexists. reflexivity.
  - (* UW_cdata_chars *) cbn [ser_node]. rewrite Hf, H. destruct (c_split cf); eexists; reflexivity.
  - (* UW_cdata_nested *) cbn [ser_node]. rewrite Hs. destruct (negb (valid_string false (c_xml11 cf) s)); [eexists; reflexivity|].
    apply Nat.ltb_lt in H. rewrite H. eexists. reflexivity.
  - (* UW_cdata_unrep *) cbn [ser_node]. rewrite Hs. destruct (negb (valid_string false (c_xml11 cf) s)); [eexists; reflexivity|].
    destruct (Nat.ltb 1 (length (cdata_pieces_old s []))); [eexists; reflexivity|]. apply markup_unrep. exact H.
  - (* UW_comment_chars *) cbn [ser_node]. rewrite H. eexists. reflexivity.
  - (* UW_comment_unrep *) cbn [ser_node]. destruct (negb (valid_string false (c_xml11 cf) s)); [eexists; reflexivity|].
    destruct (c_fixed cf && (occurs2 45 45 s || ends_with 45 s)); [eexists; reflexivity|]. apply markup_unrep. exact H.
  - (* UW_comment_dashes *) cbn [ser_node]. destruct (negb (valid_string false (c_xml11 cf) s)); [eexists; reflexivity|].
    rewrite Hf, H. eexists. reflexivity.
  - (* UW_pi_end *) cbn [ser_node]. destruct (negb (valid_string false (c_xml11 cf) t && valid_string false (c_xml11 cf) d)); [eexists; reflexivity|].
    rewrite Hf, H. eexists. reflexivity.
  - (* UW_pi_chars *) cbn [ser_node]. rewrite H. eexists. reflexivity.
  - (* UW_pi_unrep *) cbn [ser_node]. destruct (negb (valid_string false (c_xml11 cf) t && valid_string false (c_xml11 cf) d)); [eexists; reflexivity|].
    destruct (c_fixed cf && occurs2 63 62 d); [eexists; reflexivity|].
    apply andb_false_iff in H. destruct H as [H|H].
    + apply markup_unrep. exact H.
    + destruct d as [|c d']; [discriminate|]. apply (markup_part cf _ (c :: d') H).
      apply incl_appr, incl_appr, incl_appl, incl_tl, incl_refl.
  - (* UW_name *) rewrite ser_node_elem. apply bind_err, (markup_part cf _ n H), incl_tl, incl_refl.
  - (* UW_attr_name *) rewrite ser_node_elem. apply bind_err2. intros st. apply bind_err. apply (ser_attrs_err cf a an av Hf Hin). left. exact H.
  - (* UW_attr_value *) rewrite ser_node_elem. apply bind_err2. intros st. apply bind_err. apply (ser_attrs_err cf a an av Hf Hin). right. exact H.
  - (* UW_kid *) rewrite ser_node_elem. apply bind_err2. intros st. apply bind_err2. intros at_.
    destruct kids as [|k1 ks]; [destruct Hin|]. apply bind_err. apply (ser_kids_err cf (k1 :: ks) k Hin IH).
Qed.
Print Assumptions T12_unserialisable_node.

Theorem T12_unserialisable : forall cf kids k, c_fixed cf = true -> In k kids -> unwritable cf k ->
  exists e, ser_doc cf kids = Err e.
Proof.
  intros cf kids k Hf Hin H. rewrite ser_doc_eq. apply bind_err. apply (ser_kids_err cf kids k Hin).
  apply T12_unserialisable_node; assumption.
Qed.
Print Assumptions T12_unserialisable.

(** T12_nsfixup_serializer: the namespace fix-up DOMLSSerializer does itself while writing start tags (model
    ModelNsSer12.v).  For an API-built tree in which no element needs one prefix for two namespaces (F51) and
    every attribute in a namespace has a prefix (F52) -- [fixable] --, under any outer scope: no start tag declares a
    prefix twice, and with the declarations written every element and attribute resolves to its namespace URI. *)
Theorem T12_nsfixup_serializer : forall e sst pst, (forall q, ns_lookup sst q = ns_lookup pst q) ->
  fixable e -> tree_resolves sst pst e = true.
Proof.
  intros e. induction e as [p u l attrs kids IHk] using nselem_kids_ind. intros sst pst Heq Hf.
  cbn [fixable] in Hf. destruct Hf as [Hz [HC [Hap Hk]]].
  cbn [tree_resolves]. destruct (start_tag_resolves sst pst p u attrs Heq HC Hz Hap) as [Heq' [Hd [Hpu Hat]]].
  rewrite Hd, Hpu, N.eqb_refl, Hat. cbn [andb]. clear Hd Hpu Hat Hap HC.
  revert Hk. induction IHk as [|k r IHk1 _ IHr]; intros Hk; [reflexivity|]. destruct Hk as [Hk1 Hk2].
  apply andb_true_iff. split; [apply IHk1; [exact Heq'|exact Hk1]|apply IHr; exact Hk2].
Qed.
Print Assumptions T12_nsfixup_serializer.

(** the two gaps, on the model; and F50 as repaired: r{u} > x{} > y{u}, only r declared in the tree *)
Theorem T12_nsfixup_serializer_gaps_refuted :
  tree_resolves [] [] (NsE 1 20 7 [AOrd 1 10 8] []) = false /\
  f_emitted (fix_start_tag [] 1 20 [AOrd 1 10 8]) = [(1, 20); (1, 10)] /\
  tree_resolves [] [] (NsE 0 0 7 [AOrd 0 10 8] []) = false /\
  tree_resolves [] [] (NsE 0 10 1 [ADecl 0 10] [NsE 0 0 2 [] [NsE 0 10 3 [] []]]) = true.
Proof. vm_compute. repeat split; reflexivity. Qed.
Print Assumptions T12_nsfixup_serializer_gaps_refuted.

(** T12_nsfixup: the scope table of namespace fix-up in normalizeDocument() (DOMNormalizer::InScopeNamespaces; model
    ModelNs12.v, tied to the code by reading and by the normalizeDocument route of the document-level oracle).
    Whatever scopes were pushed/popped and bindings added or changed: a prefix answered for a namespace URI is bound
    to that URI in the current scope -- a lookup never returns a shadowed prefix -- and after rebinding a prefix the
    old namespace no longer leads to it. *)
Theorem T12_nsfixup : forall ops st, ns_run ops [] = Some st ->
  forall u p, get_prefix st u = Some p -> get_uri st p = Some u.
Proof.
  intros ops st H u p Hp. assert (HI : inverse_stack st) by (apply (run_inv ops [] st); [constructor|exact H]).
  apply (visible_inv st HI). exact Hp.
Qed.
Print Assumptions T12_nsfixup.

Theorem T12_nsfixup_rebound : forall ops st p u1 u2 st', ns_run ops [] = Some st -> u1 <> u2 ->
  ns_step st (Bind p u2) = Some st' -> get_prefix st' u1 <> Some p.
Proof.
  intros ops st p u1 u2 st' H Hne Hb Hp.
  assert (Hr : ns_run (ops ++ [Bind p u2]) [] = Some st') by (rewrite ns_run_app, H; cbn [ns_run]; rewrite Hb; reflexivity).
  pose proof (T12_nsfixup _ _ Hr u1 p Hp) as Hu.
  (* but p is bound to u2 in st' *)
  assert (Hu2 : get_uri st' p = Some u2).
  { cbn [ns_step] in Hb.
    destruct (match st with [] => [None] | _ :: _ => st end) as [|top rest]; [discriminate|].
    unfold bind_tabs in Hb. injection Hb as Hb. subst st'. unfold get_uri. cbn [visible t_pre]. apply aget_aput_eq. }
  rewrite Hu2 in Hu. injection Hu as Hu. apply Hne. symmetry. exact Hu.
Qed.
Print Assumptions T12_nsfixup_rebound.

(** the variant that falls back to the base scope when its own table has no entry does return the shadowed prefix *)
Theorem T12_nsfixup_fallback_refuted :
  exists st, ns_run [Push; Bind 1 10; Push; Bind 1 20] [] = Some st /\
             get_prefix_fallback st 10 = Some 1 /\ get_uri st 1 = Some 20 /\ get_prefix st 10 = None.
Proof. eexists. vm_compute. repeat split; reflexivity. Qed.
Print Assumptions T12_nsfixup_fallback_refuted.

(** after fixes/C12-normalizer-scope.patch addOrChangeBinding cannot throw; as found it did (F54) *)
Theorem T12_nsscope_total : forall ops st, exists st', ns_run ops st = Some st'.
Proof.
  induction ops as [|o r IH]; intros st; cbn [ns_run]; [eexists; reflexivity|].
  destruct o as [| |p u]; cbn [ns_step]; try apply IH.
  destruct st as [|top rest]; cbn [bind_tabs]; apply IH.
Qed.
Print Assumptions T12_nsscope_total.

Theorem T12_nsscope_rebind_both_old_refuted :
  ns_run_old [Push; Bind 1 30; Bind 2 30; Push; Bind 1 10; Bind 2 20] [] = None /\
  exists st, ns_run [Push; Bind 1 30; Bind 2 30; Push; Bind 1 10; Bind 2 20] [] = Some st /\
             get_uri st 1 = Some 10 /\ get_uri st 2 = Some 20 /\ get_prefix st 30 = None.
Proof. split; [vm_compute; reflexivity|]. eexists. vm_compute. repeat split; reflexivity. Qed.
Print Assumptions T12_nsscope_rebind_both_old_refuted.

Theorem T12_cdata_split_old_refuted :
  flat_map citem_text (cdata_items_old (fun _ => true) [97; 93; 93; 62; 98]) = [97; 98].
Proof. vm_compute. reflexivity. Qed.
Print Assumptions T12_cdata_split_old_refuted.

Theorem T12_xml11_lsep_old_refuted :
  xml_string true [97; 0x2028; 0x85] = true /\
  unescape_parse false true (concat (format_calls_old (fun _ => true) true CharEscapes UnRep_CharRef [97; 0x2028; 0x85]))
  = Some [97; 10; 10].
Proof. vm_compute. split; reflexivity. Qed.
Print Assumptions T12_xml11_lsep_old_refuted.

Theorem T12_cdata_surrogate_old_refuted :
  cd_items_old (enc_can ELatin1) [0xD800; 0xDC00] [] = [CRef 0xD800; CRef 0xDC00] /\
  cd_items (enc_can ELatin1) [0xD800; 0xDC00] [] = [CRef 0x10000].
Proof. vm_compute. split; reflexivity. Qed.
Print Assumptions T12_cdata_surrogate_old_refuted.

(** two known findings on the model: the Windows-1252 table has no best-fit entry for U+FF1C (F46: it was written as a
    literal "<"; /repo 57a89d7), so it is written as a reference; a run ending in an unpaired high surrogate makes the UTF-8
    formatter raise Trans_BadSrcSeq (fixes/C12-formatter-no-progress.patch), where the code as found, [hue8_old], loops (F44) *)
Theorem T12_win1252_bestfit_repaired :
  enc_can EWin1252 0xFF1C = false /\
  format_bytes EWin1252 false CharEscapes UnRep_CharRef [0xFF1C] = Ok [38; 35; 120; 70; 70; 49; 67; 59].
Proof. vm_compute. split; reflexivity. Qed.
Print Assumptions T12_win1252_bestfit_repaired.

Theorem T12_trailing_high_surrogate_refused :
  format_bytes EUtf8 false CharEscapes UnRep_CharRef [97; 0xD800] = Err F_BadSrcSeq /\
  hue8_old 3 k_tmp [97; 0xD800] = Err F_Hang.
Proof. vm_compute. split; reflexivity. Qed.
Print Assumptions T12_trailing_high_surrogate_refused.

Example T12_nonvacuous_string :
  xml_string false [97; 60; 38; 62; 34; 39; 9; 10; 13; 93; 93; 62; 0xE9; 0x20AC; 0xD800; 0xDC00] = true /\
  xml_string true [1; 0x7F; 0x85; 0x2028; 0x9F] = true.
Proof. vm_compute. split; reflexivity. Qed.
Example T12_nonvacuous_text :
  format16 (enc_can ELatin1) false CharEscapes UnRep_CharRef [97; 60; 13; 0x20AC; 0xD800; 0xDC00; 93; 93; 62] =
  [97; 38; 108; 116; 59; 38; 35; 120; 68; 59; 38; 35; 120; 50; 48; 65; 67; 59;
   38; 35; 120; 49; 48; 48; 48; 48; 59; 93; 93; 38; 103; 116; 59].
Proof. vm_compute. reflexivity. Qed.
Example T12_nonvacuous_xml11 :
  unescape_parse true true (format16 (enc_can EUtf8) true AttrEscapes UnRep_CharRef [1; 0x85; 0x2028; 9; 34]) =
  Some [1; 0x85; 0x2028; 9; 34].
Proof. vm_compute. reflexivity. Qed.
Example T12_nonvacuous_cdata :
  flat_map citem_out (cdata_items (fun _ => true) [97; 93; 93; 62; 98]) =
  ser_gStartCDATA ++ [97; 93; 93] ++ ser_gEndCDATA ++ ser_gStartCDATA ++ [62; 98] ++ ser_gEndCDATA.
Proof. vm_compute. reflexivity. Qed.
Example T12_nonvacuous_doc :
  ser_doc (mk_cfg ELatin1 false true false true []) [Elem [114] [([107], [34; 0x20AC])] [Text [60]; Comment [120]; PI [116] [100]]]
  = Ok [60; 114; 32; 107; 61; 34; 38; 113; 117; 111; 116; 59; 38; 35; 120; 50; 48; 65; 67; 59; 34; 62;
        38; 108; 116; 59; 60; 33; 45; 45; 120; 45; 45; 62; 60; 63; 116; 32; 100; 63; 62; 60; 47; 114; 62].
Proof. vm_compute. reflexivity. Qed.
Example T12_nonvacuous_attrname :
  ser_doc (mk_cfg ELatin1 false true false true []) [Elem [114] [([107; 0x3A9], [118])] []] = Err S_Unrepresentable /\
  ser_doc (mk_cfg ELatin1 false true false false []) [Elem [114] [([107; 0x3A9], [118])] []] =
    Ok [60; 114; 32; 107; 38; 35; 120; 51; 65; 57; 59; 61; 34; 118; 34; 47; 62].
Proof. vm_compute. split; reflexivity. Qed.
Example T12_nonvacuous_restricted11 :
  ser_doc (mk_cfg EUtf8 true true false true []) [Elem [114] [] [Text [1]]] = Ok [60; 114; 62; 38; 35; 120; 49; 59; 60; 47; 114; 62] /\
  ser_doc (mk_cfg EUtf8 true true false false []) [Elem [114] [] [Text [1]]] = Err S_InvalidChar /\
  ser_doc (mk_cfg EUtf8 true true false true []) [Elem [114] [] [Comment [1]]] = Err S_InvalidChar.
Proof. vm_compute. repeat split; reflexivity. Qed.
Example T12_nonvacuous_errors :
  ser_doc (mk_cfg ELatin1 false true false true []) [Elem [114; 0x20AC] [] []] = Err S_Unrepresentable /\
  ser_doc (mk_cfg EUtf8 false true false true []) [Elem [114] [] [CData [1]]] = Err S_InvalidChar /\
  ser_doc (mk_cfg EUtf8 false false false true []) [Elem [114] [] [CData [93; 93; 62]]] = Err S_NestedCDATA.
Proof. vm_compute. repeat split; reflexivity. Qed.

(** T12_doctype_roundtrip: whenever the repaired serializer (fixes/C12-doctype-literals.patch) writes a DocumentType
    -- any name that is a name, any public and system identifier it accepts, an internal subset without ']' (the
    subset is an opaque string here) -- in any configuration, the declaration scanner of the specification reads the
    same name, public identifier, system identifier and subset back, whatever follows the declaration. *)
Theorem T12_doctype_roundtrip : forall cf d out rest,
  ser_doctype cf true d = Ok out -> dt_expressible d = true -> parse_doctype (out ++ rest) = Some (d, rest).
Proof.
  intros cf d out rest Hs Hx. destruct d as [name pub sys sb]. unfold dt_expressible in Hx. cbn [dt_name dt_sub] in Hx.
  apply andb_true_iff in Hx. destruct Hx as [Hname Hsb].
  unfold ser_doctype in Hs. cbn [dt_name dt_pub dt_sys dt_sub andb] in Hs.
  destruct (valid_string false (c_xml11 cf) sys); cbn [negb] in Hs; [|discriminate].
  destruct (forallb pubid_char pub) eqn:Hpub; cbn [negb] in Hs; [|discriminate].
  destruct (has 34 sys && has 39 sys) eqn:Hq; [discriminate|].
  apply bind_ok in Hs. destruct Hs as (a & Ha & Hs). apply markup_ok in Ha.
  apply bind_ok in Hs. destruct Hs as (e & He & Hs).
  apply bind_ok in Hs. destruct Hs as (s & Hs' & Hs). apply markup_ok in Hs'. injection Hs as <-.
  subst a s.
  destruct pub as [|p0 pub']; destruct sys as [|s0 sys'].
  - (* no external identifier *)
    injection He as <-. apply doctype_parse; [exact Hname|exact Hsb|apply parse_ext_none|].
    cbn [app]. destruct (tail_starts (mk_dt name [] [] sb) rest) as (c & t & E & [[-> _] | ->]); rewrite E; reflexivity.
  - (* SYSTEM *)
    apply markup_ok in He. subst e. set (sys := s0 :: sys') in *.
    apply doctype_parse; [exact Hname|exact Hsb| |reflexivity].
    rewrite <- !app_assoc. apply parse_ext_system. exact Hq.
  - (* PUBLIC without a system identifier: refused *)
    apply bind_ok in He. destruct He as (x & _ & He). discriminate.
  - (* PUBLIC *)
    apply markup_ok in He. subst e. set (sys := s0 :: sys') in *. set (pub := p0 :: pub') in *.
    apply doctype_parse; [exact Hname|exact Hsb| |reflexivity].
    rewrite <- !app_assoc. apply parse_ext_public; assumption.
Qed.
Print Assumptions T12_doctype_roundtrip.

Example T12_doctype_nonvacuous :
  ser_doctype cf_utf8 true (mk_dt [97] [45; 47; 47; 39] [120; 34; 121] [60; 33; 45; 45; 45; 45; 62]) =
    Ok [60; 33; 68; 79; 67; 84; 89; 80; 69; 32; 97; 32; 80; 85; 66; 76; 73; 67; 32; 34; 45; 47; 47; 39; 34; 32; 39; 120; 34;
        121; 39; 32; 91; 60; 33; 45; 45; 45; 45; 62; 93; 62] /\
  dt_expressible (mk_dt [97] [45; 47; 47; 39] [120; 34; 121] [60; 33; 45; 45; 45; 45; 62]) = true.
Proof. vm_compute. split; reflexivity. Qed.

(** the code as found (F56): a system identifier that contains a double quote -- legal, a parser reports it for
    <!DOCTYPE a SYSTEM (the id x, double quote, y)> -- is written between double quotes; the declaration does not read back *)
Theorem T12_doctype_old_refuted :
  exists d out, dt_expressible d = true /\ ser_doctype cf_utf8 false d = Ok out /\ parse_doctype out = None /\
                (exists out', ser_doctype cf_utf8 true d = Ok out' /\ parse_doctype out' = Some (d, [])).
Proof.
  exists (mk_dt [97] [] [120; 34; 121] []). eexists. split; [reflexivity|]. split; [vm_compute; reflexivity|].
  split; [vm_compute; reflexivity|]. eexists. split; vm_compute; reflexivity.
Qed.
Print Assumptions T12_doctype_old_refuted.

(* membership in a concatenation from membership [H] in one of its segments *)
Ltac in_segment H := first [exact H | apply in_or_app; first [left; in_segment H | right; in_segment H]].

(** T12_doctype_unserialisable: identifiers that cannot be written as literals (system identifier with both kinds of
    quote or with a character that is no XML Char, public identifier with a character that is no PubidChar, public
    identifier without system identifier) and unrepresentable characters anywhere in the declaration are refused *)
Theorem T12_doctype_unserialisable : forall cf d, dt_unquotable cf d -> exists e, ser_doctype cf true d = Err e.
Proof.
  intros cf [name pub sys sub] H. unfold dt_unquotable, ser_doctype in *. cbn [dt_name dt_pub dt_sys dt_sub andb] in *.
  destruct (valid_string false (c_xml11 cf) sys) eqn:Hv; cbn [negb]; [|eexists; reflexivity].
  destruct (forallb pubid_char pub) eqn:Hp; cbn [negb]; [|eexists; reflexivity].
  destruct (has 34 sys && has 39 sys) eqn:Hq; [eexists; reflexivity|].
  destruct H as [[H1 H2] | [H | [H | [[H1 H2] | H]]]].
  - rewrite H1, H2 in Hq. discriminate.
  - (* a character that is no PubidChar: refused by the second test above *) congruence.
  - (* a system identifier that is no string of Chars: refused by the first test above *) congruence.
  - apply bind_err2. intros a. apply bind_err. subst sys. destruct pub; [congruence|].
    apply bind_err2. intros _. eexists. reflexivity.
  - (* some unit [c] is unrepresentable: the markup call that writes it fails *)
    destruct (forallb_false _ _ H) as [c [Hin Hc]]. rewrite !in_app_iff in Hin.
    pose proof (fun s => markup_has cf s c Hc) as M.
    destruct Hin as [Hin|[Hin|[Hin|Hin]]].
    + apply bind_err, M. apply in_or_app. right. exact Hin.
    + apply bind_err2. intros a. apply bind_err. destruct pub as [|p0 pub]; [destruct Hin|].
      destruct sys; [apply bind_err|]; apply M; in_segment Hin.
    + apply bind_err2. intros a. apply bind_err. destruct sys as [|s0 sys]; [destruct Hin|].
      destruct pub; apply M; in_segment Hin.
    + apply bind_err2. intros a. apply bind_err2. intros e. apply bind_err.
      destruct sub as [|b0 sub]; [destruct Hin|]. apply M. in_segment Hin.
Qed.
Print Assumptions T12_doctype_unserialisable.

(** the encoding write() uses (the DOM L3 LS order, an empty string counting as absent); writeToString: always UTF-16 *)
Theorem T12_encoding_order : forall o i x,
  encoding_used false o i x =
    match o with _ :: _ => o | [] => match i with _ :: _ => i | [] => match x with _ :: _ => x | [] => utf8_name end end end.
Proof.
  intros o i x. unfold encoding_used, first_nonempty. destruct o; [|reflexivity]. destruct i; [|reflexivity]. destruct x; reflexivity.
Qed.
Print Assumptions T12_encoding_order.
Theorem T12_encoding_to_string : forall o i x, encoding_used true o i x = utf16_name.
Proof. reflexivity. Qed.
Print Assumptions T12_encoding_to_string.
Theorem T12_encoding_never_empty : forall ts o i x, encoding_used ts o i x <> [].
Proof.
  intros ts o i x. destruct ts; [discriminate|]. rewrite T12_encoding_order.
  destruct o; [|discriminate]. destruct i; [|discriminate]. destruct x; discriminate.
Qed.
Print Assumptions T12_encoding_never_empty.
