(** C12 lemmas, part b: written text that the specification parser reads back under any continuation
    ([reads_as]); a character reference written by writeCharRef is read back as the code point it was made
    from; surrogate arithmetic. *)
From Coq Require Import ZArith ZifyBool ZifyN ZifyNat Lia.
From XV Require Import C05.Spec05 C05.Model05 C12.Spec12 C12.Model12.
Local Open Scope N_scope.

(** [w], met in character data (attribute value text) in any state [PText false _], is read as [s], and the parser
    is in such a state again afterwards.  The round-trip statements are all of this form; it composes. *)
Definition reads_as (attr x : bool) (w s : list N) : Prop :=
  forall nb rest, exists nb',
    unesc attr x (PText false nb) (w ++ rest) =
    match unesc attr x (PText false nb') rest with Some t => Some (s ++ t) | None => None end.

Lemma reads_nil : forall attr x, reads_as attr x [] [].
Proof. intros attr x nb rest. exists nb. cbn [app]. destruct (unesc attr x (PText false nb) rest); reflexivity. Qed.

Lemma reads_app : forall attr x w1 s1 w2 s2, reads_as attr x w1 s1 -> reads_as attr x w2 s2 ->
  reads_as attr x (w1 ++ w2) (s1 ++ s2).
Proof.
  intros attr x w1 s1 w2 s2 H1 H2 nb rest. rewrite <- app_assoc.
  destruct (H1 nb (w2 ++ rest)) as [nb1 E1]. destruct (H2 nb1 rest) as [nb2 E2]. exists nb2. rewrite E1, E2.
  destruct (unesc attr x (PText false nb2) rest); [rewrite app_assoc|]; reflexivity.
Qed.

Lemma reads_parse : forall attr x w s, reads_as attr x w s -> unescape_parse attr x w = Some s.
Proof.
  intros attr x w s H. destruct (H 0%nat []) as [nb' E]. rewrite !app_nil_r in E. unfold unescape_parse. rewrite E.
  cbn [unesc]. rewrite app_nil_r. reflexivity.
Qed.

Lemma reads_unit : forall attr x c,
  (forall nb, exists nb', step attr x (PText false nb) c = Some (PText false nb', [c])) -> reads_as attr x [c] [c].
Proof.
  intros attr x c H nb rest. destruct (H nb) as [nb' E]. exists nb'. cbn [app unesc]. rewrite E. reflexivity.
Qed.

Lemma hexval_digit : forall d, d < 16 -> hexval (hexdigit d) = Some d /\ (hexdigit d =? 59) = false.
Proof.
  intros d Hd. unfold hexdigit, hexval. destruct (N.ltb_spec d 10).
  - replace ((48 <=? 48 + d) && (48 + d <=? 57)) with true by lia. split; [f_equal|]; lia.
  - replace ((48 <=? 55 + d) && (55 + d <=? 57)) with false by lia.
    replace ((65 <=? 55 + d) && (55 + d <=? 70)) with true by lia. split; [f_equal|]; lia.
Qed.

(** what the parser accumulates over a list of hexadecimal digits *)
Fixpoint hexfold (l : list N) (a : N) : N :=
  match l with
  | [] => a
  | c :: r => match hexval c with Some d => hexfold r (a * 16 + d) | None => a end
  end.

Definition isdig (c : N) : Prop := exists d, d < 16 /\ c = hexdigit d.

Lemma hex_go_digits : forall f v acc, Forall isdig acc -> Forall isdig (hex_go f v acc).
Proof.
  induction f as [|f IH]; intros v acc Ha; cbn [hex_go]; [exact Ha|].
  assert (Hd : isdig (hexdigit (v mod 16))) by (exists (v mod 16); split; [lia|reflexivity]).
  destruct (v / 16 =? 0); [constructor; assumption|]. apply IH. constructor; assumption.
Qed.

Lemma hex_go_keeps : forall f v acc, acc <> [] -> hex_go f v acc <> [].
Proof.
  induction f as [|f IH]; intros v acc Ha; cbn [hex_go]; [exact Ha|].
  destruct (v / 16 =? 0); [discriminate|]. apply IH. discriminate.
Qed.

Lemma hex_go_nonempty : forall f v acc, hex_go (S f) v acc <> [].
Proof.
  intros f v acc. cbn [hex_go]. destruct (v / 16 =? 0); [discriminate|]. apply hex_go_keeps. discriminate.
Qed.

Lemma hexfold_digit : forall d acc a, d < 16 -> hexfold (hexdigit d :: acc) a = hexfold acc (a * 16 + d).
Proof. intros d acc a Hd. cbn [hexfold]. rewrite (proj1 (hexval_digit d Hd)). reflexivity. Qed.

Lemma hex_go_value : forall f v acc, v < 16 ^ N.of_nat f -> (1 <= f)%nat ->
  hexfold (hex_go f v acc) 0 = hexfold acc v.
Proof.
  induction f as [|f IH]; intros v acc Hv Hf; [lia|].
  cbn [hex_go]. rewrite Nat2N.inj_succ, N.pow_succ_r' in Hv.
  destruct (N.eqb_spec (v / 16) 0) as [E|E].
  - rewrite hexfold_digit by lia. f_equal. lia.
  - destruct f as [|f'].
    + change (16 ^ N.of_nat 0) with 1 in Hv. lia.
    + rewrite IH; [|lia|lia]. rewrite hexfold_digit by lia. f_equal. lia.
Qed.

(* [hex] has fuel for 16 digits; 2^32 is all a character reference needs *)
Lemma hex_value : forall v, v < 4294967296 -> hexfold (hex v) 0 = v.
Proof.
  intros v Hv. unfold hex. rewrite hex_go_value; [reflexivity| |lia].
  change (16 ^ N.of_nat 16) with 18446744073709551616. lia.
Qed.

Lemma hex_digits : forall v, Forall isdig (hex v).
Proof. intros v. apply hex_go_digits. constructor. Qed.

Lemma hex_nonempty : forall v, hex v <> [].
Proof. intros v. apply hex_go_nonempty. Qed.

Lemma unesc_hex_digits : forall attr x l a rest, Forall isdig l ->
  unesc attr x (PHex a) (l ++ rest) = unesc attr x (PHex (hexfold l a)) rest.
Proof.
  intros attr x. induction l as [|c r IH]; intros a rest Hl; [reflexivity|].
  inversion Hl as [|c' r' [d [Hd Hc]] Hr]; subst.
  destruct (hexval_digit d Hd) as [Hv H59].
  cbn [app unesc step hexfold]. rewrite H59, Hv. rewrite IH by exact Hr.
  destruct (unesc attr x (PHex (hexfold r (a * 16 + d))) rest); reflexivity.
Qed.

Lemma utf16_enc_bmp : forall c, c < 0x10000 -> utf16_enc c = [c].
Proof. intros c H. unfold utf16_enc. destruct (N.ltb_spec c 0x10000); [reflexivity|lia]. Qed.

Lemma reads_charref : forall attr x v, v < 4294967296 -> ref_ok x v = true ->
  reads_as attr x (charref v) (utf16_enc v).
Proof.
  intros attr x v Hv Hok nb rest. exists 0%nat. unfold charref.
  pose proof (hex_digits v) as Hd. pose proof (hex_nonempty v) as Hn. pose proof (hex_value v Hv) as Hval.
  destruct (hex v) as [|c0 l]; [contradiction|]. clear Hn.
  inversion Hd as [|c' r' [d [Hdlt Hc]] Hr]; subst c' r'. subst c0.
  destruct (hexval_digit d Hdlt) as [Hvd H59].
  cbn [hexfold] in Hval. rewrite Hvd in Hval. change (0 * 16 + d) with d in Hval.
  (* "&#x", the first digit, the other digits, ";" *)
  rewrite <- !app_assoc. cbn [app unesc].
  change (step attr x (PText false nb) 38) with (Some (PAmp, @nil N)). cbv iota. cbn [unesc].
  change (step attr x PAmp 35) with (Some (PHash, @nil N)). cbv iota. cbn [unesc].
  change (step attr x PHash 120) with (Some (PHexStart, @nil N)). cbv iota. cbn [unesc step]. rewrite Hvd.
  rewrite unesc_hex_digits by exact Hr. rewrite Hval. cbn [unesc step]. rewrite N.eqb_refl, Hok. cbn [app].
  destruct (unesc attr x (PText false 0) rest); reflexivity.
Qed.

Lemma hi_lo_bounds : forall c d, hi_sur c = true -> lo_sur d = true ->
  0xD800 <= c <= 0xDBFF /\ 0xDC00 <= d <= 0xDFFF.
Proof. intros c d. unfold hi_sur, lo_sur. lia. Qed.

Lemma comb_spec : forall c d, hi_sur c = true -> lo_sur d = true ->
  comb c d = 0x10000 + (c - 0xD800) * 1024 + (d - 0xDC00).
Proof.
  intros c d Hc Hd. destruct (hi_lo_bounds c d Hc Hd). unfold comb. rewrite N.shiftl_mul_pow2.
  change (2 ^ 10) with 1024. lia.
Qed.

Lemma utf16_enc_pair : forall h l, l < 1024 -> utf16_enc (0x10000 + h * 1024 + l) = [0xD800 + h; 0xDC00 + l].
Proof.
  intros h l Hl. unfold utf16_enc. destruct (N.ltb_spec (0x10000 + h * 1024 + l) 0x10000); [lia|].
  replace (0x10000 + h * 1024 + l - 0x10000) with (l + h * 1024) by lia.
  rewrite N.div_add, N.mod_add, N.div_small, N.mod_small by (exact Hl || discriminate). reflexivity.
Qed.

Lemma comb_enc : forall c d, hi_sur c = true -> lo_sur d = true ->
  utf16_enc (comb c d) = [c; d] /\ ref_ok true (comb c d) = true /\ ref_ok false (comb c d) = true /\
  comb c d < 4294967296.
Proof.
  intros c d Hc Hd. rewrite comb_spec by assumption. destruct (hi_lo_bounds c d Hc Hd) as [H1 H2].
  split; [|unfold ref_ok; lia].
  rewrite utf16_enc_pair by lia. f_equal; [|f_equal]; lia.
Qed.

(** [is_high], [is_low] (the mask tests of the C++) on 16-bit units are the range tests: the mask 0xFC00
    keeps bits 10..15, so a unit below 2^16 is compared by its quotient by 1024 *)
Lemma land_shifted_ones : forall c k n,
  N.land c (N.shiftl (N.ones k) n) = N.shiftl (N.land (N.shiftr c n) (N.ones k)) n.
Proof.
  intros c k n. apply N.bits_inj. intros i. rewrite N.land_spec.
  destruct (N.lt_ge_cases i n) as [Hi|Hi].
  - rewrite !N.shiftl_spec_low by exact Hi. apply andb_false_r.
  - rewrite !N.shiftl_spec_high' by exact Hi. rewrite N.land_spec, N.shiftr_spec'.
    rewrite N.sub_add by exact Hi. reflexivity.
Qed.

Lemma land_FC00 : forall c, c < 65536 -> N.land c 0xFC00 = c / 1024 * 1024.
Proof.
  intros c Hc. change 0xFC00 with (N.shiftl (N.ones 6) 10).
  rewrite land_shifted_ones, N.land_ones, N.shiftl_mul_pow2, N.shiftr_div_pow2.
  change (2 ^ 10) with 1024. change (2 ^ 6) with 64. rewrite N.mod_small by lia. reflexivity.
Qed.

Lemma is_high_spec : forall c, c < 65536 -> is_high c = hi_sur c.
Proof. intros c Hc. unfold is_high, hi_sur. rewrite land_FC00 by exact Hc. lia. Qed.

Lemma is_low_spec : forall c, c < 65536 -> is_low c = lo_sur c.
Proof. intros c Hc. unfold is_low, lo_sur. rewrite land_FC00 by exact Hc. lia. Qed.

Lemma is_high_bmp : forall x c, bmp_char x c = true -> is_high c = false.
Proof.
  intros x c H. unfold bmp_char in H. rewrite is_high_spec by (destruct x; lia). unfold hi_sur. destruct x; lia.
Qed.

Lemma is_high_hi : forall c, hi_sur c = true -> is_high c = true.
Proof. intros c H. rewrite is_high_spec; [exact H|]. unfold hi_sur in H. lia. Qed.
