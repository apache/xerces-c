(** C12 tree-level lemmas, part e: the round trip by induction over the tree; documents (XML declaration). *)
From Coq Require Import ZArith ZifyBool ZifyN ZifyNat Lia.
From XV Require Import C05.Spec05 C05.Model05 C12.Spec12 C12.Model12 C12.SpecTree12
  C12.Proofs12a C12.Proofs12b C12.Proofs12c C12.Proofs12d C12.Proofs12f
  C12.ProofsTree12a C12.ProofsTree12b.
Local Open Scope N_scope.

Lemma expand_elem : forall cf n a k, expand cf (Elem n a k) = [Elem n a (merge_acc [] (expand_list cf k))].
Proof.
  intros cf n a k. cbn [expand]. do 3 f_equal. induction k as [|x r IH]; [reflexivity|]. cbn [expand_list]. rewrite <- IH. reflexivity.
Qed.
Lemma expressible_elem : forall cf n a k,
  expressible cf (Elem n a k) = name_ok n && forallb (fun a => name_ok (fst a)) a && expressible_list cf k.
Proof.
  intros cf n a k. cbn [expressible]. f_equal. induction k as [|x r IH]; [reflexivity|]. cbn [expressible_list]. rewrite <- IH. reflexivity.
Qed.
Lemma in_scope_elem : forall cf n a k,
  in_scope cf (Elem n a k) = forallb (fun a => u16b (snd a)) a && in_scope_list cf k.
Proof.
  intros cf n a k. cbn [in_scope]. f_equal. induction k as [|x r IH]; [reflexivity|]. cbn [in_scope_list]. rewrite <- IH. reflexivity.
Qed.
Lemma weight_elem : forall n a k, node_weight (Elem n a k) = (6 + length a + list_weight k)%nat.
Proof. intros n a k. reflexivity. Qed.

Lemma pieces_old_nonempty : forall s cur, cdata_pieces_old s cur <> [].
Proof.
  induction s as [|a r IH]; intros cur; cbn [cdata_pieces_old]; [discriminate|].
  destruct r as [|b [|c r2]]; try apply IH. destruct ((a =? 93) && (b =? 93) && (c =? 62)); [discriminate|apply IH].
Qed.

Lemma nce_of_single : forall s cur, (length (cdata_pieces_old s cur) <= 1)%nat -> no_cdata_end s = true.
Proof.
  induction s as [|a r IH]; intros cur H; [reflexivity|]. cbn [cdata_pieces_old] in H.
  destruct r as [|b [|c r2]]; try reflexivity. rewrite nce_cons3. unfold is_cdend.
  destruct ((a =? 93) && (b =? 93) && (c =? 62)); [|apply (IH (a :: cur) H)].
  cbn [length] in H. pose proof (pieces_old_nonempty r2 []) as Hne.
  destruct (cdata_pieces_old r2 []); [contradiction|cbn [length] in H; lia].
Qed.

Lemma no_eol_concat : forall x l, no_eol x (concat l) = true -> Forall (fun p => no_eol x p = true) l.
Proof. intros x l H. apply Forall_forall. intros p Hp. apply (forallb_concat _ l H p Hp). Qed.

Lemma cdata_items_shape : forall can x s, forallb can s = true -> no_eol x s = true ->
  exists l, cdata_items can s = map CSect l /\
            Forall (fun p => no_cdata_end p = true /\ no_eol x p = true) l /\ (length l <= S (length s))%nat.
Proof.
  intros can x s Hc He. destruct (cdata_items_sections can s Hc) as [l [E [Ec [HF Hlen]]]].
  exists l. split; [exact E|]. split; [|exact Hlen]. rewrite <- Ec in He. apply no_eol_concat in He.
  rewrite Forall_forall in *. intros p Hp. split; [apply HF|apply He]; exact Hp.
Qed.

Lemma sections_parse : forall x l T L rest w,
  Forall (fun p => no_cdata_end p = true /\ no_eol x p = true) l -> Parses x T L rest w ->
  Parses x (flat_map citem_out (map CSect l) ++ T) (map cd_node (map CSect l) ++ L) rest (w + 2 * length l).
Proof.
  intros x. induction l as [|p l IH]; intros T L rest w HF HP.
  - cbn [map flat_map app length]. rewrite Nat.mul_0_r, Nat.add_0_r. exact HP.
  - inversion HF as [|p' l' [Hn He] Hl]; subst. cbn [map flat_map cd_node citem_out app]. rewrite <- app_assoc.
    eapply parses_mono; [apply parses_node; [apply cdata_reads; eassumption|apply IH; eassumption]|cbn [length]; lia].
Qed.

(** the nodes [kids], written as [out], are read back as [expand_list cf kids], with pending text before and anything
    parsable after *)
Definition kids_parse_at (cf : scfg) (kids : list node) : Prop :=
  forall out, ser_kids cf kids = Ok out -> expressible_list cf kids = true -> in_scope_list cf kids = true ->
  forall T L rest w, Parses (c_xml11 cf) T L rest w ->
  Parses (c_xml11 cf) (out ++ T) (expand_list cf kids ++ L) rest (w + list_weight kids).

Lemma reads_node_mono : forall x M n k k', reads_node x M n k -> (k <= k')%nat -> reads_node x M n k'.
Proof. intros x M n k k' [H1 [H2 H3]] Hk. split; [exact H1|]. split; [exact H2|]. intros f T' Hf. apply H3. lia. Qed.

(** comments, processing instructions, and CDATA sections written whole *)
Lemma leaf_reads : forall cf k ok, ser_node cf k = Ok ok -> expressible cf k = true ->
  match k with Comment _ | PI _ _ => True | CData _ => c_split cf = false | _ => False end ->
  reads_node (c_xml11 cf) ok k 0.
Proof.
  intros cf k ok Ek Hek Hk. destruct k as [name attrs kids|s|s|s|t d]; try contradiction; cbn [ser_node expressible] in Ek, Hek.
  - rewrite Hk in Ek. destruct (valid_string false (c_xml11 cf) s); cbn [negb] in Ek; [|discriminate].
    destruct (Nat.ltb 1 (length (cdata_pieces_old s []))) eqn:El; [discriminate|]. apply Nat.ltb_ge in El.
    apply markup_ok in Ek. subst ok. apply cdata_reads; [apply (nce_of_single s []); exact El|exact Hek].
  - destruct (valid_string false (c_xml11 cf) s); cbn [negb] in Ek; [|discriminate].
    destruct (c_fixed cf && (occurs2 45 45 s || ends_with 45 s)); [discriminate|]. apply markup_ok in Ek. subst ok.
    apply andb_true_iff in Hek. destruct Hek as [H1 H2]. apply comment_reads; assumption.
  - destruct (valid_string false (c_xml11 cf) t && valid_string false (c_xml11 cf) d); cbn [negb] in Ek; [|discriminate].
    destruct (c_fixed cf && occurs2 63 62 d); [discriminate|]. apply markup_ok in Ek. subst ok.
    repeat (apply andb_true_iff in Hek; destruct Hek as [Hek ?]). apply pi_reads; try assumption.
    + destruct (list_eqb t xml_target); [discriminate|reflexivity].
    + destruct d as [|c0 d']; [exact I|]. destruct (is_ws c0); [discriminate|reflexivity].
Qed.

(** an element whose children are read back is read back, with its children in the form the scanner reports
    (+ 3: one unit of fuel for the end of the attribute list, two for the end of the children, [parses_base]) *)
Lemma elem_reads : forall cf, c_fixed cf = true -> can_uniform (c_can cf) -> forall name attrs kids ok,
  ser_node cf (Elem name attrs kids) = Ok ok -> expressible cf (Elem name attrs kids) = true ->
  in_scope cf (Elem name attrs kids) = true -> kids_parse_at cf kids ->
  reads_node (c_xml11 cf) ok (Elem name attrs (merge_acc [] (expand_list cf kids))) (length attrs + 3 + list_weight kids).
Proof.
  intros cf Hf Hu name attrs kids ok Ek Hek Hgk IHk.
  rewrite ser_node_elem in Ek. apply bind_ok in Ek. destruct Ek as [st [Est Ek]]. apply markup_ok in Est. subst st.
  apply bind_ok in Ek. destruct Ek as [ar [Ea Ek]].
  rewrite expressible_elem in Hek. apply andb_true_iff in Hek. destruct Hek as [Hek Hekk].
  apply andb_true_iff in Hek. destruct Hek as [Hname Hanames].
  rewrite in_scope_elem in Hgk. apply andb_true_iff in Hgk. destruct Hgk as [Hga Hgkk].
  pose proof (u16b_attrs attrs Hga) as H16.
  destruct kids as [|k1 ks].
  - injection Ek as <-. apply (reads_node_mono _ _ _ (length attrs + 1)); [|clear; cbn [list_weight]; lia].
    apply (elem_empty_reads cf Hf Hu); assumption.
  - apply bind_ok in Ek. destruct Ek as [body [Eb Ek]]. apply bind_ok in Ek. destruct Ek as [et [Eet Ek]].
    apply markup_ok in Eet. subst et. injection Ek as <-. set (kk := k1 :: ks) in *.
    apply (reads_node_mono _ _ _ (length attrs + 1 + (2 + list_weight kk))); [|clear; lia].
    apply (elem_kids_reads cf Hf Hu); try assumption.
    (* the children, up to the end tag *)
    intros T' f' Hf'.
    assert (Hbase : Parses (c_xml11 cf) (([60; 47] ++ name ++ [62]) ++ T') [] (([60; 47] ++ name ++ [62]) ++ T') 2).
    { apply parses_base. right. reflexivity. }
    pose proof (parses_nil _ _ _ _ _ f' (IHk body Eb Hekk Hgkk _ _ _ _ Hbase)) as E. rewrite app_nil_r in E. apply E. clear -Hf'. lia.
Qed.

(** one node, given that the children of an element are read back *)
Lemma node_parses : forall cf, c_fixed cf = true -> can_uniform (c_can cf) -> forall k ok,
  ser_node cf k = Ok ok -> expressible cf k = true -> in_scope cf k = true ->
  match k with Elem _ _ kids => kids_parse_at cf kids | _ => True end ->
  forall T L rest w, Parses (c_xml11 cf) T L rest w ->
  Parses (c_xml11 cf) (ok ++ T) (expand cf k ++ L) rest (w + node_weight k).
Proof.
  intros cf Hf Hu k ok Ek Hek Hgk IHk T L rest w HP.
  destruct k as [name attrs kids|s|s|s|t d].
  - rewrite expand_elem, weight_elem. cbn [app].
    eapply parses_mono; [apply parses_node; [apply (elem_reads cf Hf Hu); eassumption|exact HP]|lia].
  - destruct (ser_text_ok cf s ok Ek) as [Ev ->]. rewrite Hf in Ev. cbn [expand app node_weight in_scope] in *. rewrite Nat.add_0_r.
    rewrite data16_fixed by exact Hf. apply parses_text; [|exact HP].
    apply escof_text; [exact Hu|]. apply (valid_is_xml _ _ s Ev (u16b_units s Hgk)).
  - cbn [expand node_weight]. destruct (c_split cf) eqn:Esp.
    + cbn [ser_node expressible in_scope] in Ek, Hek, Hgk. rewrite Esp, Hf in Ek.
      destruct (valid_string false (c_xml11 cf) s); cbn [negb] in Ek; [|discriminate]. injection Ek as <-.
      destruct (cdata_items_shape (c_can cf) (c_xml11 cf) s Hgk Hek) as [l [El [HF Hlen]]]. rewrite El.
      apply (parses_mono _ _ _ rest (w + 2 * length l)); [|lia]. apply sections_parse; assumption.
    + cbn [app]. eapply parses_mono; [apply parses_node; [apply (leaf_reads cf _ ok Ek Hek Esp)|exact HP]|lia].
  - cbn [expand node_weight app]. eapply parses_mono; [apply parses_node; [apply (leaf_reads cf _ ok Ek Hek I)|exact HP]|lia].
  - cbn [expand node_weight app]. eapply parses_mono; [apply parses_node; [apply (leaf_reads cf _ ok Ek Hek I)|exact HP]|lia].
Qed.

Theorem kids_parse : forall cf, c_fixed cf = true -> can_uniform (c_can cf) -> forall kids, kids_parse_at cf kids.
Proof.
  intros cf Hf Hu kids. induction kids as [|k r IHk IHr] using kids_ind; intros out Hs He Hg T L rest w HP.
  - cbn in Hs. injection Hs as <-. cbn [app expand_list list_weight]. rewrite Nat.add_0_r. exact HP.
  - destruct (ser_kids_cons_ok cf k r out Hs) as [ok [orr [Ek [Er ->]]]].
    cbn [expressible_list in_scope_list] in He, Hg. apply andb_true_iff in He, Hg. destruct He as [Hek Her], Hg as [Hgk Hgr].
    cbn [expand_list list_weight]. rewrite <- !app_assoc, (Nat.add_comm (node_weight k)), Nat.add_assoc.
    apply (node_parses cf Hf Hu); try assumption. apply IHr; assumption.
Qed.


Lemma no2_none : forall a b l, none_is b l = true -> no2 a b l = true.
Proof.
  intros a b. induction l as [|c r IH]; intros H; [reflexivity|].
  rewrite none_is_cons in H. apply andb_true_iff in H. destruct H as [_ Hr].
  cbn [no2]. destruct r as [|d r']; [reflexivity|].
  pose proof Hr as Hr'. rewrite none_is_cons in Hr'. apply andb_true_iff in Hr'. destruct Hr' as [Hd _].
  rewrite (IH Hr). destruct (d =? b); [discriminate|]. rewrite andb_false_r. reflexivity.
Qed.

(** the declaration body between "<?xml " and "?>" *)
Definition decl_body (cf : scfg) : list N :=
  [118; 101; 114; 115; 105; 111; 110; 61; 34] ++ ver_string (c_xml11 cf) ++ [34; 32] ++
  [101; 110; 99; 111; 100; 105; 110; 103; 61; 34] ++ c_enc cf ++ [34; 32] ++
  [115; 116; 97; 110; 100; 97; 108; 111; 110; 101; 61; 34] ++ [110; 111] ++ [34; 32].

Lemma decl_shape : forall cf body, c_decl cf = true ->
  decl_of cf ++ body = 60 :: 63 :: [120; 109; 108] ++ 32 :: decl_body cf ++ 63 :: 62 :: body.
Proof.
  intros cf body H. unfold decl_of, decl_body. rewrite H.
  cbv [ser_gXMLDecl_VersionInfo ser_gXMLDecl_separator ser_gXMLDecl_EncodingDecl ser_gXMLDecl_SDDecl ser_gXMLDecl_endtag].
  repeat first [progress cbn [app] | rewrite <- app_assoc]. reflexivity.
Qed.

Lemma decl_body_no_gt : forall cf, none_is 62 (c_enc cf) = true -> none_is 62 (decl_body cf ++ [63]) = true.
Proof.
  intros cf H. unfold decl_body. rewrite !none_is_app, H.
  assert (Hv : none_is 62 (ver_string (c_xml11 cf)) = true) by (destruct (c_xml11 cf); reflexivity).
  rewrite Hv. reflexivity.
Qed.

Lemma decl_skipped : forall cf f body, c_decl cf = true -> none_is 62 (c_enc cf) = true ->
  parse_content (c_xml11 cf) (S f) (decl_of cf ++ body) = parse_content (c_xml11 cf) f body.
Proof.
  intros cf f body Hd He. rewrite (decl_shape cf body Hd). cbn [parse_content prefix_b skipn andb N.eqb Pos.eqb].
  rewrite (take_name_app [120; 109; 108] (32 :: decl_body cf ++ 63 :: 62 :: body) eq_refl eq_refl). cbv iota beta.
  assert (Es : skip_ws (32 :: decl_body cf ++ 63 :: 62 :: body) = decl_body cf ++ 63 :: 62 :: body) by reflexivity.
  rewrite Es. rewrite (scan2_app 63 62 (decl_body cf) body []) by (apply no2_none; apply decl_body_no_gt; exact He).
  reflexivity.
Qed.

