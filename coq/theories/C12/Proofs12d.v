(** C12 lemmas, part d: code points and their surrogate pairs; CDATA sections (splitting at "]]>", no section contains
    it, the specification parser reads the sections back). *)
From Coq Require Import ZArith ZifyBool ZifyN ZifyNat Lia.
From XV Require Import C05.Spec05 C05.Model05 C12.Spec12 C12.Model12 C12.Proofs12a C12.Proofs12b C12.Proofs12c.
Local Open Scope N_scope.

(** canTranscodeTo lifted to code points: a supplementary character is judged by its surrogates *)
Definition canp (can : N -> bool) (cp : N) : bool := if cp <? 0x10000 then can cp else can 0xD800.

Definition xml_cp (x : bool) (cp : N) : bool := ref_ok x cp.

Lemma utf16_enc_supp : forall cp, 0x10000 <= cp <= 0x10FFFF ->
  exists c d, utf16_enc cp = [c; d] /\ hi_sur c = true /\ lo_sur d = true /\ comb c d = cp.
Proof.
  intros cp H. unfold utf16_enc. destruct (N.ltb_spec cp 0x10000); [lia|].
  exists (0xD800 + (cp - 0x10000) / 1024), (0xDC00 + (cp - 0x10000) mod 1024).
  assert (Hq : (cp - 0x10000) / 1024 < 1024) by (apply N.div_lt_upper_bound; lia).
  assert (Hm : (cp - 0x10000) mod 1024 < 1024) by (apply N.mod_lt; lia).
  assert (Hh : hi_sur (0xD800 + (cp - 0x10000) / 1024) = true) by (unfold hi_sur; lia).
  assert (Hl : lo_sur (0xDC00 + (cp - 0x10000) mod 1024) = true) by (unfold lo_sur; lia).
  repeat split; try assumption.
  rewrite comb_spec by assumption.
  pose proof (N.div_mod (cp - 0x10000) 1024 ltac:(lia)) as E. lia.
Qed.

Lemma xml_cp_bmp : forall x cp, xml_cp x cp = true -> cp < 0x10000 -> bmp_char x cp = true.
Proof. intros x cp H Hlt. unfold xml_cp, ref_ok in H. unfold bmp_char. destruct x; lia. Qed.

(** * CDATA sections *)

Definition citem_text (it : citem) : list N :=
  match it with CSect l => l | CRef v => utf16_enc v end.

Lemma cdata_pieces_concat : forall s cur, concat (cdata_pieces s cur) = rev cur ++ s.
Proof.
  induction s as [|a r IHr IHr'] using list_ind_skip; intros cur; cbn [cdata_pieces].
  - cbn [concat]. rewrite !app_nil_r. reflexivity.
  - assert (Hstep : concat (cdata_pieces r (a :: cur)) = rev cur ++ a :: r).
    { rewrite IHr. cbn [rev]. rewrite <- app_assoc. reflexivity. }
    destruct r as [|b [|c r2]]; try exact Hstep.
    destruct ((a =? 93) && (b =? 93) && (c =? 62)); [|exact Hstep].
    cbn [concat]. rewrite (IHr' b (c :: r2) eq_refl). cbn [rev]. rewrite <- !app_assoc. reflexivity.
Qed.

Lemma cd_items_all_can : forall can p run, forallb can p = true -> cd_items can p run = csect (rev p ++ run).
Proof.
  intros can. induction p as [|c r IH]; intros run H; [reflexivity|].
  cbn [forallb] in H. apply andb_true_iff in H. destruct H as [Hc Hr].
  cbn [cd_items]. rewrite Hc, IH by exact Hr. cbn [rev]. rewrite <- app_assoc. reflexivity.
Qed.

Definition nonempty (p : list N) : bool := match p with [] => false | _ => true end.

Lemma cd_items_piece : forall can p, forallb can p = true -> cd_items can p [] = if nonempty p then [CSect p] else [].
Proof.
  intros can p H. rewrite cd_items_all_can by exact H. rewrite app_nil_r. destruct p as [|a p']; [reflexivity|].
  unfold csect. destruct (rev (a :: p')) as [|z t] eqn:E.
  - apply (f_equal (@length N)) in E. rewrite rev_length in E. discriminate.
  - rewrite <- E, rev_involutive. reflexivity.
Qed.

Lemma forallb_concat : forall (f : N -> bool) l, forallb f (concat l) = true -> forall p, In p l -> forallb f p = true.
Proof.
  intros f. induction l as [|q l IH]; intros H p Hin; [destruct Hin|].
  cbn [concat] in H. rewrite forallb_app in H. apply andb_true_iff in H. destruct H as [H1 H2].
  destruct Hin as [E|Hin]; [subst; exact H1|apply IH; assumption].
Qed.

Lemma items_are_pieces : forall can l, (forall p, In p l -> forallb can p = true) ->
  flat_map (fun p => cd_items can p []) l = map CSect (filter nonempty l).
Proof.
  intros can. induction l as [|p l IH]; intros H; [reflexivity|].
  cbn [flat_map filter]. rewrite IH by (intros q Hq; apply H; right; exact Hq).
  rewrite cd_items_piece by (apply H; left; reflexivity). destruct (nonempty p); reflexivity.
Qed.

Lemma concat_filter_nonempty : forall (l : list (list N)), concat (filter nonempty l) = concat l.
Proof.
  induction l as [|p l IH]; [reflexivity|]. cbn [filter concat]. destruct p; [exact IH|]. cbn [nonempty concat]. rewrite IH. reflexivity.
Qed.

Lemma nonempty_count : forall (l : list (list N)), (length (filter nonempty l) <= length (concat l))%nat.
Proof.
  induction l as [|p l IH]; [reflexivity|]. cbn [filter concat]. rewrite app_length.
  destruct p; cbn [nonempty length]; lia.
Qed.

Definition is_cdend (a b c : N) : bool := (a =? 93) && (b =? 93) && (c =? 62).

Lemma nce_cons3 : forall a b c r,
  no_cdata_end (a :: b :: c :: r) = negb (is_cdend a b c) && no_cdata_end (b :: c :: r).
Proof. reflexivity. Qed.

Lemma nce_short : forall l, (length l <= 2)%nat -> no_cdata_end l = true.
Proof.
  intros [|a [|b [|c r]]] H; try reflexivity. cbn [length] in H. lia.
Qed.

(** does [l ++ [x]] end in "]]>" *)
Definition ends2 (l : list N) (x : N) : bool :=
  match rev l with b :: a :: _ => is_cdend a b x | _ => false end.

Lemma ends2_cons : forall a L x, (2 <= length L)%nat -> ends2 (a :: L) x = ends2 L x.
Proof.
  intros a L x H. unfold ends2. cbn [rev]. pose proof (rev_length L) as E.
  destruct (rev L) as [|p [|q t]]; cbn [length] in E; try lia. reflexivity.
Qed.

Lemma nce_snoc : forall l x, no_cdata_end (l ++ [x]) = no_cdata_end l && negb (ends2 l x).
Proof.
  induction l as [|a l1 IH]; intros x; [reflexivity|].
  destruct l1 as [|b l2]; [reflexivity|].
  destruct l2 as [|c l3].
  - cbn [app]. rewrite nce_cons3. unfold ends2. cbn [rev app].
    rewrite (nce_short [b; x]) by (cbn [length]; lia). rewrite (nce_short [a; b]) by (cbn [length]; lia).
    rewrite andb_true_r. reflexivity.
  - change ((a :: b :: c :: l3) ++ [x]) with (a :: b :: c :: (l3 ++ [x])).
    rewrite !nce_cons3. change (b :: c :: l3 ++ [x]) with ((b :: c :: l3) ++ [x]). rewrite IH.
    rewrite (ends2_cons a (b :: c :: l3) x) by (cbn [length]; lia). rewrite andb_assoc. reflexivity.
Qed.

(** the piece under construction together with two units of look-ahead is free of "]]>" *)
Definition piece_safe (cur s : list N) : Prop := no_cdata_end (rev cur ++ firstn 2 s) = true.

Lemma piece_safe_step : forall a r cur, piece_safe cur (a :: r) ->
  (forall b c r2, r = b :: c :: r2 -> is_cdend a b c = false) -> piece_safe (a :: cur) r.
Proof.
  intros a r cur Hs Hm. unfold piece_safe in *. cbn [rev]. destruct r as [|b [|c r2]].
  - cbn [firstn app] in *. rewrite app_nil_r. exact Hs.
  - cbn [firstn] in *. rewrite <- app_assoc. exact Hs.
  - cbn [firstn] in *. rewrite <- app_assoc. cbn [app].
    change (rev cur ++ [a; b; c]) with (rev cur ++ [a; b] ++ [c]). rewrite app_assoc, nce_snoc, Hs.
    unfold ends2. rewrite rev_app_distr. cbn [rev app]. rewrite (Hm b c r2 eq_refl). reflexivity.
Qed.

Lemma pieces_safe : forall s cur, piece_safe cur s -> Forall (fun p => no_cdata_end p = true) (cdata_pieces s cur).
Proof.
  induction s as [|a r IHr IHr'] using list_ind_skip; intros cur Hs; cbn [cdata_pieces].
  - constructor; [|constructor]. unfold piece_safe in Hs. cbn [firstn] in Hs. rewrite app_nil_r in Hs. exact Hs.
  - assert (Hstep : (forall b c r2, r = b :: c :: r2 -> is_cdend a b c = false) ->
                    Forall (fun p => no_cdata_end p = true) (cdata_pieces r (a :: cur))).
    { intros Hm. apply IHr, piece_safe_step; assumption. }
    destruct r as [|b [|c r2]]; try (apply Hstep; intros; discriminate).
    fold (is_cdend a b c). destruct (is_cdend a b c) eqn:E.
    + constructor.
      * unfold piece_safe in Hs. cbn [firstn] in Hs. cbn [rev]. rewrite <- app_assoc. exact Hs.
      * apply (IHr' b (c :: r2) eq_refl). unfold piece_safe. cbn [rev app]. apply nce_short. rewrite firstn_length. lia.
    + apply Hstep. intros b' c' r2' [= <- <- _]. exact E.
Qed.

Lemma pieces_no_end : forall s, Forall (fun p => no_cdata_end p = true) (cdata_pieces s []).
Proof. intros s. apply pieces_safe. unfold piece_safe. cbn [rev app]. apply nce_short. rewrite firstn_length. lia. Qed.

(** the sections written for a CDATASection node whose data is representable: they hold the data, none contains "]]>",
    and there are at most |data|+1 of them (the fuel the specification parser needs) *)
Lemma cdata_items_sections : forall can s, forallb can s = true ->
  exists l, cdata_items can s = map CSect l /\ concat l = s /\
            Forall (fun p => no_cdata_end p = true) l /\ (length l <= S (length s))%nat.
Proof.
  intros can s H. unfold cdata_items. destruct s as [|a r].
  - exists [[]]. split; [reflexivity|]. split; [reflexivity|]. split; [repeat constructor|cbn [length]; lia].
  - set (s := a :: r) in *. exists (filter nonempty (cdata_pieces s [])).
    pose proof (cdata_pieces_concat s []) as Ec. cbn [rev app] in Ec.
    split; [|split; [|split]].
    + apply items_are_pieces. intros p Hp. apply (forallb_concat can (cdata_pieces s [])); [rewrite Ec; exact H|exact Hp].
    + rewrite concat_filter_nonempty. exact Ec.
    + apply Forall_forall. intros p Hp. apply filter_In in Hp.
      pose proof (pieces_no_end s) as HF. rewrite Forall_forall in HF. apply HF, Hp.
    + pose proof (nonempty_count (cdata_pieces s [])) as Hn. rewrite Ec in Hn. lia.
Qed.

Lemma nce_app_brackets : forall p, no_cdata_end p = true -> no_cdata_end (p ++ [93; 93]) = true.
Proof.
  intros p H. change (p ++ [93; 93]) with (p ++ [93] ++ [93]). rewrite app_assoc, !nce_snoc, H.
  assert (F : forall l, ends2 l 93 = false).
  { intros l. unfold ends2. destruct (rev l) as [|b [|a t]]; try reflexivity.
    unfold is_cdend. rewrite andb_false_r. reflexivity. }
  rewrite !F. reflexivity.
Qed.

Lemma scan_cdata_cons3 : forall a b c r acc,
  scan_cdata (a :: b :: c :: r) acc = if is_cdend a b c then Some (rev acc, r) else scan_cdata (b :: c :: r) (a :: acc).
Proof. reflexivity. Qed.

Lemma scan_cdata_piece : forall p acc rest, no_cdata_end (p ++ [93; 93]) = true ->
  scan_cdata (p ++ 93 :: 93 :: 62 :: rest) acc = Some (rev acc ++ p, rest).
Proof.
  induction p as [|a p IH]; intros acc rest H.
  - cbn [app scan_cdata]. rewrite app_nil_r. reflexivity.
  - (* the scanner looks at [a] and the first two units of [p ++ "]]"] *)
    replace ((a :: p) ++ 93 :: 93 :: 62 :: rest) with (a :: (p ++ [93; 93]) ++ 62 :: rest)
      by (cbn [app]; rewrite <- app_assoc; reflexivity).
    change ((a :: p) ++ [93; 93]) with (a :: (p ++ [93; 93])) in H.
    destruct (p ++ [93; 93]) as [|b [|c q]] eqn:E;
      try (apply (f_equal (@length N)) in E; rewrite app_length in E; cbn [length] in E; lia).
    rewrite nce_cons3 in H. apply andb_true_iff in H. destruct H as [H1 H2].
    cbn [app]. rewrite scan_cdata_cons3. destruct (is_cdend a b c); [discriminate|].
    change (b :: c :: q ++ 62 :: rest) with ((b :: c :: q) ++ 62 :: rest). rewrite <- E, <- app_assoc. cbn [app].
    rewrite IH by exact H2. cbn [rev]. rewrite <- app_assoc. reflexivity.
Qed.

Lemma parse_one_section : forall f p rest, no_cdata_end p = true ->
  parse_sections (S f) (citem_out (CSect p) ++ rest) =
  match parse_sections f rest with Some u => Some (p ++ u) | None => None end.
Proof.
  intros f p rest Hp. unfold citem_out.
  change ser_gStartCDATA with [60; 33; 91; 67; 68; 65; 84; 65; 91]. change ser_gEndCDATA with [93; 93; 62].
  rewrite <- !app_assoc. cbn [app]. cbn [parse_sections firstn skipn list_eqb]. rewrite !N.eqb_refl. cbn [andb].
  rewrite scan_cdata_piece by (apply nce_app_brackets; exact Hp). cbn [rev app]. reflexivity.
Qed.

Lemma parse_sections_pieces : forall l fuel, (length l <= fuel)%nat ->
  Forall (fun p => no_cdata_end p = true) l ->
  parse_sections fuel (flat_map citem_out (map CSect l)) = Some (concat l).
Proof.
  induction l as [|p l IH]; intros fuel Hf HF.
  - destruct fuel; reflexivity.
  - inversion HF as [|p' l' Hp Hl]; subst. destruct fuel as [|f]; [cbn [length] in Hf; lia|].
    cbn [map flat_map]. rewrite parse_one_section by exact Hp.
    rewrite IH; [reflexivity|cbn [length] in Hf; lia|exact Hl].
Qed.
