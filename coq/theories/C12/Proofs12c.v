(** C12 lemmas, part c: escaping followed by the specification parser is the identity
    (text with CharEscapes, attribute values with AttrEscapes; XML 1.0 and 1.1; any canTranscodeTo that keeps the
    two halves of a surrogate pair together, [can_uniform]); windows-1252 writes no surrogate. *)
From Coq Require Import ZArith ZifyBool ZifyN ZifyNat Lia.
From XV Require Import C05.Spec05 C05.Model05 C05.Proofs05e C12.Spec12 C12.Model12 C12.Proofs12a C12.Proofs12b.
Local Open Scope N_scope.

(** obligations over the generated rows: which characters each mode protects *)
Lemma char_row_eq : zprefix (esc_row CharEscapes) = [38; 60; 62; 13].
Proof. vm_compute. reflexivity. Qed.
Lemma attr_row_eq : zprefix (esc_row AttrEscapes) = [38; 60; 34; 10; 13; 9].
Proof. vm_compute. reflexivity. Qed.

(** the named references of the switch *)
Lemma esc_ref_named :
  esc_ref 38 = [38; 97; 109; 112; 59] /\ esc_ref 60 = [38; 108; 116; 59] /\ esc_ref 62 = [38; 103; 116; 59] /\
  esc_ref 34 = [38; 113; 117; 111; 116; 59] /\ esc_ref 39 = [38; 97; 112; 111; 115; 59].
Proof. vm_compute. repeat split. Qed.

Definition named_refs : list N := [38; 60; 62; 34; 39].

Lemma esc_ref_other : forall c, ~ In c named_refs -> esc_ref c = charref c.
Proof.
  intros c H. unfold esc_ref.
  change esc_switch with [(38, gAmpRef); (39, gAposRef); (34, gQuoteRef); (62, gGTRef); (60, gLTRef)].
  assert (Hk : forall k, In k named_refs -> (k =? c) = false) by (intros k Hk; apply N.eqb_neq; intros ->; exact (H Hk)).
  cbn [find fst snd]. rewrite !Hk by (cbn [named_refs In]; tauto). reflexivity.
Qed.

(* one parser step on a concrete state and unit, evaluated *)
Ltac stepk :=
  cbn [unesc app];
  match goal with
  | |- context [step ?a ?x ?st ?c] =>
    let r := eval vm_compute in (step a x st c) in change (step a x st c) with r
  end; cbv beta iota.

Lemma reads_named : forall attr x c, In c named_refs -> reads_as attr x (esc_ref c) [c].
Proof.
  intros attr x c Hc nb rest. exists 0%nat. destruct esc_ref_named as [E1 [E2 [E3 [E4 E5]]]].
  destruct Hc as [<-|[<-|[<-|[<-|[<-|[]]]]]]; [rewrite E1|rewrite E2|rewrite E3|rewrite E4|rewrite E5];
    repeat stepk; destruct (unesc attr x (PText false 0) rest); reflexivity.
Qed.

Lemma ref_ok_bmp : forall x c, bmp_char x c = true -> ref_ok x c = true /\ c < 65536.
Proof. intros x c. unfold bmp_char, ref_ok. destruct x; lia. Qed.

Lemma reads_escaped : forall attr x c, bmp_char x c = true -> reads_as attr x (esc_ref c) [c].
Proof.
  intros attr x c Hb.
  destruct (in_dec N.eq_dec c named_refs) as [Hin|Hout]; [apply reads_named; exact Hin|].
  rewrite esc_ref_other by exact Hout. destruct (ref_ok_bmp x c Hb) as [Hok Hlt].
  rewrite <- (utf16_enc_bmp c Hlt). apply reads_charref; [lia|exact Hok].
Qed.

(** units that may be part of a string of XML characters *)
Definition lit_unit (x : bool) (c : N) : bool := bmp_char x c || hi_sur c || lo_sur c.

(** the parser copies a unit that is none of its special cases: the hypotheses are the tests of [step] in order *)
Lemma step_literal : forall attr x nb c,
  c <> 38 -> c <> 60 -> c <> 13 -> (attr = true -> c <> 34 /\ c <> 10 /\ c <> 9) -> (attr = false -> c <> 62) ->
  (x = true -> c <> 0x85 /\ c <> 0x2028) -> c = 9 \/ c = 10 \/ lit_ok x c = true ->
  exists nb', step attr x (PText false nb) c = Some (PText false nb', [c]).
Proof.
  intros attr x nb c H38 H60 H13 Ha Hm Hx Hl. unfold step. cbv zeta iota.
  apply N.eqb_neq in H38, H60, H13. rewrite H38, H60, H13.
  assert (E85 : (x && (c =? 0x85)) = false) by (destruct x; [apply N.eqb_neq, Hx; reflexivity|reflexivity]).
  assert (E2028 : (x && (c =? 0x2028)) = false) by (destruct x; [apply N.eqb_neq, Hx; reflexivity|reflexivity]).
  rewrite E85, E2028. destruct attr.
  - destruct (Ha eq_refl) as [H34 [H10 H9]]. destruct Hl as [E|[E|Hl]]; [contradiction|contradiction|].
    apply N.eqb_neq in H34, H10, H9. rewrite H34, H10, H9, Hl. eexists. reflexivity.
  - specialize (Hm eq_refl). apply N.eqb_neq in Hm. rewrite Hm. cbn [negb andb].
    destruct Hl as [->|[->|Hl]]; [eexists; reflexivity|eexists; reflexivity|].
    assert (H10 : (c =? 10) = false) by (unfold lit_ok in Hl; lia).
    assert (H9 : (c =? 9) = false) by (unfold lit_ok in Hl; lia).
    rewrite H10, H9, Hl. eexists. reflexivity.
Qed.

Definition mode_pair (attr : bool) (m : emode) : Prop :=
  (attr = false /\ m = CharEscapes) \/ (attr = true /\ m = AttrEscapes).

Lemma not_escaped : forall x m c, in_escape_list x m c = false ->
  ~ In c (zprefix (esc_row m)) /\ (x = true -> ~ restricted11 c /\ c <> 0x85 /\ c <> 0x2028).
Proof.
  intros x m c He.
  assert (Hn : ~ (In c (zprefix (esc_row m)) \/ (x = true /\ (restricted11 c \/ c = 0x85 \/ c = 0x2028)))).
  { rewrite <- in_escape_list_spec, He. discriminate. }
  tauto.
Qed.

Lemma reads_literal : forall attr m x c, mode_pair attr m -> lit_unit x c = true -> in_escape_list x m c = false ->
  reads_as attr x [c] [c].
Proof.
  intros attr m x c Hm Hl He. apply reads_unit. intros nb. destruct (not_escaped x m c He) as [Hrow Hx].
  (* apart from TAB, LF, CR, a unit of an XML string that is no restricted character may stand literally *)
  assert (Hl' : c = 13 \/ c = 9 \/ c = 10 \/ lit_ok x c = true).
  { unfold lit_unit, bmp_char, hi_sur, lo_sur in Hl. unfold lit_ok. unfold restricted11 in Hx.
    destruct x; [specialize (Hx eq_refl)|clear Hx]; lia. }
  clear Hl He.
  destruct Hm as [[-> ->]|[-> ->]]; [rewrite char_row_eq in Hrow|rewrite attr_row_eq in Hrow]; cbn [In] in Hrow;
    (apply step_literal; [lia|lia|lia|intros [=]; lia|intros [=]; lia|intros E; destruct (Hx E); tauto|
                          destruct Hl' as [E|Hl']; [exfalso; lia|exact Hl']]).
Qed.

Lemma surrogate_not_escaped : forall attr m x c, mode_pair attr m -> (hi_sur c || lo_sur c) = true ->
  in_escape_list x m c = false.
Proof.
  intros attr m x c Hm Hs. destruct (in_escape_list x m c) eqn:E; [|reflexivity].
  apply in_escape_list_spec in E. unfold hi_sur, lo_sur in Hs. unfold restricted11 in E.
  destruct Hm as [[_ ->]|[_ ->]]; [rewrite char_row_eq in E|rewrite attr_row_eq in E]; cbn [In] in E; lia.
Qed.

Lemma reads_esc1 : forall attr m x c, mode_pair attr m -> lit_unit x c = true -> reads_as attr x (esc1 x m c) [c].
Proof.
  intros attr m x c Hm Hl.
  assert (E1 : esc1 x m c = if in_escape_list x m c then esc_ref c else [c]) by (destruct Hm as [[_ ->]|[_ ->]]; reflexivity).
  rewrite E1. destruct (in_escape_list x m c) eqn:E.
  - apply reads_escaped. unfold lit_unit in Hl. destruct (bmp_char x c); [reflexivity|]. cbn [orb] in Hl.
    rewrite (surrogate_not_escaped attr m x c Hm Hl) in E. discriminate.
  - apply (reads_literal attr m); assumption.
Qed.

(** canTranscodeTo does not separate the two halves of a pair *)
Definition can_uniform (can : N -> bool) : Prop :=
  forall c d, hi_sur c = true -> lo_sur d = true -> can c = can d.

Lemma xml_string_ind : forall x (P : list N -> Prop), P [] ->
  (forall c r, bmp_char x c = true -> P r -> P (c :: r)) ->
  (forall c d r, hi_sur c = true -> lo_sur d = true -> P r -> P (c :: d :: r)) ->
  forall s, xml_string x s = true -> P s.
Proof.
  intros x P H0 Hb Hp. apply (pair_scan_ind (bmp_char x) hi_sur lo_sur (xml_string x)); [reflexivity|exact H0|exact Hb|].
  intros c d r _. apply Hp.
Qed.

Lemma special16_bmp : forall inl can x m c r, bmp_char x c = true ->
  special16 inl can x m (c :: r) = (if can c then esc1_gen inl x m c else charref c) ++ special16 inl can x m r.
Proof. intros inl can x m c r Hb. cbn [special16]. rewrite (is_high_bmp x c Hb). destruct (can c); reflexivity. Qed.

Lemma special16_pair : forall inl can x m c d r, can_uniform can -> hi_sur c = true -> lo_sur d = true ->
  special16 inl can x m (c :: d :: r) =
  (if can c then esc1_gen inl x m c ++ esc1_gen inl x m d else charref (comb c d)) ++ special16 inl can x m r.
Proof.
  intros inl can x m c d r Hu Hc Hd. cbn [special16]. rewrite <- (Hu c d Hc Hd), (is_high_hi c Hc).
  destruct (can c); [rewrite <- app_assoc|]; reflexivity.
Qed.

Lemma special16_reads : forall attr m x can, mode_pair attr m -> can_uniform can ->
  forall s, xml_string x s = true -> reads_as attr x (special16 in_escape_list can x m s) s.
Proof.
  intros attr m x can Hm Hu. apply xml_string_ind.
  - apply reads_nil.
  - intros c r Hb IH. rewrite special16_bmp by exact Hb. apply (reads_app _ _ _ [c]); [|exact IH].
    destruct (can c).
    + apply (reads_esc1 attr m); [exact Hm|]. unfold lit_unit. rewrite Hb. reflexivity.
    + destruct (ref_ok_bmp x c Hb) as [Hok Hlt]. rewrite <- (utf16_enc_bmp c Hlt). apply reads_charref; [lia|exact Hok].
  - intros c d r Hc Hd IH. rewrite special16_pair by assumption. apply (reads_app _ _ _ [c; d]); [|exact IH].
    destruct (can c).
    + apply (reads_app _ _ _ [c] _ [d]); apply (reads_esc1 attr m); try exact Hm; unfold lit_unit.
      * rewrite Hc. destruct (bmp_char x c); reflexivity.
      * rewrite Hd. apply orb_true_r.
    + destruct (comb_enc c d Hc Hd) as [Henc [Hok1 [Hok0 Hlt]]]. rewrite <- Henc.
      apply reads_charref; [exact Hlt|]. destruct x; assumption.
Qed.

Lemma format16_reads : forall attr m x can s, mode_pair attr m -> can_uniform can -> xml_string x s = true ->
  reads_as attr x (format16 can x m UnRep_CharRef s) s.
Proof. intros attr m x can s Hm Hu Hs. rewrite format16_charref. apply (special16_reads attr m); assumption. Qed.

(** windows-1252 writes no surrogate unit: the table search only finds keys of the table, and those end at U+2122 *)
Lemma win1252_keys : forallb (fun p => fst p <=? 0x2122) win1252_to = true.
Proof. vm_compute. reflexivity. Qed.

Lemma win1252_no_surrogate : forall u, 0xD800 <= u -> tab_can win1252_to win1252_tosz u = false.
Proof.
  intros u Hu. destruct (tab_can win1252_to win1252_tosz u) eqn:E; [|reflexivity].
  destruct (tab_can_in _ _ _ E) as [_ [_ Hin]].
  pose proof win1252_keys as K. rewrite forallb_forall in K. specialize (K _ Hin). cbn [fst] in K. lia.
Qed.

