(** C12 tree-level lemmas, part h: writing the tree that was read back gives the same document (idempotence). *)
From Coq Require Import ZArith ZifyBool ZifyN ZifyNat Lia.
From XV Require Import C05.Spec05 C05.Model05 C12.Spec12 C12.Model12 C12.SpecTree12
  C12.Proofs12a C12.Proofs12b C12.Proofs12c C12.Proofs12d C12.Proofs12f
  C12.ProofsTree12a C12.ProofsTree12b C12.ProofsTree12e.
Local Open Scope N_scope.

Lemma special16_app : forall inl can x m, can_uniform can -> forall b a, xml_string x a = true ->
  special16 inl can x m (a ++ b) = special16 inl can x m a ++ special16 inl can x m b.
Proof.
  intros inl can x m Hu b. apply xml_string_ind.
  - reflexivity.
  - intros c r Hb IH. cbn [app]. rewrite !special16_bmp by exact Hb. rewrite IH. apply app_assoc.
  - intros c d r Hc Hd IH. cbn [app]. rewrite !special16_pair by assumption. rewrite IH. apply app_assoc.
Qed.

Lemma valid_app : forall refs x b a, valid_string refs x a = true ->
  valid_string refs x (a ++ b) = valid_string refs x b.
Proof.
  intros refs x b. apply valid_string_ind.
  - reflexivity.
  - intros c r Ec IH. cbn [app valid_string]. rewrite Ec. exact IH.
  - intros c d r Ec Eh El IH. cbn [app valid_string]. rewrite Ec, Eh, El. exact IH.
Qed.

Lemma data16_app : forall cf a b, c_fixed cf = true -> can_uniform (c_can cf) -> u16b a = true ->
  valid_string true (c_xml11 cf) a = true ->
  data16 cf CharEscapes (a ++ b) = data16 cf CharEscapes a ++ data16 cf CharEscapes b.
Proof.
  intros cf a b Hf Hu H16 Hv. rewrite !data16_fixed by exact Hf. rewrite !format16_charref.
  apply (special16_app _ _ _ _ Hu). apply (valid_is_xml _ _ a Hv (u16b_units a H16)).
Qed.

Lemma ser_kids_app : forall cf l1 l2 o1 o2, ser_kids cf l1 = Ok o1 -> ser_kids cf l2 = Ok o2 ->
  ser_kids cf (l1 ++ l2) = Ok (o1 ++ o2).
Proof.
  intros cf. induction l1 as [|k r IH]; intros l2 o1 o2 H1 H2.
  - cbn in H1. injection H1 as H1. subst o1. exact H2.
  - rewrite ser_kids_cons in H1. cbn [app]. rewrite ser_kids_cons.
    destruct (ser_node cf k) as [ok|]; cbn [bind] in *; [|discriminate].
    destruct (ser_kids cf r) as [orr|] eqn:Er; cbn [bind] in H1; [|discriminate]. injection H1 as H1. subst o1.
    rewrite (IH l2 orr o2 eq_refl H2). cbn [bind]. rewrite app_assoc. reflexivity.
Qed.

Lemma ser_flush : forall cf acc, c_fixed cf = true -> valid_string true (c_xml11 cf) acc = true ->
  ser_kids cf (flushT acc) = Ok (data16 cf CharEscapes acc).
Proof.
  intros cf acc Hf Hv. destruct acc as [|c r]; [reflexivity|].
  unfold flushT. rewrite ser_kids_cons. cbn [ser_node]. rewrite Hf, Hv. cbn [negb bind ser_kids]. rewrite app_nil_r. reflexivity.
Qed.

(** trees for which reading back changes nothing but the division of text: no empty Text node, no CDATA section
    that has to be split *)
Fixpoint plain (n : node) : bool :=
  match n with
  | Text s => match s with [] => false | _ => true end
  | CData s => no_cdata_end s
  | Elem _ _ kids => (fix go (l : list node) : bool := match l with [] => true | k :: r => plain k && go r end) kids
  | _ => true
  end.
Fixpoint plain_list (l : list node) : bool := match l with [] => true | k :: r => plain k && plain_list r end.

Lemma plain_elem : forall n a k, plain (Elem n a k) = plain_list k.
Proof. intros n a k. cbn [plain]. induction k as [|x r IH]; [reflexivity|]. cbn [plain_list]. rewrite <- IH. reflexivity. Qed.

Lemma nce_tail : forall z t, no_cdata_end (z :: t) = true -> no_cdata_end t = true.
Proof.
  intros z t H. destruct t as [|y [|y2 t']]; [reflexivity|reflexivity|].
  rewrite nce_cons3 in H. apply andb_true_iff in H. tauto.
Qed.

Lemma nce_suffix : forall l s, no_cdata_end (l ++ s) = true -> no_cdata_end s = true.
Proof. induction l as [|z l IH]; intros s H; [exact H|]. apply IH. apply (nce_tail z). exact H. Qed.

Lemma pieces_single : forall s cur, no_cdata_end (rev cur ++ s) = true -> cdata_pieces s cur = [rev cur ++ s].
Proof.
  induction s as [|a r IH]; intros cur H.
  - cbn [cdata_pieces]. rewrite app_nil_r. reflexivity.
  - assert (Hstep : cdata_pieces r (a :: cur) = [rev cur ++ a :: r]).
    { rewrite IH; cbn [rev]; rewrite <- app_assoc; [reflexivity|exact H]. }
    cbn [cdata_pieces]. destruct r as [|b [|c r2]]; try exact Hstep.
    destruct ((a =? 93) && (b =? 93) && (c =? 62)) eqn:E; [|exact Hstep].
    (* "]]>" would occur in rev cur ++ a :: b :: c :: r2 *)
    pose proof (nce_suffix (rev cur) (a :: b :: c :: r2) H) as Hs.
    rewrite nce_cons3 in Hs. unfold is_cdend in Hs. rewrite E in Hs. discriminate.
Qed.

Lemma expand_cdata_plain : forall cf s, forallb (c_can cf) s = true -> no_cdata_end s = true ->
  expand cf (CData s) = [CData s].
Proof.
  intros cf s Hc Hn. cbn [expand]. destruct (c_split cf); [|reflexivity].
  unfold cdata_items. destruct s as [|a r]; [reflexivity|].
  rewrite (pieces_single (a :: r) [] Hn). cbn [rev app flat_map]. rewrite app_nil_r.
  rewrite cd_items_piece by exact Hc. reflexivity.
Qed.

Lemma merge_nonempty : forall L acc, (acc <> [] \/ L <> []) -> ~ In (Text []) L -> merge_acc acc L <> [].
Proof.
  induction L as [|k r IH]; intros acc H Ht.
  - cbn [merge_acc]. destruct H as [H|H]; [|contradiction]. destruct acc; [contradiction|discriminate].
  - destruct k as [n a kk|s|s|s|t d]; cbn [merge_acc]; try (destruct (flushT acc); discriminate).
    apply IH; [left|intros Ha; apply Ht; right; exact Ha].
    destruct s; [exfalso; apply Ht; left; reflexivity|]. destruct acc; discriminate.
Qed.

(** a plain node in scope is read back as one node, and not as an empty Text *)
Lemma expand_one : forall cf k, in_scope cf k = true -> plain k = true -> exists n, expand cf k = [n] /\ n <> Text [].
Proof.
  intros cf k Hg Hp. destruct k as [name attrs kids|s|s|s|t d].
  - rewrite expand_elem. eexists. split; [reflexivity|discriminate].
  - exists (Text s). split; [reflexivity|]. destruct s; discriminate.
  - cbn [in_scope plain] in *. rewrite (expand_cdata_plain cf s Hg Hp). eexists. split; [reflexivity|discriminate].
  - eexists. split; [reflexivity|discriminate].
  - eexists. split; [reflexivity|discriminate].
Qed.

Lemma expand_list_plain : forall cf kids, in_scope_list cf kids = true -> plain_list kids = true ->
  ~ In (Text []) (expand_list cf kids) /\ (kids <> [] -> expand_list cf kids <> []).
Proof.
  intros cf. induction kids as [|k r IH]; intros Hg Hp; [split; [intros []|intros H; contradiction]|].
  cbn [in_scope_list plain_list] in *. apply andb_true_iff in Hg, Hp. destruct Hg as [Hgk Hgr], Hp as [Hpk Hpr].
  destruct (expand_one cf k Hgk Hpk) as [n [E Hn]]. cbn [expand_list]. rewrite E. cbn [app]. split; [|discriminate].
  intros [H|H]; [exact (Hn H)|exact (proj1 (IH Hgr Hpr) H)].
Qed.

(** the nodes [kids], written as [out], are written as [out] again after having been read back; pending text [acc]
    joins a leading Text node *)
Definition reserialise_at (cf : scfg) (kids : list node) : Prop :=
  forall out, ser_kids cf kids = Ok out -> in_scope_list cf kids = true -> plain_list kids = true ->
  forall acc, u16b acc = true -> valid_string true (c_xml11 cf) acc = true ->
  ser_kids cf (merge_acc acc (expand_list cf kids)) = Ok (data16 cf CharEscapes acc ++ out).

(** a node other than Text is read back as one such node, which is written in the same way *)
Lemma node_reserialise : forall cf k ok, ser_node cf k = Ok ok -> in_scope cf k = true -> plain k = true ->
  match k with Elem _ _ kids => reserialise_at cf kids | _ => True end -> (forall a, k <> Text a) ->
  exists n, expand cf k = [n] /\ (forall a, n <> Text a) /\ ser_node cf n = Ok ok.
Proof.
  intros cf k ok Ek Hgk Hpk IHk Hnt. destruct k as [name attrs kids|s|s|s|t d].
  - (* element: its children are written again as they were, and are not all gone *)
    rewrite in_scope_elem in Hgk. apply andb_true_iff in Hgk. destruct Hgk as [Hga Hgkk].
    rewrite plain_elem in Hpk. rewrite expand_elem. eexists. split; [reflexivity|]. split; [discriminate|].
    rewrite ser_node_elem in Ek |- *.
    destruct (markup cf (60 :: name)) as [st|]; cbn [bind] in Ek |- *; [|discriminate].
    destruct (ser_attrs cf attrs) as [ar|]; cbn [bind] in Ek |- *; [|discriminate].
    destruct kids as [|k1 ks]; [exact Ek|].
    destruct (ser_kids cf (k1 :: ks)) as [body|] eqn:Eb; cbn [bind] in Ek; [|discriminate].
    pose proof (IHk body Eb Hgkk Hpk [] eq_refl eq_refl) as E1. cbn [app] in E1.
    destruct (expand_list_plain cf (k1 :: ks) Hgkk Hpk) as [E2 E3].
    pose proof (merge_nonempty (expand_list cf (k1 :: ks)) [] (or_intror (E3 ltac:(discriminate))) E2) as Hne.
    destruct (merge_acc [] (expand_list cf (k1 :: ks))) as [|m1 ms]; [contradiction|].
    rewrite E1. exact Ek.
  - destruct (Hnt s eq_refl).
  - cbn [in_scope plain] in *. rewrite (expand_cdata_plain cf s Hgk Hpk). eexists. split; [reflexivity|]. split; [discriminate|exact Ek].
  - eexists. split; [reflexivity|]. split; [discriminate|exact Ek].
  - eexists. split; [reflexivity|]. split; [discriminate|exact Ek].
Qed.

Theorem reserialise : forall cf, c_fixed cf = true -> can_uniform (c_can cf) -> forall kids, reserialise_at cf kids.
Proof.
  intros cf Hf Hu kids. induction kids as [|k r IHk IHr] using kids_ind; intros out Hs Hg Hp acc Ha16 Hav.
  - cbn in Hs. injection Hs as <-. cbn [expand_list merge_acc]. rewrite app_nil_r. apply ser_flush; assumption.
  - destruct (ser_kids_cons_ok cf k r out Hs) as [ok [orr [Ek [Er ->]]]].
    cbn [in_scope_list plain_list] in Hg, Hp. apply andb_true_iff in Hg, Hp. destruct Hg as [Hgk Hgr], Hp as [Hpk Hpr].
    cbn [expand_list].
    assert (Hk : (exists s, k = Text s) \/ (forall a, k <> Text a)).
    { destruct k; [right; discriminate|left; eexists; reflexivity|right; discriminate|right; discriminate|right; discriminate]. }
    destruct Hk as [[s ->]|Hnt].
    + (* Text: it joins the pending text *)
      destruct (ser_text_ok cf s ok Ek) as [Ev ->]. rewrite Hf in Ev. cbn [in_scope] in Hgk. cbn [expand app merge_acc].
      assert (H16' : u16b (acc ++ s) = true) by (unfold u16b in *; rewrite forallb_app, Ha16, Hgk; reflexivity).
      assert (Hv' : valid_string true (c_xml11 cf) (acc ++ s) = true) by (rewrite (valid_app _ _ s acc Hav); exact Ev).
      rewrite (IHr orr Er Hgr Hpr (acc ++ s) H16' Hv'). rewrite data16_app by assumption. rewrite <- app_assoc. reflexivity.
    + (* any other node: the pending text is flushed before it *)
      destruct (node_reserialise cf k ok Ek Hgk Hpk IHk Hnt) as [n [En [Hn Ekn]]]. rewrite En. cbn [app].
      rewrite merge_acc_node by exact Hn.
      apply ser_kids_app; [apply ser_flush; assumption|].
      rewrite ser_kids_cons, Ekn. cbn [bind]. rewrite (IHr orr Er Hgr Hpr [] eq_refl eq_refl). reflexivity.
Qed.

Theorem tree_idempotent : forall cf kids out, c_fixed cf = true -> can_uniform (c_can cf) ->
  ser_doc cf kids = Ok out -> in_scope_list cf kids = true -> plain_list kids = true ->
  ser_doc cf (normalise cf kids) = Ok out.
Proof.
  intros cf kids out Hf Hu Hs Hg Hp. rewrite ser_doc_eq in *.
  destruct (ser_kids cf kids) as [body|] eqn:Eb; cbn [bind] in Hs; [|discriminate].
  unfold normalise. rewrite (reserialise cf Hf Hu kids body Eb Hg Hp [] eq_refl eq_refl). cbn [bind app]. exact Hs.
Qed.
