(** C12 tree-level lemmas, part a: results of the serializer model ([bind], [markup]), its loop over the children of a
    node and the induction principle that goes with it; the elementary scanners. *)
From Coq Require Import ZArith ZifyBool ZifyN ZifyNat Lia.
From XV Require Import C05.Spec05 C12.Spec12 C12.Model12 C12.SpecTree12.
Local Open Scope N_scope.

Definition is_err {A E} (r : res A E) : Prop := exists e, r = Err e.

Lemma bind_ok : forall A B E (x : res A E) (f : A -> res B E) o, bind x f = Ok o -> exists a, x = Ok a /\ f a = Ok o.
Proof. intros A B E x f o. destruct x as [a|e]; cbn [bind]; intros H; [exists a; split; [reflexivity | exact H] | discriminate]. Qed.

Lemma markup_ok : forall cf s o, markup cf s = Ok o -> o = s.
Proof. intros cf s o. unfold markup. destruct (forallb (c_can cf) s); intros H; [injection H as <-; reflexivity | discriminate]. Qed.

Lemma markup_has : forall cf s c, c_can cf c = false -> In c s -> is_err (markup cf s).
Proof.
  intros cf s c Hc Hin. unfold markup. destruct (forallb (c_can cf) s) eqn:E; [|eexists; reflexivity].
  rewrite forallb_forall in E. rewrite (E c Hin) in Hc. discriminate.
Qed.

Lemma forallb_false : forall (f : N -> bool) l, forallb f l = false -> exists c, In c l /\ f c = false.
Proof.
  intros f. induction l as [|a l IH]; intros H; [discriminate|]. cbn [forallb] in H.
  destruct (f a) eqn:E; [|exists a; split; [left; reflexivity|exact E]].
  destruct (IH H) as [c [Hin Hc]]. exists c. split; [right; exact Hin|exact Hc].
Qed.

(** markup that contains an unrepresentable part fails *)
Lemma markup_part : forall cf s p, forallb (c_can cf) p = false -> incl p s -> is_err (markup cf s).
Proof.
  intros cf s p H Hi. destruct (forallb_false _ _ H) as [c [Hin Hc]]. apply (markup_has cf s c Hc), Hi, Hin.
Qed.

Lemma markup_unrep : forall cf a s b, forallb (c_can cf) s = false -> is_err (markup cf (a ++ s ++ b)).
Proof. intros cf a s b H. apply (markup_part cf _ s H), incl_appr, incl_appl, incl_refl. Qed.

Lemma markup_ok_can : forall cf s o, markup cf s = Ok o -> forallb (c_can cf) s = true.
Proof. intros cf s o. unfold markup. destruct (forallb (c_can cf) s); [reflexivity|discriminate]. Qed.

Lemma bind_err : forall {A B E} (x : res A E) (f : A -> res B E), is_err x -> is_err (bind x f).
Proof. intros A B E x f [e H]. subst. eexists. reflexivity. Qed.

Lemma bind_err2 : forall {A B E} (x : res A E) (f : A -> res B E), (forall a, is_err (f a)) -> is_err (bind x f).
Proof. intros A B E x f H. destruct x as [a|e]; [apply H|eexists; reflexivity]. Qed.

(** the serializer's loop over a list of nodes (a nested [fix] in [ser_node] and [ser_doc]) under a name *)
Definition ser_kids (cf : scfg) : list node -> res (list N) serr :=
  fix go (l : list node) : res (list N) serr :=
    match l with
    | [] => Ok []
    | k :: r => bind (ser_node cf k) (fun a => bind (go r) (fun b => Ok (a ++ b)))
    end.

Lemma ser_kids_cons : forall cf k r,
  ser_kids cf (k :: r) = bind (ser_node cf k) (fun a => bind (ser_kids cf r) (fun b => Ok (a ++ b))).
Proof. reflexivity. Qed.

Lemma ser_node_elem : forall cf name attrs kids,
  ser_node cf (Elem name attrs kids) =
  bind (markup cf (60 :: name)) (fun st =>
  bind (ser_attrs cf attrs) (fun at_ =>
  match kids with
  | [] => Ok (st ++ at_ ++ [47; 62])
  | _ => bind (ser_kids cf kids) (fun body =>
         bind (markup cf (ser_gEndElement ++ name ++ [62])) (fun et => Ok (st ++ at_ ++ [62] ++ body ++ et)))
  end)).
Proof. reflexivity. Qed.

Lemma ser_kids_cons_ok : forall cf k r out, ser_kids cf (k :: r) = Ok out ->
  exists ok orr, ser_node cf k = Ok ok /\ ser_kids cf r = Ok orr /\ out = ok ++ orr.
Proof.
  intros cf k r out H. rewrite ser_kids_cons in H. apply bind_ok in H. destruct H as [ok [Ek H]].
  apply bind_ok in H. destruct H as [orr [Er H]]. injection H as <-. exists ok, orr. repeat split; assumption.
Qed.

Lemma ser_text_ok : forall cf s out, ser_node cf (Text s) = Ok out ->
  valid_string (c_fixed cf) (c_xml11 cf) s = true /\ out = data16 cf CharEscapes s.
Proof.
  intros cf s out H. cbn [ser_node] in H. destruct (valid_string (c_fixed cf) (c_xml11 cf) s); cbn [negb] in H; [|discriminate].
  injection H as <-. split; reflexivity.
Qed.

Lemma ser_attrs_cons_ok : forall cf n v r out, c_fixed cf = true -> ser_attrs cf ((n, v) :: r) = Ok out ->
  exists o, forallb (c_can cf) (32 :: n) = true /\ valid_string true (c_xml11 cf) v = true /\ ser_attrs cf r = Ok o /\
            out = (32 :: n) ++ [61; 34] ++ data16 cf AttrEscapes v ++ [34] ++ o.
Proof.
  intros cf n v r out Hf H. cbn [ser_attrs] in H. rewrite Hf in H. apply bind_ok in H. destruct H as [nm [Enm H]].
  pose proof (markup_ok_can _ _ _ Enm) as En. apply markup_ok in Enm. subst nm.
  destruct (valid_string true (c_xml11 cf) v); cbn [negb] in H; [|discriminate].
  apply bind_ok in H. destruct H as [o [Er H]]. injection H as <-. exists o. repeat split; assumption.
Qed.

(** induction over a list of nodes and, below an element, over its children *)
Lemma kids_ind : forall (P : list node -> Prop), P [] ->
  (forall k r, match k with Elem _ _ kids => P kids | _ => True end -> P r -> P (k :: r)) -> forall l, P l.
Proof.
  intros P H0 Hs.
  assert (G : forall k, match k with Elem _ _ kids => P kids | _ => True end).
  { fix G 1. intros [name attrs kids|s|s|s|t d]; try exact I.
    induction kids as [|k r IH]; [exact H0|]. apply Hs; [apply G|exact IH]. }
  induction l as [|k r IH]; [exact H0|]. apply Hs; [apply G|exact IH].
Qed.

Definition decl_of (cf : scfg) : list N :=
  if c_decl cf then
    ser_gXMLDecl_VersionInfo ++ ver_string (c_xml11 cf) ++ ser_gXMLDecl_separator ++
    ser_gXMLDecl_EncodingDecl ++ c_enc cf ++ ser_gXMLDecl_separator ++
    ser_gXMLDecl_SDDecl ++ [110; 111] ++ ser_gXMLDecl_separator ++ ser_gXMLDecl_endtag
  else [].

Lemma ser_doc_eq : forall cf kids, ser_doc cf kids = bind (ser_kids cf kids) (fun body => Ok (decl_of cf ++ body)).
Proof. reflexivity. Qed.

Lemma none_is_cons : forall c d p, none_is c (d :: p) = negb (d =? c) && none_is c p.
Proof. reflexivity. Qed.

Lemma none_is_app : forall c p q, none_is c (p ++ q) = none_is c p && none_is c q.
Proof. intros c p q. apply forallb_app. Qed.

Definition starts_non_name (rest : list N) : Prop :=
  match rest with [] => True | c :: _ => name_unit c = false end.

Lemma take_name_app : forall n rest, forallb name_unit n = true -> starts_non_name rest ->
  take_name (n ++ rest) = (n, rest).
Proof.
  induction n as [|c n IH]; intros rest Hn Hr.
  - cbn [app]. destruct rest as [|d r]; [reflexivity|]. cbn [take_name]. cbn [starts_non_name] in Hr. rewrite Hr. reflexivity.
  - cbn [forallb] in Hn. apply andb_true_iff in Hn. destruct Hn as [Hc Hn].
    cbn [app take_name]. rewrite Hc, (IH rest Hn Hr). reflexivity.
Qed.

Definition starts_with_or_nil (c : N) (rest : list N) : Prop :=
  match rest with [] => True | d :: _ => d = c end.

Lemma span_until_app : forall c p rest, none_is c p = true -> starts_with_or_nil c rest ->
  span_until c (p ++ rest) = (p, rest).
Proof.
  intros c. induction p as [|d p IH]; intros rest Hp Hr.
  - cbn [app]. destruct rest as [|e r]; [reflexivity|]. cbn [starts_with_or_nil] in Hr. subst e.
    cbn [span_until]. rewrite N.eqb_refl. reflexivity.
  - rewrite none_is_cons in Hp. apply andb_true_iff in Hp. destruct Hp as [Hd Hp].
    cbn [app span_until]. destruct (d =? c); [discriminate|]. rewrite (IH rest Hp Hr). reflexivity.
Qed.

Lemma prefix_b_app : forall p r, prefix_b p (p ++ r) = true.
Proof. induction p as [|a p IH]; intros r; [reflexivity|]. cbn [app prefix_b]. rewrite N.eqb_refl, IH. reflexivity. Qed.

Lemma skipn_app_exact : forall (p r : list N), skipn (length p) (p ++ r) = r.
Proof. induction p as [|a p IH]; intros r; [reflexivity|]. cbn [length app skipn]. apply IH. Qed.

Lemma scan2_app : forall a b d rest acc, no2 a b (d ++ [a]) = true ->
  scan2 a b (d ++ a :: b :: rest) acc = Some (rev acc ++ d, rest).
Proof.
  intros a b. induction d as [|c d IH]; intros rest acc H.
  - cbn [app scan2]. rewrite !N.eqb_refl. cbn [andb]. rewrite app_nil_r. reflexivity.
  - cbn [app] in H. cbn [app].
    assert (Hstep : scan2 a b (c :: d ++ a :: b :: rest) acc = scan2 a b (d ++ a :: b :: rest) (c :: acc) /\
                    no2 a b (d ++ [a]) = true).
    { destruct d as [|e d'].
      - cbn [app] in *. cbn [no2] in H. apply andb_true_iff in H. destruct H as [H1 _].
        cbn [scan2]. destruct ((c =? a) && (a =? b)); [discriminate|]. split; reflexivity.
      - cbn [app] in *. cbn [no2] in H. apply andb_true_iff in H. destruct H as [H1 H2].
        split; [|exact H2]. cbn [scan2]. destruct ((c =? a) && (e =? b)); [discriminate|]. reflexivity. }
    destruct Hstep as [Hs Hn]. rewrite Hs, IH by exact Hn. cbn [rev]. rewrite <- app_assoc. reflexivity.
Qed.

Lemma norm_eol_id : forall x s, no_eol x s = true -> norm_eol x false s = s.
Proof.
  intros x. induction s as [|c r IH]; intros H; [reflexivity|].
  unfold no_eol in H. cbn [forallb] in H. apply andb_true_iff in H. destruct H as [Hc Hr].
  cbn [norm_eol].
  destruct (N.eqb_spec c 13) as [E|N13]; [subst; destruct x; discriminate|].
  destruct (N.eqb_spec c 10) as [E|N10].
  - cbn [orb]. rewrite (IH Hr). subst. reflexivity.
  - cbn [orb].
    assert (H85 : (x && (c =? 0x85)) = false) by (destruct x; cbn [andb] in *; [|reflexivity]; destruct (c =? 0x85); [rewrite orb_true_r in Hc; discriminate|reflexivity]).
    assert (H28 : (x && (c =? 0x2028)) = false) by (destruct x; cbn [andb] in *; [|reflexivity]; destruct (c =? 0x2028); [rewrite !orb_true_r in Hc; discriminate|reflexivity]).
    rewrite H85, H28, (IH Hr). reflexivity.
Qed.

Lemma step_no_lt : forall attr x st c st' o, step attr x st c = Some (st', o) ->
  (c =? 60) = false /\ (attr = true -> (c =? 34) = false).
Proof.
  (* on "<" (and on the quote, in an attribute value) [step] answers [None] in every state *)
  intros attr x st c st' o H. split.
  - destruct (N.eqb_spec c 60) as [->|]; [|reflexivity]. destruct st; compute in H; discriminate.
  - intros ->. destruct (N.eqb_spec c 34) as [->|]; [|reflexivity]. destruct st; compute in H; discriminate.
Qed.

Lemma unesc_no_lt : forall attr x s st t, unesc attr x st s = Some t ->
  none_is 60 s = true /\ (attr = true -> none_is 34 s = true).
Proof.
  intros attr x. induction s as [|c r IH]; intros st t H; [split; [reflexivity|intros; reflexivity]|].
  cbn [unesc] in H. destruct (step attr x st c) as [[st' o]|] eqn:E; [|discriminate].
  destruct (unesc attr x st' r) as [t'|] eqn:E2; [|discriminate].
  destruct (step_no_lt _ _ _ _ _ _ E) as [H1 H2]. destruct (IH st' t' E2) as [H3 H4].
  rewrite !none_is_cons, H1. split; [exact H3|]. intros Ha. rewrite (H2 Ha), (H4 Ha). reflexivity.
Qed.
