(** C12 lemmas on namespace fix-up.  The scope table of DOMNormalizer (ModelNs12.v) never answers with a shadowed
    prefix; the serializer's own fix-up (ModelNsSer12.v) makes every element and attribute resolve to its namespace
    (outside the two known gaps F51, F52). *)
From Coq Require Import ZArith ZifyBool ZifyN ZifyNat Lia.
From XV Require Import C12.ModelNs12 C12.ModelNsSer12.
Local Open Scope N_scope.

Lemma aget_aremove_eq : forall k l, aget k (aremove k l) = None.
Proof.
  intros k. induction l as [|[k' v] r IH]; [reflexivity|]. cbn [aremove].
  destruct (N.eqb_spec k' k); [exact IH|]. cbn [aget]. destruct (N.eqb_spec k' k); [contradiction|exact IH].
Qed.

Lemma aget_aremove_neq : forall k k0 l, k0 <> k -> aget k0 (aremove k l) = aget k0 l.
Proof.
  intros k k0. induction l as [|[k' v] r IH]; intros H; [reflexivity|]. cbn [aremove aget].
  destruct (N.eqb_spec k' k).
  - subst. destruct (N.eqb_spec k k0); [subst; contradiction|]. apply IH. exact H.
  - cbn [aget]. destruct (N.eqb_spec k' k0); [reflexivity|apply IH; exact H].
Qed.

Lemma aget_aput_eq : forall k v l, aget k (aput k v l) = Some v.
Proof. intros. unfold aput. cbn [aget]. rewrite N.eqb_refl. reflexivity. Qed.

Lemma aget_aput_neq : forall k k0 v l, k0 <> k -> aget k0 (aput k v l) = aget k0 l.
Proof.
  intros k k0 v l H. unfold aput. cbn [aget]. destruct (N.eqb_spec k k0); [subst; contradiction|].
  apply aget_aremove_neq. exact H.
Qed.

(** every uri -> prefix entry is the inverse of a current prefix -> uri entry *)
Definition inverse_tabs (t : tabs) : Prop := forall u p, aget u (t_uri t) = Some p -> aget p (t_pre t) = Some u.

Lemma inv_empty : inverse_tabs no_tabs.
Proof. intros u p H. discriminate. Qed.

Lemma aget_aremove_some : forall k k0 v l, aget k0 (aremove k l) = Some v -> aget k0 l = Some v.
Proof.
  intros k k0 v l H. destruct (N.eq_dec k0 k) as [->|Hne]; [rewrite aget_aremove_eq in H; discriminate|].
  rewrite aget_aremove_neq in H by exact Hne. exact H.
Qed.

Lemma bind_tabs_inv : forall t p u t', inverse_tabs t -> bind_tabs t p u = Some t' -> inverse_tabs t'.
Proof.
  intros t p u t' HI H. unfold bind_tabs in H. injection H as <-.
  intros u0 p0 H0. cbn [t_uri t_pre] in *.
  destruct (N.eq_dec u0 u) as [->|Hne].
  - rewrite aget_aput_eq in H0. injection H0 as <-. apply aget_aput_eq.
  - rewrite aget_aput_neq in H0 by exact Hne.
    (* the entry was there before ... *)
    assert (H1 : aget u0 (t_uri t) = Some p0).
    { destruct (aget p (t_pre t)) as [old|]; [|exact H0]. destruct (aget old (t_uri t)) as [p'|]; [|exact H0].
      destruct (p' =? p); [|exact H0]. apply aget_aremove_some in H0. exact H0. }
    pose proof (HI u0 p0 H1) as H2.
    destruct (N.eq_dec p0 p) as [->|Hne3]; [|rewrite aget_aput_neq by exact Hne3; exact H2].
    (* ... and is not the one of the rebound prefix: that one was removed *)
    exfalso. rewrite H2, H1, N.eqb_refl, aget_aremove_eq in H0. discriminate.
Qed.

Lemma ns_run_app : forall a b st,
  ns_run (a ++ b) st = match ns_run a st with Some st1 => ns_run b st1 | None => None end.
Proof.
  induction a as [|o a IH]; intros b st; cbn [app ns_run]; [reflexivity|]. destruct (ns_step st o); [apply IH|reflexivity].
Qed.

Definition inverse_stack (st : nsstate) : Prop := Forall (fun o => match o with Some t => inverse_tabs t | None => True end) st.

Lemma visible_inv : forall st, inverse_stack st -> inverse_tabs (visible st).
Proof.
  induction st as [|[t|] r IH]; intros H; cbn [visible].
  - exact inv_empty.
  - inversion H; subst. assumption.
  - inversion H; subst. apply IH. assumption.
Qed.

Lemma step_inv : forall st o st', inverse_stack st -> ns_step st o = Some st' -> inverse_stack st'.
Proof.
  intros st o st' HI H. destruct o as [| |p u]; cbn [ns_step] in H.
  - injection H as H. subst. constructor; [exact I|exact HI].
  - injection H as H. subst. destruct st; [constructor|]. inversion HI; subst. assumption.
  - destruct st as [|top rest].
    + cbn [visible] in H. destruct (bind_tabs no_tabs p u) as [t'|] eqn:E; [|discriminate].
      injection H as H. subst. constructor; [|constructor]. apply (bind_tabs_inv no_tabs p u t' inv_empty E).
    + inversion HI as [|o l Ht Hr]; subst.
      destruct (bind_tabs (match top with Some t => t | None => visible rest end) p u) as [t'|] eqn:E; [|discriminate].
      injection H as H. subst. constructor; [|exact Hr].
      refine (bind_tabs_inv _ p u t' _ E). destruct top; [exact Ht|apply visible_inv; exact Hr].
Qed.

Lemma run_inv : forall ops st st', inverse_stack st -> ns_run ops st = Some st' -> inverse_stack st'.
Proof.
  induction ops as [|o r IH]; intros st st' HI H; cbn [ns_run] in H.
  - injection H as H. subst. exact HI.
  - destruct (ns_step st o) as [st1|] eqn:E; [|discriminate]. apply (IH st1); [|exact H].
    apply (step_inv st o st1 HI E).
Qed.

(** * the serializer's fix-up of one start tag, then of a tree *)

Lemma aremove_absent : forall k m, aget k m = None -> aremove k m = m.
Proof.
  intros k. induction m as [|[k' v] r IH]; intros H; [reflexivity|]. cbn [aget] in H. cbn [aremove].
  destruct (k' =? k); [discriminate|]. rewrite (IH H). reflexivity.
Qed.

Lemma aget_in : forall k v m, aget k m = Some v -> In (k, v) m.
Proof.
  intros k v. induction m as [|[k' v'] r IH]; intros H; [discriminate|]. cbn [aget] in H.
  destruct (N.eqb_spec k' k) as [E|_]; [injection H as H; subst; left; reflexivity|right; apply IH; exact H].
Qed.

Section StartTag.
Variable sst : nsstack.
Variable C : list (N * N).                     (* everything the element requires or declares *)
Hypothesis HC : consistent C.

Definition meets (s : fixst) (r : N * N) : Prop := resolve (f_map s :: sst) (fst r) = snd r.

(** [tag_inv s]: [s] is a state of the fix-up of this element.  [step_ok s s' reqs]: the step from [s] to [s'] meets [reqs]
    and keeps whatever of C was met before (a prefix in the element's own map is never bound again, and C is consistent) *)
Record tag_inv (s : fixst) : Prop := {
  i_map : f_map s = rev (f_emitted s);
  i_from : forall k v, In (k, v) (f_map s) -> In (k, v) C;
  i_dist : distinct_keys (rev (f_emitted s)) = true }.

Definition step_ok (s s' : fixst) (reqs : list (N * N)) : Prop :=
  tag_inv s' /\ (forall r, In r reqs -> meets s' r) /\ (forall r, In r C -> meets s r -> meets s' r).

Lemma resolve_put_same : forall m p u, resolve (aput p u m :: sst) p = u.
Proof. intros. unfold resolve. cbn [ns_lookup]. rewrite aget_aput_eq. reflexivity. Qed.

Lemma resolve_put_other : forall m p u q, q <> p -> resolve (aput p u m :: sst) q = resolve (m :: sst) q.
Proof. intros m p u q H. unfold resolve. cbn [ns_lookup]. rewrite aget_aput_neq by exact H. reflexivity. Qed.

Lemma stay_ok : forall s reqs, tag_inv s -> (forall r, In r reqs -> meets s r) -> step_ok s s reqs.
Proof. intros s reqs HI H. split; [exact HI|]. split; [exact H|]. intros r _ Hs. exact Hs. Qed.

Lemma put_ok : forall s p u, tag_inv s -> In (p, u) C -> aget p (f_map s) = None ->
  step_ok s {| f_map := aput p u (f_map s); f_emitted := f_emitted s ++ [(p, u)] |} [(p, u)].
Proof.
  intros s p u [Imap Ifrom Idist] Hin Habs. split; [split; cbn [f_map f_emitted]|split].
  - unfold aput. rewrite (aremove_absent p _ Habs), rev_app_distr, Imap. reflexivity.
  - intros k v H. unfold aput in H. rewrite (aremove_absent p _ Habs) in H.
    destruct H as [E|H]; [injection E as E1 E2; subst; exact Hin|apply Ifrom; exact H].
  - rewrite rev_app_distr. cbn [rev app distinct_keys]. rewrite <- Imap, Habs, Imap, Idist. reflexivity.
  - intros r [<-|[]]. apply resolve_put_same.
  - intros [q w] Hr Hs. unfold meets in *. cbn [fst snd f_map] in *. destruct (N.eq_dec q p) as [->|Hne].
    + rewrite resolve_put_same. apply (HC p u w Hin Hr).
    + rewrite resolve_put_other by exact Hne. exact Hs.
Qed.

Lemma need_ok : forall s p u, tag_inv s -> In (p, u) C -> (u = 0 -> p = 0) -> step_ok s (need_binding sst s p u) [(p, u)].
Proof.
  intros s p u HI Hin Hz. unfold need_binding.
  destruct ((u =? 0) && negb (default_declared (f_map s :: sst))) eqn:E1.
  - apply andb_true_iff in E1. destruct E1 as [Eu Ed]. apply N.eqb_eq in Eu. subst u. rewrite (Hz eq_refl) in *.
    apply stay_ok; [exact HI|]. intros r [<-|[]]. unfold meets, resolve. cbn [fst snd]. unfold default_declared in Ed.
    destruct (ns_lookup (f_map s :: sst) 0); [discriminate|reflexivity].
  - destruct (ns_active (f_map s :: sst) p u) eqn:E2.
    + apply stay_ok; [exact HI|]. intros r [<-|[]]. unfold meets, resolve. cbn [fst snd]. unfold ns_active in E2.
      destruct (ns_lookup (f_map s :: sst) p) as [w|]; [apply N.eqb_eq; exact E2|discriminate].
    + apply put_ok; [exact HI|exact Hin|].
      destruct (aget p (f_map s)) as [w|] eqn:Ea; [|reflexivity]. exfalso.
      pose proof (i_from s HI p w (aget_in p w _ Ea)) as Hw. pose proof (HC p u w Hin Hw) as E. subst w.
      unfold ns_active in E2. cbn [ns_lookup] in E2. rewrite Ea, N.eqb_refl in E2. discriminate.
Qed.

Lemma decl_ok : forall s dp val, tag_inv s -> In (dp, val) C -> step_ok s (explicit_decl s dp val) [(dp, val)].
Proof.
  intros s dp val HI Hin. unfold explicit_decl. destruct (aget dp (f_map s)) as [w|] eqn:Ea.
  - apply stay_ok; [exact HI|]. intros r [<-|[]]. unfold meets, resolve. cbn [fst snd ns_lookup]. rewrite Ea.
    pose proof (i_from s HI dp w (aget_in dp w _ Ea)) as Hw. apply (HC dp w val Hw Hin).
  - apply put_ok; assumption.
Qed.

Lemma attr_ok : forall s a, tag_inv s -> (forall r, In r (attr_req a) -> In r C) ->
  step_ok s (fix_attr sst s a) (attr_req a).
Proof.
  intros s a HI Hin. destruct a as [dp val|p u l]; cbn [fix_attr attr_req] in *.
  - apply decl_ok; [exact HI|apply Hin; left; reflexivity].
  - destruct ((u =? 0) || (p =? 0)) eqn:E.
    + apply stay_ok; [exact HI|intros r []].
    + apply orb_false_iff in E. destruct E as [Eu Ep]. apply N.eqb_neq in Eu.
      apply need_ok; [exact HI|apply Hin; left; reflexivity|intros; contradiction].
Qed.

Lemma fold_ok : forall attrs s, tag_inv s -> (forall r, In r (flat_map attr_req attrs) -> In r C) ->
  step_ok s (fold_left (fix_attr sst) attrs s) (flat_map attr_req attrs).
Proof.
  induction attrs as [|a r IH]; intros s HI Hin; [apply stay_ok; [exact HI|intros x []]|].
  cbn [fold_left flat_map] in *.
  destruct (attr_ok s a HI) as [H1 [S1 K1]]; [intros x Hx; apply Hin, in_or_app; left; exact Hx|].
  destruct (IH (fix_attr sst s a) H1) as [H2 [S2 K2]]; [intros x Hx; apply Hin, in_or_app; right; exact Hx|].
  split; [exact H2|]. split.
  - intros x Hx. apply in_app_or in Hx. destruct Hx as [Hx|Hx]; [|apply S2; exact Hx].
    apply K2; [apply Hin, in_or_app; left; exact Hx|apply S1; exact Hx].
  - intros x Hx Hs. apply K2; [exact Hx|]. apply K1; assumption.
Qed.
End StartTag.

Lemma start_tag_ok : forall sst p u attrs, consistent (elem_reqs p u attrs) -> (u = 0 -> p = 0) ->
  let s := fix_start_tag sst p u attrs in
  f_map s = rev (f_emitted s) /\ distinct_keys (rev (f_emitted s)) = true /\
  forall r, In r (elem_reqs p u attrs) -> resolve (f_map s :: sst) (fst r) = snd r.
Proof.
  intros sst p u attrs HC Hz s.
  assert (H0 : tag_inv (elem_reqs p u attrs) {| f_map := []; f_emitted := [] |}).
  { split; try reflexivity; intros; contradiction. }
  destruct (need_ok sst _ HC _ p u H0 (or_introl eq_refl) Hz) as [H1 [S1 _]].
  destruct (fold_ok sst _ HC attrs _ H1) as [[Imap _ Idist] [S2 K2]]; [intros r Hr; right; exact Hr|].
  split; [exact Imap|]. split; [exact Idist|]. intros r [<-|Hr].
  - apply K2; [left; reflexivity|apply S1; left; reflexivity].
  - apply S2. exact Hr.
Qed.

Lemma lookup_equiv_cons : forall m sst pst, (forall q, ns_lookup sst q = ns_lookup pst q) ->
  forall q, ns_lookup (m :: sst) q = ns_lookup (m :: pst) q.
Proof. intros m sst pst H q. cbn [ns_lookup]. rewrite H. reflexivity. Qed.

(** a written start tag: what a parser sees agrees with the serializer's own maps, no prefix is declared twice, the
    element and its attributes resolve *)
Lemma start_tag_resolves : forall sst pst p u attrs, (forall q, ns_lookup sst q = ns_lookup pst q) ->
  consistent (elem_reqs p u attrs) -> (u = 0 -> p = 0) -> forallb attr_has_prefix attrs = true ->
  let s := fix_start_tag sst p u attrs in
  let scope := written_scope pst (f_emitted s) in
  (forall q, ns_lookup (f_map s :: sst) q = ns_lookup scope q) /\
  distinct_keys (rev (f_emitted s)) = true /\ resolve scope p = u /\ forallb (attr_resolves scope) attrs = true.
Proof.
  intros sst pst p u attrs Heq HC Hz Hap s scope. destruct (start_tag_ok sst p u attrs HC Hz) as [Em [Hd Hsat]].
  fold s in Em, Hd, Hsat. unfold scope, written_scope.
  assert (Heq' : forall q, ns_lookup (f_map s :: sst) q = ns_lookup (rev (f_emitted s) :: pst) q).
  { rewrite <- Em. apply lookup_equiv_cons. exact Heq. }
  assert (Hres : forall q, resolve (rev (f_emitted s) :: pst) q = resolve (f_map s :: sst) q).
  { intros q. unfold resolve. rewrite Heq'. reflexivity. }
  split; [exact Heq'|]. split; [exact Hd|]. split; [rewrite Hres; apply (Hsat (p, u)); left; reflexivity|].
  apply forallb_forall. intros a Ha. destruct a as [dp val|ap au al]; [reflexivity|]. cbn [attr_resolves].
  rewrite forallb_forall in Hap. specialize (Hap _ Ha). cbn [attr_has_prefix] in Hap. apply Bool.eqb_prop in Hap.
  destruct (N.eqb_spec ap 0) as [Ep|Np]; [rewrite Hap; reflexivity|].
  rewrite Hres. apply N.eqb_eq.
  apply (Hsat (ap, au)). right. apply in_flat_map. exists (AOrd ap au al). split; [exact Ha|].
  cbn [attr_req]. rewrite Hap. destruct (N.eqb_spec ap 0); [contradiction|]. left. reflexivity.
Qed.

Lemma nselem_kids_ind : forall P : nselem -> Prop,
  (forall p u l attrs kids, Forall P kids -> P (NsE p u l attrs kids)) -> forall e, P e.
Proof.
  intros P H. fix F 1. intros [p u l attrs kids]. apply H.
  induction kids as [|k r IH]; constructor; [apply F|exact IH].
Qed.
