(** C12 lemmas, part a: the sequence of transcoder calls made by formatBuf / specialFormat, concatenated, is a
    character-wise map of the input ([special16] / [flat_map esc1]); exactness of the escape lists. *)
From Coq Require Import ZArith ZifyBool ZifyN ZifyNat Lia.
From XV Require Import C05.Spec05 C05.Model05 C12.Spec12 C12.Model12.
Local Open Scope N_scope.

Lemma flat_map_single : forall (s : list N), flat_map (fun c => [c]) s = s.
Proof. induction s as [|c r IH]; cbn [flat_map app]; [reflexivity|]. rewrite IH. reflexivity. Qed.

Lemma flush_concat : forall run, concat (flush run) = rev run.
Proof. destruct run; [reflexivity|]. cbn [flush concat]. rewrite app_nil_r. reflexivity. Qed.

Lemma fb_calls_concat : forall inl x m s run,
  concat (fb_calls inl x m s run) = rev run ++ flat_map (fun c => if inl x m c then esc_ref c else [c]) s.
Proof.
  intros inl x m. induction s as [|c r IH]; intros run; cbn [fb_calls flat_map].
  - rewrite flush_concat, app_nil_r. reflexivity.
  - destruct (inl x m c).
    + rewrite !concat_app, flush_concat. cbn [concat]. rewrite app_nil_r, IH. reflexivity.
    + rewrite IH. cbn [rev]. rewrite <- app_assoc. reflexivity.
Qed.

Lemma format_fail_concat : forall inl x m s, concat (format_fail inl x m s) = flat_map (esc1_gen inl x m) s.
Proof.
  intros inl x m s. destruct m; unfold format_fail; try (rewrite fb_calls_concat; reflexivity).
  unfold esc1_gen. rewrite flat_map_single. destruct s; [reflexivity|]. cbn [concat]. apply app_nil_r.
Qed.

(** the output of specialFormat, character by character *)
Fixpoint special16 (inl : bool -> emode -> N -> bool) (can : N -> bool) (x : bool) (m : emode) (s : list N) : list N :=
  match s with
  | [] => []
  | c :: r =>
    if can c then esc1_gen inl x m c ++ special16 inl can x m r
    else if is_high c then
      match r with
      | [] => charref (comb c 0)
      | d :: r' => charref (comb c d) ++ special16 inl can x m r'
      end
    else charref c ++ special16 inl can x m r
  end.

Definition call_of inl x m (it : sitem) : list (list N) :=
  match it with SRun l => format_fail inl x m l | SRef v => [charref v] end.

Lemma special_calls_eq : forall inl can x m s,
  special_calls inl can x m s = flat_map (call_of inl x m) (sp_items can s []).
Proof. reflexivity. Qed.

Lemma srun_concat : forall inl x m run,
  concat (flat_map (call_of inl x m) (srun run)) = flat_map (esc1_gen inl x m) (rev run).
Proof.
  intros. destruct run as [|a run]; [reflexivity|]. unfold srun. cbn [flat_map call_of]. rewrite app_nil_r.
  apply format_fail_concat.
Qed.

(** list induction for functions that consume one or two units at a time *)
Lemma list_ind_skip : forall (P : list N -> Prop), P [] ->
  (forall c r, P r -> (forall d r', r = d :: r' -> P r') -> P (c :: r)) -> forall s, P s.
Proof.
  intros P H0 Hs s. enough (H : P s /\ forall d r', s = d :: r' -> P r') by apply H.
  induction s as [|c r [IH1 IH2]]; split.
  - exact H0.
  - discriminate.
  - apply Hs; assumption.
  - intros d r' [= _ <-]. exact IH1.
Qed.

(** induction along a scan that accepts one unit ([one]) or a pair ([fst_of] then [snd_of]) at a time, as
    [xml_string] and [valid_string] do *)
Lemma pair_scan_ind : forall (one fst_of snd_of : N -> bool) (f : list N -> bool),
  (forall c r, f (c :: r) = if one c then f r else if fst_of c then match r with d :: r' => snd_of d && f r' | [] => false end
                            else false) ->
  forall P : list N -> Prop, P [] ->
  (forall c r, one c = true -> P r -> P (c :: r)) ->
  (forall c d r, one c = false -> fst_of c = true -> snd_of d = true -> P r -> P (c :: d :: r)) ->
  forall s, f s = true -> P s.
Proof.
  intros one fst_of snd_of f Hf P H0 H1 H2 s.
  enough (H : (f s = true -> P s) /\ forall c, f (c :: s) = true -> P (c :: s)) by apply H.
  induction s as [|d s [IH1 IH2]].
  - split; [intros _; exact H0|]. intros c H. rewrite Hf in H.
    destruct (one c) eqn:E; [apply H1; [exact E|exact H0]|]. destruct (fst_of c); discriminate.
  - split; [apply IH2|]. intros c H. rewrite Hf in H.
    destruct (one c) eqn:E; [apply H1; [exact E|apply IH2; exact H]|].
    destruct (fst_of c) eqn:Eh; [|discriminate]. apply andb_true_iff in H. destruct H as [Hd Hs].
    apply H2; [exact E|exact Eh|exact Hd|apply IH1; exact Hs].
Qed.

Lemma sp_items_concat : forall inl can x m s run,
  concat (flat_map (call_of inl x m) (sp_items can s run)) =
  flat_map (esc1_gen inl x m) (rev run) ++ special16 inl can x m s.
Proof.
  intros inl can x m s. induction s as [|c r IHr IHr'] using list_ind_skip; intros run; cbn [sp_items special16].
  - rewrite srun_concat, app_nil_r. reflexivity.
  - destruct (can c).
    + rewrite IHr. cbn [rev]. rewrite flat_map_app. cbn [flat_map]. rewrite app_nil_r, <- app_assoc. reflexivity.
    + destruct (is_high c).
      * destruct r as [|d r'].
        -- rewrite flat_map_app, concat_app, srun_concat. cbn [flat_map call_of concat app]. rewrite app_nil_r. reflexivity.
        -- rewrite !flat_map_app, !concat_app, srun_concat. cbn [flat_map call_of concat app].
           rewrite (IHr' d r' eq_refl). cbn [rev flat_map app]. rewrite app_nil_r. reflexivity.
      * rewrite !flat_map_app, !concat_app, srun_concat. cbn [flat_map call_of concat app].
        rewrite IHr. cbn [rev flat_map app]. rewrite app_nil_r. reflexivity.
Qed.

Lemma format16_charref : forall can x m s,
  format16 can x m UnRep_CharRef s = special16 in_escape_list can x m s.
Proof.
  intros. unfold format16, format_calls, format_calls_gen. rewrite special_calls_eq, sp_items_concat. reflexivity.
Qed.

(** * exactness of the escape lists *)

(** the entries of a row before its first null *)
Fixpoint zprefix (row : list N) : list N :=
  match row with [] => [] | e :: r => if e =? 0 then [] else e :: zprefix r end.

Lemma in_zlist_spec : forall row c, in_zlist row c = true <-> In c (zprefix row).
Proof.
  induction row as [|e r IH]; intros c; cbn [in_zlist zprefix].
  - split; [discriminate|intros []].
  - destruct (N.eqb_spec e 0); [split; [discriminate|intros []]|].
    destruct (N.eqb_spec e c).
    + subst. split; [left; reflexivity|reflexivity].
    + rewrite IH. split; [right; assumption|intros [H|H]; [contradiction|exact H]].
Qed.

Definition restricted11 (c : N) : Prop :=
  (1 <= c <= 8) \/ c = 0xB \/ c = 0xC \/ (0xE <= c <= 0x1F) \/ (0x7F <= c <= 0x84) \/ (0x86 <= c <= 0x9F).

Lemma control11_spec : forall c, (is_control11 c && negb (is_ws11 c)) = true <-> restricted11 c.
Proof. intros c. unfold is_control11, is_ws11, restricted11. lia. Qed.

Lemma in_escape_list_spec : forall x m c,
  in_escape_list x m c = true <->
  In c (zprefix (esc_row m)) \/ (x = true /\ (restricted11 c \/ c = 0x85 \/ c = 0x2028)).
Proof.
  intros x m c. unfold in_escape_list. rewrite orb_true_iff, in_zlist_spec.
  destruct x; cbn [andb].
  - rewrite !orb_true_iff, control11_spec, !N.eqb_eq. intuition.
  - intuition; discriminate.
Qed.

Lemma esc_ref_head : forall c, exists t, esc_ref c = 38 :: t /\ t <> [].
Proof.
  intros c. unfold esc_ref, esc_switch. cbn [find fst snd].
  repeat match goal with |- context [if ?b then _ else _] => destruct b end;
    try (eexists; split; [reflexivity|discriminate]).
Qed.

Lemma esc_ref_not_self : forall c, esc_ref c <> [c].
Proof. intros c H. destruct (esc_ref_head c) as [t [Ht Hn]]. rewrite Ht in H. injection H as _ H. exact (Hn H). Qed.

Lemma esc1_escaping : forall x m c, m <> NoEscapes ->
  esc1 x m c = if in_escape_list x m c then esc_ref c else [c].
Proof. intros x m c Hm. destruct m; [contradiction|reflexivity|reflexivity|reflexivity]. Qed.

(** an escaped character is never written as itself *)
Lemma esc1_self_iff : forall x m c, m <> NoEscapes -> (esc1 x m c = [c] <-> in_escape_list x m c = false).
Proof.
  intros x m c Hm. rewrite (esc1_escaping x m c Hm). destruct (in_escape_list x m c); split; try reflexivity; try discriminate.
  intros H. destruct (esc_ref_not_self c H).
Qed.
