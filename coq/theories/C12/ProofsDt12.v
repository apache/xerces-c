(** C12 lemmas on the document type declaration: what the declaration scanner does on each part the (repaired)
    serializer writes (the three shapes of the external identifier, the internal subset); the predicate of the
    refusal theorem. *)
From Coq Require Import ZArith ZifyBool ZifyN ZifyNat Lia.
From XV Require Import C05.Spec05 C12.Spec12 C12.Model12 C12.SpecTree12 C12.ModelDt12 C12.SpecDt12 C12.ProofsTree12a.
Local Open Scope N_scope.

Lemma has_none_is : forall c s, has c s = false -> none_is c s = true.
Proof.
  intros c. induction s as [|d s IH]; [reflexivity|].
  unfold has in *. cbn [existsb]. intros H. apply orb_false_iff in H. destruct H as [H1 H2].
  rewrite none_is_cons, H1. apply IH. exact H2.
Qed.

Lemma take_lit_app : forall q v rest, (q =? 34) || (q =? 39) = true -> none_is q v = true ->
  take_lit (q :: v ++ q :: rest) = Some (v, rest).
Proof.
  intros q v rest Hq Hv. unfold take_lit. rewrite Hq.
  rewrite (span_until_app q v (q :: rest) Hv); [reflexivity | reflexivity].
Qed.

(** the delimiter chosen by the repaired code does not occur in the system identifier *)
Lemma sys_quote_ok : forall sys, (has 34 sys && has 39 sys) = false ->
  ((sys_quote true sys =? 34) || (sys_quote true sys =? 39) = true) /\ none_is (sys_quote true sys) sys = true.
Proof.
  intros sys H. unfold sys_quote. cbn [andb]. destruct (has 34 sys) eqn:E34.
  - cbn [andb] in H. split; [reflexivity | apply has_none_is; exact H].
  - split; [reflexivity | apply has_none_is; exact E34].
Qed.

Lemma pubid_no_dquote : forall p, forallb pubid_char p = true -> none_is 34 p = true.
Proof.
  induction p as [|c p IH]; [reflexivity|]. cbn [forallb]. intros H. apply andb_true_iff in H. destruct H as [Hc Hp].
  rewrite none_is_cons, (IH Hp), andb_true_r.
  destruct (N.eqb_spec c 34) as [->|]; [vm_compute in Hc; discriminate | reflexivity].
Qed.

Lemma prefix_b_neq2 : forall a b p c d r, (b =? d) = false -> prefix_b (a :: b :: p) (c :: d :: r) = false.
Proof. intros. cbn [prefix_b]. rewrite H. destruct (a =? c); reflexivity. Qed.

Lemma parse_sub_some : forall sb rest, none_is 93 sb = true ->
  parse_sub ((match sb with [] => [] | _ => [32; 91] ++ sb ++ [93] end) ++ 62 :: rest) = Some (sb, 62 :: rest).
Proof.
  intros sb rest Hs. destruct sb as [|c sb'] eqn:E.
  - reflexivity.
  - rewrite <- E in *. unfold parse_sub.
    change (([32; 91] ++ sb ++ [93]) ++ 62 :: rest) with (32 :: 91 :: (sb ++ [93]) ++ 62 :: rest).
    change (prefix_b [32; 91] (32 :: 91 :: (sb ++ [93]) ++ 62 :: rest)) with true. cbv iota.
    change (skipn 2 (32 :: 91 :: (sb ++ [93]) ++ 62 :: rest)) with ((sb ++ [93]) ++ 62 :: rest).
    rewrite <- app_assoc. cbn [app].
    rewrite (span_until_app 93 sb (93 :: 62 :: rest) Hs); reflexivity.
Qed.

Definition dt_out_tail (d : doctype) (rest : list N) : list N :=
  (match dt_sub d with [] => [] | _ => [32; 91] ++ dt_sub d ++ [93] end) ++ 62 :: rest.

Lemma tail_starts : forall d rest, exists c t, dt_out_tail d rest = c :: t /\ ((c = 32 /\ exists t', t = 91 :: t') \/ c = 62).
Proof.
  intros d rest. unfold dt_out_tail. destruct (dt_sub d) as [|x sb].
  - exists 62, rest. split; [reflexivity | right; reflexivity].
  - exists 32, (91 :: (x :: sb) ++ [93] ++ 62 :: rest). split.
    + cbn [app]. rewrite <- app_assoc. reflexivity.
    + left. split; [reflexivity | eexists; reflexivity].
Qed.

(** the three shapes of the external identifier *)
Lemma parse_ext_none : forall d rest, parse_ext (dt_out_tail d rest) = Some ([], [], dt_out_tail d rest).
Proof.
  intros d rest. destruct (tail_starts d rest) as (c & t & E & [[-> [t' ->]] | ->]); rewrite E; unfold parse_ext.
  - unfold kw_public, kw_system. rewrite !prefix_b_neq2 by reflexivity. reflexivity.
  - reflexivity.
Qed.

Lemma parse_ext_system : forall sys T, (has 34 sys && has 39 sys) = false ->
  parse_ext ([32] ++ (sysid_kw ++ [32; sys_quote true sys]) ++ sys ++ [sys_quote true sys] ++ T) = Some ([], sys, T).
Proof.
  intros sys T H. destruct (sys_quote_ok sys H) as [Hq Hn]. set (q := sys_quote true sys) in *.
  change ([32] ++ (sysid_kw ++ [32; q]) ++ sys ++ [q] ++ T) with (kw_system ++ q :: sys ++ q :: T).
  unfold parse_ext.
  assert (Hp : prefix_b kw_public (kw_system ++ q :: sys ++ q :: T) = false) by reflexivity.
  rewrite Hp, prefix_b_app.
  change 8%nat with (length kw_system). rewrite skipn_app_exact, (take_lit_app q sys T Hq Hn). reflexivity.
Qed.

Lemma parse_ext_public : forall pub sys T, forallb pubid_char pub = true -> (has 34 sys && has 39 sys) = false ->
  parse_ext ([32] ++ ser_gPublic ++ pub ++ [34] ++ [32; sys_quote true sys] ++ sys ++ [sys_quote true sys] ++ T)
  = Some (pub, sys, T).
Proof.
  intros pub sys T Hpub H. destruct (sys_quote_ok sys H) as [Hq Hn]. set (q := sys_quote true sys) in *.
  change ([32] ++ ser_gPublic ++ pub ++ [34] ++ [32; q] ++ sys ++ [q] ++ T)
    with (kw_public ++ 34 :: pub ++ 34 :: 32 :: q :: sys ++ q :: T).
  unfold parse_ext. rewrite prefix_b_app.
  change 8%nat with (length kw_public). rewrite skipn_app_exact.
  rewrite (take_lit_app 34 pub (32 :: q :: sys ++ q :: T) eq_refl (pubid_no_dquote pub Hpub)).
  rewrite Hpub, (take_lit_app q sys T Hq Hn). reflexivity.
Qed.

(** the declaration as a whole: "<!DOCTYPE ", the name, an external identifier [X] that [parse_ext] reads as
    [(pub, sys)], the internal subset, ">" *)
Lemma doctype_parse : forall name pub sys sb rest X, name_ok name = true -> none_is 93 sb = true ->
  let T := dt_out_tail (mk_dt name pub sys sb) rest in
  parse_ext (X ++ T) = Some (pub, sys, T) -> starts_non_name (X ++ T) ->
  parse_doctype (((ser_gStartDoctype ++ name) ++ X ++ (match sb with [] => [] | _ => [32; 91] ++ sb ++ [93] end) ++ [62]) ++ rest)
  = Some (mk_dt name pub sys sb, rest).
Proof.
  intros name pub sys sb rest X Hname Hsb T HX Hst.
  replace (((ser_gStartDoctype ++ name) ++ X ++ (match sb with [] => [] | _ => [32; 91] ++ sb ++ [93] end) ++ [62]) ++ rest)
    with (kw_doctype ++ name ++ X ++ T)
    by (unfold T, dt_out_tail; cbn [dt_sub]; change ser_gStartDoctype with kw_doctype; rewrite <- !app_assoc; reflexivity).
  unfold parse_doctype. rewrite prefix_b_app. change 10%nat with (length kw_doctype). rewrite skipn_app_exact.
  unfold name_ok in Hname. destruct name as [|n0 name']; [discriminate|].
  rewrite (take_name_app (n0 :: name') (X ++ T) Hname Hst), HX.
  unfold T, dt_out_tail. cbn [dt_sub]. rewrite (parse_sub_some sb rest Hsb). reflexivity.
Qed.

(** the configuration of the DOCTYPE witnesses *)
Definition cf_utf8 : scfg := mk_cfg EUtf8 false true false true [].

(** identifiers that cannot be written as literals, which the repaired code refuses *)
Definition dt_unquotable (cf : scfg) (d : doctype) : Prop :=
  (has 34 (dt_sys d) = true /\ has 39 (dt_sys d) = true) \/ forallb pubid_char (dt_pub d) = false \/
  valid_string false (c_xml11 cf) (dt_sys d) = false \/ (dt_pub d <> [] /\ dt_sys d = []) \/
  forallb (c_can cf) (dt_name d ++ dt_pub d ++ dt_sys d ++ dt_sub d) = false.

