(** C12 tree-level lemmas, part b: escaped text under a continuation; the [Parses] framework; what the scanner does on
    each kind of markup the serializer writes (comments, CDATA sections, processing instructions, start tags with
    attributes, elements). *)
From Coq Require Import ZArith ZifyBool ZifyN ZifyNat Lia.
From XV Require Import C05.Spec05 C05.Model05 C12.Spec12 C12.Model12 C12.SpecTree12
  C12.Proofs12a C12.Proofs12b C12.Proofs12c C12.Proofs12d C12.Proofs12f C12.ProofsTree12a.
Local Open Scope N_scope.

Definition kont (attr x : bool) (nb' : nat) (tail pre : list N) : option (list N) :=
  match unesc attr x (PText false nb') tail with Some t => Some (pre ++ t) | None => None end.

(** [eacc] is written character data that reads back as [acc], whatever follows *)
Definition EscOf (x : bool) (eacc acc : list N) : Prop :=
  none_is 60 eacc = true /\ (acc = [] -> eacc = []) /\
  forall nb tail, exists nb', unesc false x (PText false nb) (eacc ++ tail) = kont false x nb' tail acc.

(* the third part of [EscOf] is [reads_as false x eacc acc], written with [kont] *)
Lemma escof_reads : forall x eacc acc, EscOf x eacc acc -> reads_as false x eacc acc.
Proof. intros x eacc acc [_ [_ H]]. exact H. Qed.

Lemma escof_unescape : forall x eacc acc, EscOf x eacc acc -> unescape_parse false x eacc = Some acc.
Proof. intros x eacc acc H. apply reads_parse, escof_reads, H. Qed.

Lemma escof_nil_inv : forall x acc, EscOf x [] acc -> acc = [].
Proof. intros x acc H. pose proof (escof_unescape x [] acc H) as E. injection E as E. symmetry. exact E. Qed.

Lemma escof_of_reads : forall x e a, (a = [] -> e = []) -> reads_as false x e a -> EscOf x e a.
Proof.
  intros x e a Z K. split; [|split; assumption].
  apply (unesc_no_lt false x e (PText false 0) a). apply (reads_parse false x e a K).
Qed.

Lemma escof_nil : forall x, EscOf x [] [].
Proof. intros x. apply escof_of_reads; [reflexivity|apply reads_nil]. Qed.

Lemma escof_app : forall x e1 a1 e2 a2, EscOf x e1 a1 -> EscOf x e2 a2 -> EscOf x (e1 ++ e2) (a1 ++ a2).
Proof.
  intros x e1 a1 e2 a2 H1 H2. apply escof_of_reads.
  - intros H. apply app_eq_nil in H. destruct H as [E1 E2]. destruct H1 as [_ [Z1 _]], H2 as [_ [Z2 _]].
    rewrite (Z1 E1), (Z2 E2). reflexivity.
  - apply reads_app; apply escof_reads; assumption.
Qed.

Lemma escof_text : forall x can s, can_uniform can -> xml_string x s = true ->
  EscOf x (format16 can x CharEscapes UnRep_CharRef s) s.
Proof.
  intros x can s Hu Hs. apply escof_of_reads.
  - intros E. subst s. reflexivity.
  - apply (format16_reads false CharEscapes); [left; split; reflexivity|exact Hu|exact Hs].
Qed.

Lemma utf16_enc_nonempty : forall v, utf16_enc v <> [].
Proof. intros v. unfold utf16_enc. destruct (v <? 0x10000); discriminate. Qed.

Lemma escof_ref : forall x v, v < 4294967296 -> ref_ok x v = true -> EscOf x (charref v) (utf16_enc v).
Proof.
  intros x v Hv Hok. apply escof_of_reads.
  - intros E. destruct (utf16_enc_nonempty v E).
  - apply reads_charref; assumption.
Qed.

(** [Parses M L rest w]: with any pending character data in front, [M] parses to the nodes [L] (the pending data
    joining a leading Text of [L]) and leaves [rest] *)

Definition Parses (x : bool) (M : list N) (L : list node) (rest : list N) (w : nat) : Prop :=
  forall acc eacc, EscOf x eacc acc -> forall fuel, (w <= fuel)%nat ->
  parse_content x fuel (eacc ++ M) = Some (merge_acc acc L, rest).

Definition rest_ok (rest : list N) : Prop := rest = [] \/ prefix_b [60; 47] rest = true.

Lemma parses_mono : forall x M L rest w w', Parses x M L rest w -> (w <= w')%nat -> Parses x M L rest w'.
Proof. intros x M L rest w w' H Hw acc eacc He fuel Hf. apply H; [exact He|lia]. Qed.

Lemma parses_nil : forall x M L rest w f, Parses x M L rest w -> (w <= f)%nat ->
  parse_content x f M = Some (merge_acc [] L, rest).
Proof. intros x M L rest w f H Hf. apply (H [] [] (escof_nil x) f Hf). Qed.

(** pending character data in front of markup (or of the end) is one Text node *)
Lemma pending : forall x eacc acc T f, EscOf x eacc acc -> starts_with_or_nil 60 T ->
  parse_content x (S f) (eacc ++ T) =
  match eacc with [] => parse_content x (S f) T | _ => pc_cons (Text acc) (parse_content x f T) end.
Proof.
  intros x eacc acc T f He HT. destruct eacc as [|e es]; [reflexivity|].
  pose proof He as [Hn _]. pose proof Hn as Hn'. rewrite none_is_cons in Hn'. apply andb_true_iff in Hn'.
  destruct Hn' as [He60 _]. destruct (N.eqb_spec e 60) as [E|Ne]; [discriminate|].
  assert (E60 : (60 =? e) = false) by (apply N.eqb_neq; intros E; apply Ne; symmetry; exact E).
  cbn [app parse_content prefix_b]. rewrite E60. cbn [andb].
  destruct (N.eqb_spec e 60) as [E|_]; [contradiction|].
  change (e :: es ++ T) with ((e :: es) ++ T). rewrite (span_until_app 60 (e :: es) T Hn HT).
  rewrite (escof_unescape x (e :: es) acc He). reflexivity.
Qed.

Lemma rest_ok_starts : forall rest, rest_ok rest -> starts_with_or_nil 60 rest.
Proof.
  intros rest [E|E]; [subst; exact I|]. destruct rest as [|c r]; [exact I|]. cbn [prefix_b] in E.
  apply andb_true_iff in E. destruct E as [E _]. apply N.eqb_eq in E. symmetry. exact E.
Qed.

Lemma parse_rest : forall x rest f, rest_ok rest -> parse_content x (S f) rest = Some ([], rest).
Proof.
  intros x rest f [E|E]; [subst; reflexivity|]. destruct rest as [|c r]; [reflexivity|].
  cbn [parse_content]. rewrite E. reflexivity.
Qed.

Lemma flushT_nonempty : forall x eacc acc, EscOf x eacc acc -> eacc <> [] -> flushT acc = [Text acc].
Proof.
  intros x eacc acc [_ [Z _]] Hne. destruct acc; [exfalso; apply Hne; apply Z; reflexivity|reflexivity].
Qed.

Lemma parses_base : forall x rest, rest_ok rest -> Parses x rest [] rest 2.
Proof.
  intros x rest Hr acc eacc He fuel Hf. destruct fuel as [|[|f]]; [lia|lia|].
  rewrite (pending x eacc acc rest (S f) He (rest_ok_starts rest Hr)). cbn [merge_acc].
  destruct eacc as [|e es].
  - rewrite (escof_nil_inv x acc He). apply parse_rest. exact Hr.
  - rewrite (parse_rest x rest f Hr). cbn [pc_cons]. rewrite (flushT_nonempty x (e :: es) acc He) by discriminate. reflexivity.
Qed.

Lemma parses_text : forall x M L rest w e a, EscOf x e a -> Parses x M L rest w -> Parses x (e ++ M) (Text a :: L) rest w.
Proof.
  intros x M L rest w e a He H acc eacc Hacc fuel Hf. rewrite app_assoc. cbn [merge_acc].
  apply H; [apply escof_app; assumption|exact Hf].
Qed.

(** markup [M] that the scanner reads as the one node [n] (not a Text node), with [k] units of fuel for what is inside *)
Definition reads_node (x : bool) (M : list N) (n : node) (k : nat) : Prop :=
  (exists M', M = 60 :: M') /\ (forall a, n <> Text a) /\
  forall f T', (k <= f)%nat -> parse_content x (S f) (M ++ T') = pc_cons n (parse_content x f T').

Lemma merge_acc_node : forall acc n L, (forall a, n <> Text a) -> merge_acc acc (n :: L) = flushT acc ++ n :: merge_acc [] L.
Proof. intros acc n L H. destruct n; try reflexivity. destruct (H s eq_refl). Qed.

(* + 2: one unit of fuel for the pending Text node, one for the markup item; [k] for what is inside it *)
Lemma parses_node : forall x M n k T L rest w, reads_node x M n k ->
  Parses x T L rest w -> Parses x (M ++ T) (n :: L) rest (w + k + 2).
Proof.
  intros x M n k T L rest w [[M' ->] [Hn Hfact]] H acc eacc He fuel Hf.
  destruct fuel as [|[|f]]; [lia|lia|].
  rewrite (pending x eacc acc ((60 :: M') ++ T) (S f) He eq_refl). rewrite merge_acc_node by exact Hn.
  destruct eacc as [|e es].
  - rewrite (escof_nil_inv x acc He). rewrite Hfact by lia.
    rewrite (parses_nil _ _ _ _ _ (S f) H) by lia. reflexivity.
  - rewrite Hfact by lia. rewrite (parses_nil _ _ _ _ _ f H) by lia. cbn [pc_cons].
    rewrite (flushT_nonempty x (e :: es) acc He) by discriminate. reflexivity.
Qed.

(* the scanner's tests on the first units of a concrete piece of markup, evaluated *)
Ltac evalp := cbn [parse_content prefix_b skipn andb N.eqb Pos.eqb app].

Lemma comment_reads : forall x d, no2 45 45 (d ++ [45]) = true -> no_eol x d = true ->
  reads_node x (ser_gStartComment ++ d ++ ser_gEndComment) (Comment d) 0.
Proof.
  intros x d H1 H2. split; [eexists; reflexivity|]. split; [discriminate|]. intros f T' _.
  change ser_gStartComment with [60; 33; 45; 45]. change ser_gEndComment with [45; 45; 62].
  rewrite <- !app_assoc. cbn [app]. evalp.
  rewrite scan2_app by exact H1. cbn [rev app N.eqb Pos.eqb]. rewrite norm_eol_id by exact H2. reflexivity.
Qed.

Lemma cdata_reads : forall x p, no_cdata_end p = true -> no_eol x p = true ->
  reads_node x (ser_gStartCDATA ++ p ++ ser_gEndCDATA) (CData p) 0.
Proof.
  intros x p H1 H2. split; [eexists; reflexivity|]. split; [discriminate|]. intros f T' _.
  change ser_gStartCDATA with [60; 33; 91; 67; 68; 65; 84; 65; 91]. change ser_gEndCDATA with [93; 93; 62].
  rewrite <- !app_assoc. cbn [app]. evalp.
  rewrite scan_cdata_piece by (apply nce_app_brackets; exact H1). cbn [rev app]. rewrite norm_eol_id by exact H2. reflexivity.
Qed.

Lemma name_unit_not_delim : forall c, name_unit c = true ->
  (47 =? c) = false /\ (33 =? c) = false /\ (63 =? c) = false /\ (c =? 60) = false /\ (60 =? c) = false.
Proof. intros c H. unfold name_unit, is_ws in H. lia. Qed.

(* used as [rewrite En at 1]: the first occurrence of the name is the scrutinee of the scanner's
   [match name with [] => None | _ => ...], which only gets past its first case on a cons *)
Lemma name_ok_inv : forall n, name_ok n = true -> exists c r, n = c :: r /\ name_unit c = true /\ forallb name_unit n = true.
Proof.
  intros [|c r] H; [discriminate|]. exists c, r. split; [reflexivity|]. unfold name_ok in H. split; [|exact H].
  cbn [forallb] in H. apply andb_true_iff in H. tauto.
Qed.

Lemma pi_reads : forall x t d, name_ok t = true -> list_eqb t xml_target = false ->
  no2 63 62 (d ++ [63]) = true -> no_eol x d = true ->
  match d with c :: _ => is_ws c = false | [] => True end ->
  reads_node x (ser_gStartPI ++ t ++ (match d with [] => [] | _ => 32 :: d end) ++ ser_gEndPI) (PI t d) 0.
Proof.
  intros x t d Ht Hx H1 H2 Hw. split; [eexists; reflexivity|]. split; [discriminate|]. intros f T' _.
  change ser_gStartPI with [60; 63]. change ser_gEndPI with [63; 62].
  destruct (name_ok_inv t Ht) as [c [r [Et [Hc Hall]]]].
  (* after the target: nothing, or a blank and data that does not begin with white space *)
  set (sep := match d with [] => [] | _ => 32 :: d end).
  assert (Hsep : starts_non_name (sep ++ 63 :: 62 :: T') /\ skip_ws (sep ++ 63 :: 62 :: T') = d ++ 63 :: 62 :: T').
  { unfold sep. destruct d as [|d0 d']; [split; reflexivity|]. split; [reflexivity|].
    cbn [app skip_ws]. change (is_ws 32) with true. cbv iota. rewrite Hw. reflexivity. }
  destruct Hsep as [Hs1 Hs2].
  rewrite <- !app_assoc. cbn [app]. evalp. rewrite (take_name_app t _ Hall Hs1). rewrite Et at 1. cbv iota beta.
  rewrite Hs2, (scan2_app 63 62 d T' [] H1), Hx. cbn [rev app]. rewrite norm_eol_id by exact H2. reflexivity.
Qed.

Definition tail_close (tail : list N) : Prop := match tail with c :: _ => c = 47 \/ c = 62 | [] => False end.

Lemma attr_value_reads : forall cf v, c_fixed cf = true -> can_uniform (c_can cf) -> units16 v ->
  valid_string true (c_xml11 cf) v = true ->
  unescape_parse true (c_xml11 cf) (data16 cf AttrEscapes v) = Some v /\ none_is 34 (data16 cf AttrEscapes v) = true.
Proof.
  intros cf v Hf Hu H16 Hv.
  assert (E : unescape_parse true (c_xml11 cf) (data16 cf AttrEscapes v) = Some v).
  { rewrite data16_fixed by exact Hf. apply reads_parse, (format16_reads true AttrEscapes); [right; split; reflexivity|exact Hu|].
    apply (valid_is_xml _ _ v Hv H16). }
  split; [exact E|]. unfold unescape_parse in E. destruct (unesc_no_lt _ _ _ _ _ E) as [_ H]. apply H. reflexivity.
Qed.

Lemma attrs_parse : forall cf, c_fixed cf = true -> can_uniform (c_can cf) -> forall attrs ar,
  ser_attrs cf attrs = Ok ar -> forallb (fun a => name_ok (fst a)) attrs = true ->
  Forall (fun a => units16 (snd a)) attrs ->
  forall tail f, tail_close tail -> (length attrs + 1 <= f)%nat ->
  parse_attrs (c_xml11 cf) f (ar ++ tail) = Some (attrs, tail).
Proof.
  intros cf Hf Hu. induction attrs as [|[n v] r IH]; intros ar H Hn H16 tail f Ht Hfu.
  - cbn [ser_attrs] in H. injection H as H. subst ar. cbn [app]. destruct f as [|f]; [exfalso; clear -Hfu; cbn [length] in Hfu; lia|].
    destruct tail as [|c t]; [destruct Ht|]. cbn [parse_attrs].
    destruct (N.eqb_spec c 32) as [E|_]; [subst; cbn [tail_close] in Ht; lia|reflexivity].
  - destruct (ser_attrs_cons_ok cf n v r ar Hf H) as [o [_ [Ev [Er ->]]]].
    cbn [forallb fst] in Hn. apply andb_true_iff in Hn. destruct Hn as [Hn0 Hnr].
    inversion H16 as [|a l Hv16 Hr16]; subst. cbn [snd] in Hv16.
    destruct (attr_value_reads cf v Hf Hu Hv16 Ev) as [Eu E34].
    destruct (name_ok_inv n Hn0) as [c0 [n0 [En0 [Hc0 Hall]]]].
    (* the fuel arithmetic is given to lia alone: the context is full of boolean hypotheses it would split on *)
    destruct f as [|f]; [exfalso; clear -Hfu; cbn [length] in Hfu; lia|]. cbn [length] in Hfu.
    repeat first [rewrite <- app_assoc | progress cbn [app]]. cbn [parse_attrs]. cbn [N.eqb Pos.eqb].
    rewrite (take_name_app n (61 :: 34 :: data16 cf AttrEscapes v ++ 34 :: o ++ tail) Hall eq_refl).
    rewrite En0 at 1. cbv iota beta. cbn [prefix_b skipn N.eqb Pos.eqb andb].
    rewrite (span_until_app 34 (data16 cf AttrEscapes v) (34 :: o ++ tail) E34 eq_refl).
    rewrite Eu. rewrite (IH o Er Hnr Hr16 tail f Ht) by (clear -Hfu; lia). reflexivity.
Qed.

Lemma ser_attrs_head : forall cf attrs ar tail, c_fixed cf = true -> ser_attrs cf attrs = Ok ar -> tail_close tail ->
  starts_non_name (ar ++ tail).
Proof.
  intros cf attrs ar tail Hf Ha Ht. destruct attrs as [|[an av] ra].
  - injection Ha as <-. destruct tail as [|c t]; [exact I|]. destruct Ht as [->| ->]; reflexivity.
  - destruct (ser_attrs_cons_ok cf an av ra ar Hf Ha) as [o [_ [_ [_ ->]]]]. reflexivity.
Qed.

Lemma start_tag_parse : forall cf, c_fixed cf = true -> can_uniform (c_can cf) -> forall name attrs ar f tail,
  name_ok name = true -> ser_attrs cf attrs = Ok ar -> forallb (fun a => name_ok (fst a)) attrs = true ->
  Forall (fun a => units16 (snd a)) attrs -> (length attrs + 1 <= f)%nat -> tail_close tail ->
  parse_content (c_xml11 cf) (S f) (60 :: name ++ ar ++ tail) =
  if prefix_b [47; 62] tail then pc_cons (Elem name attrs []) (parse_content (c_xml11 cf) f (skipn 2 tail))
  else if prefix_b [62] tail then
    match parse_content (c_xml11 cf) f (skipn 1 tail) with
    | Some (kids, r3) =>
      if prefix_b ([60; 47] ++ name ++ [62]) r3
      then pc_cons (Elem name attrs kids) (parse_content (c_xml11 cf) f (skipn (3 + length name) r3))
      else None
    | None => None
    end
  else None.
Proof.
  intros cf Hf Hu name attrs ar f tail Hn Ha Han H16 Hfu Ht.
  destruct (name_ok_inv name Hn) as [c0 [n0 [En [Hc0 Hall]]]].
  destruct (name_unit_not_delim c0 Hc0) as [H47 [H33 [H63 [H60 H60']]]].
  rewrite En at 1. cbn [app parse_content prefix_b]. rewrite H47, H33, H63. cbn [N.eqb Pos.eqb andb].
  change (c0 :: n0 ++ ar ++ tail) with ((c0 :: n0) ++ ar ++ tail). rewrite <- En.
  rewrite (take_name_app name _ Hall (ser_attrs_head cf attrs ar tail Hf Ha Ht)).
  rewrite (attrs_parse cf Hf Hu attrs ar Ha Han H16 tail f Ht Hfu).
  rewrite En at 1. reflexivity.
Qed.

Lemma elem_empty_reads : forall cf, c_fixed cf = true -> can_uniform (c_can cf) -> forall name attrs ar,
  name_ok name = true -> ser_attrs cf attrs = Ok ar -> forallb (fun a => name_ok (fst a)) attrs = true ->
  Forall (fun a => units16 (snd a)) attrs ->
  reads_node (c_xml11 cf) ((60 :: name) ++ ar ++ [47; 62]) (Elem name attrs []) (length attrs + 1).
Proof.
  intros cf Hf Hu name attrs ar Hn Ha Han H16. split; [eexists; reflexivity|]. split; [discriminate|]. intros f T' Hfu.
  cbn [app]. rewrite <- !app_assoc. cbn [app].
  rewrite (start_tag_parse cf Hf Hu name attrs ar f (47 :: 62 :: T')) by (assumption || (left; reflexivity)).
  reflexivity.
Qed.

Lemma elem_kids_reads : forall cf, c_fixed cf = true -> can_uniform (c_can cf) -> forall name attrs ar body Lb wb,
  name_ok name = true -> ser_attrs cf attrs = Ok ar -> forallb (fun a => name_ok (fst a)) attrs = true ->
  Forall (fun a => units16 (snd a)) attrs ->
  (forall T' f', (wb <= f')%nat ->
     parse_content (c_xml11 cf) f' (body ++ ([60; 47] ++ name ++ [62]) ++ T') = Some (Lb, ([60; 47] ++ name ++ [62]) ++ T')) ->
  reads_node (c_xml11 cf) ((60 :: name) ++ ar ++ [62] ++ body ++ ser_gEndElement ++ name ++ [62]) (Elem name attrs Lb)
             (length attrs + 1 + wb).
Proof.
  intros cf Hf Hu name attrs ar body Lb wb Hn Ha Han H16 Hbody.
  split; [eexists; reflexivity|]. split; [discriminate|]. intros f T' Hfu. change ser_gEndElement with [60; 47].
  replace (((60 :: name) ++ ar ++ [62] ++ body ++ [60; 47] ++ name ++ [62]) ++ T')
    with (60 :: name ++ ar ++ 62 :: body ++ ([60; 47] ++ name ++ [62]) ++ T')
    by (repeat first [progress cbn [app] | rewrite <- app_assoc]; reflexivity).
  rewrite (start_tag_parse cf Hf Hu name attrs ar f (62 :: body ++ ([60; 47] ++ name ++ [62]) ++ T'))
    by (assumption || lia || (right; reflexivity)).
  cbn [prefix_b skipn N.eqb Pos.eqb andb]. rewrite (Hbody T' f) by lia. rewrite prefix_b_app.
  replace (3 + length name)%nat with (length ([60; 47] ++ name ++ [62])) by (rewrite !app_length; cbn [length]; lia).
  rewrite skipn_app_exact. reflexivity.
Qed.
