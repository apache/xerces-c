(** C12 lemmas, part f: what ensureValidString accepts is a string of XML characters. *)
From Coq Require Import ZArith ZifyBool ZifyN ZifyNat Lia.
From XV Require Import C05.Spec05 C05.Model05 C12.Spec12 C12.Model12 C12.SpecTree12 C12.Proofs12a C12.Proofs12b.
Local Open Scope N_scope.

Definition units16 (s : list N) : Prop := Forall (fun c => c < 65536) s.

Lemma valid_string_ind : forall refs x (P : list N -> Prop), P [] ->
  (forall c r, char_unit refs x c = true -> P r -> P (c :: r)) ->
  (forall c d r, char_unit refs x c = false -> is_high c = true -> is_low d = true -> P r -> P (c :: d :: r)) ->
  forall s, valid_string refs x s = true -> P s.
Proof. intros refs x. apply (pair_scan_ind (char_unit refs x) is_high is_low (valid_string refs x)). reflexivity. Qed.

Lemma valid_is_xml : forall refs x s, valid_string refs x s = true -> units16 s -> xml_string x s = true.
Proof.
  intros refs x. apply (valid_string_ind refs x (fun s => units16 s -> xml_string x s = true)).
  - reflexivity.
  - intros c r Ec IH Hu. inversion Hu as [|c' r' Hc Hr]; subst. cbn [xml_string].
    assert (Hb : bmp_char x c = true).
    { unfold char_unit, char11_unit, char11_data, char10_unit in Ec. unfold bmp_char. destruct x, refs; lia. }
    rewrite Hb. apply IH. exact Hr.
  - intros c d r Ec Eh El IH Hu. inversion Hu as [|c' r' Hc Hr]; subst. inversion Hr as [|d' r2' Hd Hr2]; subst.
    rewrite is_high_spec in Eh by exact Hc. rewrite is_low_spec in El by exact Hd. cbn [xml_string].
    assert (Hb : bmp_char x c = false) by (unfold hi_sur in Eh; unfold bmp_char; destruct x; lia).
    rewrite Hb, Eh, El. apply IH. exact Hr2.
Qed.

Lemma u16b_units : forall s, u16b s = true -> units16 s.
Proof.
  intros s H. unfold u16b in H. rewrite forallb_forall in H. apply Forall_forall. intros c Hc.
  specialize (H c Hc). apply N.ltb_lt. exact H.
Qed.

Lemma u16b_attrs : forall (a : list (list N * list N)), forallb (fun p => u16b (snd p)) a = true ->
  Forall (fun p => units16 (snd p)) a.
Proof.
  intros a H. rewrite forallb_forall in H. apply Forall_forall. intros p Hp. apply u16b_units. apply H. exact Hp.
Qed.

Lemma data16_fixed : forall cf m s, c_fixed cf = true ->
  data16 cf m s = format16 (c_can cf) (c_xml11 cf) m UnRep_CharRef s.
Proof. intros cf m s H. unfold data16, inl_of, format16, format_calls. rewrite H. reflexivity. Qed.
