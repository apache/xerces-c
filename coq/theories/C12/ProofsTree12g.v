(** C12 tree-level lemmas, part g: [unwritable], the places where the model refuses a tree; an error among the
    attributes or the children is an error of the whole. *)
From Coq Require Import ZArith ZifyBool ZifyN ZifyNat Lia.
From XV Require Import C05.Spec05 C05.Model05 C12.Spec12 C12.Model12 C12.SpecTree12 C12.ProofsTree12a.
Local Open Scope N_scope.

(** a place where the tree cannot be written as well-formed XML in the configuration, as far as the model checks *)
Inductive unwritable (cf : scfg) : node -> Prop :=
| UW_text : forall s, valid_string true (c_xml11 cf) s = false -> unwritable cf (Text s)
| UW_cdata_chars : forall s, valid_string false (c_xml11 cf) s = false -> unwritable cf (CData s)
| UW_cdata_nested : forall s, c_split cf = false -> (1 < length (cdata_pieces_old s []))%nat -> unwritable cf (CData s)
| UW_cdata_unrep : forall s, c_split cf = false -> forallb (c_can cf) s = false -> unwritable cf (CData s)
| UW_comment_chars : forall s, valid_string false (c_xml11 cf) s = false -> unwritable cf (Comment s)
| UW_comment_unrep : forall s, forallb (c_can cf) s = false -> unwritable cf (Comment s)
| UW_comment_dashes : forall s, occurs2 45 45 s || ends_with 45 s = true -> unwritable cf (Comment s)
| UW_pi_end : forall t d, occurs2 63 62 d = true -> unwritable cf (PI t d)
| UW_pi_chars : forall t d, valid_string false (c_xml11 cf) t && valid_string false (c_xml11 cf) d = false ->
                unwritable cf (PI t d)
| UW_pi_unrep : forall t d, forallb (c_can cf) t && forallb (c_can cf) d = false -> unwritable cf (PI t d)
| UW_name : forall n a k, forallb (c_can cf) n = false -> unwritable cf (Elem n a k)
| UW_attr_name : forall n a k an av, In (an, av) a -> forallb (c_can cf) an = false -> unwritable cf (Elem n a k)
| UW_attr_value : forall n a k an av, In (an, av) a -> valid_string true (c_xml11 cf) av = false ->
                  unwritable cf (Elem n a k)
| UW_kid : forall n a kids k, In k kids -> unwritable cf k -> unwritable cf (Elem n a kids).

Lemma ser_attrs_err : forall cf a an av, c_fixed cf = true -> In (an, av) a ->
  forallb (c_can cf) an = false \/ valid_string true (c_xml11 cf) av = false -> is_err (ser_attrs cf a).
Proof.
  intros cf a an av Hf. induction a as [|[n v] r IH]; intros Hin Hbad; [destruct Hin|].
  cbn [ser_attrs]. rewrite Hf. destruct Hin as [E|Hin].
  - injection E as E1 E2. subst n v. destruct Hbad as [Hb|Hb].
    + apply bind_err, (markup_part cf _ an Hb), incl_tl, incl_refl.
    + apply bind_err2. intros nm. rewrite Hb. eexists. reflexivity.
  - apply bind_err2. intros nm. destruct (negb (valid_string true (c_xml11 cf) v)); [eexists; reflexivity|].
    apply bind_err. apply IH; assumption.
Qed.

Lemma ser_kids_err : forall cf kids k, In k kids -> is_err (ser_node cf k) -> is_err (ser_kids cf kids).
Proof.
  intros cf. induction kids as [|x r IH]; intros k Hin He; [destruct Hin|].
  rewrite ser_kids_cons. destruct Hin as [E|Hin].
  - subst x. apply bind_err. exact He.
  - apply bind_err2. intros a. apply bind_err. apply (IH k); assumption.
Qed.

