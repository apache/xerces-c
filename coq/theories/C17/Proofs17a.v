(** C17 proofs, part a: the lockset theorem (mutual exclusion, race freedom, stability inside critical sections)
    for arbitrary many threads and all interleavings. *)
From Coq Require Import List Arith Bool Lia.
Import ListNotations.
From XV Require Import C17.Model17.

Lemma nth_set_nth : forall A (l : list A) i j a,
  nth_error (set_nth l i a) j =
  if Nat.eqb i j then (match nth_error l i with Some _ => Some a | None => None end) else nth_error l j.
Proof.
  induction l as [|b l IH]; intros i j a.
  - destruct i, j; cbn; try reflexivity; destruct (Nat.eqb i j); reflexivity.
  - destruct i, j; cbn; try reflexivity. apply IH.
Qed.

Lemma set_nth_cases : forall A (l : list A) i a told j t,
  nth_error l i = Some told -> nth_error (set_nth l i a) j = Some t -> j = i /\ t = a \/ j <> i /\ nth_error l j = Some t.
Proof.
  intros A l i a told j t Hold H. rewrite nth_set_nth in H. destruct (Nat.eqb_spec i j) as [<-|N]; [left|right; auto].
  rewrite Hold in H. inversion H. auto.
Qed.

Arguments set_nth_cases {A l i a told j t}.

Lemma length_set_nth : forall A (l : list A) i a, length (set_nth l i a) = length l.
Proof. induction l as [|b l IH]; intros [|i] a; cbn; auto. Qed.

Lemma upd_same : forall f x w, upd f x w x = w.
Proof. intros. unfold upd. rewrite Nat.eqb_refl. reflexivity. Qed.
Lemma upd_other : forall f x w y, y <> x -> upd f x w y = f y.
Proof. intros f x w y N. unfold upd. destruct (Nat.eqb_spec y x); [contradiction|reflexivity]. Qed.

Lemma in_remove_mutex : forall m m' h, In m (remove_mutex m' h) <-> In m h /\ m <> m'.
Proof.
  intros m m' h. unfold remove_mutex. rewrite filter_In. split; intros [H1 H2]; split; auto.
  - intros ->. rewrite Nat.eqb_refl in H2. discriminate.
  - destruct (Nat.eqb_spec m m'); [contradiction|reflexivity].
Qed.

Definition excl (m : mutex) (ts : list thread) : Prop :=
  forall i j ti tj, i <> j -> nth_error ts i = Some ti -> nth_error ts j = Some tj -> holds m ti -> holds m tj -> False.

Lemma excl_update : forall m ts i told t',
  excl m ts -> nth_error ts i = Some told -> (holds m t' -> holds m told \/ free m ts) -> excl m (set_nth ts i t').
Proof.
  intros m ts i told t' E Hold Hh a b ta tb Hab Ha Hb Hma Hmb.
  destruct (set_nth_cases Hold Ha) as [[-> ->]|[_ Ha']];
    destruct (set_nth_cases Hold Hb) as [[-> ->]|[_ Hb']].
  - congruence.
  - destruct (Hh Hma) as [Ho|Hf].
    + exact (E i b told tb Hab Hold Hb' Ho Hmb).
    + exact (Hf tb (nth_error_In _ _ Hb') Hmb).
  - destruct (Hh Hmb) as [Ho|Hf].
    + exact (E a i ta told Hab Ha' Hold Hma Ho).
    + exact (Hf ta (nth_error_In _ _ Ha') Hma).
  - exact (E a b ta tb Hab Ha' Hb' Hma Hmb).
Qed.

Section Lockset.
  Variables (x : loc) (m : mutex).

  Definition TInv (ts : list thread) : Prop :=
    (forall i t, nth_error ts i = Some t -> guarded x m (held t) (code t)) /\ excl m ts.

  Lemma tinv_update : forall ts i told t',
    TInv ts -> nth_error ts i = Some told -> guarded x m (held t') (code t') ->
    (holds m t' -> holds m told \/ free m ts) -> TInv (set_nth ts i t').
  Proof.
    intros ts i told t' [G E] Hold Gt Hh. split; [|exact (excl_update m ts i told t' E Hold Hh)].
    intros j t Hj. destruct (set_nth_cases Hold Hj) as [[-> ->]|[_ Hj']]; [exact Gt|exact (G j t Hj')].
  Qed.

  Lemma tinv_step : forall s i s', TInv (thr s) -> step s i s' -> TInv (thr s').
  Proof.
    intros s i s' I St. pose proof I as [G E].
    inversion St; subst; cbn [thr];
      match goal with H : nth_error (thr s) i = Some ?t |- _ => pose proof (G i t H) as Gt; cbn [held code guarded] in Gt end.
    all: eapply (tinv_update _ _ _ _ I H); cbn [held code]; [apply Gt|].
    (* acquire and release first; the other five steps keep the set of held mutexes *)
    1: { intros [->|Hin]; [right; assumption|left; exact Hin]. }
    1: { intros Hin. left. apply in_remove_mutex in Hin. apply Hin. }
    all: intros Hin; left; exact Hin.
  Qed.

  Lemma tinv_init : forall ps, Forall (guarded x m []) ps -> TInv (map (mkT []) ps).
  Proof.
    intros ps F. split.
    - intros i t Hi. rewrite nth_error_map in Hi. destruct (nth_error ps i) as [p|] eqn:Ep; [|discriminate].
      inversion Hi; subst. cbn. rewrite Forall_forall in F. apply F. eapply nth_error_In; eauto.
    - intros i j ti tj _ Hi _ Hm _. rewrite nth_error_map in Hi. destruct (nth_error ps i); [|discriminate].
      inversion Hi; subst. exact Hm.
  Qed.

  Lemma tinv_reach : forall m0 ps s, Forall (guarded x m []) ps -> reach (init_state m0 ps) s -> TInv (thr s).
  Proof.
    intros m0 ps s F R. induction R.
    - apply tinv_init. exact F.
    - eapply tinv_step; eauto.
  Qed.

  Lemma access_needs_lock : forall t, guarded x m (held t) (code t) -> accesses x (code t) -> holds m t.
  Proof.
    intros [h p] G A. cbn in *. destruct p; cbn in A; destruct A as [A|A]; try contradiction; cbn in G; apply G; exact A.
  Qed.

  Lemma tinv_no_race : forall s, TInv (thr s) -> ~ race_at x s.
  Proof.
    intros s [G E] (i & j & ti & tj & Hij & Hi & Hj & Ai & Aj & _).
    exact (E i j ti tj Hij Hi Hj (access_needs_lock _ (G _ _ Hi) Ai) (access_needs_lock _ (G _ _ Hj) Aj)).
  Qed.

  Lemma tinv_mutex : forall s, TInv (thr s) -> ~ both_inside m s.
  Proof. intros s [_ E] (i & j & ti & tj & Hij & Hi & Hj & Mi & Mj). exact (E i j ti tj Hij Hi Hj Mi Mj). Qed.

  (** while thread [i] is inside its critical section, a step of any other thread leaves [x] unchanged: the body of
      the critical section sees [x] exactly as in a sequential execution *)
  Lemma tinv_stable : forall s i ti j s', TInv (thr s) -> nth_error (thr s) i = Some ti -> holds m ti ->
    i <> j -> step s j s' -> mem s' x = mem s x.
  Proof.
    intros s i ti j s' [G E] Hi Hm Hij St. inversion St; subst; cbn [mem]; try reflexivity.
    destruct (Nat.eq_dec x x0) as [->|N]; [|apply upd_other; exact N]. exfalso.
    match goal with H : nth_error (thr s) j = Some ?t |- _ => pose proof (G j t H) as Gt; cbn in Gt;
      exact (E i j ti t Hij Hi H Hm (proj1 Gt eq_refl)) end.
  Qed.

  Theorem lockset_sound : forall m0 ps, Forall (guarded x m []) ps ->
    forall s, reach (init_state m0 ps) s ->
      ~ race_at x s /\ ~ both_inside m s /\
      (forall i ti j s', nth_error (thr s) i = Some ti -> holds m ti -> i <> j -> step s j s' -> mem s' x = mem s x).
  Proof.
    intros m0 ps F s R. pose proof (tinv_reach m0 ps s F R) as I. split; [|split].
    - apply tinv_no_race; exact I.
    - apply tinv_mutex; exact I.
    - intros. eapply tinv_stable; eauto.
  Qed.
End Lockset.
