(** Property C17 -- Distinct parser, document and transcoder objects are safe to use concurrently.

    CLAIM: PARTIAL.  Proved for ANY number of threads and ALL interleavings of the model (Model17.v); the measured
    inventory of this build (T17_inventory, regenerated on every run) ties the model's classes to the code.
    What the model cannot exhibit: the C++ memory model below mutex granularity, heap objects shared in ways the
    inventory does not list, ICU / libc internals.  Those rest on the ThreadSanitizer exploration run by
    checks/C17.py, which is labelled as exploration in the evidence. *)
From Coq Require Import List Arith Bool String.
Import ListNotations.
From XV Require Import C17.Model17 C17.Proofs17a C17.Proofs17b C17.Proofs17c C17.Proofs17d C17.Proofs17e C17.Classify17.

(** a location accessed only under its mutex: no race, mutual exclusion, and the location is stable inside the
    critical section (so a sequential argument about the body applies) *)
Theorem T17_lockset : forall x m m0 ps, Forall (guarded x m []) ps ->
  forall s, reach (init_state m0 ps) s ->
    ~ race_at x s /\ ~ both_inside m s /\
    (forall i ti j s', nth_error (thr s) i = Some ti -> holds m ti -> i <> j -> step s j s' -> mem s' x = mem s x).
Proof. exact lockset_sound. Qed.
Print Assumptions T17_lockset.

(** the generated obligation: the measured symbols, access sites, Initialize/Terminate lists, fLocked-dominated pool
    writes and RangeToken states of this build satisfy the committed classification *)
Theorem T17_inventory : inventory_ok = true.
Proof.
  destruct (walk_sound _ _ _ _ inventory_walk) as (A & B & C & _).
  unfold inventory_ok.
  rewrite (A : all_classified = true), (B : all_sites_ok = true), (C : guarded_nonvacuous = true).
  vm_compute. reflexivity.
Qed.
Print Assumptions T17_inventory.

(** every symbol of this build that the table classifies as a known defect has a store outside any lock and outside the
    Initialize/Terminate tree (a build in which no symbol is so classified satisfies this trivially) *)
Theorem T17_inventory_racy_confirmed : racy_confirmed = true.
Proof. destruct (walk_sound _ _ _ _ inventory_walk) as (_ & _ & _ & R & _). exact R. Qed.
Print Assumptions T17_inventory_racy_confirmed.

(** class InitOnly: written by the main thread before it releases the workers (the Initialize barrier) *)
Theorem T17_initonly : forall x m0 p0 ws, initphase x p0 -> Forall (worker x) ws ->
  forall s, reach (init_state m0 (p0 :: ws)) s -> ~ race_at x s.
Proof. exact initonly_race_free. Qed.
Print Assumptions T17_initonly.

(** lock-then-check-then-initialise: the body "data := data + v" runs at most once (never 2v) and every caller returns
    the built value *)
Theorem T17_lazy_once : forall m flag data v, flag <> data -> forall N m0, m0 flag = 0 -> m0 data = 0 ->
  forall s, reach (init_state m0 (repeat (lazy_get m flag data v) N)) s ->
    (mem s data = 0 \/ mem s data = v) /\
    (forall i t r, nth_error (thr s) i = Some t -> code t = Done r -> r = v) /\
    ~ both_inside m s.
Proof. exact lazy_once. Qed.
Print Assumptions T17_lazy_once.

(** threads that only read shared state compute what each computes alone; with T17_lazy_once and
    [lazy_sequential_value] this is "same results as single-threaded" for the model *)
Theorem T17_determinacy : forall m0 ps, Forall readonly ps ->
  forall s, reach (init_state m0 ps) s ->
    (forall y, mem s y = m0 y) /\
    forall i t p v, nth_error (thr s) i = Some t -> nth_error ps i = Some p -> code t = Done v ->
      exists fuel, run_alone fuel m0 p = Some (v, m0).
Proof. exact readonly_determinate. Qed.
Print Assumptions T17_determinacy.

(** parsers sharing a LOCKED pool: registry unchanged, URI ids stable and unique *)
Theorem T17_locked_pool_readonly : forall p ops, locked p = true ->
  locked (pool_run p ops) = true /\ registry (pool_run p ops) = registry p /\
  (forall u i, uri_id p u = Some i -> uri_id (pool_run p ops) u = Some i) /\
  (forall u1 u2 i, uri_id (pool_run p ops) u1 = Some i -> uri_id (pool_run p ops) u2 = Some i -> u1 = u2).
Proof.
  intros p ops L. destruct (pool_run_locked ops p L) as [A B]. split; [exact A|split; [exact B|split]].
  - intros u i. apply pool_run_uri.
  - intros u1 u2 i. apply uri_id_injective.
Qed.
Print Assumptions T17_locked_pool_readonly.

(** RangeTokenMap::getRange with the lazy publication, for every order and number of requests (the slow path runs
    under the map's mutex, so requests are serialised: T17_lockset) *)
Theorem T17_getrange : forall (T : Type) (compl : T -> T) (e : slots T) (reqs : list bool),
  slots_wf T compl e ->
  s_pos T (run_requests T compl e reqs) = s_pos T e /\
  slots_wf T compl (run_requests T compl e reqs) /\
  (forall p, s_pos T e = Some p -> In true reqs -> s_neg T (run_requests T compl e reqs) = Some (compl p)).
Proof.
  intros T compl e reqs W. split; [apply run_requests_pos|split; [apply run_requests_wf; exact W|]].
  intros p Hp Hin. apply run_requests_neg; assumption.
Qed.
Print Assumptions T17_getrange.

(** a complement request on a keyword with only the positive token: the model publishes into the complement slot and
    leaves the positive slot alone (the default argument of setRangeToken would have overwritten it) *)
Example getrange_wrong_slot_differs :
  let e := mkSlots nat (Some 5) None in
  s_pos nat (fst (get_range nat (fun n => 100 - n) e true)) = Some 5 /\ s_neg nat (fst (get_range nat (fun n => 100 - n) e true)) = Some 95.
Proof. split; reflexivity. Qed.

(** Bounded exhaustive exploration of the executable semantics [step_fn] / [explore] with the boolean race test
    [race_in]: EXAMPLES about 2-3 threads; no lemma ties [step_fn] / [race_in] to [step] / [race_at]. *)
Definition mem0 : memory := fun _ => 0.

Example lockset_hyp_satisfiable : Forall (guarded 0 5 []) [lazy_get 5 0 1 7; lazy_get 5 0 1 7].
Proof. repeat constructor; cbn; intros; destruct (Nat.eqb v 0); cbn; intuition (try discriminate; auto). Qed.

Example initonly_hyp_satisfiable :
  initphase 3 (PWr 3 9 (PSignal (PRd 3 (fun r => Done r)))) /\ Forall (worker 3) [PWait (PRd 3 (fun r => Done r)); PWait (PRd 3 (fun r => Done r))].
Proof. split; [cbn; auto|repeat constructor; cbn; auto]. Qed.

(** the UNSYNCHRONISED lazy initialisation (DOMDocumentImpl::isKidOK's kidOK, TraverseSchema's wsFacets: findings
    F17-1, F17-2) races on its data location with 2 threads, and its body can run twice (2v = 14) *)
Example T17_unsync_lazy_init_races :
  existsb (fun s => race_in 1 (thr s)) (explore 12 (init_state mem0 [lazy_get_unsync 0 1 7; lazy_get_unsync 0 1 7])) = true.
Proof. vm_compute. reflexivity. Qed.

Example T17_unsync_runs_twice :
  existsb (fun s => finished s && existsb (Nat.eqb 14) (results s))
          (explore 12 (init_state mem0 [lazy_get_unsync 0 1 7; lazy_get_unsync 0 1 7])) = true.
Proof. vm_compute. reflexivity. Qed.

(** F17-2: publishing the flag before the data lets a second thread finish with the unbuilt value 0 instead of 7 *)
Example T17_flag_first_refuted :
  existsb (fun s => finished s && existsb (Nat.eqb 0) (results s))
          (explore 12 (init_state mem0 [lazy_get_flag_first 0 1 7; lazy_get_flag_first 0 1 7])) = true.
Proof. vm_compute. reflexivity. Qed.

(** the double-checked variant (RangeTokenMap::getRange) races on its unlocked fast-path read when the table is NOT
    pre-built; the library avoids the slow path by building every range in Initialize (class InitBuilt) *)
Example T17_dcl_races_when_not_prebuilt :
  existsb (fun s => race_in 0 (thr s)) (explore 20 (init_state mem0 [dcl_get 5 0 1 7; dcl_get 5 0 1 7])) = true.
Proof. vm_compute. reflexivity. Qed.

Example T17_dcl_quiet_when_prebuilt :
  existsb (fun s => race_in 0 (thr s) || race_in 1 (thr s))
          (explore 20 (init_state (upd (upd mem0 0 1) 1 7) [dcl_get 5 0 1 7; dcl_get 5 0 1 7; dcl_get 5 0 1 7])) = false.
Proof. vm_compute. reflexivity. Qed.

Example T17_lazy_once_3threads_explored :
  forallb (fun s => negb (race_in 0 (thr s) || race_in 1 (thr s)) && (negb (finished s) || forallb (Nat.eqb 7) (results s)))
          (explore 30 (init_state mem0 [lazy_get 5 0 1 7; lazy_get 5 0 1 7; lazy_get 5 0 1 7])) = true.
Proof. vm_compute. reflexivity. Qed.

Example lazy_sequential_value : option_map fst (run_alone 20 mem0 (lazy_get 5 0 1 7)) = Some 7.
Proof. vm_compute. reflexivity. Qed.

(** the pool model does move when NOT locked (the read-only theorem is not trivially true) *)
Example pool_unlocked_changes : registry (pool_run (mkP [1] false []) [OpCache 2]) = [2; 1].
Proof. reflexivity. Qed.
Example pool_locked_keeps : registry (pool_run (mkP [1] true []) [OpCache 2; OpClear; OpOrphan 1; OpAddUri 9]) = [1].
Proof. reflexivity. Qed.
