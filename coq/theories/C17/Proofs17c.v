(** C17 proofs, part c: lock-then-check-then-initialise ([lazy_get]) run by any number of threads.  In every reachable
    state of every interleaving the initialiser body (data := data + v) has run at most once (data is 0 or v, never
    2v) and every finished caller has observed the fully built value v. *)
From Coq Require Import List Arith Bool Lia.
Import ListNotations.
From XV Require Import C17.Model17 C17.Proofs17a.

Section Lazy.
  Variables (m : mutex) (flag data : loc) (v : nat).
  Hypothesis flag_data : flag <> data.

  (** The program of [lazy_get] cut at every action, and the places ("pc") a thread can be at:
      0 before the acquire, 1 about to read the flag, 2 about to read the data (flag was 0), 3 about to write the data
      (the data read was 0, hence the [0 + v]), 4 about to set the flag, 5 about to release, 6 about to read the result,
      7 done with [v].  The system as a whole is in one of three phases: 0 nothing built (flag = 0, data = 0), 1 the data
      is written and its writer sits at pc 4 (flag = 0, data = v), 2 built (flag = 1, data = v); [allowed] says which pcs
      can occur in which phase. *)
  Definition fin : prog := PRd data (fun r => Done r).
  Definition pB : prog := PWr flag 1 (PRel m fin).
  Definition pA : prog := PRd data (fun d => PWr data (d + v) pB).
  Definition pK : nat -> prog := fun f => if Nat.eqb f 0 then pA else PRel m fin.

  Lemma lazy_get_eq : lazy_get m flag data v = PAcq m (PRd flag pK).
  Proof. reflexivity. Qed.

  Definition pc_of (t : thread) (n : nat) : Prop :=
    match n with
    | 0 => t = mkT [] (PAcq m (PRd flag pK))
    | 1 => t = mkT [m] (PRd flag pK)
    | 2 => t = mkT [m] pA
    | 3 => t = mkT [m] (PWr data (0 + v) pB)
    | 4 => t = mkT [m] pB
    | 5 => t = mkT [m] (PRel m fin)
    | 6 => t = mkT [] fin
    | 7 => t = mkT [] (Done v)
    | _ => False
    end.

  Definition allowed (ph n : nat) : Prop :=
    match ph with
    | 0 => n <= 3
    | 1 => n = 0 \/ n = 4
    | _ => n = 0 \/ n = 1 \/ n = 5 \/ n = 6 \/ n = 7
    end.

  Definition memok (ph : nat) (mm : memory) : Prop :=
    match ph with
    | 0 => mm flag = 0 /\ mm data = 0
    | 1 => mm flag = 0 /\ mm data = v
    | _ => mm flag = 1 /\ mm data = v
    end.

  Definition TOK (ph : nat) (t : thread) : Prop := exists n, pc_of t n /\ allowed ph n.
  (* [EXCL ts] is [Proofs17a.excl m ts] written out *)
  Definition EXCL (ts : list thread) : Prop :=
    forall i j ti tj, i <> j -> nth_error ts i = Some ti -> nth_error ts j = Some tj -> holds m ti -> holds m tj -> False.

  Definition Inv (s : state) : Prop :=
    exists ph, ph <= 2 /\ memok ph (mem s) /\ (forall i t, nth_error (thr s) i = Some t -> TOK ph t) /\ EXCL (thr s) /\
               (ph = 1 -> exists i t, nth_error (thr s) i = Some t /\ pc_of t 4).

  Lemma pc_holds : forall t n, pc_of t n -> (holds m t <-> 1 <= n <= 5).
  Proof.
    intros t n P. destruct n as [|[|[|[|[|[|[|[|n]]]]]]]]; cbn in P; try contradiction; subst t; unfold holds; cbn;
      (split; [intros H; try lia; try (destruct H as [H|H]; [lia|contradiction]); contradiction|intros H; try lia; left; reflexivity]).
  Qed.

  Lemma pc_le7 : forall t n, pc_of t n -> n <= 7.
  Proof. intros t n. destruct n as [|[|[|[|[|[|[|[|n]]]]]]]]; cbn; intros P; try lia; contradiction. Qed.

  Lemma rebuild : forall ts i told tnew ph' mem' st',
    nth_error ts i = Some told -> EXCL ts -> ph' <= 2 -> memok ph' mem' -> TOK ph' tnew ->
    (forall j t, j <> i -> nth_error ts j = Some t -> TOK ph' t) ->
    (holds m tnew -> holds m told \/ free m ts) ->
    (ph' = 1 -> pc_of tnew 4 \/ exists j t, j <> i /\ nth_error ts j = Some t /\ pc_of t 4) ->
    Inv (mkS mem' st' (set_nth ts i tnew)).
  Proof.
    intros ts i told tnew ph' mem' st' Hold E Hph M Tn To Hh H4. exists ph'. cbn [mem thr]. split; [exact Hph|]. split; [exact M|]. split; [|split].
    - intros j t Hj. destruct (set_nth_cases Hold Hj) as [[-> ->]|[Nj Hj']]; [exact Tn|exact (To j t Nj Hj')].
    - eapply excl_update; eauto.
    - intros E1. destruct (H4 E1) as [P|(j & t & Nj & Hj & P)].
      + exists i, tnew. split; [rewrite nth_set_nth, Nat.eqb_refl, Hold; reflexivity|exact P].
      + exists j, t. split; [rewrite nth_set_nth; destruct (Nat.eqb_spec i j); [congruence|exact Hj]|exact P].
  Qed.

  (** the pc of a thread inside the critical section tells the phase *)
  Lemma phase_of_pc : forall ph n, ph <= 2 -> allowed ph n ->
    (2 <= n <= 3 -> ph = 0) /\ (n = 4 -> ph = 1) /\ (5 <= n -> ph = 2).
  Proof. intros ph n Hph A. destruct ph as [|[|ph]]; cbn in A; lia. Qed.

  (** the other threads do not hold the mutex while [told] does, hence they sit at pc 0, 6 or 7, and those among these that the
      phase allows are allowed in the next phase too *)
  Lemma others_next_phase : forall ts i told ph, EXCL ts -> nth_error ts i = Some told -> holds m told -> ph <= 1 ->
    (forall j t, nth_error ts j = Some t -> TOK ph t) ->
    forall j t, j <> i -> nth_error ts j = Some t -> TOK (S ph) t.
  Proof.
    intros ts i told ph E Hold Hm Hph All j t Nj Hj. destruct (All j t Hj) as (n & P & A). exists n. split; [exact P|].
    assert (~ holds m t) as NH by (intros Hh; exact (E i j told t (not_eq_sym Nj) Hold Hj Hm Hh)).
    rewrite (pc_holds t n P) in NH. pose proof (pc_le7 t n P).
    destruct ph as [|[|ph]]; cbn in A |- *; lia.
  Qed.

  (** a step that changes neither the phase nor the memory: only the moving thread has to be looked at *)
  Lemma keep_phase : forall s i told tnew ph n st',
    nth_error (thr s) i = Some told -> EXCL (thr s) -> ph <= 2 -> memok ph (mem s) ->
    (forall j t, nth_error (thr s) j = Some t -> TOK ph t) -> ph <> 1 -> pc_of tnew n -> allowed ph n ->
    (holds m tnew -> holds m told \/ free m (thr s)) -> Inv (mkS (mem s) st' (set_nth (thr s) i tnew)).
  Proof.
    intros s i told tnew ph n st' Hn E Hph M All N1 P A Hh. apply (rebuild (thr s) i told tnew ph _ _ Hn E Hph M).
    - exists n. split; assumption.
    - intros j t _ Hj. exact (All j t Hj).
    - exact Hh.
    - intros E1. contradiction.
  Qed.

  Lemma Inv_step : forall s i s', Inv s -> step s i s' -> Inv s'.
  Proof.
    intros s i s' (ph & Hph & M & All & E & H4) St.
    destruct St as [s i h mx k Hn Hfree|s i h mx k Hn Hin|s i h x k Hn|s i h x w k Hn|s i h k Hn|s i h k Hn Hs|s i h k Hn];
      destruct (All i _ Hn) as (n & P & A);
      destruct n as [|[|[|[|[|[|[|[|n]]]]]]]]; cbn in P; try discriminate P; try contradiction;
      inversion P; subst; clear P.
    - (* pc0 -> pc1 : acquire; nobody sits at pc4, which holds the mutex, so the phase is not 1 *)
      assert (N1 : ph <> 1).
      { intros Eq. destruct (H4 Eq) as (j & t & Hj & P4). apply (Hfree t (nth_error_In _ _ Hj)), (pc_holds t 4 P4). lia. }
      apply (keep_phase s i _ _ ph 1 _ Hn E Hph M All N1); [reflexivity| |intros _; right; exact Hfree].
      destruct ph as [|[|ph]]; cbn in A |- *; lia.
    - (* pc5 -> pc6 : release *)
      assert (ph = 2) as Eph by (apply (phase_of_pc ph _ Hph A); lia). subst ph.
      apply (keep_phase s i _ _ 2 6 _ Hn E Hph M All); [discriminate| | |].
      + cbn. unfold remove_mutex. cbn. rewrite Nat.eqb_refl. reflexivity.
      + cbn. auto.
      + cbn. unfold holds, remove_mutex. cbn. rewrite Nat.eqb_refl. cbn. intros [].
    - (* pc1 : read the flag *)
      destruct ph as [|[|ph]]; cbn in A; try lia.
      + rewrite (proj1 M). apply (keep_phase s i _ _ 0 2 _ Hn E Hph M All); [discriminate|reflexivity|cbn; lia|].
        intros _. left. unfold holds. cbn. auto.
      + assert (ph = 0) as Eph by lia. subst ph. rewrite (proj1 M).
        apply (keep_phase s i _ _ 2 5 _ Hn E Hph M All); [discriminate|reflexivity|cbn; auto|].
        intros _. left. unfold holds. cbn. auto.
    - (* pc2 : read data (phase 0, data = 0) *)
      assert (ph = 0) as Eph by (apply (phase_of_pc ph _ Hph A); lia). subst ph. rewrite (proj2 M).
      apply (keep_phase s i _ _ 0 3 _ Hn E Hph M All); [discriminate|reflexivity|cbn; lia|].
      intros _. left. unfold holds. cbn. auto.
    - (* pc6 : final read of data (phase 2) *)
      assert (ph = 2) as Eph by (apply (phase_of_pc ph _ Hph A); lia). subst ph. rewrite (proj2 M).
      apply (keep_phase s i _ _ 2 7 _ Hn E Hph M All); [discriminate|reflexivity|cbn; auto 6|].
      unfold holds. cbn. intros [].
    - (* pc3 : write data (phase 0 -> 1) *)
      assert (ph = 0) as Eph by (apply (phase_of_pc ph _ Hph A); lia). subst ph.
      destruct M as [Mf Md].
      assert (holds m (mkT [m] (PWr data (0 + v) pB))) as Hm by (unfold holds; cbn; auto).
      eapply (rebuild (thr s) i _ _ 1 _ _ Hn E); [lia| | | | |].
      + cbn. rewrite upd_other by exact flag_data. rewrite upd_same. split; [exact Mf|reflexivity].
      + exists 4. split; [reflexivity|cbn; auto].
      + apply (others_next_phase _ _ _ 0 E Hn Hm); [lia|exact All].
      + intros _. left. exact Hm.
      + intros _. left. reflexivity.
    - (* pc4 : write flag (phase 1 -> 2) *)
      assert (ph = 1) as Eph by (apply (phase_of_pc ph _ Hph A); lia). subst ph.
      destruct M as [Mf Md].
      assert (holds m (mkT [m] pB)) as Hm by (unfold holds; cbn; auto).
      eapply (rebuild (thr s) i _ _ 2 _ _ Hn E); [lia| | | | |discriminate].
      + cbn. rewrite upd_same. rewrite upd_other by (intros Eq; apply flag_data; symmetry; exact Eq). split; [reflexivity|exact Md].
      + exists 5. split; [reflexivity|cbn; auto].
      + apply (others_next_phase _ _ _ 1 E Hn Hm); [lia|exact All].
      + intros _. left. exact Hm.
  Qed.

  Lemma Inv_init : forall N m0, m0 flag = 0 -> m0 data = 0 -> Inv (init_state m0 (repeat (lazy_get m flag data v) N)).
  Proof.
    intros N m0 Hf Hd. exists 0. split; [lia|]. split; [split; assumption|]. split; [|split].
    - intros i t Hi. cbn in Hi. rewrite nth_error_map in Hi. destruct (nth_error (repeat _ N) i) as [p|] eqn:Ep; [|discriminate].
      inversion Hi; subst t. apply nth_error_In in Ep. apply repeat_spec in Ep. subst p. exists 0. split; [reflexivity|cbn; lia].
    - intros i j ti tj _ Hi _ Hm _. cbn in Hi. rewrite nth_error_map in Hi. destruct (nth_error (repeat _ N) i); [|discriminate].
      inversion Hi; subst ti. exact Hm.
    - discriminate.
  Qed.

  Theorem lazy_once : forall N m0, m0 flag = 0 -> m0 data = 0 ->
    forall s, reach (init_state m0 (repeat (lazy_get m flag data v) N)) s ->
      (mem s data = 0 \/ mem s data = v) /\
      (forall i t r, nth_error (thr s) i = Some t -> code t = Done r -> r = v) /\
      ~ both_inside m s.
  Proof.
    intros N m0 Hf Hd s R.
    assert (Inv s) as (ph & Hph & M & All & E & _).
    { induction R; [apply Inv_init; assumption|eapply Inv_step; eauto]. }
    split; [|split].
    - destruct ph as [|[|ph]]; cbn in M; destruct M; auto.
    - intros i t r Hi Hc. destruct (All i t Hi) as (n & P & _).
      destruct n as [|[|[|[|[|[|[|[|n]]]]]]]]; cbn in P; try contradiction; subst t; cbn in Hc; try discriminate Hc.
      inversion Hc. reflexivity.
    - intros (i & j & ti & tj & Hij & Hi & Hj & Mi & Mj). exact (E i j ti tj Hij Hi Hj Mi Mj).
  Qed.
End Lazy.
