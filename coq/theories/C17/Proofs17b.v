(** C17 proofs, part b: the Initialize barrier.  A location that is written only by the main thread before it
    releases the workers (InitOnly) is race free, for any number of workers and all interleavings; and programs that
    never write any shared location compute what they compute alone (determinacy of read-only sharing). *)
From Coq Require Import List Arith Bool Lia.
Import ListNotations.
From XV Require Import C17.Model17 C17.Proofs17a.

(** one-step continuation of a program *)
Inductive succ : prog -> prog -> Prop :=
| su_acq : forall m k, succ (PAcq m k) k
| su_rel : forall m k, succ (PRel m k) k
| su_rd : forall x k v, succ (PRd x k) (k v)
| su_wr : forall x v k, succ (PWr x v k) k
| su_local : forall k, succ (PLocal k) k
| su_wait : forall k, succ (PWait k) k
| su_signal : forall k, succ (PSignal k) k.

Lemma step_shape : forall s i s', step s i s' ->
  exists told tnew, nth_error (thr s) i = Some told /\ thr s' = set_nth (thr s) i tnew /\ succ (code told) (code tnew) /\
    (forall k, code told = PWait k -> started s = true) /\
    ((started s' = started s /\ forall k, code told <> PSignal k) \/ (exists k, code told = PSignal k /\ started s' = true)).
Proof.
  intros s i s' St. inversion St; subst; cbn [thr started];
    (eexists; eexists; split; [eassumption|split; [reflexivity|split; [cbn [code]; constructor|split]]]);
    cbn [code]; try (intros; discriminate).
  all: try (left; split; [reflexivity|intros; discriminate]).
  - intros k0 E. inversion E; subst. assumption.
  - right. eexists. split; reflexivity.
Qed.

Section Barrier.
  Variable x : loc.

  Lemma nowrite_succ : forall p p', nowrite x p -> succ p p' -> nowrite x p'.
  Proof. intros p p' Hn Hs. inversion Hs; subst; cbn in Hn; auto. apply Hn. Qed.

  Lemma nosignal_succ : forall p p', nosignal p -> succ p p' -> nosignal p'.
  Proof. intros p p' Hn Hs. inversion Hs; subst; cbn in Hn; auto. contradiction. Qed.

  Lemma initphase_succ : forall p p', initphase x p -> succ p p' -> (forall k, p <> PSignal k) -> initphase x p'.
  Proof. intros p p' Hn Hs NS. inversion Hs; subst; cbn in Hn; auto. exfalso. eapply NS; reflexivity. Qed.

  Definition before_signal (ts : list thread) : Prop :=
    (exists t0, nth_error ts 0 = Some t0 /\ initphase x (code t0)) /\
    (forall j t, j <> 0 -> nth_error ts j = Some t -> worker x (code t)).
  Definition after_signal (ts : list thread) : Prop := forall j t, nth_error ts j = Some t -> nowrite x (code t).
  Definition barrier_inv (s : state) : Prop :=
    (started s = false /\ before_signal (thr s)) \/ (started s = true /\ after_signal (thr s)).

  Lemma worker_is_wait : forall p, worker x p -> exists k, p = PWait k /\ nowrite x k.
  Proof. intros p W. destruct p; cbn in W; try contradiction. eexists; split; [reflexivity|apply W]. Qed.

  Lemma barrier_step : forall s i s', barrier_inv s -> step s i s' -> barrier_inv s'.
  Proof.
    intros s i s' HJ St. destruct (step_shape _ _ _ St) as (told & tnew & Hold & Hthr & Hs & Hw & Hst).
    destruct HJ as [[Hf [[t0 [H0 I0]] W]]|[Ht B]].
    - (* before the signal: only the main thread can move *)
      destruct (Nat.eq_dec i 0) as [->|Ni].
      + rewrite H0 in Hold. inversion Hold; subst told.
        destruct Hst as [[Es NS]|[k [Ek Es]]].
        * left. split; [congruence|]. split.
          -- exists tnew. split; [rewrite Hthr, nth_set_nth, Nat.eqb_refl, H0; reflexivity|].
             eapply initphase_succ; eauto.
          -- intros j t Nj Hj. rewrite Hthr in Hj.
             destruct (set_nth_cases H0 Hj) as [[E _]|[_ Hj']]; [contradiction|exact (W j t Nj Hj')].
        * right. split; [exact Es|]. intros j t Hj. rewrite Hthr in Hj.
          destruct (set_nth_cases H0 Hj) as [[-> ->]|[Nj Hj']].
          -- rewrite Ek in I0, Hs. cbn in I0. inversion Hs; subst. apply I0.
          -- destruct (worker_is_wait _ (W j t Nj Hj')) as [k' [E N]]. rewrite E. exact N.
      + destruct (worker_is_wait _ (W i told Ni Hold)) as [k' [E _]]. rewrite (Hw _ E) in Hf. discriminate.
    - right. split.
      + destruct Hst as [[Es _]|[k [_ Es]]]; congruence.
      + intros j t Hj. rewrite Hthr in Hj.
        destruct (set_nth_cases Hold Hj) as [[-> ->]|[_ Hj']]; [eapply nowrite_succ; eauto|exact (B j t Hj')].
  Qed.

  Lemma barrier_init : forall m0 p0 ws, initphase x p0 -> Forall (worker x) ws -> barrier_inv (init_state m0 (p0 :: ws)).
  Proof.
    intros m0 p0 ws I F. left. split; [reflexivity|]. split.
    - exists (mkT [] p0). split; [reflexivity|exact I].
    - intros j t Nj Hj. destruct j as [|j]; [congruence|]. cbn in Hj. rewrite nth_error_map in Hj.
      destruct (nth_error ws j) as [p|] eqn:E; [|discriminate]. inversion Hj; subst. cbn.
      rewrite Forall_forall in F. apply F. eapply nth_error_In; eauto.
  Qed.

  Lemma barrier_no_race : forall s, barrier_inv s -> ~ race_at x s.
  Proof.
    intros s HJ (i & j & ti & tj & Hij & Hi & Hj & Ai & Aj & Wr).
    destruct HJ as [[_ [_ W]]|[_ B]].
    - (* one of the two is a worker, whose head is the wait *)
      assert (forall k t, k <> 0 -> nth_error (thr s) k = Some t -> ~ accesses x (code t)) as NA.
      { intros k t Nk Hk A. destruct (worker_is_wait _ (W k t Nk Hk)) as [k' [E _]]. rewrite E in A. destruct A as [A|A]; exact A. }
      destruct i as [|i].
      + apply (NA j tj); auto.
      + apply (NA (S i) ti); auto.
    - assert (forall k t, nth_error (thr s) k = Some t -> ~ writes x (code t)) as NW.
      { intros k t Hk Wk. pose proof (B k t Hk) as N. destruct (code t); cbn in Wk; try contradiction. cbn in N. apply N. exact Wk. }
      destruct Wr as [Wr|Wr]; [exact (NW i ti Hi Wr)|exact (NW j tj Hj Wr)].
  Qed.

  Theorem initonly_race_free : forall m0 p0 ws, initphase x p0 -> Forall (worker x) ws ->
    forall s, reach (init_state m0 (p0 :: ws)) s -> ~ race_at x s.
  Proof.
    intros m0 p0 ws I F s R. apply barrier_no_race. induction R.
    - apply barrier_init; assumption.
    - eapply barrier_step; eauto.
  Qed.
End Barrier.

(** [residual m p q]: running [p] alone on the (unchanging) memory [m] passes through [q] *)
Inductive residual (m : memory) : prog -> prog -> Prop :=
| res_refl : forall p, residual m p p
| res_acq : forall p mx k, residual m p (PAcq mx k) -> residual m p k
| res_rel : forall p mx k, residual m p (PRel mx k) -> residual m p k
| res_rd : forall p x k, residual m p (PRd x k) -> residual m p (k (m x))
| res_local : forall p k, residual m p (PLocal k) -> residual m p k
| res_wait : forall p k, residual m p (PWait k) -> residual m p k
| res_signal : forall p k, residual m p (PSignal k) -> residual m p k.

Fixpoint readonly (p : prog) : Prop :=
  match p with
  | Done _ => True
  | PAcq _ k | PRel _ k | PLocal k | PWait k | PSignal k => readonly k
  | PRd _ k => forall v, readonly (k v)
  | PWr _ _ _ => False
  end.

Lemma readonly_residual : forall m p q, readonly p -> residual m p q -> readonly q.
Proof. intros m p q R Res. induction Res; auto; specialize (IHRes R); cbn in IHRes; auto. Qed.

Definition DInv (m0 : memory) (ps : list prog) (s : state) : Prop :=
  (forall y, mem s y = m0 y) /\ length (thr s) = length ps /\
  forall i t p, nth_error (thr s) i = Some t -> nth_error ps i = Some p -> residual m0 p (code t).

Lemma DInv_step : forall m0 ps s i s', Forall readonly ps -> DInv m0 ps s -> step s i s' -> DInv m0 ps s'.
Proof.
  intros m0 ps s i s' RO (Hm & Hl & Hr) St.
  assert (forall t, nth_error (thr s) i = Some t -> readonly (code t)) as ROi.
  { intros t Ht. destruct (nth_error ps i) as [p|] eqn:Ep.
    - eapply readonly_residual; [|eapply Hr; eauto]. rewrite Forall_forall in RO. apply RO. eapply nth_error_In; eauto.
    - apply nth_error_None in Ep. assert (i < length (thr s)) by (apply nth_error_Some; congruence). lia. }
  destruct St; cbn [mem thr].
  all: match goal with H : nth_error (thr _) ?ii = Some ?t |- _ => pose proof (ROi t H) as ROt; cbn in ROt end.
  all: try contradiction.
  all: unfold DInv; cbn [mem thr started]; (split; [exact Hm|split; [rewrite length_set_nth; exact Hl|]]).
  all: intros j t p Hj Hp; rewrite nth_set_nth in Hj;
       match goal with H : nth_error (thr _) ?ii = Some _ |- _ =>
         destruct (Nat.eqb_spec ii j) as [Ej|Nj]; [subst j|eapply Hr; eauto];
         rewrite H in Hj; inversion Hj; subst t; cbn [code];
         pose proof (Hr ii _ p H Hp) as Res; cbn [code] in Res end.
  - eapply res_acq; eauto.
  - eapply res_rel; eauto.
  - rewrite Hm. eapply res_rd; eauto.
  - eapply res_local; eauto.
  - eapply res_wait; eauto.
  - eapply res_signal; eauto.
Qed.

Lemma DInv_init : forall m0 ps, DInv m0 ps (init_state m0 ps).
Proof.
  intros m0 ps. split; [reflexivity|]. split; [cbn; apply map_length|].
  intros i t p Hi Hp. cbn in Hi. rewrite nth_error_map, Hp in Hi. inversion Hi; subst. cbn. constructor.
Qed.

(** a residual that is [Done v] is the answer of the sequential run *)
Lemma residual_run_alone : forall m p q, residual m p q -> forall v, q = Done v ->
  exists fuel, run_alone fuel m p = Some (v, m).
Proof.
  intros m p q Res.
  assert (forall fuel r, run_alone fuel m q = Some r -> exists fuel', run_alone fuel' m p = Some r) as G.
  { induction Res; intros fuel r H; [eauto|..].
    (* every constructor of [residual] is one more step of [run_alone] *)
    all: apply (IHRes (S fuel)); exact H. }
  intros v ->. apply (G 1). reflexivity.
Qed.

Theorem readonly_determinate : forall m0 ps, Forall readonly ps ->
  forall s, reach (init_state m0 ps) s ->
    (forall y, mem s y = m0 y) /\
    forall i t p v, nth_error (thr s) i = Some t -> nth_error ps i = Some p -> code t = Done v ->
      exists fuel, run_alone fuel m0 p = Some (v, m0).
Proof.
  intros m0 ps RO s R.
  assert (DInv m0 ps s) as D.
  { induction R; [apply DInv_init|eapply DInv_step; eauto]. }
  destruct D as (Hm & _ & Hr). split; [exact Hm|].
  intros i t p v Hi Hp E. eapply residual_run_alone; [eapply Hr; eauto|exact E].
Qed.
