(** C17 proofs, part e: the measured inventory checked in one pass.
    Evaluated as they stand, [all_sites_ok], [guarded_nonvacuous] and [racy_confirmed] look every site's symbol up again:
    a quadratic number of comparisons of unary numerals, which the kernel cannot afford.  The translator numbers the
    symbols in the order it lists them and emits the sites symbol by symbol, so [walk] classifies each symbol once and
    checks only the sites that carry its id; [lo] (every id so far is below it) makes the symbol at hand the one [find]
    would return.  The classifier is a variable so that the conclusions are literally the bodies of the definitions in
    Classify17.v (a conversion between two different spellings of them evaluates the tables). *)
From Coq Require Import List Arith Bool String Lia.
Import ListNotations.
From XV Require Import C17.Classify17 Gen.GenGlobals Gen.GenLocks.

Fixpoint span_sym (id : nat) (ss : list site) : list site * list site :=
  match ss with
  | s :: r => if Nat.eqb (s_sym s) id then let (a, b) := span_sym id r in (s :: a, b) else ([], ss)
  | [] => ([], [])
  end.

Lemma span_sym_spec : forall id ss, ss = fst (span_sym id ss) ++ snd (span_sym id ss) /\
  Forall (fun s => s_sym s = id) (fst (span_sym id ss)).
Proof.
  intros id. induction ss as [|s r [IH1 IH2]]; cbn [span_sym]; [split; [reflexivity|constructor]|].
  destruct (Nat.eqb_spec (s_sym s) id) as [E|_]; [|split; [reflexivity|constructor]].
  destruct (span_sym id r) as [a b]. cbn [fst snd app] in *. split; [rewrite IH1 at 1; reflexivity|constructor; assumption].
Qed.

Definition exercised (c : cls) (id : nat) (mine : list site) : bool :=
  match c with
  | Guarded m | GuardedExcept m _ => existsb (fun s => Nat.eqb (s_sym s) id && mem_str m (s_held s)) mine
  | Racy _ => existsb (fun s => Nat.eqb (s_sym s) id && is_store s && negb (excl_site s) &&
                                match s_held s with [] => true | _ => false end) mine
  | _ => true
  end.

Lemma forallb_impl : forall A (f g : A -> bool) l, (forall x, f x = true -> g x = true) -> forallb f l = true -> forallb g l = true.
Proof. intros A f g l H. rewrite !forallb_forall. intros F x I. apply H, F, I. Qed.

Section Walk.
  Variable cl : gsym -> option cls.

  Fixpoint walk (lo : nat) (gs : list gsym) (ss : list site) : bool :=
    match gs with
    | [] => match ss with [] => true | _ => false end
    | g :: gs' =>
        let (mine, rest) := span_sym (g_id g) ss in
        match cl g with
        | Some c => Nat.leb lo (g_id g) && forallb (site_ok c) mine && exercised c (g_id g) mine && walk (S (g_id g)) gs' rest
        | None => false
        end
    end.

  Lemma walk_sound : forall gs lo ss, walk lo gs ss = true ->
    forallb (fun g => match cl g with Some _ => true | None => false end) gs = true /\
    forallb (fun s => match match find (fun g => Nat.eqb (g_id g) (s_sym s)) gs with Some g => cl g | None => None end with
                      | Some c => site_ok c s | None => false end) ss = true /\
    forallb (fun g => match cl g with
                      | Some (Guarded m) | Some (GuardedExcept m _) =>
                          existsb (fun s => Nat.eqb (s_sym s) (g_id g) && mem_str m (s_held s)) ss
                      | _ => true end) gs = true /\
    forallb (fun g => match cl g with
                      | Some (Racy _) => existsb (fun s => Nat.eqb (s_sym s) (g_id g) && is_store s && negb (excl_site s) &&
                                                           match s_held s with [] => true | _ => false end) ss
                      | _ => true end) gs = true /\
    Forall (fun s => lo <= s_sym s) ss.
  Proof.
    induction gs as [|g gs IH]; intros lo ss W; cbn [walk] in W.
    - destruct ss; [repeat split; constructor|discriminate W].
    - destruct (span_sym_spec (g_id g) ss) as [E A]. destruct (span_sym (g_id g) ss) as [mine rest].
      cbn [fst snd] in E, A. subst ss. destruct (cl g) as [c|] eqn:C; [|discriminate W].
      apply andb_true_iff in W. destruct W as [W W4]. apply andb_true_iff in W. destruct W as [W W3].
      apply andb_true_iff in W. destruct W as [W1 W2]. apply Nat.leb_le in W1.
      destruct (IH _ _ W4) as [I1 [I2 [I3 [I5 I4]]]]. rewrite Forall_forall in A, I4. unfold exercised in W3. repeat split.
      + cbn [forallb]. rewrite C. exact I1.
      + rewrite forallb_app. apply andb_true_iff. split; apply forallb_forall; intros s Hs; cbn [find].
        * rewrite (A s Hs), Nat.eqb_refl, C. rewrite forallb_forall in W2. exact (W2 s Hs).
        * (* a later site: its symbol is above [g_id g], so [find] passes [g] by *)
          specialize (I4 s Hs). destruct (Nat.eqb_spec (g_id g) (s_sym s)); [lia|].
          rewrite forallb_forall in I2. exact (I2 s Hs).
      + cbn [forallb]. rewrite C. apply andb_true_iff. split.
        * destruct c; try reflexivity; rewrite existsb_app, W3; reflexivity.
        * revert I3. apply forallb_impl. intros g'.
          destruct (cl g') as [[]|]; trivial; rewrite existsb_app; intros ->; apply orb_true_r.
      + cbn [forallb]. rewrite C. apply andb_true_iff. split.
        * destruct c; try reflexivity; rewrite existsb_app, W3; reflexivity.
        * revert I5. apply forallb_impl. intros g'.
          destruct (cl g') as [[]|]; trivial; rewrite existsb_app; intros ->; apply orb_true_r.
      + apply Forall_app. split; apply Forall_forall; intros s Hs; [rewrite (A s Hs); exact W1|].
        specialize (I4 s Hs). lia.
  Qed.
End Walk.

Lemma inventory_walk : walk (fun g => classify (g_kind g) (g_owner g) (g_base g)) 0 gen_globals gen_sites = true.
Proof. vm_compute. reflexivity. Qed.
