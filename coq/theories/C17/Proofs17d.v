(** C17 proofs, part d: the locked grammar pool is read-only; URI ids of the synchronised pool are stable. *)
From Coq Require Import List Arith Bool Lia.
Import ListNotations.
From XV Require Import C17.Model17.

Lemma pool_step_locked : forall p o, locked p = true ->
  locked (pool_step p o) = true /\ registry (pool_step p o) = registry p.
Proof.
  intros p o L. destruct o; cbn; rewrite ?L; auto.
  destruct (index_of u (uris p) 0); cbn; auto.
Qed.

Lemma pool_run_cons : forall p o ops, pool_run p (o :: ops) = pool_run (pool_step p o) ops.
Proof. reflexivity. Qed.

Lemma pool_run_locked : forall ops p, locked p = true ->
  locked (pool_run p ops) = true /\ registry (pool_run p ops) = registry p.
Proof.
  induction ops as [|o ops IH]; intros p L; [cbn; auto|].
  rewrite pool_run_cons.
  destruct (pool_step_locked p o L) as [L' R']. destruct (IH _ L') as [L'' R'']. split; [exact L''|rewrite R''; exact R'].
Qed.

Lemma index_of_app : forall u l r i n, index_of u l n = Some i -> index_of u (l ++ r) n = Some i.
Proof.
  induction l as [|a l IH]; intros r i n H; cbn in *; [discriminate|].
  destruct (Nat.eqb a u); [exact H|]. apply IH. exact H.
Qed.

Lemma pool_step_uri : forall p o u i, uri_id p u = Some i -> uri_id (pool_step p o) u = Some i.
Proof.
  intros p o u i H. unfold uri_id in *. destruct o; cbn.
  - destruct (locked p); [exact H|]. destruct (existsb _ _); exact H.
  - destruct (locked p); exact H.
  - destruct (locked p); exact H.
  - exact H.
  - destruct (index_of u0 (uris p) 0); cbn; [exact H|]. apply index_of_app. exact H.
Qed.

Lemma pool_run_uri : forall ops p u i, uri_id p u = Some i -> uri_id (pool_run p ops) u = Some i.
Proof.
  induction ops as [|o ops IH]; intros p u i H; [exact H|].
  rewrite pool_run_cons. apply IH. apply pool_step_uri. exact H.
Qed.

Lemma index_of_ge : forall u l n i, index_of u l n = Some i -> n <= i /\ nth_error l (i - n) = Some u.
Proof.
  induction l as [|a l IH]; intros n i H; cbn in H; [discriminate|].
  destruct (Nat.eqb_spec a u) as [->|N].
  - inversion H; subst. rewrite Nat.sub_diag. split; [lia|reflexivity].
  - destruct (IH _ _ H) as [Hle Hn]. split; [lia|]. replace (i - n) with (S (i - S n)) by lia. exact Hn.
Qed.

Lemma uri_id_injective : forall p u1 u2 i, uri_id p u1 = Some i -> uri_id p u2 = Some i -> u1 = u2.
Proof.
  intros p u1 u2 i H1 H2. unfold uri_id in *. apply index_of_ge in H1. apply index_of_ge in H2.
  destruct H1 as [_ H1]. destruct H2 as [_ H2]. congruence.
Qed.

Section GetRangeProofs.
  Variable T : Type.
  Variable compl : T -> T.

  Lemma get_range_pos : forall e c, s_pos T (fst (get_range T compl e c)) = s_pos T e.
  Proof.
    intros e c. unfold get_range. destruct c; cbn.
    - destruct (s_neg T e); cbn; [reflexivity|]. destruct (s_pos T e) eqn:E; cbn; [reflexivity|exact E].
    - destruct (s_pos T e) eqn:E; cbn; exact E.
  Qed.

  Lemma get_range_wf : forall e c, slots_wf T compl e -> slots_wf T compl (fst (get_range T compl e c)).
  Proof.
    intros e c W. unfold get_range. destruct c; cbn.
    - destruct (s_neg T e) eqn:En; cbn; [exact W|]. destruct (s_pos T e) eqn:Ep; cbn; [|exact W].
      intros p n Hp Hn. cbn in Hp, Hn. inversion Hp; inversion Hn; subst. reflexivity.
    - destruct (s_pos T e); exact W.
  Qed.

  Lemma get_range_compl : forall e p, slots_wf T compl e -> s_pos T e = Some p ->
    s_neg T (fst (get_range T compl e true)) = Some (compl p) /\ snd (get_range T compl e true) = Some (compl p).
  Proof.
    intros e p W Hp. unfold get_range. cbn. destruct (s_neg T e) eqn:En; cbn.
    - pose proof (W p t Hp En) as Et. subst t. split; [exact En|reflexivity].
    - rewrite Hp. cbn. split; reflexivity.
  Qed.

  Lemma run_requests_cons : forall e c reqs,
    run_requests T compl e (c :: reqs) = run_requests T compl (fst (get_range T compl e c)) reqs.
  Proof. reflexivity. Qed.

  Lemma run_requests_pos : forall reqs e, s_pos T (run_requests T compl e reqs) = s_pos T e.
  Proof.
    induction reqs as [|c reqs IH]; intros e; [reflexivity|].
    rewrite run_requests_cons.
    rewrite IH. apply get_range_pos.
  Qed.

  Lemma run_requests_wf : forall reqs e, slots_wf T compl e -> slots_wf T compl (run_requests T compl e reqs).
  Proof.
    induction reqs as [|c reqs IH]; intros e W; [exact W|].
    rewrite run_requests_cons.
    apply IH. apply get_range_wf. exact W.
  Qed.

  Lemma run_requests_neg_kept : forall reqs e n, s_neg T e = Some n -> s_neg T (run_requests T compl e reqs) = Some n.
  Proof.
    induction reqs as [|c reqs IH]; intros e n Hn; [exact Hn|].
    rewrite run_requests_cons.
    apply IH. unfold get_range. destruct c; cbn; [rewrite Hn; exact Hn|destruct (s_pos T e); exact Hn].
  Qed.

  (** once a complement was requested, the complement slot holds the complement of the (unchanged) positive slot, whatever
      the order and number of the other requests *)
  Lemma run_requests_neg : forall reqs e p, slots_wf T compl e -> s_pos T e = Some p -> In true reqs ->
    s_neg T (run_requests T compl e reqs) = Some (compl p).
  Proof.
    induction reqs as [|c reqs IH]; intros e p W Hp Hin; [contradiction|].
    rewrite run_requests_cons.
    destruct Hin as [->|Hin].
    - apply run_requests_neg_kept. exact (proj1 (get_range_compl e p W Hp)).
    - apply IH; [apply get_range_wf; exact W|rewrite get_range_pos; exact Hp|exact Hin].
  Qed.
End GetRangeProofs.
