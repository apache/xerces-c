(** C05 proofs, part f: the loop of XMLUTF8Transcoder::transcodeTo (model [x8_to_loop]) is SOUND on every input of
    16-bit units: whatever it returns without an error is the UTF-8 encoding of the scalar values of a well-formed
    UTF-16 prefix of the source, and exactly that prefix is reported as eaten.  Hence no byte is ever
    written for an unpaired surrogate (the repaired defect F7). *)
From XV Require Import C05.Spec05 C05.Model05 C05.Proofs05a C05.Proofs05d.
From Coq Require Import ZArith ZifyBool ZifyN ZifyNat Lia.
Local Open Scope N_scope.

Definition u16 (u : N) : Prop := u < 65536.

Lemma encoded_out : forall c room k bs used, encoded c room k = TOut bs used ->
  bs = utf8_enc c /\ used = k /\ (length bs <= room)%nat.
Proof.
  intros c room k bs used H. unfold encoded in H. destruct (Nat.ltb_spec room (length (utf8_enc c))); [discriminate|].
  injection H as <- <-. auto.
Qed.

Lemma x8_to_step_sound : forall src room throw bs used, Forall u16 src ->
  x8_to_step src room throw = TOut bs used ->
  exists c, scalar c /\ firstn used src = utf16_enc c /\ bs = utf8_enc c /\ (1 <= used)%nat /\
            length (utf16_enc c) = used /\ (length bs <= room)%nat.
Proof.
  intros src room throw bs used Hsrc H. destruct src as [|u rest]; [discriminate|].
  inversion Hsrc as [|? ? Hu Hrest]; subst. unfold u16 in Hu.
  assert (C : (u < 0xD800 \/ 0xDFFF < u) \/ 0xD800 <= u <= 0xDBFF \/ 0xDC00 <= u <= 0xDFFF) by lia.
  destruct C as [C|[C|C]].
  - rewrite x8_to_step_bmp in H by assumption. apply encoded_out in H. destruct H as (-> & -> & Hr).
    exists u. rewrite scalar_bounds, utf16_enc_small by exact Hu. cbn [firstn length]. repeat split; auto; lia.
  - destruct rest as [|t rest']; [rewrite x8_to_step_lead_last in H by exact C; discriminate|].
    assert (Ct : 0xDC00 <= t <= 0xDFFF \/ ~ (0xDC00 <= t <= 0xDFFF)) by lia.
    destruct Ct as [Ct|Ct]; [|rewrite x8_to_step_bad_trail in H by assumption; discriminate].
    rewrite x8_to_step_pair in H by assumption. apply encoded_out in H. destruct H as (-> & -> & Hr).
    destruct (utf16_enc_pair u t C Ct) as [E16 Hc].
    exists (pair_val u t). rewrite scalar_bounds, E16. cbn [firstn length]. repeat split; auto; lia.
  - rewrite x8_to_step_lone_trail in H by exact C. discriminate.
Qed.

Definition enc_post (src : list N) (room : nat) (bs : list N) (n : nat) : Prop :=
  (exists cps, Forall scalar cps /\ firstn n src = flat_map utf16_enc cps /\ bs = flat_map utf8_enc cps) /\
  (length bs <= room)%nat /\ (n <= length src)%nat.

Lemma enc_post_nil : forall src room, enc_post src room [] 0.
Proof. intros src room. split; [exists []; repeat split; constructor|cbn; lia]. Qed.

Lemma x8_to_loop_sound : forall fuel src room throw bs n, Forall u16 src ->
  x8_to_loop fuel src room throw = Ok (bs, n) -> enc_post src room bs n.
Proof.
  induction fuel as [|f IH]; intros src room throw bs n Hsrc H; [discriminate|].
  cbn [x8_to_loop] in H. destruct (x8_to_step src room throw) as [| e | b1 used] eqn:Es.
  - injection H as <- <-. apply enc_post_nil.
  - discriminate.
  - destruct (x8_to_loop f (skipn used src) (room - length b1) throw) as [[o e]|e] eqn:El; [|discriminate].
    injection H as <- <-.
    destruct (x8_to_step_sound _ _ _ _ _ Hsrc Es) as (c & Hc & Hf & Hb & _ & Hu & Hr).
    destruct (IH _ _ _ _ _ (Forall_skipn _ _ used _ Hsrc) El) as ((cps & Hcps & Hf2 & Hb2) & Hr2 & Hn2).
    assert (Hused : (used <= length src)%nat).
    { apply (f_equal (@length N)) in Hf. rewrite firstn_length, Hu in Hf. lia. }
    rewrite skipn_length in Hn2. split; [|rewrite app_length; lia].
    exists (c :: cps). split; [constructor; assumption|]. cbn [flat_map]. split.
    + rewrite firstn_plus, Hf, Hf2. reflexivity.
    + rewrite Hb, Hb2. reflexivity.
Qed.

Theorem x8_to_sound : forall src maxBytes throw bs n, Forall u16 src ->
  x8_to src maxBytes throw = Ok (bs, n) -> enc_post src maxBytes bs n.
Proof.
  intros src maxBytes throw bs n Hsrc H. unfold x8_to in H.
  destruct src as [|u rest]; [injection H as <- <-; apply enc_post_nil|].
  destruct maxBytes as [|m]; [injection H as <- <-; apply enc_post_nil|].
  eapply x8_to_loop_sound; eassumption.
Qed.
