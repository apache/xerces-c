(** The recognizer as a decision: XMLRecognizer::basicEncodingProbe computes exactly the detection of XML 1.0
    Appendix F.1 (Spec05s.spec_detect) for EVERY byte string of every length: the length tiers (< 2, < 4 bytes),
    the `rawByteCount >= len` conjuncts, the first-byte gate in front of the UTF-16/UCS-4 prefixes and the
    early test for the ASCII prefix never change the answer. *)
From XV Require Import C05.Spec05 C05.Spec05s C05.Model05 C05.Model05r C05.Model05s C05.Proofs05r C05.Proofs05s.
From Coq Require Import ZArith ZifyBool ZifyN ZifyNat Lia Bool.
Local Open Scope N_scope.

Definition family_of_enc (e : enc) : family :=
  match e with
  | EBCDIC => FamEBCDIC | UCS_4B => Fam32B | UCS_4L => Fam32L | UTF_8 => FamByte | UTF_16B => Fam16B | UTF_16L => Fam16L
  end.

(** the three views of an encoding family: what the probe returns ([enc]), the specification's [family], and the
    member of the full recognizer enum a reader starts with *)
Lemma renc_of_family_of_enc : forall e, renc_of_family (family_of_enc e) = renc_of_enc e.
Proof. destruct e; reflexivity. Qed.

(** [Proofs05r.enc_units] on `<?xml ` is the specification's [in_family] *)
Lemma enc_units_in_family : forall e, enc_units e xml_decl_start = in_family (family_of_enc e) decl_start.
Proof. destruct e; reflexivity. Qed.

Lemma list_eqb_starts_with : forall pre raw,
  list_eqb (firstn (length pre) raw) (firstn (length pre) pre) && Nat.leb (length pre) (length raw) = starts_with pre raw.
Proof.
  induction pre as [|p pre IH]; intros raw.
  - reflexivity.
  - destruct raw as [|r raw]; [reflexivity|].
    cbn [length firstn list_eqb starts_with Nat.leb]. rewrite <- IH, andb_assoc. reflexivity.
Qed.

Lemma has_prefix_starts_with : forall pre len raw, len = length pre -> has_prefix pre len raw = starts_with pre raw.
Proof. intros pre len raw E. subst len. unfold has_prefix. apply list_eqb_starts_with. Qed.

Lemma ebcdic_starts_with : forall pre len raw, len = length pre ->
  list_eqb (firstn len raw) (firstn len pre) && Nat.ltb len (length raw) = starts_with pre raw && Nat.ltb len (length raw).
Proof.
  intros pre len raw E. subst len. rewrite <- list_eqb_starts_with.
  destruct (Nat.ltb (length pre) (length raw)) eqn:L.
  - apply Nat.ltb_lt in L. assert (H : Nat.leb (length pre) (length raw) = true) by (apply Nat.leb_le; lia).
    rewrite H, !andb_true_r. reflexivity.
  - rewrite !andb_false_r. reflexivity.
Qed.

(** the generated prefixes are the specification's patterns *)
Lemma prefixes_spec :
  fgASCIIPre = in_family FamByte decl_start /\ fgUCS4BPre = in_family Fam32B decl_start /\
  fgUCS4LPre = in_family Fam32L decl_start /\ fgUTF16BPre = in_family Fam16B decl_start /\
  fgUTF16LPre = in_family Fam16L decl_start /\ fgEBCDICPre = in_family FamEBCDIC decl_start /\
  fgEBCDICPre_len = 6%nat.
Proof. vm_compute. repeat split. Qed.

Lemma starts_with_2 : forall p0 p1 b0 b1 rest, starts_with [p0; p1] (b0 :: b1 :: rest) = (b0 =? p0) && (b1 =? p1).
Proof. intros. cbn [starts_with]. rewrite andb_true_r. reflexivity. Qed.

Lemma starts_with_4 : forall p0 p1 p2 p3 b0 b1 b2 b3 rest,
  starts_with [p0; p1; p2; p3] (b0 :: b1 :: b2 :: b3 :: rest) = (b0 =? p0) && (b1 =? p1) && (b2 =? p2) && (b3 =? p3).
Proof. intros. cbn [starts_with]. rewrite andb_true_r, !andb_assoc. reflexivity. Qed.

Theorem probe_decision : forall raw, family_of_enc (probe raw) = spec_detect raw.
Proof.
  intros raw. unfold probe, spec_detect.
  rewrite !has_prefix_starts_with, (ebcdic_starts_with fgEBCDICPre fgEBCDICPre_len raw) by reflexivity.
  destruct prefixes_spec as (A1 & A2 & A3 & A4 & A5 & A6 & A7).
  rewrite A1, A2, A3, A4, A5, A6, A7. clear A1 A2 A3 A4 A5 A6 A7.
  (* an entity that starts with the ASCII `<?xml ` matches no pattern of Appendix F: they differ in the first or second byte *)
  destruct (starts_with (in_family FamByte decl_start) raw) eqn:EA.
  { unfold in_family, decl_start in EA.
    destruct raw as [|b0 [|b1 r]]; cbn [starts_with] in EA; [discriminate|rewrite andb_false_r in EA; discriminate|].
    apply andb_prop in EA. destruct EA as [E0 EA]. apply andb_prop in EA. destruct EA as [E1 _].
    apply N.eqb_eq in E0, E1. subst b0 b1. reflexivity. }
  clear EA. destruct raw as [|b0 [|b1 [|b2 [|b3 rest]]]].
  (* two or three bytes: only the UTF-16 byte order marks fit *)
  3-4: cbn [in_family decl_start flat_map app starts_with length byte_at nth Nat.ltb Nat.leb];
       rewrite ?andb_false_r, ?andb_true_r; cbn iota;
       (destruct ((b0 =? 0xFE) && (b1 =? 0xFF)); [reflexivity|]); destruct ((b0 =? 0xFF) && (b1 =? 0xFE)); reflexivity.
  - reflexivity.
  - (* one byte: every pattern is longer *)
    cbn [in_family decl_start flat_map app starts_with]. rewrite ?andb_false_r. reflexivity.
  - (* four bytes or more: the same tests in the same order, except for the gate on the first byte, which every
       prefix behind it passes *)
    cbn [length byte_at nth]. change (Nat.ltb (S (S (S (S (length rest))))) 2) with false.
    change (Nat.ltb (S (S (S (S (length rest))))) 4) with false. cbn iota.
    rewrite !starts_with_4, !starts_with_2.
    destruct ((b0 =? 0x00) && (b1 =? 0x00) && (b2 =? 0xFE) && (b3 =? 0xFF)); [reflexivity|].
    destruct ((b0 =? 0xFF) && (b1 =? 0xFE) && (b2 =? 0x00) && (b3 =? 0x00)); [reflexivity|].
    destruct ((b0 =? 0xFE) && (b1 =? 0xFF)); [reflexivity|]. destruct ((b0 =? 0xFF) && (b1 =? 0xFE)); [reflexivity|].
    destruct ((b0 =? 0x00) || (b0 =? 0x3C)) eqn:G.
    + destruct (starts_with (in_family Fam32B decl_start) _); [reflexivity|].
      destruct (starts_with (in_family Fam32L decl_start) _); [reflexivity|].
      destruct (starts_with (in_family Fam16B decl_start) _); [reflexivity|].
      destruct (starts_with (in_family Fam16L decl_start) _); [reflexivity|].
      destruct (starts_with (in_family FamEBCDIC decl_start) _ && _); reflexivity.
    + apply orb_false_elim in G. destruct G as [G0 G3].
      cbn [in_family decl_start flat_map app starts_with]. rewrite G0, G3. cbn [andb].
      destruct ((b0 =? 0x4C) && _ && _); reflexivity.
Qed.
