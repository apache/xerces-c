(** C05 proofs, part e: UCS-4 and the single-byte table transcoders. *)
From XV Require Import C05.Spec05 C05.Model05 C05.Proofs05a.
From Coq Require Import ZArith ZifyBool ZifyN ZifyNat Lia.
Local Open Scope N_scope.

(** four bytes are the base-256 digits of the value they denote, in either order *)
Lemma ucs4_val_horner : forall sw b0 b1 b2 b3, ucs4_val sw b0 b1 b2 b3 =
  if sw then ((b0 * 256 + b1) * 256 + b2) * 256 + b3 else ((b3 * 256 + b2) * 256 + b1) * 256 + b0.
Proof. intros. unfold ucs4_val. destruct sw; lia. Qed.

Lemma ucs4_enc_horner : forall sw d0 d1 d2 d3, d0 < 256 -> d1 < 256 -> d2 < 256 -> d3 < 256 ->
  ucs4_enc sw (((d3 * 256 + d2) * 256 + d1) * 256 + d0) = if sw then [d3; d2; d1; d0] else [d0; d1; d2; d3].
Proof.
  intros sw d0 d1 d2 d3 H0 H1 H2 H3. unfold ucs4_enc. cbv zeta.
  change 65536 with (256 * 256). change 16777216 with (256 * 256 * 256). rewrite <- !N.div_div by discriminate.
  rewrite (div_digit _ _ d0), (mod_digit _ _ d0), (div_digit _ _ d1), (mod_digit _ _ d1), (div_digit _ _ d2), (mod_digit _ _ d2),
    N.mod_small by assumption. reflexivity.
Qed.

Lemma ucs4_enc_val : forall sw b0 b1 b2 b3, b0 < 256 -> b1 < 256 -> b2 < 256 -> b3 < 256 ->
  ucs4_enc sw (ucs4_val sw b0 b1 b2 b3) = [b0; b1; b2; b3] /\ ucs4_val sw b0 b1 b2 b3 < w32.
Proof.
  intros sw b0 b1 b2 b3 H0 H1 H2 H3. rewrite ucs4_val_horner. unfold w32.
  destruct sw; rewrite ucs4_enc_horner by assumption; split; (reflexivity || lia).
Qed.

Lemma ucs4_enc_shape : forall sw c, c < w32 ->
  exists b0 b1 b2 b3, ucs4_enc sw c = [b0; b1; b2; b3] /\ ucs4_val sw b0 b1 b2 b3 = c /\ b0 < 256 /\ b1 < 256 /\ b2 < 256 /\ b3 < 256.
Proof.
  intros sw c Hc. destruct (split_digit 256 c eq_refl) as (q1 & d0 & -> & H0).
  destruct (split_digit 256 q1 eq_refl) as (q2 & d1 & -> & H1). destruct (split_digit 256 q2 eq_refl) as (d3 & d2 & -> & H2).
  assert (H3 : d3 < 256) by (unfold w32 in Hc; lia).
  rewrite ucs4_enc_horner by assumption.
  destruct sw; [exists d3, d2, d1, d0|exists d0, d1, d2, d3]; rewrite ucs4_val_horner; auto 6.
Qed.

Lemma u4_step_spec : forall sw b0 b1 b2 b3 rest room, b0 < 256 -> b1 < 256 -> b2 < 256 -> b3 < 256 -> room <> O ->
  u4_step sw (b0 :: b1 :: b2 :: b3 :: rest) room =
  let v := ucs4_val sw b0 b1 b2 b3 in
  if scalarb v then (if Nat.ltb room (length (utf16_enc v)) then SStop else SOut (utf16_enc v) 4)
  else SErr E_Trans_BadSrcSeq.
Proof.
  intros sw b0 b1 b2 b3 rest room H0 H1 H2 H3 Hroom.
  destruct (ucs4_enc_val sw b0 b1 b2 b3 H0 H1 H2 H3) as [_ Hlt].
  unfold u4_step. cbv zeta. set (v := ucs4_val sw b0 b1 b2 b3) in *.
  destruct (Nat.eqb_spec room 0); [contradiction|].
  replace ((0x10FFFF <? v) || ((0xD800 <=? v) && (v <=? 0xDFFF))) with (negb (scalarb v)) by (unfold scalarb; lia).
  destruct (scalarb v) eqn:Hs; cbn [negb]; [|reflexivity]. unfold scalarb in Hs.
  rewrite (land_hi16 v Hlt), N.shiftr_div_pow2, land_3FF. change (2 ^ 10) with 1024.
  destruct (N.ltb_spec v 65536) as [Hsm|Hbig]; cbn [negb].
  - rewrite utf16_enc_small, N.mod_small by lia. cbn [length]. destruct (Nat.ltb_spec room 1); [lia|reflexivity].
  - destruct (pair_val_enc v ltac:(lia)) as (u & t & E16 & Hu & Ht & Ev). rewrite E16. cbn [length]. subst v. rewrite <- Ev.
    destruct (pair_val_split u t ltac:(lia) Ht) as [-> ->]. rewrite !N.mod_small by lia.
    destruct (Nat.eqb_spec room 1); destruct (Nat.ltb_spec room 2); try lia; [reflexivity|].
    f_equal. f_equal; [lia|f_equal; lia].
Qed.

Theorem u4_step_sound : forall sw src room u n, bytes src -> u4_step sw src room = SOut u n ->
  exists c, scalar c /\ firstn 4 src = ucs4_enc sw c /\ u = utf16_enc c /\ n = 4%nat /\ (length u <= room)%nat.
Proof.
  intros sw src room u n Hb H. destruct src as [|b0 [|b1 [|b2 [|b3 r]]]]; try discriminate.
  inversion Hb as [|? ? B0 T1]; inversion T1 as [|? ? B1 T2]; inversion T2 as [|? ? B2 T3]; inversion T3 as [|? ? B3 _]; subst.
  destruct (Nat.eq_dec room 0) as [->|Hroom]; [discriminate|].
  rewrite u4_step_spec in H by assumption. cbv zeta in H.
  destruct (scalarb (ucs4_val sw b0 b1 b2 b3)) eqn:Hs; [|discriminate].
  destruct (Nat.ltb_spec room (length (utf16_enc (ucs4_val sw b0 b1 b2 b3)))); [discriminate|].
  injection H as <- <-. exists (ucs4_val sw b0 b1 b2 b3). repeat split; auto. symmetry. apply ucs4_enc_val; assumption.
Qed.

(** the model writes a UCS4Ch with the specification's own function *)
Lemma ucs4_bytes_enc : forall sw v, ucs4_bytes sw v = ucs4_enc sw v.
Proof. reflexivity. Qed.

Lemma u4_to_step_bmp : forall sw u rest room, (0 < room)%nat -> ~ (0xD800 <= u <= 0xDBFF) ->
  u4_to_step sw (u :: rest) room = TOut (ucs4_enc sw u) 1.
Proof.
  intros sw u rest room Hr Hu. cbn [u4_to_step]. destruct (Nat.eqb_spec room 0); [lia|].
  replace ((0xD800 <=? u) && (u <=? 0xDBFF)) with false by lia. rewrite ucs4_bytes_enc. reflexivity.
Qed.

Lemma u4_to_step_pair : forall sw u t rest room, (0 < room)%nat -> 0xD800 <= u <= 0xDBFF -> 0xDC00 <= t <= 0xDFFF ->
  u4_to_step sw (u :: t :: rest) room = TOut (ucs4_enc sw (pair_val u t)) 2.
Proof.
  intros sw u t rest room Hr Hu Ht. cbn [u4_to_step]. destruct (Nat.eqb_spec room 0); [lia|].
  replace ((0xD800 <=? u) && (u <=? 0xDBFF)) with true by lia.
  replace ((0xDC00 <=? t) && (t <=? 0xDFFF)) with true by lia. cbn [negb].
  rewrite (wrap32 (pair_val u t)), ucs4_bytes_enc by (unfold pair_val, w32; lia). reflexivity.
Qed.

Theorem u4_to_bad_trail : forall sw u t rest room, (0 < room)%nat -> 0xD800 <= u <= 0xDBFF -> ~ (0xDC00 <= t <= 0xDFFF) ->
  u4_to_step sw (u :: t :: rest) room = TErr E_Trans_BadTrailingSurrogate.
Proof.
  intros sw u t rest room Hr Hu Ht. cbn [u4_to_step]. destruct (Nat.eqb_spec room 0); [lia|].
  replace ((0xD800 <=? u) && (u <=? 0xDBFF)) with true by lia.
  replace ((0xDC00 <=? t) && (t <=? 0xDFFF)) with false by lia. reflexivity.
Qed.

Definition unit16 (u : N) : Prop := u < 65536.

(** * single-byte tables: the search as written, on any table *)

Lemma xlat_loop_in : forall fuel t c lo hi, xlat_loop fuel t c lo hi <> 0 -> In (c, xlat_loop fuel t c lo hi) t.
Proof.
  assert (Hnth : forall t i c, intCh t i = c -> extCh t i <> 0 -> In (c, extCh t i) t).
  { intros t i c Hi He. unfold intCh, extCh in *.
    destruct (Nat.ltb_spec (N.to_nat i) (length t)) as [Hlt|Hge].
    - pose proof (nth_In t (0, 0) Hlt) as Hin. destruct (nth (N.to_nat i) t (0, 0)) as [x y]. cbn in *. subst. exact Hin.
    - rewrite nth_overflow in He by exact Hge. contradiction He. reflexivity. }
  induction fuel as [|f IH]; intros t c lo hi H; [contradiction H; reflexivity|].
  cbn [xlat_loop] in *. cbv zeta in *.
  destruct (N.ltb_spec (intCh t ((hi - lo) / 2 + lo)) c).
  - destruct ((hi - lo) / 2 + lo + 1 <? hi); [apply IH, H|].
    destruct (N.eqb_spec c (intCh t hi)); [apply Hnth; auto|contradiction H; reflexivity].
  - destruct (N.ltb_spec c (intCh t ((hi - lo) / 2 + lo))).
    + destruct (lo + 1 <? (hi - lo) / 2 + lo); [apply IH, H|].
      destruct (N.eqb_spec c (intCh t ((hi - lo) / 2 + lo))); [apply Hnth; auto|contradiction H; reflexivity].
    + apply Hnth; [lia|exact H].
Qed.

(** stated with [xlat_to] and proved on its own: inside a larger proof the kernel, asked to convert [xlat_to t sz c] with
    [xlat_loop 64 ...], unfolds the 64 levels of the search (two recursive calls each) and does not come back *)
Lemma xlat_to_in : forall t sz c, xlat_to t sz c <> 0 -> In (c, xlat_to t sz c) t.
Proof. intros t sz c. exact (xlat_loop_in 64 t c 0 (sz - 1)). Qed.

Lemma tab_can_in : forall t sz c, tab_can t sz c = true ->
  c <= 0xFFFF /\ xlat_to t sz c <> 0 /\ In (c, xlat_to t sz c) t.
Proof.
  intros t sz c H. unfold tab_can in H. destruct (N.ltb_spec 0xFFFF c); [discriminate|].
  destruct (N.eqb_spec (xlat_to t sz c) 0) as [|Hne]; [discriminate|].
  split; [assumption|]. split; [exact Hne|]. apply xlat_to_in, Hne.
Qed.

Theorem tab_can_sound : forall t sz c, tab_can t sz c = true -> c <= 0xFFFF /\ exists b, b <> 0 /\ In (c, b) t.
Proof. intros t sz c H. destruct (tab_can_in t sz c H) as (A & B & C). split; [exact A|]. exists (xlat_to t sz c). auto. Qed.

(** XML256TableTranscoder::transcodeTo without an error: one byte for each of the first min(srcCount, maxBytes)
    units, the one the search finds or, where it finds none, the replacement character '?' *)
Lemma tab_to_spec : forall t sz src m throw o e, tab_to t sz src m throw = Ok (o, e) ->
  e = Nat.min (length src) m /\
  o = map (fun u => if xlat_to t sz u =? 0 then 0x3F else xlat_to t sz u) (firstn e src).
Proof.
  intros t sz src m throw o e H. unfold tab_to in H. cbv zeta in H.
  (* [go] is the local loop of [tab_to], which has no name of its own *)
  match type of H with context [?go (firstn _ src)] =>
    assert (G : forall l o', go l = Ok o' -> o' = map (fun u => if xlat_to t sz u =? 0 then 0x3F else xlat_to t sz u) l) end.
  { induction l as [|u r IH]; intros o' E; [injection E as <-; reflexivity|].
    cbn [map]. destruct (xlat_to t sz u =? 0); cbn [negb] in E.
    - destruct throw; [discriminate|].
      match type of E with match ?g with _ => _ end = _ => destruct g as [o''|] eqn:Er end; [|discriminate].
      injection E as <-. f_equal. apply IH. reflexivity.
    - match type of E with match ?g with _ => _ end = _ => destruct g as [o''|] eqn:Er end; [|discriminate].
      injection E as <-. f_equal. apply IH. reflexivity. }
  match type of H with match ?g with _ => _ end = _ => destruct g as [o'|] eqn:E end; [|discriminate].
  injection H as <- <-. split; [reflexivity|]. apply G. exact E.
Qed.

Fixpoint strictly_sorted (l : list (N * N)) : bool :=
  match l with
  | a :: ((b :: _) as r) => (fst a <? fst b) && strictly_sorted r
  | _ => true
  end.

Lemma sorted_adj : forall t, strictly_sorted t = true -> forall i, (S i < length t)%nat ->
  fst (nth i t (0, 0)) < fst (nth (S i) t (0, 0)).
Proof.
  induction t as [|a t IH]; intros H i Hi; [cbn in Hi; lia|]. destruct t as [|b r]; [cbn in Hi; lia|].
  cbn [strictly_sorted] in H. apply andb_prop in H. destruct H as [H1 H2].
  destruct i as [|i]; [cbn [nth]; lia|]. apply (IH H2 i). cbn [length] in *. lia.
Qed.

Lemma intCh_lt : forall t, strictly_sorted t = true -> forall i j, i < j -> j < N.of_nat (length t) -> intCh t i < intCh t j.
Proof.
  intros t H i j Hij Hj. unfold intCh. assert (Hn : (N.to_nat i < N.to_nat j < length t)%nat) by lia.
  (* from adjacent records to any two, by induction on the index of the later one *)
  induction (N.to_nat j) as [|m IHm]; [lia|]. destruct (Nat.eq_dec (N.to_nat i) m) as [->|Hne].
  - apply sorted_adj; [exact H|lia].
  - apply N.lt_trans with (fst (nth m t (0, 0))); [apply IHm; lia|apply sorted_adj; [exact H|lia]].
Qed.

(** one iteration of the search for the unit of record [k], given that the iterations on narrower intervals find it *)
Lemma xlat_iter : forall t, strictly_sorted t = true -> forall f lo hi k, lo < k <= hi -> hi < N.of_nat (length t) ->
  (forall lo' hi', lo' < k <= hi' -> hi' <= hi -> 2 <= hi' - lo' -> 2 * (hi' - lo') <= hi - lo + 1 ->
     xlat_loop f t (intCh t k) lo' hi' = extCh t k) ->
  xlat_loop (S f) t (intCh t k) lo hi = extCh t k.
Proof.
  intros t Hs f lo hi k Hk Hhi Hrec. cbn [xlat_loop]. cbv zeta.
  assert (Hmid : exists mid, (hi - lo) / 2 + lo = mid /\ lo <= mid < hi /\ 2 * (mid - lo) <= hi - lo <= 2 * (mid - lo) + 1).
  { exists ((hi - lo) / 2 + lo). pose proof (N.div_mod (hi - lo) 2 ltac:(discriminate)).
    pose proof (N.mod_lt (hi - lo) 2 ltac:(discriminate)). lia. }
  destruct Hmid as (mid & -> & Hm & Hw).
  destruct (N.lt_trichotomy k mid) as [Hlt|[->|Hgt]].
  - pose proof (intCh_lt t Hs k mid Hlt ltac:(lia)).
    destruct (N.ltb_spec (intCh t mid) (intCh t k)); [lia|]. destruct (N.ltb_spec (intCh t k) (intCh t mid)); [|lia].
    destruct (N.ltb_spec (lo + 1) mid); [|lia]. apply Hrec; lia.
  - rewrite N.ltb_irrefl. reflexivity.
  - pose proof (intCh_lt t Hs mid k Hgt ltac:(lia)).
    destruct (N.ltb_spec (intCh t mid) (intCh t k)); [|lia].
    destruct (N.ltb_spec (mid + 1) hi); [apply Hrec; lia|].
    assert (k = hi) by lia. subst k. rewrite N.eqb_refl. reflexivity.
Qed.

Lemma xlat_loop_finds : forall t, strictly_sorted t = true -> forall f lo hi k, lo < k <= hi -> hi < N.of_nat (length t) ->
  hi - lo <= 2 ^ N.of_nat f -> xlat_loop (S f) t (intCh t k) lo hi = extCh t k.
Proof.
  intros t Hs. induction f as [|f IH]; intros lo hi k Hk Hhi Hw; apply xlat_iter; try assumption.
  - intros lo' hi' H1 H2 H3 H4. cbn in Hw. lia.
  - intros lo' hi' H1 H2 H3 H4. apply IH; [exact H1|lia|]. rewrite Nat2N.inj_succ, N.pow_succ_r' in Hw. lia.
Qed.

Theorem xlat_to_finds : forall t sz, strictly_sorted t = true -> N.of_nat (length t) = sz -> sz <= 2 ^ 63 ->
  forall k, 0 < k < sz -> xlat_to t sz (intCh t k) = extCh t k.
Proof.
  intros t sz Hs Hl Hsz k Hk. unfold xlat_to. (* fuel 64 = S 63 *) apply (xlat_loop_finds t Hs 63); lia.
Qed.

Lemma xlat_to_record : forall t sz p, strictly_sorted t = true -> N.of_nat (length t) = sz -> sz <= 2 ^ 63 ->
  In p (tl t) -> xlat_to t sz (fst p) = snd p.
Proof.
  intros t sz p Hs Hl Hsz Hin. destruct (In_nth _ _ (0, 0) Hin) as (i & Hi & E).
  destruct t as [|a t]; [cbn in Hi; lia|]. cbn [tl length] in *.
  assert (Ek : N.to_nat (N.of_nat (S i)) = S i) by apply Nat2N.id.
  replace (fst p) with (intCh (a :: t) (N.of_nat (S i))) by (unfold intCh; rewrite Ek; cbn [nth]; rewrite E; reflexivity).
  replace (snd p) with (extCh (a :: t) (N.of_nat (S i))) by (unfold extCh; rewrite Ek; cbn [nth]; rewrite E; reflexivity).
  apply xlat_to_finds; try assumption. lia.
Qed.

(** * the generated tables (obligations over Gen/GenTables.v) *)

(** bytes that do not round-trip in a generated table.  The only one is the known finding F24: IBM1047 decodes
    byte 0x15 (NEL) to U+000A although it encodes U+0085 as 0x15. *)
Definition table_exceptions : list (list N) := [ []; []; [21]; [] ].

Definition table_ok (xe : (list N * list (N * N) * N) * list N) : bool :=
  let '((from, to, sz), exc) := xe in
  (length from =? 256)%nat && (N.of_nat (length to) =? sz) &&
  forallb (fun c => negb (c =? 0xFFFF)) from &&           (* the silent-skip branch of transcodeFrom is dead *)
  forallb (fun c => c <? 65536) from &&
  strictly_sorted to &&                                   (* precondition of the binary search *)
  forallb (fun p => snd p <? 256) to &&
  (* decoding then encoding gives the byte back, for every byte but NUL (index 0 is never probed) *)
  forallb (fun b => existsb (N.eqb b) exc || (xlat_to to sz (tbl from b) =? b)) (tl (nrange 256)) &&
  (* every record of the table is found by the search as written, except record 0 *)
  forallb (fun p => xlat_to to sz (fst p) =? snd p) (tl to) &&
  (* record 0 maps NUL, which is why the blind spot is harmless *)
  (match to with (0, 0) :: _ => true | _ => false end).

Fixpoint has_record (c b : N) (t : list (N * N)) : bool :=
  match t with [] => false | p :: r => if fst p =? c then snd p =? b else has_record c b r end.

Lemma has_record_in : forall c b t, has_record c b t = true -> In (c, b) t.
Proof.
  induction t as [|[c' b'] r IH]; cbn [has_record fst snd]; intros H; [discriminate|].
  destruct (N.eqb_spec c' c) as [->|_]; [apply N.eqb_eq in H; subst b'; left; reflexivity|right; exact (IH H)].
Qed.

(** [table_ok] with the searches replaced by what makes them succeed: the to-table is sorted, and the record
    (from b, b) is in it for every byte b but NUL *)
Definition table_sorted_ok (xe : (list N * list (N * N) * N) * list N) : bool :=
  let '((from, to, sz), exc) := xe in
  (length from =? 256)%nat && (N.of_nat (length to) =? sz) && (sz <=? 2 ^ 63) &&
  forallb (fun c => negb (c =? 0xFFFF)) from &&
  forallb (fun c => c <? 65536) from &&
  strictly_sorted to &&
  forallb (fun p => snd p <? 256) to &&
  forallb (fun b => existsb (N.eqb b) exc || has_record (tbl from b) b (tl to)) (tl (nrange 256)) &&
  (match to with (0, 0) :: _ => true | _ => false end).

Lemma table_sorted_ok_ok : forall xe, table_sorted_ok xe = true -> table_ok xe = true.
Proof.
  intros [[[from to] sz] exc] H. unfold table_sorted_ok in H. unfold table_ok.
  apply andb_prop in H. destruct H as [H H9]. apply andb_prop in H. destruct H as [H Hb].
  apply andb_prop in H. destruct H as [H H6]. apply andb_prop in H. destruct H as [H H5].
  apply andb_prop in H. destruct H as [H H4]. apply andb_prop in H. destruct H as [H H3].
  apply andb_prop in H. destruct H as [H Hsz]. apply andb_prop in H. destruct H as [H1 H2].
  rewrite H1, H2, H3, H4, H5, H6, H9. cbn [andb]. rewrite andb_true_r. apply andb_true_intro.
  assert (Hrec : forall p, In p (tl to) -> xlat_to to sz (fst p) = snd p).
  { intros p. apply xlat_to_record; [exact H5|apply N.eqb_eq, H2|apply N.leb_le, Hsz]. }
  split.
  - rewrite forallb_forall in Hb |- *. intros b Hin. specialize (Hb b Hin). apply orb_prop in Hb. apply orb_true_intro.
    destruct Hb as [Hb|Hb]; [left; exact Hb|right]. apply N.eqb_eq, (Hrec (tbl from b, b)), has_record_in, Hb.
  - apply forallb_forall. intros p Hp. apply N.eqb_eq, Hrec, Hp.
Qed.

Theorem all_tables_ok : forallb table_ok (combine all_tables table_exceptions) = true.
Proof.
  apply forallb_forall. intros x Hx. apply table_sorted_ok_ok. revert x Hx. apply forallb_forall. vm_compute. reflexivity.
Qed.

Lemma table_in_ok : forall x, In x (combine all_tables table_exceptions) -> table_ok x = true.
Proof. intros x H. pose proof all_tables_ok as A. rewrite forallb_forall in A. apply A. exact H. Qed.

Lemma exception_in : forall b exc, existsb (N.eqb b) exc = true -> In b exc.
Proof. intros b exc H. apply existsb_exists in H. destruct H as (y & Hy & E). apply N.eqb_eq in E. subst y. exact Hy. Qed.

Lemma nrange_tl_in : forall n b, 0 < b < N.of_nat n -> In b (tl (nrange n)).
Proof.
  intros n b H. destruct n as [|m]; [lia|]. unfold nrange. cbn [seq map tl]. apply in_map_iff. exists (N.to_nat b).
  split; [apply N2Nat.id|apply in_seq; lia].
Qed.

(** what [table_ok] says of one byte *)
Lemma table_ok_byte : forall from to sz exc b, table_ok ((from, to, sz), exc) = true -> 0 < b < 256 -> ~ In b exc ->
  xlat_to to sz (tbl from b) = b /\ tbl from b < 65536.
Proof.
  intros from to sz exc b H Hb Hexc. unfold table_ok in H.
  (* the nine conjuncts of [table_ok], last first: record 0, records found, bytes found (kept), bytes below 256, sorted,
     units below 65536 (kept), none 0xFFFF, length of [to], length of [from] (kept) *)
  apply andb_prop in H. destruct H as [H _]. apply andb_prop in H. destruct H as [H _].
  apply andb_prop in H. destruct H as [H Hrt]. apply andb_prop in H. destruct H as [H _].
  apply andb_prop in H. destruct H as [H _]. apply andb_prop in H. destruct H as [H Hlt].
  apply andb_prop in H. destruct H as [H _]. apply andb_prop in H. destruct H as [Hlen _].
  rewrite forallb_forall in Hrt, Hlt. apply Nat.eqb_eq in Hlen. split.
  - specialize (Hrt b (nrange_tl_in 256 b Hb)). apply orb_prop in Hrt.
    destruct Hrt as [Hx|Hx]; [contradiction Hexc; apply exception_in, Hx|apply N.eqb_eq, Hx].
  - apply N.ltb_lt, Hlt. unfold tbl. apply nth_In. lia.
Qed.


(** encode soundness over the generated tables: every record (u, b) of a to-table is the inverse of the
    from-table, i.e. byte b decodes to u -- no best-fit record that writes a character as a different one
    (the repaired defect F42 of C05 = F46 of C12).  The only exception on the unchanged tree is U+0085 in IBM1047 (finding F24). *)
Definition table_to_exceptions : list (list N) := [ []; []; [133]; [] ].

Definition table_enc_ok (xe : (list N * list (N * N) * N) * list N) : bool :=
  let '((from, to, sz), uexc) := xe in
  forallb (fun p => existsb (N.eqb (fst p)) uexc || (tbl from (snd p) =? fst p)) to.

Theorem all_tables_enc_ok : forallb table_enc_ok (combine all_tables table_to_exceptions) = true.
Proof. vm_compute. reflexivity. Qed.

Lemma table_enc_in_ok : forall x, In x (combine all_tables table_to_exceptions) -> table_enc_ok x = true.
Proof. intros x H. pose proof all_tables_enc_ok as A. rewrite forallb_forall in A. apply A. exact H. Qed.

Lemma table_enc_rec : forall from to sz uexc u b, table_enc_ok ((from, to, sz), uexc) = true ->
  In (u, b) to -> ~ In u uexc -> tbl from b = u.
Proof.
  intros from to sz uexc u b A Hrec Hexc. unfold table_enc_ok in A. rewrite forallb_forall in A.
  specialize (A _ Hrec). cbn [fst snd] in A. apply orb_prop in A. destruct A as [Hx|Hx].
  - contradiction Hexc. apply exception_in, Hx.
  - apply N.eqb_eq, Hx.
Qed.

(** known finding F24 (faithful model): IBM1047 byte 0x15 decodes to LF and does not round-trip *)
Theorem ibm1047_nel_refuted :
  tbl ibm1047_from 0x15 = 0x0A /\ xlat_to ibm1047_to ibm1047_tosz 0x85 = 0x15 /\
  xlat_to ibm1047_to ibm1047_tosz (tbl ibm1047_from 0x15) <> 0x15.
Proof. vm_compute. repeat split. discriminate. Qed.

