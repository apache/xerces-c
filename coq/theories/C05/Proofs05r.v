(** the byte strings the recognizer theorems speak of: `<?xml ` as it arrives in each encoding family *)
From XV Require Import C05.Spec05 C05.Model05 C05.Model05r.
From Coq Require Import ZArith ZifyBool ZifyN ZifyNat Lia.
Local Open Scope N_scope.

(** "<?xml " *)
Definition xml_decl_start : list N := [0x3C; 0x3F; 0x78; 0x6D; 0x6C; 0x20].

Definition enc_units (e : enc) (cps : list N) : list N :=
  match e with
  | UTF_8 => flat_map utf8_enc cps
  | UTF_16B => flat_map (fun c => [c / 256; c mod 256]) cps
  | UTF_16L => flat_map (fun c => [c mod 256; c / 256]) cps
  | UCS_4B => flat_map (ucs4_enc true) cps
  | UCS_4L => flat_map (ucs4_enc false) cps
  | EBCDIC => [0x4C; 0x6F; 0xA7; 0x94; 0x93; 0x40]     (* "<?xml " in the invariant EBCDIC code points *)
  end.

Lemma list_eqb_refl : forall l, list_eqb l l = true.
Proof. induction l as [|x l IH]; [reflexivity|]. cbn [list_eqb]. rewrite N.eqb_refl, IH. reflexivity. Qed.

