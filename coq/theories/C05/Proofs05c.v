(** C05 proofs, part c: the decoding loop [x8_from] (XMLUTF8Transcoder::transcodeFrom as a whole). *)
From XV Require Import C05.Spec05 C05.Model05 C05.Proofs05a C05.Proofs05b.
From Coq Require Import ZArith ZifyBool ZifyN ZifyNat Lia.
Local Open Scope N_scope.

Definition dec_post (src : list N) (room : nat) (out sizes : list N) (eaten : nat) : Prop :=
  exists cps, Forall scalar cps /\ firstn eaten src = flat_map utf8_enc cps /\ out = flat_map utf16_enc cps /\
              sumN sizes = N.of_nat eaten /\ (length out <= room)%nat /\ (eaten <= length src)%nat /\
              length sizes = length out.

Lemma x8_loop_sound : forall fuel src room p out sizes eaten, bytes src ->
  x8_loop fuel src room p = Ok (out, sizes, eaten) -> dec_post src room out sizes eaten.
Proof.
  induction fuel as [|f IH]; intros src room p out sizes eaten Hb H; [discriminate|].
  cbn [x8_loop] in H.
  destruct (x8_step src room p) as [| |e|u n] eqn:Hs.
  - inversion H; subst. exists []. cbn. repeat split; try lia. constructor.
  - inversion H; subst. exists []. cbn. repeat split; try lia. constructor.
  - discriminate.
  - destruct (x8_loop f (skipn n src) (room - length u) (p + length u)) as [[[o s] e]|e] eqn:Hr; [|discriminate].
    inversion H; subst. clear H.
    apply x8_step_sound in Hs; [|exact Hb]. destruct Hs as (c & Hc & Hf & Hu & Hlen & Hn & Hpos).
    apply IH in Hr; [|apply Forall_skipn; exact Hb].
    destruct Hr as (cps & Hcps & Hf2 & Ho & Hsum & Hlen2 & He & Hsl).
    exists (c :: cps). subst u o.
    repeat split.
    + constructor; assumption.
    + rewrite firstn_plus, Hf, Hf2. reflexivity.
    + rewrite sumN_app, sizes_of_sum, Hsum. lia.
    + cbn [flat_map]. rewrite app_length. lia.
    + rewrite skipn_length in He. lia.
    + cbn [flat_map]. rewrite !app_length, sizes_of_len, Hsl by apply utf16_enc_len. reflexivity.
Qed.

Theorem x8_from_sound : forall src maxChars out sizes eaten, bytes src ->
  x8_from src maxChars = Ok (out, sizes, eaten) -> dec_post src maxChars out sizes eaten.
Proof. intros. unfold x8_from in *. eapply x8_loop_sound; eassumption. Qed.

Lemma x8_loop_fuel : forall fuel src room p, bytes src -> (length src < fuel)%nat -> x8_loop fuel src room p <> Err E_Fuel.
Proof.
  (* each iteration that goes on has eaten at least one byte, so [length src < fuel] is kept *)
  induction fuel as [|f IH]; intros src room p Hb Hl; [lia|].
  cbn [x8_loop]. destruct (x8_step src room p) as [| |e|u n] eqn:Hs; try discriminate.
  - intros H. inversion H; subst. exact (x8_step_no_fuel _ _ _ Hb Hs).
  - apply x8_step_sound in Hs; [|exact Hb]. destruct Hs as (c & _ & _ & _ & _ & Hn & Hpos).
    specialize (IH (skipn n src) (room - length u)%nat (p + length u)%nat (Forall_skipn _ _ n src Hb)).
    destruct (x8_loop f (skipn n src) (room - length u) (p + length u)) as [[[o s] e]|e]; [discriminate|].
    intros H. inversion H; subst. apply IH; [|reflexivity]. rewrite skipn_length. lia.
Qed.

Lemma x8_loop_complete : forall cps fuel room p, Forall scalar cps ->
  (length (flat_map utf8_enc cps) < fuel)%nat -> (length (flat_map utf16_enc cps) <= room)%nat ->
  exists sizes, x8_loop fuel (flat_map utf8_enc cps) room p =
                Ok (flat_map utf16_enc cps, sizes, length (flat_map utf8_enc cps)).
Proof.
  induction cps as [|c cps IH]; intros fuel room p Hs Hf Hr.
  - destruct fuel as [|f]; [cbn in Hf; lia|]. exists []. reflexivity.
  - inversion Hs as [|? ? Hc Hcps]; subst. cbn [flat_map] in *. rewrite app_length in *.
    destruct fuel as [|f]; [lia|]. cbn [x8_loop].
    rewrite x8_step_complete; [|assumption|lia].
    rewrite skipn_app_len. pose proof (utf8_enc_len c) as Hl.
    destruct (IH f (room - length (utf16_enc c))%nat (p + length (utf16_enc c))%nat Hcps) as [sz E]; [lia|lia|].
    rewrite E. eexists. reflexivity.
Qed.

Theorem x8_from_complete : forall cps maxChars, Forall scalar cps ->
  (length (flat_map utf16_enc cps) <= maxChars)%nat ->
  exists sizes, x8_from (flat_map utf8_enc cps) maxChars =
                Ok (flat_map utf16_enc cps, sizes, length (flat_map utf8_enc cps)).
Proof. intros. unfold x8_from. apply x8_loop_complete; [assumption|lia|assumption]. Qed.

