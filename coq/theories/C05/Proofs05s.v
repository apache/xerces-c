(** Encoding names: encodingForName / nameForEncoding, name -> transcoder resolution, and the agreement between the
    auto-sensed family and the declared name in XMLReader::setEncoding. *)
From XV Require Import C05.Spec05 C05.Spec05s C05.Model05 C05.Model05r C05.Model05s.
From Coq Require Import ZArith ZifyBool ZifyN ZifyNat Lia Bool String.
Local Open Scope N_scope.

Lemma list_eqb_eq : forall a b, list_eqb a b = true -> a = b.
Proof.
  induction a as [|x a IH]; destruct b as [|y b]; cbn [list_eqb]; intros H; try discriminate; [reflexivity|].
  apply andb_true_iff in H. destruct H as [H1 H2]. apply N.eqb_eq in H1. subst y. f_equal. apply IH. exact H2.
Qed.

Lemma list_eqb_refl' : forall l, list_eqb l l = true.
Proof. induction l as [|x l IH]; [reflexivity|]. cbn [list_eqb]. rewrite N.eqb_refl, IH. reflexivity. Qed.

Lemma up1_idem : forall c, up1 (up1 c) = up1 c.
Proof.
  intros c. unfold up1.
  destruct ((0x61 <=? c) && (c <=? 0x7A)) eqn:E; [|rewrite E; reflexivity].
  assert (H : (0x61 <=? c - 0x61 + 0x41) && (c - 0x61 + 0x41 <=? 0x7A) = false) by lia.
  rewrite H. reflexivity.
Qed.

Lemma upper_ascii_idem : forall s, upper_ascii (upper_ascii s) = upper_ascii s.
Proof. intros s. unfold upper_ascii. rewrite map_map. apply map_ext. exact up1_idem. Qed.


Lemma make_transcoder_case : forall s t, upper_ascii s = upper_ascii t -> make_transcoder_name s = make_transcoder_name t.
Proof. intros s t H. unfold make_transcoder_name. rewrite H. reflexivity. Qed.

Lemma make_transcoder_upper : forall s, make_transcoder_name (upper_ascii s) = make_transcoder_name s.
Proof. intros s. apply make_transcoder_case. apply upper_ascii_idem. Qed.

Definition opt_eqb (a b : option (N * bool)) : bool :=
  match a, b with
  | Some (x, p), Some (y, q) => (x =? y) && Bool.eqb p q
  | None, None => true
  | _, _ => false
  end.

Lemma opt_eqb_eq : forall a b, opt_eqb a b = true -> a = b.
Proof.
  intros [[x p]|] [[y q]|]; cbn [opt_eqb]; intros H; try discriminate; [|reflexivity].
  apply andb_true_iff in H. destruct H as [H1 H2]. apply N.eqb_eq in H1. apply Bool.eqb_prop in H2. subst. reflexivity.
Qed.

(** obligation over the generated gMappings: every registered name is in upper case and resolves to its own
    registration (no name is registered twice with different transcoders) *)
Definition mapping_ok (kv : list N * (N * bool)) : bool :=
  list_eqb (upper_ascii (fst kv)) (fst kv) && opt_eqb (assoc_names (fst kv) ts_mappings) (Some (snd kv)).

Lemma ts_mappings_ok : forallb mapping_ok ts_mappings = true.
Proof. vm_compute. reflexivity. Qed.

(** the encodings the property names, with the transcoder class (numbering of Gen/GenEncNames.v) and the byte
    swapping each must get on this little-endian host *)
Definition expected_intrinsic : list (list N * (N * bool)) :=
  map (fun p => (units_of_string (fst p), snd p))
    [ ("UTF-8", (2, false)); ("US-ASCII", (1, false)); ("ISO-8859-1", (3, false)); ("WINDOWS-1252", (9, false));
      ("IBM037", (6, false)); ("EBCDIC-CP-US", (6, false)); ("IBM1047", (7, false)); ("IBM1140", (8, false));
      ("UTF-16", (4, false)); ("UTF-16LE", (4, false)); ("UTF-16BE", (4, true));
      ("UCS-4", (5, false)); ("UCS-4LE", (5, false)); ("UCS-4BE", (5, true)); ("UTF-32", (5, false));
      ("UTF-16 (LE)", (4, false)); ("UTF-16 (BE)", (4, true)); ("UCS-4 (LE)", (5, false)); ("UCS-4 (BE)", (5, true)) ]%string.

Lemma expected_intrinsic_ok :
  forallb (fun kv => opt_eqb (assoc_names (fst kv) ts_mappings) (Some (snd kv)) && list_eqb (upper_ascii (fst kv)) (fst kv))
          expected_intrinsic = true.
Proof. vm_compute. reflexivity. Qed.

Lemma in_names_In : forall s names, in_names s names = true -> In s names.
Proof.
  intros s names H. unfold in_names in H. apply existsb_exists in H. destruct H as [n [Hin He]].
  apply list_eqb_eq in He. subst n. exact Hin.
Qed.

Lemma efn_go_in : forall s chain, efn_go s chain <> R_Other ->
  exists names code, In (names, code) chain /\ In s names.
Proof.
  intros s chain. induction chain as [|[names code] rest IH]; cbn [efn_go]; intros H; [congruence|].
  destruct (in_names s names) eqn:E.
  - exists names, code. split; [left; reflexivity|apply in_names_In; exact E].
  - destruct (IH H) as [n' [c' [Hin Hs]]]. exists n', c'. split; [right; exact Hin|exact Hs].
Qed.

(** obligation over the generated clause list and mappings: for every name some clause of encodingForName tests,
    creating the transcoder by that name and by the enumerator encodingForName returns is the same thing *)
Definition clause_ok (cl : list (list N) * N) : bool :=
  forallb (fun n => opt_eqb (assoc_names (upper_ascii n) ts_mappings) (make_transcoder_enum (efn_go n efn_chain))
                    && negb (renc_eqb (efn_go n efn_chain) R_Other)) (fst cl).

Lemma efn_chain_ok : forallb clause_ok efn_chain = true.
Proof. vm_compute. reflexivity. Qed.

Definition all_renc : list renc := [R_EBCDIC; R_UCS_4B; R_UCS_4L; R_US_ASCII; R_UTF_8; R_UTF_16B; R_UTF_16L; R_XMLCH].

(** encodingForName deliberately leaves EBCDIC to "other": the variant must be named by the declaration *)
Lemma enc_name_ebcdic : exists s, name_for_encoding R_EBCDIC = Some s /\ encoding_for_name s = R_Other.
Proof. eexists. split; vm_compute; reflexivity. Qed.

Definition renc_of_family (f : family) : renc :=
  match f with
  | FamByte => R_UTF_8 | Fam16B => R_UTF_16B | Fam16L => R_UTF_16L | Fam32B => R_UCS_4B | Fam32L => R_UCS_4L
  | FamEBCDIC => R_EBCDIC
  end.

Lemma set_encoding_upper : forall b cur s, set_encoding b cur (upper_ascii s) = set_encoding b cur s.
Proof. intros b cur s. unfold set_encoding. rewrite upper_ascii_idem. reflexivity. Qed.

(** decision over the names of the specification: accepted <-> compatible (XML 1.0 4.3.3), and an accepted
    declaration selects a transcoder of the detected unit size and byte order *)
Definition swapped_of_family (f : family) : bool := match f with Fam16B | Fam32B => true | _ => false end.

Definition decl_case_ok (b : bool) (f : family) (nd : list N * dfam) : bool :=
  match set_encoding b (renc_of_family f) (fst nd) with
  | SE_Reject => negb (compat f (snd nd))
  | SE_Accept nb _ tr =>
      compat f (snd nd) && (family_code nb =? family_code (renc_of_family f)) &&
      match tr with Some (_, sw) => Bool.eqb sw (swapped_of_family f) | None => false end
  | SE_Throw => false
  end.

Lemma decl_compat_table : forallb (fun f => forallb (decl_case_ok true f) spec_names) all_families = true.
Proof. vm_compute. reflexivity. Qed.

Lemma all_families_complete : forall f, In f all_families.
Proof. destruct f; cbn; tauto. Qed.

(** the reader as it stands: a declaration in the bytes of one family may name an encoding of another family and
    is accepted; the rest of the entity is then decoded with the other family's transcoder.
    "utf-16le" declared in an entity detected as UTF-8 *)
Lemma decl_compat_refuted :
  exists cur s nb str tr, set_encoding false cur s = SE_Accept nb str tr /\ nb <> R_Other /\
                          family_code nb <> family_code cur.
Proof.
  exists R_UTF_8, (units_of_string "utf-16le"), R_UTF_16L, (units_of_string "UTF-16LE"), (Some (4, false)).
  split; [vm_compute; reflexivity|split; [discriminate|vm_compute; discriminate]].
Qed.

(** not covered by the repair either: a name the recognizer does not know (here ISO-8859-1, a byte encoding)
    declared in an entity detected as UTF-16: accepted, and a byte transcoder is installed *)
Lemma decl_other_refuted : forall b,
  set_encoding b R_UTF_16L (units_of_string "ISO-8859-1") = SE_Accept R_Other (units_of_string "ISO-8859-1") (Some (3, false)).
Proof. intros [|]; vm_compute; reflexivity. Qed.

(** names used in the statements of Properties_C05.v *)
Definition n_Utf16be_mixed := units_of_string "Utf-16be".
Definition n_Shift_JIS := units_of_string "Shift_JIS".
Definition n_utf16_lower := units_of_string "utf-16".
Definition n_UTF16BE_paren := units_of_string "UTF-16 (BE)".
Definition n_UTF16LE := units_of_string "UTF-16LE".
Definition n_ISO88591 := units_of_string "ISO-8859-1".
