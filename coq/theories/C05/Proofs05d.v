(** C05 proofs, part d: one iteration of XMLUTF8Transcoder::transcodeTo (model [x8_to_step]) on each shape of
    source, and the encoder [x8_to] on well-formed UTF-16. *)
From XV Require Import C05.Spec05 C05.Model05 C05.Proofs05a.
From Coq Require Import ZArith ZifyBool ZifyN ZifyNat Lia.
Local Open Scope N_scope.

(** a continuation byte, as the fall-through switch of [enc_bytes] writes it *)
Lemma cont_spec : forall v, N.land (N.lor v 0x80) 0xBF mod 256 = 0x80 + v mod 64.
Proof.
  intros v. rewrite N.land_lor_distr_l. change (N.land 0x80 0xBF) with 0x80.
  assert (E : N.land v 0xBF = N.land (v mod 256) 0xBF).
  { change 0xBF with (N.land (N.ones 8) 0xBF) at 1. rewrite N.land_assoc, N.land_ones. reflexivity. }
  rewrite E.
  assert (Hb : v mod 256 < 256) by (apply N.mod_lt; discriminate).
  assert (Sw := sweep256 (fun b => (N.lor (N.land b 0xBF) 0x80) mod 256 =? 0x80 + b mod 64)).
  rewrite (proj1 (N.eqb_eq _ _) (Sw ltac:(vm_compute; reflexivity) _ Hb)).
  f_equal. change 256 with (64 * 4). rewrite N.mod_mul_r, N.mul_comm, N.mod_add by discriminate. apply N.mod_mod. discriminate.
Qed.

Definition nbytes (c : N) : nat :=
  if c <? 0x80 then 1%nat else if c <? 0x800 then 2%nat else if c <? 0x10000 then 3%nat else 4%nat.

(** or-ing a mark onto a value that has no bit in common with it adds it *)
Lemma lor_mark : forall k m x, x < 2 ^ k -> N.land (N.ones k) m = 0 -> m + 2 ^ k <= 256 -> N.lor x m mod 256 = m + x.
Proof.
  intros k m x Hx Hm Hk.
  assert (D : N.land x m = 0).
  { rewrite <- (N.mod_small x (2 ^ k) Hx), <- N.land_ones, <- N.land_assoc, Hm. apply N.land_0_r. }
  rewrite <- N.lxor_lor, <- N.add_nocarry_lxor, N.add_comm by exact D. apply N.mod_small. lia.
Qed.

Lemma enc_bytes_spec : forall c, c < 0x110000 -> enc_bytes c (nbytes c) = utf8_enc c.
Proof.
  intros c Hc. destruct gFirstByteMark_vals as (M1 & M2 & M3 & M4). unfold utf8_enc, nbytes.
  destruct (N.ltb_spec c 0x80) as [|_].
  { cbn [enc_bytes]. rewrite M1, N.lor_0_r. f_equal. apply N.mod_small. lia. }
  destruct (N.ltb_spec c 0x800) as [Hc2|_].
  { cbn [enc_bytes]. rewrite M2, cont_spec, N.shiftr_div_pow2.
    rewrite (lor_mark 5); [reflexivity|apply N.div_lt_upper_bound; [discriminate|exact Hc2]|reflexivity|discriminate]. }
  destruct (N.ltb_spec c 0x10000) as [Hc3|_].
  { cbn [enc_bytes]. rewrite M3, !cont_spec, !N.shiftr_div_pow2.
    rewrite (lor_mark 4); [reflexivity|apply N.div_lt_upper_bound; [discriminate|exact Hc3]|reflexivity|discriminate]. }
  { cbn [enc_bytes]. rewrite M4, !cont_spec, !N.shiftr_div_pow2.
    rewrite (lor_mark 3); [reflexivity|apply N.div_lt_upper_bound; [discriminate|lia]|reflexivity|discriminate]. }
Qed.

Lemma utf8_enc_nbytes : forall c, length (utf8_enc c) = nbytes c.
Proof.
  intros c. unfold utf8_enc, nbytes. destruct (c <? 0x80); [reflexivity|]. destruct (c <? 0x800); [reflexivity|].
  destruct (c <? 0x10000); reflexivity.
Qed.

(** what an iteration answers once it has a scalar value [cur] in hand, taken from [used] source units *)
Definition encoded (cur : N) (room used : nat) : tres :=
  if Nat.ltb room (length (utf8_enc cur)) then TStop else TOut (utf8_enc cur) used.

(** the tail shared by both branches of an iteration *)
Lemma x8_to_tail : forall cur room (throw : bool) used, cur < 0x110000 ->
  (let n := if cur <? 0x80 then 1%nat else if cur <? 0x800 then 2%nat else if cur <? 0x10000 then 3%nat
            else if cur <? 0x110000 then 4%nat else 0%nat in
   match n with
   | O => if throw then TErr E_Trans_Unrepresentable else TOut [32] used
   | _ => if Nat.ltb room n then TStop else TOut (enc_bytes cur n) used
   end) = encoded cur room used.
Proof.
  intros cur room throw used Hc. unfold encoded. rewrite utf8_enc_nbytes, <- (enc_bytes_spec cur Hc). unfold nbytes.
  destruct (cur <? 0x80); [reflexivity|]. destruct (cur <? 0x800); [reflexivity|]. destruct (cur <? 0x10000); [reflexivity|].
  destruct (N.ltb_spec cur 0x110000); [reflexivity|lia].
Qed.

Lemma x8_to_step_bmp : forall u rest room throw, u < 0xD800 \/ 0xDFFF < u -> u < 0x10000 ->
  x8_to_step (u :: rest) room throw = encoded u room 1.
Proof.
  intros u rest room throw Hu Hb. unfold x8_to_step. cbv zeta.
  replace ((0xD800 <=? u) && (u <=? 0xDBFF)) with false by lia.
  replace ((0xDC00 <=? u) && (u <=? 0xDFFF)) with false by lia. apply x8_to_tail. lia.
Qed.

Lemma x8_to_step_pair : forall u t rest room throw, 0xD800 <= u <= 0xDBFF -> 0xDC00 <= t <= 0xDFFF ->
  x8_to_step (u :: t :: rest) room throw = encoded (pair_val u t) room 2.
Proof.
  intros u t rest room throw Hu Ht. unfold x8_to_step. cbv zeta.
  replace ((0xD800 <=? u) && (u <=? 0xDBFF)) with true by lia.
  replace ((t <? 0xDC00) || (0xDFFF <? t)) with false by lia.
  rewrite (wrap32 (pair_val u t)) by (unfold pair_val, w32; lia). apply x8_to_tail. unfold pair_val. lia.
Qed.

Lemma x8_to_step_lead_last : forall u room throw, 0xD800 <= u <= 0xDBFF -> x8_to_step [u] room throw = TStop.
Proof. intros u room throw Hu. unfold x8_to_step. replace ((0xD800 <=? u) && (u <=? 0xDBFF)) with true by lia. reflexivity. Qed.

Lemma x8_to_step_bad_trail : forall u t rest room throw, 0xD800 <= u <= 0xDBFF -> ~ (0xDC00 <= t <= 0xDFFF) ->
  x8_to_step (u :: t :: rest) room throw = TErr E_Trans_BadTrailingSurrogate.
Proof.
  intros u t rest room throw Hu Ht. unfold x8_to_step.
  replace ((0xD800 <=? u) && (u <=? 0xDBFF)) with true by lia.
  replace ((t <? 0xDC00) || (0xDFFF <? t)) with true by lia. reflexivity.
Qed.

Lemma x8_to_step_lone_trail : forall u rest room throw, 0xDC00 <= u <= 0xDFFF ->
  x8_to_step (u :: rest) room throw = TErr E_Trans_BadSrcSeq.
Proof.
  intros u rest room throw Hu. unfold x8_to_step.
  replace ((0xD800 <=? u) && (u <=? 0xDBFF)) with false by lia.
  replace ((0xDC00 <=? u) && (u <=? 0xDFFF)) with true by lia. reflexivity.
Qed.

Lemma x8_to_step_complete : forall c rest room throw, scalar c -> (length (utf8_enc c) <= room)%nat ->
  x8_to_step (utf16_enc c ++ rest) room throw = TOut (utf8_enc c) (length (utf16_enc c)).
Proof.
  intros c rest room throw Hc Hroom. apply scalar_bounds in Hc.
  assert (E : encoded c room (length (utf16_enc c)) = TOut (utf8_enc c) (length (utf16_enc c))).
  { unfold encoded. destruct (Nat.ltb_spec room (length (utf8_enc c))); [lia|reflexivity]. }
  destruct (N.lt_ge_cases c 0x10000) as [Hs|Hb].
  - rewrite utf16_enc_small in * by exact Hs. rewrite <- E. apply x8_to_step_bmp; lia.
  - destruct (pair_val_enc c ltac:(lia)) as (u & t & E16 & Hu & Ht & Ev). rewrite E16 in *. rewrite <- E, <- Ev.
    apply x8_to_step_pair; assumption.
Qed.

Lemma x8_to_loop_complete : forall cps fuel room throw, Forall scalar cps ->
  (length (flat_map utf16_enc cps) < fuel)%nat -> (length (flat_map utf8_enc cps) <= room)%nat ->
  x8_to_loop fuel (flat_map utf16_enc cps) room throw = Ok (flat_map utf8_enc cps, length (flat_map utf16_enc cps)).
Proof.
  induction cps as [|c cps IH]; intros fuel room throw Hs Hf Hr.
  - destruct fuel as [|f]; [cbn in Hf; lia|]. reflexivity.
  - inversion Hs as [|? ? Hc Hcps]; subst. cbn [flat_map] in *. rewrite app_length in *.
    destruct fuel as [|f]; [lia|]. cbn [x8_to_loop].
    rewrite x8_to_step_complete; [|assumption|lia].
    rewrite skipn_app_len. pose proof (utf16_enc_len c) as Hl.
    rewrite IH; [reflexivity|assumption|lia|lia].
Qed.

Theorem x8_to_complete : forall cps maxBytes throw, Forall scalar cps ->
  (length (flat_map utf8_enc cps) <= maxBytes)%nat ->
  x8_to (flat_map utf16_enc cps) maxBytes throw = Ok (flat_map utf8_enc cps, length (flat_map utf16_enc cps)).
Proof.
  intros cps maxBytes throw Hs Hr. unfold x8_to.
  destruct cps as [|c cps]; [reflexivity|].
  pose proof (utf16_enc_len c) as Hl. pose proof (utf8_enc_len c) as Hl8.
  destruct (flat_map utf16_enc (c :: cps)) as [|x w] eqn:E.
  { cbn [flat_map] in E. apply (f_equal (@length N)) in E. rewrite app_length in E. cbn [length] in E. lia. }
  destruct maxBytes as [|m]. { cbn [flat_map] in Hr. rewrite app_length in Hr. lia. }
  rewrite <- E. apply x8_to_loop_complete; [assumption|lia|assumption].
Qed.

Theorem x8_can_spec : forall c, x8_can c = true <-> c <= 0x10FFFF.
Proof. intros c. unfold x8_can. lia. Qed.
