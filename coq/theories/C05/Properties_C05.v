(** Property C05 -- Transcoders and encoding detection decode every supported encoding exactly.
    The property theorems, each followed by [Print Assumptions]; most are a few lines over the theorems of
    Proofs05*.v, where one iteration of each transcoder, the table search and the recognizer are characterised.
    Models: Model05.v, Model05r.v, Model05s.v (tables: Gen/*.v, regenerated from /repo on every run).
    Specs: Spec05.v, Spec05s.v. *)
From XV Require Import C05.Spec05 C05.Model05 C05.Proofs05a C05.Proofs05b C05.Proofs05c C05.Proofs05d C05.Proofs05e C05.Proofs05f.
From XV Require Import C05.Model05r C05.Proofs05r.
From XV Require Import C05.Spec05s C05.Model05s C05.Proofs05s C05.Proofs05t.
From Coq Require Import ZArith ZifyBool ZifyN ZifyNat Lia.
Local Open Scope N_scope.

(** the specification itself is consistent: Table 3-6 (bit distribution) and Table 3-7 (well-formed
    sequences) describe the same set *)
Theorem T05_spec_tables_agree : forall l, wf8_seq l = true <-> exists c, scalar c /\ l = utf8_enc c.
Proof.
  intros l. split.
  - intros H. exists (utf8_val l). destruct (wf8_seq_enc l H) as [Hs He]. split; [exact Hs|symmetry; exact He].
  - intros [c [Hc E]]. subst l. exact (utf8_enc_wf c Hc).
Qed.
Print Assumptions T05_spec_tables_agree.

(** UTF-8 decoding is sound: whatever [transcodeFrom] consumes is a concatenation of well-formed
    encodings of scalar values, the output is exactly their UTF-16 form, charSizes add up to the bytes
    eaten, and no bound is exceeded.  Hence no over-long form, surrogate, value above U+10FFFF, 5/6-byte
    form or stray continuation byte is ever decoded. *)
Theorem T05_utf8_dec_sound : forall src maxChars out sizes eaten, bytes src ->
  x8_from src maxChars = Ok (out, sizes, eaten) ->
  exists cps, Forall scalar cps /\ firstn eaten src = flat_map utf8_enc cps /\ out = flat_map utf16_enc cps /\
              sumN sizes = N.of_nat eaten /\ (length out <= maxChars)%nat /\ (eaten <= length src)%nat /\
              length sizes = length out.
Proof. exact x8_from_sound. Qed.
Print Assumptions T05_utf8_dec_sound.

(** UTF-8 decoding is complete: every well-formed string is decoded entirely (no legal sequence is
    rejected), for every output room that can hold the result *)
Theorem T05_utf8_dec_complete : forall cps maxChars, Forall scalar cps ->
  (length (flat_map utf16_enc cps) <= maxChars)%nat ->
  exists sizes, x8_from (flat_map utf8_enc cps) maxChars =
                Ok (flat_map utf16_enc cps, sizes, length (flat_map utf8_enc cps)).
Proof. exact x8_from_complete. Qed.
Print Assumptions T05_utf8_dec_complete.

(** one legal sequence followed by anything decodes to its code point and eats exactly its bytes *)
Theorem T05_utf8_dec_step : forall c rest room p, scalar c -> bytes rest -> (length (utf16_enc c) <= room)%nat ->
  x8_step (utf8_enc c ++ rest) room p = SOut (utf16_enc c) (length (utf8_enc c)).
Proof. intros c rest room p Hc _. apply x8_step_complete. exact Hc. Qed.
Print Assumptions T05_utf8_dec_step.

(** progress / no silent skipping: with >= 6 source bytes and room for a pair, a call that does not
    throw consumes at least one byte; together with soundness, an ill-formed sequence at the head of
    such an input always raises an exception *)
Theorem T05_utf8_dec_progress : forall src maxChars out sizes eaten, bytes src ->
  (6 <= length src)%nat -> (2 <= maxChars)%nat -> x8_from src maxChars = Ok (out, sizes, eaten) -> (0 < eaten)%nat.
Proof.
  intros src room out sizes eaten Hb Hl Hr H. unfold x8_from in H. cbn [x8_loop] in H.
  destruct (x8_step src room 0) as [| |e|u n] eqn:Hs.
  - destruct (x8_step_progress src room Hb Hl Hr) as [A _]. contradiction.
  - destruct (x8_step_progress src room Hb Hl Hr) as [_ A]. contradiction.
  - discriminate.
  - apply x8_step_sound in Hs; [|exact Hb]. destruct Hs as (c & _ & _ & _ & _ & _ & Hpos).
    destruct (x8_loop (length src) (skipn n src) (room - length u) (0 + length u)) as [[[o s] e]|e]; [|discriminate].
    inversion H; subst. lia.
Qed.
Print Assumptions T05_utf8_dec_progress.

Theorem T05_utf8_dec_total : forall src maxChars, bytes src -> x8_from src maxChars <> Err E_Fuel.
Proof. intros. unfold x8_from. apply x8_loop_fuel; [assumption|lia]. Qed.
Print Assumptions T05_utf8_dec_total.

(** UTF-8 encoding of well-formed UTF-16 yields exactly the legal byte sequence *)
Theorem T05_utf8_enc : forall cps maxBytes throw, Forall scalar cps -> cps <> [] ->
  (length (flat_map utf8_enc cps) <= maxBytes)%nat ->
  x8_to (flat_map utf16_enc cps) maxBytes throw = Ok (flat_map utf8_enc cps, length (flat_map utf16_enc cps)).
Proof. intros cps maxBytes throw Hs _. apply x8_to_complete. exact Hs. Qed.
Print Assumptions T05_utf8_enc.

(** ... and on EVERY source of 16-bit units the encoder is sound: a result without error is the UTF-8
    form of the scalar values of a well-formed UTF-16 prefix of the source, and that prefix is what is
    reported as eaten; unpaired surrogates are reported (defect F7, repaired) *)
Theorem T05_utf8_enc_sound : forall src maxBytes throw bs n, Forall u16 src ->
  x8_to src maxBytes throw = Ok (bs, n) ->
  exists cps, Forall scalar cps /\ firstn n src = flat_map utf16_enc cps /\ bs = flat_map utf8_enc cps.
Proof.
  intros src maxBytes throw bs n Hsrc H. exact (proj1 (x8_to_sound _ _ _ _ _ Hsrc H)).
Qed.
Print Assumptions T05_utf8_enc_sound.

Theorem T05_utf8_enc_lone_trail : forall u rest maxBytes throw, 0xDC00 <= u <= 0xDFFF -> maxBytes <> O ->
  x8_to (u :: rest) maxBytes throw = Err E_Trans_BadSrcSeq.
Proof.
  intros u rest maxBytes throw Hu Hm. unfold x8_to. destruct maxBytes as [|m]; [congruence|].
  cbn [x8_to_loop length]. rewrite x8_to_step_lone_trail by exact Hu. reflexivity.
Qed.
Print Assumptions T05_utf8_enc_lone_trail.

Theorem T05_utf8_enc_bad_trail : forall u t rest maxBytes throw, 0xD800 <= u <= 0xDBFF -> ~ (0xDC00 <= t <= 0xDFFF) ->
  maxBytes <> O -> x8_to (u :: t :: rest) maxBytes throw = Err E_Trans_BadTrailingSurrogate.
Proof.
  intros u t rest maxBytes throw Hu Ht Hm. unfold x8_to. destruct maxBytes as [|m]; [congruence|].
  cbn [x8_to_loop length]. rewrite x8_to_step_bad_trail by assumption. reflexivity.
Qed.
Print Assumptions T05_utf8_enc_bad_trail.

Example T05_nonvacuous_enc_sound : x8_to [0x41; 0xD800; 0xDF48; 0x20AC] 16 true = Ok ([0x41; 0xF0; 0x90; 0x8D; 0x88; 0xE2; 0x82; 0xAC], 4%nat).
Proof. vm_compute. reflexivity. Qed.

(** decoding what [x8_to] wrote gives the original string back *)
Theorem T05_utf8_roundtrip : forall cps maxBytes maxChars throw, Forall scalar cps -> cps <> [] ->
  (length (flat_map utf8_enc cps) <= maxBytes)%nat -> (length (flat_map utf16_enc cps) <= maxChars)%nat ->
  exists bs n sizes, x8_to (flat_map utf16_enc cps) maxBytes throw = Ok (bs, n) /\
                     x8_from bs maxChars = Ok (flat_map utf16_enc cps, sizes, length bs).
Proof.
  intros cps maxBytes maxChars throw Hs Hne Hb Hc.
  destruct (x8_from_complete cps maxChars Hs Hc) as [sizes E].
  exists (flat_map utf8_enc cps), (length (flat_map utf16_enc cps)), sizes. split.
  - apply x8_to_complete; assumption.
  - exact E.
Qed.
Print Assumptions T05_utf8_roundtrip.

(** UCS-4 (both byte orders): accepted => the four bytes are the UCS-4 form of a scalar value and the
    output is its UTF-16 form (values above U+10FFFF and surrogate code points are rejected) *)
Theorem T05_ucs4_dec_sound : forall sw src room u n, bytes src -> u4_step sw src room = SOut u n ->
  exists c, scalar c /\ firstn 4 src = ucs4_enc sw c /\ u = utf16_enc c /\ n = 4%nat /\ (length u <= room)%nat.
Proof. exact u4_step_sound. Qed.
Print Assumptions T05_ucs4_dec_sound.

Theorem T05_ucs4_dec_complete : forall sw c rest room, scalar c -> (length (utf16_enc c) <= room)%nat ->
  u4_step sw (ucs4_enc sw c ++ rest) room = SOut (utf16_enc c) 4.
Proof.
  intros sw c rest room Hc Hroom. pose proof (utf16_enc_len c) as Hl.
  destruct (ucs4_enc_shape sw c) as (b0 & b1 & b2 & b3 & Es & Ev & H0 & H1 & H2 & H3); [apply scalar_bounds in Hc; unfold w32; lia|].
  rewrite Es. cbn [app]. rewrite u4_step_spec by (assumption || lia). cbv zeta. rewrite Ev, Hc.
  destruct (Nat.ltb_spec room (length (utf16_enc c))); [lia|reflexivity].
Qed.
Print Assumptions T05_ucs4_dec_complete.

(** encode: including supplementary characters -- that is the repaired defect F5 *)
Theorem T05_ucs4_enc : forall sw c rest room, scalar c -> (0 < room)%nat ->
  u4_to_step sw (utf16_enc c ++ rest) room = TOut (ucs4_enc sw c) (length (utf16_enc c)).
Proof.
  intros sw c rest room Hc Hroom. apply scalar_bounds in Hc.
  destruct (N.lt_ge_cases c 0x10000) as [Hs|Hb].
  - rewrite utf16_enc_small by exact Hs. apply u4_to_step_bmp; [exact Hroom|lia].
  - destruct (pair_val_enc c ltac:(lia)) as (u & t & E16 & Hu & Ht & Ev). rewrite E16, <- Ev.
    apply u4_to_step_pair; assumption.
Qed.
Print Assumptions T05_ucs4_enc.

Theorem T05_utf16_roundtrip : forall sw w m, Forall unit16 w -> (length w <= m)%nat -> u16_from sw (u16_to sw w m) m = w.
Proof.
  intros sw w. induction w as [|u w IH]; intros m Hw Hm.
  - destruct m; reflexivity.
  - destruct m as [|m]; [cbn in Hm; lia|]. inversion Hw as [|? ? Hu Hw']; subst. unfold unit16 in Hu.
    cbn [u16_to]. destruct sw; cbn [app u16_from]; (f_equal; [lia|apply IH; [assumption|cbn in Hm; lia]]).
Qed.
Print Assumptions T05_utf16_roundtrip.

(** single-byte code pages: obligations over the regenerated tables (Windows-1252, IBM037, IBM1047, IBM1140) *)
Theorem T05_tables : forallb table_ok (combine all_tables table_exceptions) = true.
Proof. exact all_tables_ok. Qed.
Print Assumptions T05_tables.

Theorem T05_tables_roundtrip : forall from to sz exc b, In ((from, to, sz), exc) (combine all_tables table_exceptions) ->
  0 < b < 256 -> ~ In b exc ->
  xlat_to to sz (tbl from b) = b /\ tab_can to sz (tbl from b) = true.
Proof.
  intros from to sz exc b Hin Hb Hexc. destruct (table_ok_byte _ _ _ _ b (table_in_ok _ Hin) Hb Hexc) as [E Hc].
  split; [exact E|]. unfold tab_can. rewrite E.
  destruct (N.ltb_spec 0xFFFF (tbl from b)); [lia|]. destruct (N.eqb_spec b 0); [lia|reflexivity].
Qed.
Print Assumptions T05_tables_roundtrip.

(** encode side of the tables: a unit that canTranscodeTo accepts is written as a byte that decodes back
    to the same unit ("encoding yields exactly the legal byte sequence or an unrepresentable-character
    report"); obligation over the regenerated tables, exception U+0085/IBM1047 = finding F24 *)
Theorem T05_tables_enc : forallb table_enc_ok (combine all_tables table_to_exceptions) = true.
Proof. exact all_tables_enc_ok. Qed.
Print Assumptions T05_tables_enc.

Theorem T05_tables_enc_roundtrip : forall from to sz uexc c,
  In ((from, to, sz), uexc) (combine all_tables table_to_exceptions) ->
  tab_can to sz c = true -> ~ In c uexc -> tbl from (xlat_to to sz c) = c.
Proof.
  intros from to sz uexc c Hin Hcan Hexc. apply table_enc_in_ok in Hin. destruct (tab_can_in to sz c Hcan) as (_ & _ & Hrec).
  exact (table_enc_rec _ _ _ _ _ _ Hin Hrec Hexc).
Qed.
Print Assumptions T05_tables_enc_roundtrip.

(** known finding F24, stated on the faithful model: IBM1047 decodes byte 0x15 (NEL) to U+000A *)
Theorem T05_ibm1047_nel_refuted :
  tbl ibm1047_from 0x15 = 0x0A /\ xlat_to ibm1047_to ibm1047_tosz 0x85 = 0x15 /\
  xlat_to ibm1047_to ibm1047_tosz (tbl ibm1047_from 0x15) <> 0x15.
Proof. exact ibm1047_nel_refuted. Qed.
Print Assumptions T05_ibm1047_nel_refuted.

(** canTranscodeTo is exact in the direction the serializer relies on: "representable" implies the
    table really has a record for that code point, and no supplementary code point is representable *)
Theorem T05_can_transcode_sound : forall t sz c, tab_can t sz c = true -> c <= 0xFFFF /\ exists b, b <> 0 /\ In (c, b) t.
Proof. exact tab_can_sound. Qed.
Print Assumptions T05_can_transcode_sound.

Theorem T05_can_transcode_supplementary : forall t sz c, 0xFFFF < c -> tab_can t sz c = false.
Proof. intros t sz c H. unfold tab_can. destruct (N.ltb_spec 0xFFFF c); [reflexivity|lia]. Qed.
Print Assumptions T05_can_transcode_supplementary.

(** encoding detection (XMLRecognizer::basicEncodingProbe): the generated prefixes are `<?xml ` in each
    family; an entity that starts with `<?xml ` in family e, or with e's byte order mark, is recognised as e
    whatever follows *)
Theorem T05_probe_prefixes :
  fgASCIIPre = enc_units UTF_8 xml_decl_start /\ fgASCIIPre_len = length fgASCIIPre /\
  fgUTF16BPre = enc_units UTF_16B xml_decl_start /\ fgUTF16BPre_len = length fgUTF16BPre /\
  fgUTF16LPre = enc_units UTF_16L xml_decl_start /\ fgUTF16LPre_len = length fgUTF16LPre /\
  fgUCS4BPre = enc_units UCS_4B xml_decl_start /\ fgUCS4BPre_len = length fgUCS4BPre /\
  fgUCS4LPre = enc_units UCS_4L xml_decl_start /\ fgUCS4LPre_len = length fgUCS4LPre /\
  fgEBCDICPre = enc_units EBCDIC xml_decl_start /\ fgEBCDICPre_len = length fgEBCDICPre /\
  fgUTF8BOM = [0xEF; 0xBB; 0xBF].
Proof. vm_compute. repeat split. Qed.
Print Assumptions T05_probe_prefixes.

Theorem T05_probe_decl : forall e rest, (e = EBCDIC -> rest <> []) ->
  probe (enc_units e xml_decl_start ++ rest) = e.
Proof.
  intros e rest He. destruct e; [|vm_compute; reflexivity ..].
  (* EBCDIC: the probe wants one byte more than the prefix *)
  destruct rest as [|r0 rest]; [contradiction He; reflexivity|]. vm_compute. reflexivity.
Qed.
Print Assumptions T05_probe_decl.

Theorem T05_probe_bom16 : forall b2 b3 rest, ~ (b2 = 0 /\ b3 = 0) ->
  probe (0xFE :: 0xFF :: b2 :: b3 :: rest) = UTF_16B /\ probe (0xFF :: 0xFE :: b2 :: b3 :: rest) = UTF_16L.
Proof.
  intros b2 b3 rest H. unfold probe, has_prefix. cbn [length firstn byte_at nth].
  split.
  - vm_compute. reflexivity.
  - change (0xFF =? 0xFE) with false. cbn [andb]. 
    destruct (N.eqb_spec b2 0); destruct (N.eqb_spec b3 0); try (exfalso; apply H; split; assumption); vm_compute; reflexivity.
Qed.
Print Assumptions T05_probe_bom16.

Theorem T05_probe_bom4 : forall rest,
  probe (0x00 :: 0x00 :: 0xFE :: 0xFF :: rest) = UCS_4B /\ probe (0xFF :: 0xFE :: 0x00 :: 0x00 :: rest) = UCS_4L.
Proof. intros rest. split; vm_compute; reflexivity. Qed.
Print Assumptions T05_probe_bom4.

Theorem T05_probe_utf8_bom : forall rest, probe (0xEF :: 0xBB :: 0xBF :: rest) = UTF_8.
Proof.
  intros rest. destruct rest as [|r0 rest]; [vm_compute; reflexivity|].
  unfold probe, has_prefix. cbn [length firstn byte_at nth].
  destruct rest as [|r1 [|r2 [|r3 rest]]]; vm_compute; reflexivity.
Qed.
Print Assumptions T05_probe_utf8_bom.

(** the recognizer as a DECISION: for every byte string of every length (also shorter than 2 or 4 bytes)
    basicEncodingProbe returns exactly the family XML 1.0 Appendix F.1 prescribes (Spec05s.spec_detect) *)
Theorem T05_probe_decision : forall raw, family_of_enc (probe raw) = spec_detect raw.
Proof. exact probe_decision. Qed.
Print Assumptions T05_probe_decision.

(** the two UCS-4 octet orders XML lists as "unusual" (2143, 3412) are
    not UCS-4 for this processor: the first is read as bytes, the second as UTF-16 BE followed by U+0000 *)
Theorem T05_probe_unusual_orders : forall rest,
  probe (0x00 :: 0x00 :: 0xFF :: 0xFE :: rest) = UTF_8 /\ probe (0xFE :: 0xFF :: 0x00 :: 0x00 :: rest) = UTF_16B.
Proof. intros rest. split; vm_compute; reflexivity. Qed.
Print Assumptions T05_probe_unusual_orders.

(** encoding names (tables regenerated from XMLUni.cpp / XMLRecognizer.cpp / TransService.cpp / XMLReader.cpp) *)
Theorem T05_enc_name_roundtrip : forall e, e <> R_EBCDIC -> e <> R_Other ->
  exists s, name_for_encoding e = Some s /\ encoding_for_name s = e /\ upper_ascii s = s /\
            make_transcoder_name s = make_transcoder_enum e.
Proof.
  intros e H1 H2. destruct e; try congruence;
    (eexists; split; [vm_compute; reflexivity|split; [vm_compute; reflexivity|split; vm_compute; reflexivity]]).
Qed.
Print Assumptions T05_enc_name_roundtrip.

(** for EVERY name: if encodingForName knows it, creating the transcoder by name and by the returned
    enumerator is the same transcoder class with the same byte swapping *)
Theorem T05_name_enum_agree : forall s e, encoding_for_name (upper_ascii s) = e -> e <> R_Other ->
  make_transcoder_name s = make_transcoder_enum e.
Proof.
  intros s e He Hne. unfold encoding_for_name in He. subst e.
  destruct (efn_go_in _ _ Hne) as [names [code [Hin Hs]]].
  pose proof (proj1 (forallb_forall _ _) efn_chain_ok _ Hin) as H. unfold clause_ok in H. cbn [fst] in H.
  pose proof (proj1 (forallb_forall _ _) H _ Hs) as H2. apply andb_true_iff in H2. destruct H2 as [H2 _].
  apply opt_eqb_eq in H2. rewrite upper_ascii_idem in H2. exact H2.
Qed.
Print Assumptions T05_name_enum_agree.

(** makeNewTranscoderFor: every registered alias, in any ASCII case, resolves to its own registration; the names
    of the encodings the property lists resolve to the intrinsic transcoder of that encoding and byte order *)
Theorem T05_alias_registered : forall k v s, In (k, v) ts_mappings -> upper_ascii s = k -> make_transcoder_name s = Some v.
Proof.
  intros k v s Hin Hs. pose proof (proj1 (forallb_forall _ _) ts_mappings_ok _ Hin) as H.
  unfold mapping_ok in H. cbn [fst snd] in H. apply andb_true_iff in H. destruct H as [_ H2].
  apply opt_eqb_eq in H2. unfold make_transcoder_name. rewrite Hs. exact H2.
Qed.
Print Assumptions T05_alias_registered.

Theorem T05_alias_intrinsic : forall nm cls s, In (nm, cls) expected_intrinsic -> upper_ascii s = nm ->
  make_transcoder_name s = Some cls.
Proof.
  intros nm cls s Hin Hs. pose proof (proj1 (forallb_forall _ _) expected_intrinsic_ok _ Hin) as H.
  cbn [fst snd] in H. apply andb_true_iff in H. destruct H as [H1 _]. apply opt_eqb_eq in H1.
  unfold make_transcoder_name. rewrite Hs. exact H1.
Qed.
Print Assumptions T05_alias_intrinsic.

Theorem T05_alias_case_insensitive : forall s t, upper_ascii s = upper_ascii t ->
  make_transcoder_name s = make_transcoder_name t.
Proof. exact make_transcoder_case. Qed.
Print Assumptions T05_alias_case_insensitive.

Example T05_nonvacuous_alias :
  make_transcoder_name n_Utf16be_mixed = Some (4, true) /\ make_transcoder_name n_Shift_JIS = None.
Proof. vm_compute. split; reflexivity. Qed.

(** declaration vs. detected family (XMLReader::setEncoding).  [set_encoding true] is the reader with
    fixes/C05-setencoding-family.patch, [set_encoding false] the reader as it stands.
    Repaired: over the names of the specification, accepted <-> compatible with the detected family, and what is
    accepted keeps the unit size and byte order; for every name at all, an accepted recognizer-known encoding
    keeps the family. *)
Theorem T05_decl_compat : forall f nm d s, In (nm, d) spec_names -> upper_ascii s = nm ->
  (set_encoding true (renc_of_family f) s <> SE_Reject <-> compat f d = true) /\
  (forall nb str tr, set_encoding true (renc_of_family f) s = SE_Accept nb str tr ->
     family_code nb = family_code (renc_of_family f) /\ exists cls, tr = Some (cls, swapped_of_family f)).
Proof.
  intros f nm d s Hin Hs.
  pose proof (proj1 (forallb_forall _ _) decl_compat_table f (all_families_complete f)) as H.
  pose proof (proj1 (forallb_forall _ _) H _ Hin) as H2. unfold decl_case_ok in H2. cbn [fst snd] in H2.
  rewrite <- set_encoding_upper, Hs.
  destruct (set_encoding true (renc_of_family f) nm) as [|nb str tr|].
  - split; [split; [congruence|]|discriminate]. intros Hc. rewrite Hc in H2. discriminate.
  - apply andb_true_iff in H2. destruct H2 as [H2 H3]. apply andb_true_iff in H2. destruct H2 as [Hc Hf].
    split; [split; [intros _; exact Hc|discriminate]|].
    intros nb' str' tr' E. inversion E; subst. split; [apply N.eqb_eq; exact Hf|].
    destruct tr' as [[cls sw]|]; [|discriminate]. apply Bool.eqb_prop in H3. subst sw. exists cls. reflexivity.
  - discriminate.
Qed.
Print Assumptions T05_decl_compat.

Theorem T05_decl_family_preserved : forall cur s nb str tr,
  set_encoding true cur s = SE_Accept nb str tr -> nb <> R_Other -> family_code nb = family_code cur.
Proof.
  intros cur s nb str tr H Hnb. unfold set_encoding in H.
  destruct (in_names (upper_ascii s) se_utf16_generic).
  { destruct cur; try discriminate; destruct (name_for_encoding _); try discriminate;
      inversion H; subst; reflexivity. }
  destruct (in_names (upper_ascii s) se_ucs4_generic).
  { destruct cur; try discriminate; destruct (name_for_encoding _); try discriminate;
      inversion H; subst; reflexivity. }
  (* a name encodingForName knows (eight enumerators, one script): accepted only if the family codes agree;
     the case left is R_Other *)
  destruct (encoding_for_name (upper_ascii s));
    try (match type of H with context [family_code ?e =? family_code cur] =>
           destruct (N.eqb_spec (family_code e) (family_code cur)) as [F|F] end;
         cbn [andb negb] in H; [injection H as <- _ _; exact F|discriminate]).
  injection H as <- _ _. contradiction Hnb. reflexivity.
Qed.
Print Assumptions T05_decl_family_preserved.

Example T05_nonvacuous_decl :
  set_encoding true R_UTF_16B n_utf16_lower = SE_Accept R_UTF_16B n_UTF16BE_paren (Some (4, true)) /\
  set_encoding true R_UTF_8 n_utf16_lower = SE_Reject /\
  set_encoding true R_UTF_8 n_UTF16LE = SE_Reject.
Proof. vm_compute. repeat split. Qed.

(** the reader as it stands (finding F560): a declaration written in the bytes of one family that names an
    encoding of another family is accepted and the decoder is switched *)
Theorem T05_decl_compat_refuted :
  exists cur s nb str tr, set_encoding false cur s = SE_Accept nb str tr /\ nb <> R_Other /\
                          family_code nb <> family_code cur.
Proof. exact decl_compat_refuted. Qed.
Print Assumptions T05_decl_compat_refuted.

(** finding F561 (not repaired): a byte encoding the recognizer does not list, declared in a UTF-16 entity *)
Theorem T05_decl_other_refuted : forall b,
  set_encoding b R_UTF_16L n_ISO88591 = SE_Accept R_Other n_ISO88591 (Some (3, false)).
Proof. exact decl_other_refuted. Qed.
Print Assumptions T05_decl_other_refuted.

Theorem T05_decl_total : forall b cur s, cur <> R_Other -> set_encoding b cur s <> SE_Throw.
Proof.
  intros b cur s Hc. unfold set_encoding.
  destruct (in_names _ se_utf16_generic); [destruct cur; try discriminate; vm_compute; discriminate|].
  destruct (in_names _ se_ucs4_generic); [destruct cur; try discriminate; vm_compute; discriminate|].
  destruct (encoding_for_name _); try discriminate; destruct (_ && _); discriminate.
Qed.
Print Assumptions T05_decl_total.

(** non-vacuity: the hypotheses are satisfiable by non-trivial values, and the error branches are real *)
Example T05_nonvacuous_scalars : Forall scalar [0x24; 0xA2; 0x20AC; 0x10348; 0x10FFFF].
Proof. repeat constructor. Qed.
Example T05_nonvacuous_decode :
  x8_from (flat_map utf8_enc [0x24; 0xA2; 0x20AC; 0x10348; 0x10FFFF]) 16 =
    Ok ([0x24; 0xA2; 0x20AC; 0xD800; 0xDF48; 0xDBFF; 0xDFFF], [1; 2; 3; 4; 0; 4; 0], 14%nat).
Proof. vm_compute. reflexivity. Qed.
Example T05_nonvacuous_overlong : x8_from [0xC0; 0x80; 0; 0; 0; 0] 8 = Err E_UTF8_FormatError.
Proof. vm_compute. reflexivity. Qed.
Example T05_nonvacuous_surrogate : x8_from [0xED; 0xA0; 0x80; 0; 0; 0] 8 = Err E_UTF8_Irregular_3BytesSeq.
Proof. vm_compute. reflexivity. Qed.
Example T05_nonvacuous_range : x8_from [0xF4; 0x90; 0x80; 0x80; 0; 0] 8 = Err E_UTF8_Invalid_4BytesSeq.
Proof. vm_compute. reflexivity. Qed.
Example T05_nonvacuous_ucs4 : u4_step false [0; 0; 0x11; 0] 4 = SErr E_Trans_BadSrcSeq.
Proof. vm_compute. reflexivity. Qed.
