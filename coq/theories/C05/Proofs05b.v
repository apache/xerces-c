(** C05 proofs, part b: one iteration of XMLUTF8Transcoder::transcodeFrom (model [x8_step]) decodes exactly
    the rows of Unicode Table 3-7: on a first byte followed by as many bytes as it announces, the iteration
    yields the UTF-16 form of the sequence's value if the sequence is well-formed, and refuses it if not. *)
From XV Require Import C05.Spec05 C05.Model05 C05.Proofs05a.
From Coq Require Import ZArith ZifyBool ZifyN ZifyNat Lia.
Local Open Scope N_scope.

(** arithmetic version of the tail of one iteration *)
Definition finish_a (tb : N) (room produced : nat) (tmp : N) : sres :=
  let v := sub32 tmp (tbl gUTFOffsets tb) in
  if v <? 65536 then SOut [v] (N.to_nat tb + 1)
  else if 0x10FFFF <? v then (if Nat.ltb 32 produced then SBreak32 else SErr E_Trans_BadSrcSeq)
  else if Nat.leb room 1 then SStop
  else SOut [(v - 0x10000) / 1024 + 0xD800; (v - 0x10000) mod 1024 + 0xDC00] (N.to_nat tb + 1).

Lemma sub32_lt : forall a b, sub32 a b < w32.
Proof. intros. unfold sub32, w32. apply N.mod_lt. discriminate. Qed.

(** the left-hand side is the model's local [finish], word for word, so that it can be rewritten where [x8_step] is unfolded *)
Lemma finish_eq : forall tb room produced tmp,
  (let v := sub32 tmp (tbl gUTFOffsets tb) in
   if N.land v 0xFFFF0000 =? 0 then SOut [v] (N.to_nat tb + 1)
   else if 0x10FFFF <? v then (if Nat.ltb 32 produced then SBreak32 else SErr E_Trans_BadSrcSeq)
   else if Nat.leb room 1 then SStop
   else let w := v - 0x10000 in SOut [N.shiftr w 10 + 0xD800; N.land w 0x3FF + 0xDC00] (N.to_nat tb + 1))
  = finish_a tb room produced tmp.
Proof.
  intros tb room produced tmp. unfold finish_a. cbv zeta. rewrite (land_hi16 _ (sub32_lt _ _)), N.shiftr_div_pow2, land_3FF. reflexivity.
Qed.

(** what the iteration answers for a well-formed sequence [l] at the head of the source: its value in UTF-16,
    unless a surrogate pair does not fit *)
Definition decoded (l : list N) (room : nat) : sres :=
  if Nat.ltb room (length (utf16_enc (utf8_val l))) then SStop else SOut (utf16_enc (utf8_val l)) (length l).

(** ... and for an ill-formed one: an exception, at once or (more than 32 chars into the call) on the next call *)
Definition refused (produced : nat) (r : sres) : Prop :=
  match r with SErr e => e <> E_Fuel | SBreak32 => (32 < produced)%nat | _ => False end.

Definition step_spec (l : list N) (room produced : nat) (r : sres) : Prop :=
  if wf8_seq l then r = decoded l room else refused produced r.

Lemma step_spec_err : forall l room p e, wf8_seq l = false -> e <> E_Fuel -> step_spec l room p (SErr e).
Proof. intros l room p e W He. unfold step_spec. rewrite W. exact He. Qed.

Lemma sub32_add : forall o v, v < w32 -> sub32 (o + v) o = v.
Proof.
  intros o v Hv. unfold sub32. apply wrap32; [lia|exact Hv].
Qed.

(** the tail of an iteration whose tests have left [tmp] = the sequence's value + the offset that removes its marks *)
Lemma finish_a_spec : forall tb room p tmp l, room <> O -> S (N.to_nat tb) = length l ->
  tmp = tbl gUTFOffsets tb + utf8_val l -> utf8_val l < w32 -> wf8_seq l = (utf8_val l <=? 0x10FFFF) ->
  step_spec l room p (finish_a tb room p tmp).
Proof.
  intros tb room p tmp l Hroom Hlen -> Hv W. unfold step_spec, finish_a, decoded. cbv zeta.
  rewrite W, sub32_add, <- Hlen, Nat.add_1_r by exact Hv.
  destruct (N.ltb_spec (utf8_val l) 65536) as [Hs|Hs].
  - destruct (N.leb_spec (utf8_val l) 0x10FFFF); [|lia]. rewrite utf16_enc_small by exact Hs. cbn [length].
    destruct (Nat.ltb_spec room 1); [lia|reflexivity].
  - destruct (N.ltb_spec 0x10FFFF (utf8_val l)); destruct (N.leb_spec (utf8_val l) 0x10FFFF); try lia.
    + destruct (Nat.ltb_spec 32 p) as [Hp|Hp]; [exact Hp|discriminate].
    + rewrite utf16_enc_big by exact Hs. cbn [length]. rewrite !(N.add_comm _ 0xD800), !(N.add_comm _ 0xDC00).
      destruct (Nat.leb_spec room 1); destruct (Nat.ltb_spec room 2); try lia; reflexivity.
Qed.

(** the branches for two, three and four bytes: their tests are the rows of Table 3-7, except that the four-byte
    branch leaves the first bytes F5..F7 to the range test in the tail *)
Lemma row2 : forall b0 b1 room p, room <> O -> 0xC2 <= b0 <= 0xDF ->
  step_spec [b0; b1] room p
    (if negb (in_trail b1) then SErr E_UTF8_FormatError else finish_a 1 room p (b0 * 64 + b1)).
Proof.
  intros b0 b1 room p Hroom H0. destruct gUTFOffsets_vals as (O1 & _).
  destruct (in_trail b1) eqn:T1; unfold in_trail in T1; cbn [negb].
  - apply finish_a_spec; [exact Hroom|reflexivity|rewrite O1| |]; cbn [utf8_val wf8_seq]; unfold w32, inr; lia.
  - unfold step_spec. replace (wf8_seq [b0; b1]) with false by (cbn [wf8_seq]; unfold inr; lia). discriminate.
Qed.

Lemma row3 : forall b0 b1 b2 room p, room <> O -> 0xE0 <= b0 <= 0xEF ->
  step_spec [b0; b1; b2] room p
    (if (b0 =? 0xE0) && (b1 <? 0xA0) then SErr E_UTF8_Invalid_3BytesSeq else
     if negb (in_trail b1) then SErr E_UTF8_FormatError else
     if negb (in_trail b2) then SErr E_UTF8_FormatError else
     if (b0 =? 0xED) && (0xA0 <=? b1) then SErr E_UTF8_Irregular_3BytesSeq else
     finish_a 2 room p ((b0 * 64 + b1) * 64 + b2)).
Proof.
  intros b0 b1 b2 room p Hroom H0. destruct gUTFOffsets_vals as (_ & O2 & _).
  assert (W : wf8_seq [b0; b1; b2] = negb ((b0 =? 0xE0) && (b1 <? 0xA0)) && in_trail b1 && in_trail b2 &&
                                      negb ((b0 =? 0xED) && (0xA0 <=? b1)))
    by (unfold in_trail; cbn [wf8_seq]; unfold inr; lia).
  destruct ((b0 =? 0xE0) && (b1 <? 0xA0)); [apply step_spec_err; [exact W|discriminate]|].
  destruct (in_trail b1) eqn:T1; [|apply step_spec_err; [exact W|discriminate]].
  destruct (in_trail b2) eqn:T2; [|apply step_spec_err; [exact W|discriminate]].
  destruct ((b0 =? 0xED) && (0xA0 <=? b1)); [apply step_spec_err; [exact W|discriminate]|].
  cbn [negb andb] in *. unfold in_trail in T1, T2.
  apply finish_a_spec; [exact Hroom|reflexivity|rewrite O2| |rewrite W]; cbn [utf8_val]; unfold w32; lia.
Qed.

Lemma row4 : forall b0 b1 b2 b3 room p, room <> O -> 0xF0 <= b0 <= 0xF7 ->
  step_spec [b0; b1; b2; b3] room p
    (if ((b0 =? 0xF0) && (b1 <? 0x90)) || ((b0 =? 0xF4) && (0x8F <? b1)) then SErr E_UTF8_Invalid_4BytesSeq else
     if negb (in_trail b1) then SErr E_UTF8_FormatError else
     if negb (in_trail b2) then SErr E_UTF8_FormatError else
     if negb (in_trail b3) then SErr E_UTF8_FormatError else
     finish_a 3 room p (((b0 * 64 + b1) * 64 + b2) * 64 + b3)).
Proof.
  intros b0 b1 b2 b3 room p Hroom H0. destruct gUTFOffsets_vals as (_ & _ & O3).
  assert (W : wf8_seq [b0; b1; b2; b3] = negb (((b0 =? 0xF0) && (b1 <? 0x90)) || ((b0 =? 0xF4) && (0x8F <? b1))) &&
                                          in_trail b1 && in_trail b2 && in_trail b3 && (b0 <=? 0xF4))
    by (unfold in_trail; cbn [wf8_seq]; unfold inr; lia).
  destruct (((b0 =? 0xF0) && (b1 <? 0x90)) || ((b0 =? 0xF4) && (0x8F <? b1))) eqn:E; [apply step_spec_err; [exact W|discriminate]|].
  destruct (in_trail b1) eqn:T1; [|apply step_spec_err; [exact W|discriminate]].
  destruct (in_trail b2) eqn:T2; [|apply step_spec_err; [exact W|discriminate]].
  destruct (in_trail b3) eqn:T3; [|apply step_spec_err; [exact W|discriminate]].
  cbn [negb andb] in *. unfold in_trail in T1, T2, T3.
  apply finish_a_spec; [exact Hroom|reflexivity|rewrite O3| |rewrite W]; cbn [utf8_val]; unfold w32; lia.
Qed.

(** the table look-ups and bit operations of the model are replaced by their arithmetic characterisations branch by branch *)
Theorem x8_step_spec : forall b0 rest room p, bytes (firstn (S (N.to_nat (trailing b0))) (b0 :: rest)) -> room <> O ->
  (N.to_nat (trailing b0) <= length rest)%nat ->
  step_spec (firstn (S (N.to_nat (trailing b0))) (b0 :: rest)) room p (x8_step (b0 :: rest) room p).
Proof.
  intros b0 rest room p Hb Hroom Hlen. cbn [firstn] in Hb. apply bytes_cons in Hb. destruct Hb as [Hb0 Hrest]. unfold x8_step.
  destruct (Nat.eqb_spec room 0) as [|_]; [contradiction|]. cbv zeta.
  (* the model's first-byte test, under the name Proofs05a characterises it by *)
  change (N.land (tbl gUTFByteIndicatorTest (tbl gUTFBytes b0)) b0 =? tbl gUTFByteIndicator (tbl gUTFBytes b0))
    with (first_ok b0).
  rewrite (first_ok_spec b0 Hb0), (gUTFBytes_spec b0 Hb0).
  destruct (Nat.ltb_spec (length rest) (N.to_nat (trailing b0))) as [|_]; [lia|].
  unfold trailing in *.
  destruct (N.leb_spec b0 127) as [Ha|Ha].
  { destruct (N.ltb_spec b0 0xC2); [|lia]. unfold step_spec, decoded. cbn [N.to_nat firstn utf8_val length].
    replace (wf8_seq [b0]) with true by (cbn [wf8_seq]; unfold inr; lia). rewrite utf16_enc_small by lia. cbn [length].
    destruct (Nat.ltb_spec room 1); [lia|reflexivity]. }
  destruct (N.ltb_spec b0 0x80); [lia|]. cbn [orb].
  destruct (N.ltb_spec b0 0xC2).
  { destruct (N.leb_spec 0xC2 b0); [lia|]. unfold step_spec. cbn [N.to_nat firstn andb negb].
    replace (wf8_seq [b0]) with false by (cbn [wf8_seq]; unfold inr; lia). discriminate. }
  destruct (N.leb_spec 0xC2 b0); [|lia]. cbn [andb].
  destruct (N.ltb_spec b0 0xE0).
  { destruct (N.ltb_spec b0 0xFE); [|lia]. destruct rest as [|b1 r]; [cbn in *; lia|].
    change (N.to_nat 1) with 1%nat in Hrest. cbn [firstn] in Hrest. apply bytes_cons in Hrest. destruct Hrest as [B1 _].
    rewrite trail_bad_spec, shiftl6, finish_eq by assumption. apply row2; [exact Hroom|lia]. }
  destruct (N.ltb_spec b0 0xF0).
  { destruct (N.ltb_spec b0 0xFE); [|lia]. destruct rest as [|b1 [|b2 r]]; try (cbn in *; lia).
    change (N.to_nat 2) with 2%nat in Hrest. cbn [firstn] in Hrest. apply bytes_cons in Hrest. destruct Hrest as [B1 Hrest]. apply bytes_cons in Hrest. destruct Hrest as [B2 _].
    rewrite !trail_bad_spec, !shiftl6, finish_eq by assumption. apply row3; [exact Hroom|lia]. }
  destruct (N.ltb_spec b0 0xF8).
  { destruct (N.ltb_spec b0 0xFE); [|lia]. destruct rest as [|b1 [|b2 [|b3 r]]]; try (cbn in *; lia).
    change (N.to_nat 3) with 3%nat in Hrest. cbn [firstn] in Hrest. apply bytes_cons in Hrest. destruct Hrest as [B1 Hrest]. apply bytes_cons in Hrest. destruct Hrest as [B2 Hrest].
    apply bytes_cons in Hrest. destruct Hrest as [B3 _].
    rewrite !trail_bad_spec, !shiftl6, finish_eq by assumption. apply row4; [exact Hroom|lia]. }
  (* five and six bytes: never well-formed, never accepted (FE and FF already fail the first-byte test) *)
  unfold step_spec. destruct (N.ltb_spec b0 0xFC).
  - destruct rest as [|b1 [|b2 [|b3 [|b4 r]]]]; try (cbn in *; lia).
    cbn [N.to_nat firstn wf8_seq]. destruct (b0 <? 0xFE); discriminate.
  - destruct rest as [|b1 [|b2 [|b3 [|b4 [|b5 r]]]]]; try (cbn in *; lia).
    cbn [N.to_nat firstn wf8_seq]. destruct (b0 <? 0xFE); discriminate.
Qed.

Lemma x8_step_short : forall b0 rest room p, b0 < 256 -> room = O \/ (length rest < N.to_nat (trailing b0))%nat ->
  x8_step (b0 :: rest) room p = SStop.
Proof.
  intros b0 rest room p Hb0 H. unfold x8_step. destruct (Nat.eqb_spec room 0); [reflexivity|].
  destruct H as [H|H]; [contradiction|]. cbv zeta. rewrite (gUTFBytes_spec b0 Hb0).
  destruct (N.leb_spec b0 127).
  - unfold trailing in H. destruct (N.ltb_spec b0 0xC2); [cbn in H|]; lia.
  - destruct (Nat.ltb_spec (length rest) (N.to_nat (trailing b0))); [reflexivity|lia].
Qed.

(** an iteration stops for want of input or room, or answers about the sequence at the head of the source *)
Lemma x8_step_view : forall src room p, bytes src ->
  x8_step src room p = SStop \/
  exists k, (0 < k <= length src)%nat /\ step_spec (firstn k src) room p (x8_step src room p).
Proof.
  intros src room p Hb. destruct src as [|b0 rest]; [left; reflexivity|]. pose proof (proj1 (bytes_cons _ _ Hb)) as Hb0.
  destruct (Nat.eq_dec room 0) as [Hr|Hr]; [left; apply x8_step_short; auto|].
  destruct (Nat.lt_ge_cases (length rest) (N.to_nat (trailing b0))) as [Hl|Hl]; [left; apply x8_step_short; auto|].
  right. exists (S (N.to_nat (trailing b0))). split; [cbn [length]; lia|].
  apply x8_step_spec; [apply Forall_firstn, Hb|exact Hr|exact Hl].
Qed.

Lemma step_spec_out : forall l room p u n, step_spec l room p (SOut u n) ->
  wf8_seq l = true /\ u = utf16_enc (utf8_val l) /\ n = length l /\ (length u <= room)%nat.
Proof.
  intros l room p u n H. unfold step_spec, decoded in H. destruct (wf8_seq l); [|contradiction].
  destruct (Nat.ltb_spec room (length (utf16_enc (utf8_val l)))); [discriminate|]. injection H as -> ->. auto.
Qed.

Lemma step_spec_wf : forall l room p r, step_spec l room p r -> wf8_seq l = true ->
  (length (utf16_enc (utf8_val l)) <= room)%nat -> r = SOut (utf16_enc (utf8_val l)) (length l).
Proof.
  intros l room p r H W Hr. unfold step_spec, decoded in H. rewrite W in H.
  destruct (Nat.ltb_spec room (length (utf16_enc (utf8_val l)))); [lia|exact H].
Qed.

Lemma step_spec_no_fuel : forall l room p r, step_spec l room p r -> r <> SErr E_Fuel.
Proof.
  intros l room p r H E. subst r. unfold step_spec, decoded in H.
  destruct (wf8_seq l); [destruct (Nat.ltb _ _); discriminate|apply H; reflexivity].
Qed.

Lemma step_spec_progress : forall l room r, step_spec l room 0 r -> (2 <= room)%nat -> r <> SStop /\ r <> SBreak32.
Proof.
  intros l room r H Hr. unfold step_spec, decoded in H. pose proof (utf16_enc_len (utf8_val l)).
  destruct (wf8_seq l).
  - destruct (Nat.ltb_spec room (length (utf16_enc (utf8_val l)))); [lia|]. subst r. split; discriminate.
  - destruct r; try (split; discriminate); exfalso; cbn in H; lia.
Qed.

Definition step_post (src : list N) (room : nat) (u : list N) (n : nat) : Prop :=
  exists c, scalar c /\ firstn n src = utf8_enc c /\ u = utf16_enc c /\
            (length u <= room)%nat /\ (n <= length src)%nat /\ (0 < n)%nat.

Theorem x8_step_sound : forall src room p u n, bytes src -> x8_step src room p = SOut u n -> step_post src room u n.
Proof.
  intros src room p u n Hb H. destruct (x8_step_view src room p Hb) as [E|(k & Hk & Sp)]; [congruence|].
  rewrite H in Sp. apply step_spec_out in Sp. destruct Sp as (W & -> & -> & Hr).
  rewrite firstn_length_le by lia. destruct (wf8_seq_enc _ W) as [Hc He].
  exists (utf8_val (firstn k src)). repeat split; auto; lia.
Qed.

Theorem x8_step_complete : forall c rest room p, scalar c -> (length (utf16_enc c) <= room)%nat ->
  x8_step (utf8_enc c ++ rest) room p = SOut (utf16_enc c) (length (utf8_enc c)).
Proof.
  intros c rest room p Hc Hroom. pose proof (utf8_enc_wf c Hc) as W. pose proof (utf16_enc_len c).
  pose proof (wf8_seq_bytes _ W) as Hbs. pose proof (utf8_enc_val c Hc) as V.
  destruct (utf8_enc c) as [|b0 t]; [discriminate|]. cbn [app]. subst c.
  pose proof (x8_step_spec b0 (t ++ rest) room p) as Sp. rewrite (wf8_seq_trailing b0 t W) in Sp.
  change (firstn (S (length t)) (b0 :: t ++ rest)) with (b0 :: firstn (length t) (t ++ rest)) in Sp.
  rewrite firstn_app_len in Sp. apply (step_spec_wf _ room p); [|exact W|exact Hroom].
  apply Sp; [exact Hbs|lia|rewrite app_length; lia].
Qed.

Lemma x8_step_no_fuel : forall src room p, bytes src -> x8_step src room p <> SErr E_Fuel.
Proof.
  intros src room p Hb. destruct (x8_step_view src room p Hb) as [E|(k & _ & Sp)]; [rewrite E; discriminate|].
  exact (step_spec_no_fuel _ _ _ _ Sp).
Qed.

Lemma x8_step_progress : forall src room, bytes src -> (6 <= length src)%nat -> (2 <= room)%nat ->
  x8_step src room 0 <> SStop /\ x8_step src room 0 <> SBreak32.
Proof.
  intros src room Hb Hl Hr. destruct src as [|b0 rest]; [cbn in Hl; lia|]. cbn [length] in Hl.
  pose proof (trailing_le b0). apply (step_spec_progress (firstn (S (N.to_nat (trailing b0))) (b0 :: rest)) room); [|exact Hr].
  apply x8_step_spec; [apply Forall_firstn, Hb|lia|lia].
Qed.
