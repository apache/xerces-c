(** C05 proofs, part a: what the other parts share.  Bit operations as arithmetic, the generated UTF-8 tables as
    arithmetic, digits, the specification's self-consistency (Table 3-6 vs Table 3-7), UTF-16. *)
From XV Require Import C05.Spec05 C05.Model05.
From Coq Require Import ZArith ZifyBool ZifyN Lia.
Local Open Scope N_scope.

Lemma bytes_cons : forall b l, bytes (b :: l) -> b < 256 /\ bytes l.
Proof. intros b l H. inversion H; subst. split; assumption. Qed.

Lemma Forall_skipn : forall (A : Type) (P : A -> Prop) n (l : list A), Forall P l -> Forall P (skipn n l).
Proof.
  induction n as [|n IH]; intros l H; [exact H|]. destruct l as [|x l]; [exact H|].
  inversion H; subst. cbn [skipn]. apply IH. assumption.
Qed.

Lemma Forall_firstn : forall (A : Type) (P : A -> Prop) n (l : list A), Forall P l -> Forall P (firstn n l).
Proof.
  induction n as [|n IH]; intros l H; [constructor|]. destruct l as [|x l]; [exact H|].
  inversion H; subst. cbn [firstn]. constructor; [assumption|apply IH; assumption].
Qed.

Lemma firstn_plus : forall (A : Type) n m (l : list A), firstn (n + m) l = firstn n l ++ firstn m (skipn n l).
Proof.
  induction n as [|n IH]; intros m l; [reflexivity|]. destruct l as [|x l].
  - cbn. rewrite firstn_nil. reflexivity.
  - cbn [Nat.add firstn skipn app]. rewrite IH. reflexivity.
Qed.

Lemma firstn_app_len : forall (A : Type) (a b : list A), firstn (length a) (a ++ b) = a.
Proof. induction a as [|x a IH]; intros b; [reflexivity|]. cbn. f_equal. apply IH. Qed.

Lemma skipn_app_len : forall (A : Type) (a b : list A), skipn (length a) (a ++ b) = b.
Proof. induction a as [|x a IH]; intros b; [reflexivity|]. cbn. apply IH. Qed.

Lemma sizes_of_sum : forall u n, sumN (sizes_of u n) = N.of_nat n.
Proof. intros u n. destruct u as [|a [|b [|c r]]]; cbn [sizes_of sumN]; lia. Qed.

Lemma sizes_of_len : forall u n, (1 <= length u <= 2)%nat -> length (sizes_of u n) = length u.
Proof. intros u n H. destruct u as [|a [|b [|c r]]]; cbn in *; try lia. Qed.

(** * bit operations as arithmetic *)

Lemma shiftl6 : forall a, N.shiftl a 6 = a * 64.
Proof. intros a. rewrite N.shiftl_mul_pow2. reflexivity. Qed.

Lemma land_3FF : forall a, N.land a 0x3FF = a mod 1024.
Proof. intros a. change 0x3FF with (N.ones 10). rewrite N.land_ones. reflexivity. Qed.

Lemma land_hi16 : forall v, v < w32 -> (N.land v 0xFFFF0000 =? 0) = (v <? 65536).
Proof.
  intros v Hv. destruct (N.ltb_spec v 65536) as [Hlt|Hge].
  - apply N.eqb_eq.
    assert (E : v = N.land v (N.ones 16)).
    { rewrite N.land_ones. symmetry. apply N.mod_small. exact Hlt. }
    rewrite E. rewrite <- N.land_assoc. change (N.land (N.ones 16) 0xFFFF0000) with 0. apply N.land_0_r.
  - apply N.eqb_neq. intros H.
    assert (H2 : N.shiftr (N.land v 0xFFFF0000) 16 = 0) by (rewrite H; reflexivity).
    rewrite N.shiftr_land in H2. change (N.shiftr 0xFFFF0000 16) with (N.ones 16) in H2.
    rewrite N.land_ones, N.shiftr_div_pow2 in H2. change (2 ^ 16) with 65536 in H2.
    rewrite N.mod_small in H2 by (apply N.div_lt_upper_bound; [discriminate|exact Hv]).
    apply N.div_small_iff in H2; [lia|discriminate].
Qed.

Definition in_trail (b : N) : bool := (0x80 <=? b) && (b <=? 0xBF).

Lemma trail_bad_spec : forall b, b < 256 -> trail_bad b = negb (in_trail b).
Proof.
  intros b Hb. apply (sweep256 (fun b => Bool.eqb (trail_bad b) (negb (in_trail b)))) in Hb.
  - apply Bool.eqb_prop. exact Hb.
  - vm_compute. reflexivity.
Qed.

(** * the generated tables (obligations over Gen/GenUtf8.v; a changed entry breaks these) *)

(** number of trailing bytes as a function of the first byte, arithmetically *)
Definition trailing (b0 : N) : N :=
  if b0 <? 0xC2 then 0 else if b0 <? 0xE0 then 1 else if b0 <? 0xF0 then 2 else if b0 <? 0xF8 then 3
  else if b0 <? 0xFC then 4 else 5.

Lemma trailing_le : forall b0, (N.to_nat (trailing b0) <= 5)%nat.
Proof. intros b0. unfold trailing. repeat match goal with |- context [if ?c then _ else _] => destruct c end; cbn; lia. Qed.

Lemma gUTFBytes_spec : forall b, b < 256 -> tbl gUTFBytes b = trailing b.
Proof.
  intros b Hb. apply (sweep256 (fun b => tbl gUTFBytes b =? trailing b)) in Hb.
  - apply N.eqb_eq. exact Hb.
  - vm_compute. reflexivity.
Qed.

(** the first-byte test passes exactly for ASCII and for C2..FD *)
Definition first_ok (b0 : N) : bool :=
  N.land (tbl gUTFByteIndicatorTest (tbl gUTFBytes b0)) b0 =? tbl gUTFByteIndicator (tbl gUTFBytes b0).

Lemma first_ok_spec : forall b, b < 256 -> first_ok b = ((b <? 0x80) || ((0xC2 <=? b) && (b <? 0xFE))).
Proof.
  intros b Hb.
  apply (sweep256 (fun b => Bool.eqb (first_ok b) ((b <? 0x80) || ((0xC2 <=? b) && (b <? 0xFE))))) in Hb.
  - apply Bool.eqb_prop. exact Hb.
  - vm_compute. reflexivity.
Qed.

(** each offset removes the marks of a whole sequence at once: [((0xE0 * 64 + 0x80) * 64 + 0x80] and so on *)
Lemma gUTFOffsets_vals :
  tbl gUTFOffsets 1 = 0xC0 * 64 + 0x80 /\ tbl gUTFOffsets 2 = (0xE0 * 64 + 0x80) * 64 + 0x80 /\
  tbl gUTFOffsets 3 = ((0xF0 * 64 + 0x80) * 64 + 0x80) * 64 + 0x80.
Proof. vm_compute. repeat split. Qed.

Lemma gFirstByteMark_vals :
  tbl gFirstByteMark 1 = 0 /\ tbl gFirstByteMark 2 = 0xC0 /\ tbl gFirstByteMark 3 = 0xE0 /\ tbl gFirstByteMark 4 = 0xF0.
Proof. vm_compute. repeat split. Qed.

(** * digits: Table 3-6 distributes the bits of a scalar value six at a time, UCS-4 eight, a surrogate pair ten *)

Lemma split_digit : forall b c, 0 < b -> exists q r, c = q * b + r /\ r < b.
Proof.
  intros b c Hb. assert (b <> 0) by lia. exists (c / b), (c mod b). split.
  - rewrite N.mul_comm. apply N.div_mod. assumption.
  - apply N.mod_lt. assumption.
Qed.

Lemma div_digit : forall b q r, r < b -> (q * b + r) / b = q.
Proof.
  intros b q r H. assert (b <> 0) by lia. rewrite N.div_add_l by assumption. rewrite N.div_small by exact H. apply N.add_0_r.
Qed.

Lemma mod_digit : forall b q r, r < b -> (q * b + r) mod b = r.
Proof. intros b q r H. assert (b <> 0) by lia. rewrite N.add_comm, N.mod_add by assumption. apply N.mod_small. exact H. Qed.

Lemma wrap32 : forall x y, y = x + w32 -> x < w32 -> y mod w32 = x.
Proof. intros x y -> H. rewrite <- (N.mul_1_l w32) at 1. rewrite N.mod_add by discriminate. apply N.mod_small. exact H. Qed.

Lemma add_sub_l : forall a b, a + b - a = b.
Proof. intros a b. rewrite N.add_comm. apply N.add_sub. Qed.

Lemma le_exists : forall a b, a <= b -> exists x, b = a + x.
Proof. intros a b H. exists (b - a). lia. Qed.

(** * Spec consistency: the encoder of Table 3-6 produces exactly the rows of Table 3-7 *)

Lemma scalar_bounds : forall c, scalar c <-> c <= 0x10FFFF /\ ~ (0xD800 <= c <= 0xDFFF).
Proof. intros c. unfold scalar, scalarb. lia. Qed.

(** Table 3-7, one row group per sequence length *)
Lemma wf8_seq_1 : forall b0, wf8_seq [b0] = true <-> b0 <= 0x7F.
Proof. intros. cbn [wf8_seq]. unfold inr. lia. Qed.

Lemma wf8_seq_2 : forall b0 b1, wf8_seq [b0; b1] = true <-> 0xC2 <= b0 <= 0xDF /\ 0x80 <= b1 <= 0xBF.
Proof. intros. cbn [wf8_seq]. unfold inr. lia. Qed.

Lemma wf8_seq_3 : forall b0 b1 b2, wf8_seq [b0; b1; b2] = true <->
  0xE0 <= b0 <= 0xEF /\ 0x80 <= b1 <= 0xBF /\ 0x80 <= b2 <= 0xBF /\ (b0 = 0xE0 -> 0xA0 <= b1) /\ (b0 = 0xED -> b1 <= 0x9F).
Proof. intros. cbn [wf8_seq]. unfold inr. lia. Qed.

Lemma wf8_seq_4 : forall b0 b1 b2 b3, wf8_seq [b0; b1; b2; b3] = true <->
  0xF0 <= b0 <= 0xF4 /\ 0x80 <= b1 <= 0xBF /\ 0x80 <= b2 <= 0xBF /\ 0x80 <= b3 <= 0xBF /\
  (b0 = 0xF0 -> 0x90 <= b1) /\ (b0 = 0xF4 -> b1 <= 0x8F).
Proof. intros. cbn [wf8_seq]. unfold inr. lia. Qed.

Lemma wf8_seq_trailing : forall b0 t, wf8_seq (b0 :: t) = true -> N.to_nat (trailing b0) = length t.
Proof.
  intros b0 t H. unfold trailing. destruct t as [|b1 [|b2 [|b3 [|b4 r]]]]; try discriminate;
    [apply wf8_seq_1 in H|apply wf8_seq_2 in H|apply wf8_seq_3 in H|apply wf8_seq_4 in H];
    destruct (N.ltb_spec b0 0xC2); try lia; destruct (N.ltb_spec b0 0xE0); try lia; destruct (N.ltb_spec b0 0xF0); try lia;
    destruct (N.ltb_spec b0 0xF8); try lia; reflexivity.
Qed.

(** Table 3-6 with the quotients taken six bits at a time *)
Lemma utf8_enc_horner : forall c, utf8_enc c =
  if c <? 0x80 then [c]
  else if c <? 0x800 then [0xC0 + c / 64; 0x80 + c mod 64]
  else if c <? 0x10000 then [0xE0 + c / 64 / 64; 0x80 + (c / 64) mod 64; 0x80 + c mod 64]
  else [0xF0 + c / 64 / 64 / 64; 0x80 + (c / 64 / 64) mod 64; 0x80 + (c / 64) mod 64; 0x80 + c mod 64].
Proof. intros c. unfold utf8_enc. rewrite !N.div_div by discriminate. reflexivity. Qed.

Lemma utf8_enc_2 : forall x0 x1, x1 < 64 -> 0x80 <= x0 * 64 + x1 < 0x800 ->
  utf8_enc (x0 * 64 + x1) = [0xC0 + x0; 0x80 + x1].
Proof.
  intros x0 x1 H1 Hc. rewrite utf8_enc_horner.
  destruct (N.ltb_spec (x0 * 64 + x1) 0x80); [lia|]. destruct (N.ltb_spec (x0 * 64 + x1) 0x800); [|lia].
  rewrite div_digit, mod_digit by exact H1. reflexivity.
Qed.

Lemma utf8_enc_3 : forall x0 x1 x2, x1 < 64 -> x2 < 64 -> 0x800 <= (x0 * 64 + x1) * 64 + x2 < 0x10000 ->
  utf8_enc ((x0 * 64 + x1) * 64 + x2) = [0xE0 + x0; 0x80 + x1; 0x80 + x2].
Proof.
  intros x0 x1 x2 H1 H2 Hc. rewrite utf8_enc_horner. set (c := (x0 * 64 + x1) * 64 + x2) in *.
  destruct (N.ltb_spec c 0x80); [lia|]. destruct (N.ltb_spec c 0x800); [lia|]. destruct (N.ltb_spec c 0x10000); [|lia].
  unfold c. rewrite (div_digit _ _ x2), (mod_digit _ _ x2), (div_digit _ _ x1), (mod_digit _ _ x1) by assumption. reflexivity.
Qed.

Lemma utf8_enc_4 : forall x0 x1 x2 x3, x1 < 64 -> x2 < 64 -> x3 < 64 -> 0x10000 <= ((x0 * 64 + x1) * 64 + x2) * 64 + x3 ->
  utf8_enc (((x0 * 64 + x1) * 64 + x2) * 64 + x3) = [0xF0 + x0; 0x80 + x1; 0x80 + x2; 0x80 + x3].
Proof.
  intros x0 x1 x2 x3 H1 H2 H3 Hc. rewrite utf8_enc_horner. set (c := ((x0 * 64 + x1) * 64 + x2) * 64 + x3) in *.
  destruct (N.ltb_spec c 0x80); [lia|]. destruct (N.ltb_spec c 0x800); [lia|]. destruct (N.ltb_spec c 0x10000); [lia|].
  unfold c. rewrite (div_digit _ _ x3), (mod_digit _ _ x3), (div_digit _ _ x2), (mod_digit _ _ x2), (div_digit _ _ x1), (mod_digit _ _ x1)
    by assumption. reflexivity.
Qed.

Lemma utf8_val_2 : forall x0 x1, utf8_val [0xC0 + x0; 0x80 + x1] = x0 * 64 + x1.
Proof. intros. cbn [utf8_val]. rewrite !add_sub_l. reflexivity. Qed.

Lemma utf8_val_3 : forall x0 x1 x2, utf8_val [0xE0 + x0; 0x80 + x1; 0x80 + x2] = (x0 * 64 + x1) * 64 + x2.
Proof. intros. cbn [utf8_val]. rewrite !add_sub_l. lia. Qed.

Lemma utf8_val_4 : forall x0 x1 x2 x3,
  utf8_val [0xF0 + x0; 0x80 + x1; 0x80 + x2; 0x80 + x3] = ((x0 * 64 + x1) * 64 + x2) * 64 + x3.
Proof. intros. cbn [utf8_val]. rewrite !add_sub_l. lia. Qed.

Lemma digits64 : forall c, exists x0 x1 x2 x3, c = ((x0 * 64 + x1) * 64 + x2) * 64 + x3 /\ x1 < 64 /\ x2 < 64 /\ x3 < 64.
Proof.
  intros c. destruct (split_digit 64 c eq_refl) as (q2 & x3 & -> & H3). destruct (split_digit 64 q2 eq_refl) as (q1 & x2 & -> & H2).
  destruct (split_digit 64 q1 eq_refl) as (x0 & x1 & -> & H1). exists x0, x1, x2, x3. auto.
Qed.

Lemma utf8_enc_wf : forall c, scalar c -> wf8_seq (utf8_enc c) = true.
Proof.
  intros c Hc. apply scalar_bounds in Hc. destruct (digits64 c) as (x0 & x1 & x2 & x3 & E & H1 & H2 & H3).
  destruct (N.lt_ge_cases c 0x80); [|destruct (N.lt_ge_cases c 0x800); [|destruct (N.lt_ge_cases c 0x10000)]].
  - unfold utf8_enc. destruct (N.ltb_spec c 0x80); [|lia]. apply wf8_seq_1. lia.
  - subst c. rewrite utf8_enc_2 by lia. apply wf8_seq_2. lia.
  - subst c. rewrite utf8_enc_3 by lia. apply wf8_seq_3. lia.
  - subst c. rewrite utf8_enc_4 by lia. apply wf8_seq_4. lia.
Qed.

Lemma utf8_enc_val : forall c, scalar c -> utf8_val (utf8_enc c) = c.
Proof.
  intros c _. destruct (digits64 c) as (x0 & x1 & x2 & x3 & E & H1 & H2 & H3).
  destruct (N.lt_ge_cases c 0x80); [|destruct (N.lt_ge_cases c 0x800); [|destruct (N.lt_ge_cases c 0x10000)]].
  - unfold utf8_enc. destruct (N.ltb_spec c 0x80); [reflexivity|lia].
  - subst c. rewrite utf8_enc_2 by lia. apply utf8_val_2.
  - subst c. rewrite utf8_enc_3 by lia. apply utf8_val_3.
  - subst c. rewrite utf8_enc_4 by lia. apply utf8_val_4.
Qed.

Lemma wf8_seq_enc : forall l, wf8_seq l = true -> scalar (utf8_val l) /\ utf8_enc (utf8_val l) = l.
Proof.
  intros l H. rewrite scalar_bounds.
  destruct l as [|b0 [|b1 [|b2 [|b3 [|b4 r]]]]]; try discriminate.
  - apply wf8_seq_1 in H. cbn [utf8_val]. unfold utf8_enc. destruct (N.ltb_spec b0 0x80); [|lia]. split; [lia|reflexivity].
  - apply wf8_seq_2 in H. destruct H as ((L0 & U0) & L1 & U1).
    destruct (le_exists 0xC0 b0 ltac:(lia)) as [x0 ->]. destruct (le_exists _ _ L1) as [x1 ->].
    rewrite utf8_val_2, utf8_enc_2 by lia. split; [lia|reflexivity].
  - apply wf8_seq_3 in H. destruct H as ((L0 & U0) & (L1 & U1) & (L2 & U2) & Hlo & Hhi).
    destruct (le_exists _ _ L0) as [x0 ->]. destruct (le_exists _ _ L1) as [x1 ->]. destruct (le_exists _ _ L2) as [x2 ->].
    rewrite utf8_val_3, utf8_enc_3 by lia. split; [lia|reflexivity].
  - apply wf8_seq_4 in H. destruct H as ((L0 & U0) & (L1 & U1) & (L2 & U2) & (L3 & U3) & Hlo & Hhi).
    destruct (le_exists _ _ L0) as [x0 ->]. destruct (le_exists _ _ L1) as [x1 ->]. destruct (le_exists _ _ L2) as [x2 ->].
    destruct (le_exists _ _ L3) as [x3 ->].
    rewrite utf8_val_4, utf8_enc_4 by lia. split; [lia|reflexivity].
Qed.

Lemma utf8_enc_len : forall c, (1 <= length (utf8_enc c) <= 4)%nat.
Proof.
  intros c. unfold utf8_enc.
  destruct (c <? 0x80); [cbn; lia|]. destruct (c <? 0x800); [cbn; lia|]. destruct (c <? 0x10000); cbn; lia.
Qed.

Lemma wf8_seq_bytes : forall l, wf8_seq l = true -> bytes l.
Proof.
  intros l H. destruct l as [|b0 [|b1 [|b2 [|b3 [|b4 r]]]]]; try discriminate.
  - apply wf8_seq_1 in H. repeat constructor; unfold is_byte; lia.
  - apply wf8_seq_2 in H. repeat constructor; unfold is_byte; lia.
  - apply wf8_seq_3 in H. repeat constructor; unfold is_byte; lia.
  - apply wf8_seq_4 in H. repeat constructor; unfold is_byte; lia.
Qed.

Lemma utf8_enc_bytes : forall c, scalar c -> bytes (utf8_enc c).
Proof. intros c Hc. apply wf8_seq_bytes, utf8_enc_wf, Hc. Qed.

Lemma utf16_enc_small : forall v, v < 65536 -> utf16_enc v = [v].
Proof. intros v H. unfold utf16_enc. destruct (N.ltb_spec v 0x10000); [reflexivity|lia]. Qed.

Lemma utf16_enc_big : forall v, 65536 <= v ->
  utf16_enc v = [0xD800 + (v - 0x10000) / 1024; 0xDC00 + (v - 0x10000) mod 1024].
Proof. intros v H. unfold utf16_enc. destruct (N.ltb_spec v 0x10000); [lia|reflexivity]. Qed.

Lemma utf16_enc_len : forall c, (1 <= length (utf16_enc c) <= 2)%nat.
Proof. intros c. unfold utf16_enc. destruct (c <? 0x10000); cbn; lia. Qed.

Definition pair_val (u t : N) : N := 0x10000 + ((u - 0xD800) * 1024 + (t - 0xDC00)).

Lemma utf16_enc_pair : forall u t, 0xD800 <= u <= 0xDBFF -> 0xDC00 <= t <= 0xDFFF ->
  utf16_enc (pair_val u t) = [u; t] /\ 0x10000 <= pair_val u t <= 0x10FFFF.
Proof.
  intros u t Hu Ht. assert (Hc : 0x10000 <= pair_val u t <= 0x10FFFF) by (unfold pair_val; lia). split; [|exact Hc].
  rewrite utf16_enc_big by lia. unfold pair_val. rewrite add_sub_l, div_digit, mod_digit by lia. f_equal; [lia|f_equal; lia].
Qed.

Lemma pair_val_enc : forall c, 0x10000 <= c <= 0x10FFFF ->
  exists u t, utf16_enc c = [u; t] /\ 0xD800 <= u <= 0xDBFF /\ 0xDC00 <= t <= 0xDFFF /\ pair_val u t = c.
Proof.
  intros c Hc. rewrite utf16_enc_big by lia.
  pose proof (N.div_mod (c - 0x10000) 1024 ltac:(discriminate)) as D.
  pose proof (N.mod_lt (c - 0x10000) 1024 ltac:(discriminate)) as M.
  exists (0xD800 + (c - 0x10000) / 1024), (0xDC00 + (c - 0x10000) mod 1024). unfold pair_val. rewrite !add_sub_l.
  repeat split; lia.
Qed.


(** as the transcoders compute the halves: high ten bits biased by 0xD800 - (0x10000 >> 10), low ten bits *)
Lemma pair_val_split : forall u t, 0xD800 <= u -> 0xDC00 <= t <= 0xDFFF ->
  pair_val u t / 1024 = u - 0xD7C0 /\ pair_val u t mod 1024 = t - 0xDC00.
Proof.
  intros u t Hu Ht. replace (pair_val u t) with ((u - 0xD7C0) * 1024 + (t - 0xDC00)) by (unfold pair_val; lia).
  rewrite div_digit, mod_digit by lia. auto.
Qed.
