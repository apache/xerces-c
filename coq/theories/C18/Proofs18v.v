(** C18 -- an adopting RefVectorOf deletes every element it was given exactly once or hands it back exactly once. *)
From Coq Require Import NArith List Bool Permutation Lia.
From XV Require Import C18.Model18V.
Import ListNotations.
Local Open Scope N_scope.

Definition vall (st : vst) : list N := v_el st ++ v_del st ++ v_out st.

Lemma nth_split_perm : forall (l : list N) i x, nth_error l i = Some x ->
  Permutation l (x :: firstn i l ++ skipn (S i) l).
Proof.
  induction l as [|y r IH]; intros i x H; destruct i as [|i]; cbn in H; try discriminate.
  - inversion H; subst. cbn. apply Permutation_refl.
  - cbn [firstn skipn app]. eapply Permutation_trans; [apply perm_skip; apply (IH i x H)|]. apply perm_swap.
Qed.

Lemma firstn_skipn_perm : forall (l : list N) i e, Permutation (e :: l) (firstn i l ++ e :: skipn i l).
Proof.
  intros. rewrite <- (firstn_skipn i l) at 1. apply Permutation_middle.
Qed.

Lemma ensure1_all : forall st, v_el (ensure1 st) = v_el st /\ v_del (ensure1 st) = v_del st /\ v_out (ensure1 st) = v_out st.
Proof.
  intros st. unfold ensure1. destruct (_ <=? _); [auto|]. cbn. auto.
Qed.

(** permutation goals are decided by counting occurrences *)
Ltac cnt_norm H := repeat rewrite count_occ_app in H; cbn [count_occ] in H; repeat rewrite count_occ_app in H.
Ltac permc :=
  let z := fresh "z" in
  apply (Permutation_count_occ N.eq_dec); intro z;
  repeat match goal with
  | P : Permutation _ _ |- _ => let Pz := fresh "Pz" in
      pose proof (proj1 (Permutation_count_occ N.eq_dec _ _) P z) as Pz; clear P; cnt_norm Pz; revert Pz
  | F : forall y : N, count_occ N.eq_dec _ y = _ |- _ => let Fz := fresh "Fz" in pose proof (F z) as Fz; clear F; revert Fz
  end;
  repeat rewrite count_occ_app; cbn [count_occ]; repeat rewrite count_occ_app;
  repeat match goal with |- context [N.eq_dec ?a z] => destruct (N.eq_dec a z) end;
  intros; lia.

(** one step: the multiset (in container + deleted + handed back) grows by exactly the element handed in *)
Lemma vstep_perm : forall adopt st op,
  Permutation (vall (vstep adopt st op)) (vadded [op] ++ vall st).
Proof.
  intros adopt st op. unfold vall.
  destruct (ensure1_all st) as [E1 [E2 E3]].
  destruct op as [e|e i|e i|i|i| |]; cbn [vadded flat_map app vstep].
  - (* VAdd *) cbn [with_el v_el v_del v_out]. rewrite E1, E2, E3. permc.
  - (* VSet *) destruct (nth_error (v_el st) i) as [old|] eqn:H.
    + pose proof (nth_split_perm _ _ _ H) as P. clear H.
      destruct adopt; cbn [drop v_el v_del v_out]; permc.
    + cbn [reject v_el v_del v_out]. permc.
  - (* VInsert *) destruct (Nat.eqb i (length (v_el st))).
    + cbn [with_el v_el v_del v_out]. rewrite E1, E2, E3. permc.
    + destruct (Nat.ltb (length (v_el st)) i).
      * cbn [reject v_el v_del v_out]. permc.
      * cbn [with_el v_el v_del v_out]. rewrite E1, E2, E3.
        pose proof (firstn_skipn_perm (v_el st) i e) as P. permc.
  - (* VOrphan *) destruct (nth_error (v_el st) i) as [x|] eqn:H; [|apply Permutation_refl].
    pose proof (nth_split_perm _ _ _ H) as P. clear H. cbn [v_el v_del v_out]. permc.
  - (* VRemoveAt *) destruct (nth_error (v_el st) i) as [x|] eqn:H; [|apply Permutation_refl].
    pose proof (nth_split_perm _ _ _ H) as P. clear H.
    destruct adopt; cbn [drop v_el v_del v_out]; permc.
  - (* VRemoveLast *) destruct (length (v_el st)) as [|k] eqn:LEN; [apply Permutation_refl|].
    destruct (nth_error (v_el st) k) as [x|] eqn:H; [|apply Permutation_refl].
    pose proof (nth_split_perm _ _ _ H) as P. clear H.
    assert (SK : skipn (S k) (v_el st) = []) by (apply skipn_all2; lia).
    rewrite SK, app_nil_r in P.
    destruct adopt; cbn [drop v_el v_del v_out]; permc.
  - (* VRemoveAll *) destruct adopt; cbn [drop v_el v_del v_out]; permc.
Qed.

Lemma vadded_app : forall a b, vadded (a ++ b) = vadded a ++ vadded b.
Proof. intros. unfold vadded. apply flat_map_app. Qed.

Lemma vrun_perm : forall adopt ops st, Permutation (vall (vrun adopt st ops)) (vadded ops ++ vall st).
Proof.
  intros adopt ops. induction ops as [|op r IH]; intros st; [apply Permutation_refl|].
  unfold vrun in *. cbn [fold_left]. eapply Permutation_trans; [apply IH|].
  change (op :: r) with ([op] ++ r). rewrite vadded_app.
  eapply Permutation_trans; [apply Permutation_app_head; apply vstep_perm|].
  rewrite !app_assoc. apply Permutation_app_tail. apply Permutation_app_comm.
Qed.

Lemma vdestroy_perm : forall adopt st, Permutation (vall (vdestroy adopt st)) (vall st).
Proof.
  intros adopt st. unfold vdestroy. pose proof (vstep_perm adopt st VRemoveAll) as P. exact P.
Qed.

Lemma vstep_nodel : forall st op, v_del (vstep false st op) = v_del st.
Proof.
  intros st op. destruct (ensure1_all st) as [E1 [E2 E3]].
  destruct op as [e|e i|e i|i|i| |]; cbn [vstep].
  - cbn. exact E2.
  - destruct (nth_error _ _); reflexivity.
  - destruct (Nat.eqb _ _); [cbn; exact E2|]. destruct (Nat.ltb _ _); [reflexivity|cbn; exact E2].
  - destruct (nth_error _ _); reflexivity.
  - destruct (nth_error _ _); reflexivity.
  - destruct (length _); [reflexivity|]. destruct (nth_error _ _); reflexivity.
  - reflexivity.
Qed.

Lemma vector_accounting : forall adopt maxElems ops, NoDup (vadded ops) ->
  let st := vdestroy adopt (vrun adopt (vinit maxElems) ops) in
  v_el st = [] /\ NoDup (v_del st ++ v_out st) /\ Permutation (v_del st ++ v_out st) (vadded ops).
Proof.
  intros adopt maxElems ops ND st.
  assert (P : Permutation (vall st) (vadded ops)).
  { unfold st. eapply Permutation_trans; [apply vdestroy_perm|]. eapply Permutation_trans; [apply vrun_perm|].
    unfold vall, vinit. cbn. rewrite app_nil_r. apply Permutation_refl. }
  assert (E : v_el st = []) by (unfold st, vdestroy; destruct adopt; reflexivity).
  unfold vall in P. rewrite E in P. cbn [app] in P.
  split; [exact E|]. split; [|exact P]. eapply Permutation_NoDup; [apply Permutation_sym; exact P|exact ND].
Qed.

Lemma vrun_nodel : forall ops st, v_del (vrun false st ops) = v_del st.
Proof.
  induction ops as [|op r IH]; intros st; [reflexivity|]. unfold vrun in *. cbn [fold_left]. rewrite IH. apply vstep_nodel.
Qed.

Lemma vector_no_adopt : forall maxElems ops, v_del (vdestroy false (vrun false (vinit maxElems) ops)) = [].
Proof. intros maxElems ops. unfold vdestroy. cbn [drop v_del]. rewrite vrun_nodel. reflexivity. Qed.
