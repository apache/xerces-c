(** C18 -- the ledger monitor and the discipline.  [exec] is the monitor's state after a trace, when no step failed.
    Two facts carry everything: such a state exists exactly for the traces that are [safe_so_far], and it maps an address
    to a block exactly when that block is [outstanding].  The four statements about the verdicts follow:
    [V_Ok] <-> [disciplined]; no error <-> [safe_so_far]; an error verdict carries the index of the first event that breaks
    the discipline; [V_Outstanding l] lists the outstanding blocks. *)
From Coq Require Import NArith List Bool FMapPositive Lia.
From XV Require Import C18.Spec18 C18.Model18.
Import ListNotations.
Local Open Scope N_scope.

Fixpoint exec (s : lstate) (tr : list event) : option lstate :=
  match tr with
  | [] => Some s
  | e :: r => match step s e with Some s1 => exec s1 r | None => None end
  end.

Lemma key_inj : forall p q, key p = key q -> p = q.
Proof.
  unfold key. intros p q H.
  assert (E : N.pos (N.succ_pos p) = N.pos (N.succ_pos q)) by (rewrite H; reflexivity).
  rewrite !N.succ_pos_spec in E. lia.
Qed.

Lemma key_pred : forall k, key (Pos.pred_N k) = k.
Proof.
  intros k. unfold key.
  assert (E : N.pos (N.succ_pos (Pos.pred_N k)) = N.pos k) by (rewrite N.succ_pos_spec; apply N.succ_pos_pred).
  injection E as E. exact E.
Qed.

Lemma view_add_same : forall s p v, view (PositiveMap.add (key p) v s) p = Some v.
Proof. intros. unfold view. apply PositiveMap.gss. Qed.
Lemma view_add_other : forall s p q v, p <> q -> view (PositiveMap.add (key p) v s) q = view s q.
Proof. intros. unfold view. apply PositiveMap.gso. intro E. apply H. symmetry. apply key_inj. exact E. Qed.
Lemma view_rem_same : forall s p, view (PositiveMap.remove (key p) s) p = None.
Proof. intros. unfold view. apply PositiveMap.grs. Qed.
Lemma view_rem_other : forall s p q, p <> q -> view (PositiveMap.remove (key p) s) q = view s q.
Proof. intros. unfold view. apply PositiveMap.gro. intro E. apply H. symmetry. apply key_inj. exact E. Qed.
Lemma view_empty : forall p, view lempty p = None.
Proof. intros. unfold view, lempty. apply PositiveMap.gempty. Qed.

Lemma is_empty_view : forall s, PositiveMap.is_empty s = true <-> forall p, view s p = None.
Proof.
  intros s. split.
  - intros H p. apply PositiveMap.is_empty_2 in H. unfold view.
    destruct (PositiveMap.find (key p) s) as [v|] eqn:E; [|reflexivity].
    exfalso. exact (H (key p) v E).
  - intros H. apply PositiveMap.is_empty_1. intros k v M. unfold PositiveMap.MapsTo in M.
    specialize (H (Pos.pred_N k)). unfold view in H. rewrite key_pred in H. congruence.
Qed.

Lemma blocks_of_view : forall s p m n, In (p, m, n) (blocks_of s) <-> view s p = Some (m, n).
Proof.
  intros s p m n. unfold blocks_of, view. rewrite in_map_iff. split.
  - intros [[k [m' n']] [E I]]. cbn [fst snd] in E. inversion E; subst.
    apply PositiveMap.elements_complete in I. rewrite key_pred. exact I.
  - intros H. exists (key p, (m, n)). cbn [fst snd]. split.
    + unfold key. rewrite N.pos_pred_succ. reflexivity.
    + apply PositiveMap.elements_correct. exact H.
Qed.

Lemma step_alloc : forall s m p n s1, step s (Alloc m p n) = Some s1 <->
  view s p = None /\ s1 = PositiveMap.add (key p) (m, n) s.
Proof.
  intros. cbn [step]. destruct (view s p) as [v|]; split.
  - discriminate.
  - intros [H _]. discriminate.
  - intros H. inversion H. auto.
  - intros [_ H]. subst. reflexivity.
Qed.

Lemma step_free : forall s m p s1, step s (Free m p) = Some s1 <->
  (exists n, view s p = Some (m, n)) /\ s1 = PositiveMap.remove (key p) s.
Proof.
  intros. cbn [step]. destruct (view s p) as [[m' n']|]; split.
  - destruct (N.eqb_spec m' m); [|discriminate]. subst. intros H. inversion H. split; [eexists; reflexivity|reflexivity].
  - intros [[n H] E]. inversion H. subst. rewrite N.eqb_refl. reflexivity.
  - discriminate.
  - intros [[n H] _]. discriminate.
Qed.

Definition effect (e : event) : option (N * N) :=
  match e with Alloc m _ n => Some (m, n) | Free _ _ => None end.

Lemma step_view : forall s e s1, step s e = Some s1 ->
  forall p, view s1 p = if N.eqb (addr e) p then effect e else view s p.
Proof.
  intros s e s1 H p. destruct e as [m q n|m q]; cbn [addr effect].
  - apply step_alloc in H. destruct H as [_ ->]. destruct (N.eqb_spec q p).
    + subst. apply view_add_same.
    + apply view_add_other. exact n0.
  - apply step_free in H. destruct H as [_ ->]. destruct (N.eqb_spec q p).
    + subst. apply view_rem_same.
    + apply view_rem_other. exact n.
Qed.

Lemma exec_app : forall a b s, exec s (a ++ b) = match exec s a with Some s1 => exec s1 b | None => None end.
Proof.
  induction a as [|e a IH]; intros b s; cbn [exec app]; [reflexivity|].
  destruct (step s e); [apply IH|reflexivity].
Qed.

(** a run through [pre ++ e :: post] passes the state before [e] and the one after it *)
Lemma exec_split : forall pre e post s0 s, exec s0 (pre ++ e :: post) = Some s ->
  exists s1 s2, exec s0 pre = Some s1 /\ step s1 e = Some s2 /\ exec s2 post = Some s.
Proof.
  intros pre e post s0 s H. rewrite exec_app in H. destruct (exec s0 pre) as [s1|]; [|discriminate]. cbn [exec] in H.
  destruct (step s1 e) as [s2|] eqn:Hs; [|discriminate]. exists s1, s2. auto.
Qed.

Lemma exec_snoc : forall tr e s0 s s', exec s0 tr = Some s -> step s e = Some s' -> exec s0 (tr ++ [e]) = Some s'.
Proof. intros tr e s0 s s' H Hs. rewrite exec_app, H. cbn [exec]. rewrite Hs. reflexivity. Qed.

Lemma untouched_app : forall p a b, untouched p (a ++ b) <-> untouched p a /\ untouched p b.
Proof. intros. unfold untouched. apply Forall_app. Qed.

Lemma outstanding_snoc : forall tr e m p n,
  outstanding (tr ++ [e]) m p n <-> e = Alloc m p n \/ addr e <> p /\ outstanding tr m p n.
Proof.
  intros tr e m p n. split.
  - intros [a [b [E U]]]. destruct b as [|x b _] using rev_ind.
    + apply app_inj_tail in E. left. apply E.
    + rewrite app_comm_cons, app_assoc in E. apply app_inj_tail in E. destruct E as [E ->].
      apply untouched_app in U. destruct U as [U X]. inversion X; subst. right. split; [assumption|]. exists a, b. auto.
  - intros [->|[A [a [b [-> U]]]]].
    + exists tr, []. split; [reflexivity|constructor].
    + exists a, (b ++ [e]). rewrite <- app_assoc. split; [reflexivity|]. apply untouched_app. split; [exact U|]. repeat constructor. exact A.
Qed.

Lemma view_outstanding : forall tr s m p n, exec lempty tr = Some s -> (view s p = Some (m, n) <-> outstanding tr m p n).
Proof.
  induction tr as [|e tr IH] using rev_ind; intros s m p n H.
  - inversion H; subst. rewrite view_empty. split; [discriminate|]. intros [a [b [E _]]]. destruct a; discriminate E.
  - destruct (exec_split _ _ _ _ _ H) as (s0 & s1 & H0 & Hs & H1). inversion H1; subst s1.
    rewrite (step_view _ _ _ Hs p), outstanding_snoc, <- (IH s0 m p n H0).
    destruct (N.eqb_spec (addr e) p) as [A|A].
    + destruct e as [m' q n'|m' q]; cbn [effect addr] in *; subst q.
      * split; [intros V; inversion V; left; reflexivity|intros [V|[V _]]; [inversion V; reflexivity|contradiction]].
      * split; [discriminate|intros [V|[V _]]; [discriminate V|contradiction]].
    + split; [intros V; right; split; assumption|intros [->|[_ V]]; [cbn [addr] in A; contradiction|exact V]].
Qed.

Lemma exec_safe : forall tr s, exec lempty tr = Some s -> safe_so_far tr.
Proof.
  intros tr s H. split.
  - intros pre m p post ->. destruct (exec_split _ _ _ _ _ H) as (s1 & s2 & E1 & Hs & _).
    apply step_free in Hs. destruct Hs as [[n Hs] _].
    apply (view_outstanding _ _ _ _ _ E1) in Hs. destruct Hs as [a [b [H1 H2]]]. exists a, n, b. auto.
  - intros pre m p n post -> pre1 m' n' mid -> U. destruct (exec_split _ _ _ _ _ H) as (s1 & s2 & E1 & Hs & _).
    apply step_alloc in Hs. destruct Hs as [Hs _].
    assert (V : view s1 p = Some (m', n')) by (apply (view_outstanding _ _ _ _ _ E1); exists pre1, mid; auto).
    congruence.
Qed.

Lemma safe_exec : forall tr, safe_so_far tr -> forall pre post, tr = pre ++ post -> exists s, exec lempty pre = Some s.
Proof.
  intros tr [FO ND] pre. induction pre as [|e pre IH] using rev_ind; intros post E.
  - exists lempty. reflexivity.
  - rewrite <- app_assoc in E. cbn [app] in E. destruct (IH _ E) as [s0 H0].
    destruct e as [m p n|m p].
    + destruct (view s0 p) as [[m' n']|] eqn:V.
      * exfalso. apply (view_outstanding _ _ _ _ _ H0) in V. destruct V as [a [b [H1 H2]]].
        exact (ND _ _ _ _ _ E _ _ _ _ H1 H2).
      * eexists. apply (exec_snoc _ _ _ _ _ H0), step_alloc. split; [exact V|reflexivity].
    + destruct (FO _ _ _ _ E) as [pre1 [n [mid [H1 H2]]]].
      assert (V : view s0 p = Some (m, n)) by (apply (view_outstanding _ _ _ _ _ H0); exists pre1, mid; auto).
      eexists. apply (exec_snoc _ _ _ _ _ H0), step_free. split; [exists n; exact V|reflexivity].
Qed.

Lemma exec_iff_safe : forall tr, (exists s, exec lempty tr = Some s) <-> safe_so_far tr.
Proof.
  intros tr. split.
  - intros [s H]. exact (exec_safe tr s H).
  - intros H. exact (safe_exec tr H tr [] (eq_sym (app_nil_r tr))).
Qed.

Definition is_error (v : verdict) : Prop :=
  match v with V_Ok | V_Outstanding _ => False | _ => True end.

Definition verdict_index (v : verdict) : option N :=
  match v with
  | V_ForeignFree i | V_DoubleFree i | V_WrongManager i | V_DupAlloc i => Some i
  | _ => None
  end.

Lemma classify_error : forall s seen i e, is_error (classify s seen i e) /\ verdict_index (classify s seen i e) = Some i.
Proof.
  intros. destruct e; cbn [classify]; [split; [exact I|reflexivity]|].
  destruct (view s p); [split; [exact I|reflexivity]|]. destruct (existsb _ seen); split; try exact I; reflexivity.
Qed.

(** the run either ends without error (exec succeeds) or stops at the first event whose step fails *)
Lemma run_cases : forall tr s seen i,
  (exists s', exec s tr = Some s' /\ run s seen i tr = if PositiveMap.is_empty s' then V_Ok else V_Outstanding (blocks_of s')) \/
  (exists pre e post s1, tr = pre ++ e :: post /\ exec s pre = Some s1 /\ step s1 e = None /\
     is_error (run s seen i tr) /\ verdict_index (run s seen i tr) = Some (i + N.of_nat (length pre))).
Proof.
  induction tr as [|e r IH]; intros s seen i; cbn [run exec].
  - left. exists s. auto.
  - destruct (step s e) as [s1|] eqn:Hs.
    + destruct (IH s1 (e :: seen) (N.succ i)) as [[s' [E R]]|[pre [e' [post [s2 [E1 [E2 [E3 [E4 E5]]]]]]]]].
      * left. exists s'. auto.
      * right. exists (e :: pre), e', post, s2. subst r. cbn [app exec length]. rewrite Hs.
        repeat split; auto. rewrite E5. f_equal. lia.
    + right. exists [], e, r, s. destruct (classify_error s seen i e) as [C1 C2]. cbn [app exec length]. repeat split; auto.
      rewrite C2. f_equal. lia.
Qed.

Inductive ledger_outcome (tr : list event) : Prop :=
| ran_through : forall s, exec lempty tr = Some s ->
    ledger_check tr = (if PositiveMap.is_empty s then V_Ok else V_Outstanding (blocks_of s)) -> ledger_outcome tr
| stopped_at : forall pre e post s1, tr = pre ++ e :: post -> exec lempty pre = Some s1 -> step s1 e = None ->
    is_error (ledger_check tr) -> verdict_index (ledger_check tr) = Some (N.of_nat (length pre)) -> ledger_outcome tr.

Lemma ledger_cases : forall tr, ledger_outcome tr.
Proof.
  intros tr. destruct (run_cases tr lempty [] 0) as [[s [E R]]|[pre [e [post [s1 [E1 [E2 [E3 [E4 E5]]]]]]]]].
  - exact (ran_through tr s E R).
  - exact (stopped_at tr pre e post s1 E1 E2 E3 E4 E5).
Qed.

Lemma run_ok : forall tr, ledger_check tr = V_Ok <-> exists s, exec lempty tr = Some s /\ PositiveMap.is_empty s = true.
Proof.
  intros tr. destruct (ledger_cases tr) as [s' E R|pre e post s1 E1 E2 E3 E4 _].
  - rewrite R. split.
    + destruct (PositiveMap.is_empty s') eqn:EM; [|discriminate]. intros _. exists s'. auto.
    + intros [s [E' EM]]. rewrite E in E'. inversion E'; subst. rewrite EM. reflexivity.
  - split.
    + intros H. rewrite H in E4. destruct E4.
    + intros [s [E' _]]. subst tr. rewrite exec_app, E2 in E'. cbn [exec] in E'. rewrite E3 in E'. discriminate.
Qed.

Lemma first_touch_unique : forall p a1 x b1 a2 y b2,
  a1 ++ x :: b1 = a2 ++ y :: b2 -> untouched p a1 -> untouched p a2 -> addr x = p -> addr y = p -> x = y.
Proof.
  induction a1 as [|e a1 IH]; intros x b1 a2 y b2 H U1 U2 Hx Hy.
  - destruct a2 as [|e2 a2]; cbn [app] in H; inversion H; subst; [reflexivity|].
    inversion U2; subst. contradiction.
  - destruct a2 as [|e2 a2]; cbn [app] in H; inversion H; subst.
    + inversion U1; subst. contradiction.
    + inversion U1; inversion U2; subst. eapply IH; eauto.
Qed.

(** in a disciplined trace the event after an allocation's quiet stretch is its Free, so it is not another Alloc *)
Lemma disciplined_safe : forall tr, disciplined tr -> safe_so_far tr.
Proof.
  intros tr [FO AO]. split; [exact FO|].
  intros pre m p n post E pre1 m' n' mid E1 U. subst pre. rewrite <- app_assoc in E. cbn [app] in E.
  destruct (AO _ _ _ _ _ E) as [mid' [post' [H3 H4]]].
  assert (X : Alloc m p n = Free m' p) by (eapply (first_touch_unique p mid _ _ mid' _ _ H3 U H4); reflexivity).
  discriminate X.
Qed.

(** a live block stays live until the first event on its address, which must be its own Free *)
Lemma live_until_freed : forall post s s' p m n, exec s post = Some s' -> view s p = Some (m, n) ->
  view s' p = None -> exists mid post', post = mid ++ Free m p :: post' /\ untouched p mid.
Proof.
  induction post as [|e r IH]; intros s s' p m n H L E; cbn [exec] in H.
  - inversion H; subst. congruence.
  - destruct (step s e) as [s1|] eqn:Hs; [|discriminate].
    destruct (N.eqb_spec (addr e) p) as [A|A].
    + destruct e as [m' q n'|m' q]; cbn [addr] in A; subst q.
      * apply step_alloc in Hs. destruct Hs as [Hs _]. congruence.
      * apply step_free in Hs. destruct Hs as [[n' Hs] _]. rewrite L in Hs. inversion Hs; subst.
        exists [], r. split; [reflexivity|constructor].
    + assert (L1 : view s1 p = Some (m, n)).
      { rewrite (step_view _ _ _ Hs p). destruct (N.eqb_spec (addr e) p); [contradiction|exact L]. }
      destruct (IH _ _ _ _ _ H L1 E) as [mid [post' [H1 H2]]].
      exists (e :: mid), post'. subst r. split; [reflexivity|]. constructor; assumption.
Qed.

Lemma ledger_sound_complete : forall tr, ledger_check tr = V_Ok <-> disciplined tr.
Proof.
  intros tr. rewrite run_ok. split.
  - intros [s [H E]]. rewrite is_empty_view in E. split; [exact (proj1 (exec_safe tr s H))|].
    intros pre m p n post ->. destruct (exec_split _ _ _ _ _ H) as (s1 & s2 & _ & Hs & H').
    assert (L : view s2 p = Some (m, n)).
    { rewrite (step_view _ _ _ Hs p). cbn [addr effect]. rewrite N.eqb_refl. reflexivity. }
    exact (live_until_freed _ _ _ _ _ _ H' L (E p)).
  - intros D. destruct (proj2 (exec_iff_safe tr) (disciplined_safe tr D)) as [s H].
    exists s. split; [exact H|]. apply is_empty_view. intros p.
    destruct (view s p) as [[m n]|] eqn:V; [|reflexivity]. exfalso.
    apply (view_outstanding _ _ _ _ _ H) in V. destruct V as [a [b [H1 H2]]].
    destruct (proj2 D _ _ _ _ _ H1) as [mid [post' [H3 H4]]].
    subst b. apply untouched_app in H2. destruct H2 as [_ H2]. inversion H2; subst. apply H5. reflexivity.
Qed.

Lemma ledger_outstanding : forall tr l, ledger_check tr = V_Outstanding l ->
  safe_so_far tr /\ l <> [] /\ forall p m n, In (p, m, n) l <-> outstanding tr m p n.
Proof.
  intros tr l H. destruct (ledger_cases tr) as [s' E R|pre e post s1 _ _ _ E4 _].
  - rewrite R in H. destruct (PositiveMap.is_empty s') eqn:EM; [discriminate|]. inversion H; subst l.
    split; [exact (exec_safe tr s' E)|]. split.
    + intros B. assert (X : PositiveMap.is_empty s' = true); [|congruence].
      apply is_empty_view. intros p. destruct (view s' p) as [[m n]|] eqn:V; [|reflexivity].
      apply blocks_of_view in V. rewrite B in V. destruct V.
    + intros p m n. rewrite blocks_of_view. apply view_outstanding. exact E.
  - rewrite H in E4. destruct E4.
Qed.

Lemma ledger_error : forall tr, is_error (ledger_check tr) ->
  exists pre e post i, tr = pre ++ e :: post /\ verdict_index (ledger_check tr) = Some i /\ i = N.of_nat (length pre) /\
                       safe_so_far pre /\ ~ safe_so_far (pre ++ [e]).
Proof.
  intros tr H. destruct (ledger_cases tr) as [s' E R|pre e post s1 E1 E2 E3 E4 E5].
  - rewrite R in H. destruct (PositiveMap.is_empty s'); destruct H.
  - exists pre, e, post, (N.of_nat (length pre)). repeat split; auto.
    + exact (proj1 (exec_safe pre s1 E2)).
    + exact (proj2 (exec_safe pre s1 E2)).
    + intros SF. apply exec_iff_safe in SF. destruct SF as [s2 X]. rewrite exec_app, E2 in X. cbn [exec] in X.
      rewrite E3 in X. discriminate.
Qed.

Lemma ledger_no_error_iff : forall tr, ~ is_error (ledger_check tr) <-> safe_so_far tr.
Proof.
  intros tr. split.
  - intros H. destruct (ledger_cases tr) as [s' E R|pre e post s1 _ _ _ E4 _].
    + exact (exec_safe tr s' E).
    + contradiction.
  - intros SF H. destruct (ledger_error tr H) as [pre [e [post [i [E [_ [_ [_ NS]]]]]]]].
    apply NS. destruct (safe_exec tr SF (pre ++ [e]) post) as [s X]; [rewrite <- app_assoc; exact E|].
    exact (exec_safe _ s X).
Qed.
