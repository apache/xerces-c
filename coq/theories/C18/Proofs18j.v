(** C18 -- every exit of a guarded constructor / of a function with a Janitor leaves a disciplined trace. *)
From Coq Require Import NArith List Bool FMapPositive Lia.
From XV Require Import C18.Spec18 C18.Model18 C18.Model18J C18.Proofs18e.
Import ListNotations.
Local Open Scope N_scope.

Definition Live (m : N) (s : lstate) (l : list N) : Prop :=
  forall p, (In p l -> view s p = Some (m, 1)) /\ (~ In p l -> view s p = None).

Lemma live_init : forall m, Live m lempty [].
Proof. intros m p. split; [intros []|]. intros _. apply view_empty. Qed.

Lemma live_alloc : forall m s l p, Live m s l -> ~ In p l ->
  exists s', step s (Alloc m p 1) = Some s' /\ Live m s' (p :: l).
Proof.
  intros m s l p H NI. exists (PositiveMap.add (key p) (m, 1) s). split.
  - apply step_alloc. split; [apply (H p); exact NI|reflexivity].
  - intros q. destruct (N.eq_dec p q) as [->|D].
    + split; [intros _; apply view_add_same|]. intros C. exfalso. apply C. left. reflexivity.
    + rewrite (view_add_other _ _ _ _ D). destruct (H q) as [A B]. split.
      * intros [E|I]; [contradiction|auto].
      * intros C. apply B. intro I. apply C. right. exact I.
Qed.

Lemma live_free : forall m s l a r, Live m s l -> (forall p, In p l <-> p = a \/ In p r) -> ~ In a r ->
  exists s', step s (Free m a) = Some s' /\ Live m s' r.
Proof.
  intros m s l a r H E NI. exists (PositiveMap.remove (key a) s). split.
  - apply step_free. split; [exists 1; apply (H a), E; left; reflexivity|reflexivity].
  - intros q. destruct (N.eq_dec a q) as [<-|D].
    + split; [intros I; contradiction|]. intros _. apply view_rem_same.
    + rewrite (view_rem_other _ _ _ D). destruct (H q) as [A B]. split.
      * intros I. apply A, E. right. exact I.
      * intros C. apply B. intro I. apply E in I. destruct I as [I|I]; [apply D; symmetry; exact I|exact (C I)].
Qed.

Lemma live_frees_all : forall m fl s l, Live m s l -> NoDup fl -> (forall p, In p l <-> In p fl) ->
  exists s', exec s (map (Free m) fl) = Some s' /\ PositiveMap.is_empty s' = true.
Proof.
  intros m fl. induction fl as [|a r IH]; intros s l H ND E.
  - exists s. split; [reflexivity|]. apply is_empty_view. intros p. apply (H p). intros I. exact (proj1 (E p) I).
  - inversion ND as [|? ? NI ND']; subst.
    destruct (live_free m s l a r H) as [s1 [S1 L1]]; [|exact NI|].
    { intros p. rewrite E. cbn [In]. split; intros [X|X]; auto. }
    destruct (IH s1 r L1 ND' (fun p => iff_refl _)) as [s' [E' EM]].
    exists s'. split; [|exact EM]. cbn [map exec]. rewrite S1. exact E'.
Qed.

Definition addrs (L : list N) (mem : list (N * N)) : list N :=
  flat_map (fun s => match slot_addr s mem with Some a => [a] | None => [] end) L.

Lemma free_slots_spec : forall m L mem, free_slots m L mem = map (Free m) (addrs L mem).
Proof.
  intros m L mem. unfold free_slots, addrs. induction L as [|x r IH]; [reflexivity|].
  cbn [flat_map]. rewrite map_app, IH. destruct (slot_addr x mem); reflexivity.
Qed.

Lemma slot_addr_in : forall s mem a, slot_addr s mem = Some a -> In (s, a) mem.
Proof.
  induction mem as [|[s' a'] r IH]; intros a H; cbn [slot_addr] in H; [discriminate|].
  destruct (N.eqb_spec s' s).
  - inversion H; subst. left. reflexivity.
  - right. apply IH. exact H.
Qed.

Lemma slot_addr_complete : forall mem s a, NoDup (map fst mem) -> In (s, a) mem -> slot_addr s mem = Some a.
Proof.
  induction mem as [|[s' a'] r IH]; intros s a ND I; [destruct I|]. cbn [slot_addr]. cbn [map fst] in ND.
  inversion ND as [|? ? NI ND']; subst. destruct I as [E|I].
  - inversion E; subst. rewrite N.eqb_refl. reflexivity.
  - destruct (N.eqb_spec s' s) as [->|D]; [|apply IH; assumption].
    exfalso. apply NI. apply in_map_iff. exists (s, a). split; [reflexivity|exact I].
Qed.

Lemma snd_inj : forall (mem : list (N * N)) (s s' a : N), NoDup (map snd mem) -> In (s, a) mem -> In (s', a) mem -> s = s'.
Proof.
  induction mem as [|[s0 a0] r IH]; intros s s' a ND I J; [destruct I|]. cbn [map snd] in ND.
  inversion ND as [|? ? NI ND']; subst.
  destruct I as [E|I]; destruct J as [F|J].
  - inversion E; inversion F; subst. reflexivity.
  - inversion E; subst. exfalso. apply NI. apply in_map_iff. exists (s', a). split; [reflexivity|exact J].
  - inversion F; subst. exfalso. apply NI. apply in_map_iff. exists (s, a). split; [reflexivity|exact I].
  - exact (IH s s' a ND' I J).
Qed.

Lemma in_addrs : forall L mem a, In a (addrs L mem) <-> exists s, In s L /\ slot_addr s mem = Some a.
Proof.
  intros L mem a. unfold addrs. rewrite in_flat_map. split.
  - intros [s [I H]]. exists s. split; [exact I|]. destruct (slot_addr s mem) as [b|]; [|destruct H].
    destruct H as [->|[]]. reflexivity.
  - intros [s [I H]]. exists s. split; [exact I|]. rewrite H. left. reflexivity.
Qed.

Lemma addrs_nodup : forall L mem, NoDup L -> NoDup (map snd mem) -> NoDup (addrs L mem).
Proof.
  induction L as [|x r IH]; intros mem ND NS; [constructor|].
  inversion ND as [|? ? NI ND']; subst.
  change (addrs (x :: r) mem) with ((match slot_addr x mem with Some a => [a] | None => [] end) ++ addrs r mem).
  destruct (slot_addr x mem) as [a|] eqn:E; [|apply IH; assumption].
  cbn [app]. constructor; [|apply IH; assumption].
  intros I. apply in_addrs in I. destruct I as [s [I H]].
  assert (s = x) by (eapply snd_inj; [exact NS|apply slot_addr_in; exact H|apply slot_addr_in; exact E]).
  subst. contradiction.
Qed.

Lemma free_slots_all : forall m L mem s, Live m s (map snd mem) -> NoDup L -> NoDup (map fst mem) -> NoDup (map snd mem) ->
  incl (map fst mem) L ->
  exists s', exec s (free_slots m L mem) = Some s' /\ PositiveMap.is_empty s' = true.
Proof.
  intros m L mem s H NL NF NS IN. rewrite free_slots_spec.
  apply (live_frees_all m (addrs L mem) s (map snd mem) H); [apply addrs_nodup; assumption|].
  intros a. rewrite in_addrs, in_map_iff. split.
  - intros [[x a'] [E I]]. cbn in E. subst a'. exists x. split.
    + apply IN. apply in_map_iff. exists (x, a). split; [reflexivity|exact I].
    + apply slot_addr_complete; assumption.
  - intros [x [_ E]]. apply slot_addr_in in E. exists (x, a). split; [reflexivity|exact E].
Qed.

Record JInv (m : N) (s : lstate) (st : jst) : Prop := {
  ji_exec : exec lempty (j_tr st) = Some s;
  ji_live : Live m s (map snd (j_mem st));
  ji_lt : forall a, In a (map snd (j_mem st)) -> a < j_next st;
  ji_nd : NoDup (map snd (j_mem st))
}.

Lemma jinv_alloc : forall m s st slot, JInv m s st -> exists s', JInv m s' (jalloc m st slot).
Proof.
  intros m s st slot [E L LT ND].
  assert (NI : ~ In (j_next st) (map snd (j_mem st))) by (intro I; apply LT in I; lia).
  destruct (live_alloc m s _ (j_next st) L NI) as [s' [S L']].
  exists s'. constructor; cbn [jalloc j_tr j_mem j_next map snd].
  - exact (exec_snoc _ _ _ _ _ E S).
  - exact L'.
  - intros a [<-|I]; [lia|]. apply LT in I. lia.
  - constructor; assumption.
Qed.

Lemma jalloc_armed : forall m st slot, j_armed (jalloc m st slot) = j_armed st.
Proof. reflexivity. Qed.

Lemma jinv_disarm : forall m s st, JInv m s st -> JInv m s (jdisarm st).
Proof. intros m s st [E L LT ND]. constructor; assumption. Qed.

Lemma nodup_drop_mid : forall (a b c : list N), NoDup (a ++ b ++ c) -> NoDup (a ++ c).
Proof.
  intros a b c. induction b as [|x b IH]; intros H; [exact H|]. apply IH. exact (NoDup_remove_1 a (b ++ c) x H).
Qed.

Lemma nodup_move : forall (a : list N) x b, NoDup (a ++ x :: b) -> NoDup ((x :: a) ++ b).
Proof.
  intros a x b H. cbn [app]. constructor.
  - apply NoDup_remove_2 in H. exact H.
  - apply NoDup_remove_1 in H. exact H.
Qed.

(** [st1] is a good exit of [body] started in [st]: the invariant holds; the slots assigned by then are among those of [st]
    and of the statements, and stay distinct from each other and from any [rest] those were distinct from *)
Definition jexit (m : N) (st : jst) (body : list jstmt) (st1 : jst) : Prop :=
  exists s1, JInv m s1 st1 /\
    incl (map fst (j_mem st1)) (map fst (j_mem st) ++ body_slots body) /\
    forall rest, NoDup (map fst (j_mem st) ++ body_slots body ++ rest) -> NoDup (map fst (j_mem st1) ++ rest).

Lemma jbody_inv : forall m body st k s, JInv m s st -> jexit m st body (fst (jbody m st body k)).
Proof.
  intros m body. induction body as [|stm r IH]; intros st k s I.
  - exists s. cbn [jbody fst body_slots flat_map app]. rewrite app_nil_r.
    split; [exact I|]. split; [apply incl_refl|]. intros rest H. exact H.
  - assert (STOP : jexit m st (stm :: r) st).
    { exists s. split; [exact I|]. split; [apply incl_appl, incl_refl|]. intros rest. apply nodup_drop_mid. }
    destruct stm as [slot| |]; cbn [jbody].
    + destruct (jinv_alloc m s st slot I) as [s' I'].
      assert (GO : forall k', jexit m st (JAlloc slot :: r) (fst (jbody m (jalloc m st slot) r k'))).
      { intros k'. destruct (IH (jalloc m st slot) k' s' I') as [s1 [A [B C]]]. exists s1. split; [exact A|].
        change (body_slots (JAlloc slot :: r)) with (slot :: body_slots r). split.
        - intros x X. apply B in X. cbn [jalloc j_mem map fst app] in X. apply in_or_app.
          destruct X as [<-|X]; [right; left; reflexivity|].
          apply in_app_or in X. destruct X as [X|X]; [left; exact X|right; right; exact X].
        - intros rest H. apply C. cbn [jalloc j_mem map fst]. apply nodup_move. exact H. }
      destruct k as [[|k']|]; [exact STOP|apply GO|apply GO].
    + destruct k as [[|k']|]; [exact STOP|apply (IH st _ s I)|apply (IH st _ s I)].
    + apply (IH (jdisarm st) k s (jinv_disarm m s st I)).
Qed.

(** the initialiser list is a body of allocations none of which throws *)
Lemma init_as_body : forall m init st,
  fold_left (jalloc m) init st = fst (jbody m st (map JAlloc init) None) /\
  j_armed (fold_left (jalloc m) init st) = j_armed st /\ body_slots (map JAlloc init) = init.
Proof.
  intros m init. induction init as [|x r IH]; intros st; [repeat split|].
  destruct (IH (jalloc m st x)) as [A [B C]]. cbn [fold_left map jbody]. split; [exact A|]. split; [exact B|].
  change (body_slots (JAlloc x :: map JAlloc r)) with (x :: body_slots (map JAlloc r)). rewrite C. reflexivity.
Qed.

(** with `cleanup.release()` last: an exceptional exit finds the guard armed, a normal exit finds it released *)
Lemma jbody_armed : forall m body st k, j_armed st = true -> release_last body = true ->
  (snd (jbody m st body k) = true /\ j_armed (fst (jbody m st body k)) = true) \/
  (snd (jbody m st body k) = false /\ j_armed (fst (jbody m st body k)) = false).
Proof.
  intros m body. induction body as [|stm r IH]; intros st k A R; [discriminate R|].
  destruct r as [|stm2 r'].
  - cbn [release_last] in R. destruct stm; try discriminate R. cbn [jbody fst snd jdisarm j_armed]. right. auto.
  - change (release_last (stm :: stm2 :: r')) with (negb (is_release stm) && release_last (stm2 :: r')) in R.
    apply andb_true_iff in R. destruct R as [R1 R2]. set (R := stm2 :: r') in *. clearbody R.
    destruct stm as [slot| |]; [| |discriminate R1].
    + cbn [jbody]. destruct k as [[|k']|].
      * left. cbn [fst snd]. auto.
      * apply IH; [rewrite jalloc_armed; exact A|exact R2].
      * apply IH; [rewrite jalloc_armed; exact A|exact R2].
    + cbn [jbody]. destruct k as [[|k']|].
      * left. cbn [fst snd]. auto.
      * apply IH; assumption.
      * apply IH; assumption.
Qed.

Lemma nodupb_spec : forall l, nodupb l = true -> NoDup l.
Proof.
  induction l as [|x r IH]; intros H; [constructor|]. cbn [nodupb] in H. apply andb_true_iff in H. destruct H as [A B].
  constructor; [|apply IH; exact B]. intros I. apply negb_true_iff in A.
  assert (E : existsb (N.eqb x) r = true) by (apply existsb_exists; exists x; split; [exact I|apply N.eqb_refl]).
  congruence.
Qed.

Lemma subsetb_spec : forall a b, subsetb a b = true -> incl a b.
Proof.
  intros a b H x I. unfold subsetb in H. rewrite forallb_forall in H. specialize (H x I).
  apply existsb_exists in H. destruct H as [y [J E]]. apply N.eqb_eq in E. subst. exact J.
Qed.

Lemma ctor_ok_spec : forall c, ctor_ok c = true ->
  NoDup (ctor_slots c) /\ NoDup (c_cleanup c) /\ NoDup (c_dtor c) /\
  incl (ctor_slots c) (c_cleanup c) /\ incl (ctor_slots c) (c_dtor c) /\ release_last (c_body c) = true.
Proof.
  intros c OK. unfold ctor_ok in OK.
  apply andb_true_iff in OK. destruct OK as [OK RL]. apply andb_true_iff in OK. destruct OK as [OK SD].
  apply andb_true_iff in OK. destruct OK as [OK SC]. apply andb_true_iff in OK. destruct OK as [OK ND].
  apply andb_true_iff in OK. destruct OK as [OK NC].
  repeat split; [apply nodupb_spec; exact OK|apply nodupb_spec; exact NC|apply nodupb_spec; exact ND|
                 apply subsetb_spec; exact SC|apply subsetb_spec; exact SD|exact RL].
Qed.

Lemma janitor_paths : forall m base c k, ctor_ok c = true -> ledger_check (jlife m base c k) = V_Ok.
Proof.
  (* the initialiser list is a body: [jbody_inv] twice gives the state at the exit; by [jbody_armed] the exit is either
     exceptional with the guard armed (cleanUp runs) or normal with the guard released (the destructor runs later);
     either way [free_slots_all] releases exactly the live blocks *)
  intros m base c k CK. destruct (ctor_ok_spec c CK) as (OK & NC & ND & SC & SD & RL). unfold ctor_slots in *.
  unfold jlife.
  set (st00 := {| j_mem := []; j_armed := true; j_next := base; j_tr := [] |}).
  assert (I0 : JInv m lempty st00) by (constructor; cbn; [reflexivity|apply live_init|intros a []|constructor]).
  destruct (init_as_body m (c_init c) st00) as [F0 [A0 B0]].
  destruct (jbody_inv m (map JAlloc (c_init c)) st00 None lempty I0) as [s0 [J0 [IN0 N0]]].
  rewrite <- F0 in J0, IN0, N0. rewrite B0 in IN0, N0. set (st0 := fold_left (jalloc m) (c_init c) st00) in *.
  destruct (jbody_inv m (c_body c) st0 k s0 J0) as [s1 [J1 [IN1 N1]]].
  assert (AR := jbody_armed m (c_body c) st0 k). rewrite A0 in AR. specialize (AR eq_refl RL).
  destruct (jbody m st0 (c_body c) k) as [st1 threw]. cbn [fst snd] in *.
  assert (NF : NoDup (map fst (j_mem st1))).
  { rewrite <- (app_nil_r (map fst (j_mem st1))). apply N1. rewrite app_nil_r. apply N0. exact OK. }
  assert (SL : incl (map fst (j_mem st1)) (c_init c ++ body_slots (c_body c))).
  { intros x X. apply IN1 in X. apply in_or_app. apply in_app_or in X. destruct X as [X|X]; [left; exact (IN0 x X)|right; exact X]. }
  destruct J1 as [E1 L1 _ NS1].
  apply run_ok.
  destruct AR as [[T A]|[T A]]; rewrite T, A.
  - destruct (free_slots_all m (c_cleanup c) (j_mem st1) s1 L1 NC NF NS1) as [s' [E' EM]].
    { intros x X. apply SC. apply SL. exact X. }
    exists s'. split; [|exact EM]. rewrite app_nil_r. rewrite exec_app, E1. exact E'.
  - destruct (free_slots_all m (c_dtor c) (j_mem st1) s1 L1 ND NF NS1) as [s' [E' EM]].
    { intros x X. apply SD. apply SL. exact X. }
    exists s'. split; [|exact EM]. cbn [app]. rewrite exec_app, E1. exact E'.
Qed.

Definition ljlist (st : ljst) : list N := (match lj_held st with Some a => [a] | None => [] end) ++ lj_owned st.

Record LJInv (m : N) (s : lstate) (st : ljst) : Prop := {
  lji_exec : exec lempty (lj_t st) = Some s;
  lji_live : Live m s (ljlist st);
  lji_lt : forall a, In a (ljlist st) -> a < lj_nx st;
  lji_nd : NoDup (ljlist st)
}.

Lemma ljrun_inv : forall m ops st k s, LJInv m s st -> exists s', LJInv m s' (ljrun m st ops k).
Proof.
  intros m ops. induction ops as [|op r IH]; intros st k s I.
  - exists s. exact I.
  - destruct op.
    + (* LCall *) cbn [ljrun]. destruct k as [[|k']|]; [exists s; exact I|apply (IH _ _ s I)|apply (IH _ _ s I)].
    + (* LReset: allocate the new block, then release the held one if there is one *) cbn [ljrun]. destruct I as [E L LT ND].
      assert (NI : ~ In (lj_nx st) (ljlist st)) by (intro X; apply LT in X; lia).
      destruct (live_alloc m s _ _ L NI) as [s1 [S1 L1]].
      unfold ljlist in *. destruct (lj_held st) as [a|] eqn:H.
      * cbn [app] in *. inversion ND as [|? ? NA ND']; subst.
        destruct (live_free m s1 _ a (lj_nx st :: lj_owned st) L1) as [s2 [S2 L2]].
        { intros p. cbn [In]. split; [intros [X|[X|X]]|intros [X|[X|X]]]; auto. }
        { intros [X|X]; [apply NI; left; symmetry; exact X|exact (NA X)]. }
        eapply IH. constructor; unfold ljlist; cbn [lj_t lj_held lj_owned lj_nx app].
        -- rewrite exec_app, E. cbn [exec app]. rewrite S1. cbn [exec]. rewrite S2. reflexivity.
        -- exact L2.
        -- intros p [<-|X]; [lia|]. assert (p < lj_nx st) by (apply LT; right; exact X). lia.
        -- constructor; [|assumption]. intro X. apply NI. right. exact X.
      * eapply IH. constructor; unfold ljlist; cbn [lj_t lj_held lj_owned lj_nx app].
        -- exact (exec_snoc _ _ _ _ _ E S1).
        -- cbn [app] in *. exact L1.
        -- intros p [<-|X]; [lia|]. assert (p < lj_nx st) by (apply LT; exact X). lia.
        -- cbn [app] in *. constructor; assumption.
    + (* LRelease *) cbn [ljrun]. destruct I as [E L LT ND]. unfold ljlist in *. destruct (lj_held st) as [a|] eqn:H; cbn [app] in *; eapply IH;
      constructor; unfold ljlist; cbn [lj_t lj_held lj_owned lj_nx app]; eassumption.
Qed.

Lemma janitor_local : forall m base ops k, ledger_check (ljlife m base ops k) = V_Ok.
Proof.
  intros m base ops k. unfold ljlife.
  set (st0 := {| lj_held := Some base; lj_owned := []; lj_nx := N.succ base; lj_t := [Alloc m base 1] |}).
  assert (I0 : exists s0, LJInv m s0 st0).
  { destruct (live_alloc m lempty [] base (live_init m)) as [s0 [S0 L0]]; [intros []|].
    exists s0. constructor; cbn.
    - cbn in S0. rewrite S0. reflexivity.
    - exact L0.
    - intros a [<-|[]]. lia.
    - constructor; [intros []|constructor]. }
  destruct I0 as [s0 I0]. destruct (ljrun_inv m ops st0 k s0 I0) as [s1 [E L _ ND]].
  apply run_ok.
  destruct (live_frees_all m (ljlist (ljrun m st0 ops k)) s1 _ L ND (fun p => iff_refl _)) as [s' [E' EM]].
  exists s'. split; [|exact EM]. rewrite exec_app, E.
  replace ((match lj_held (ljrun m st0 ops k) with Some a => [Free m a] | None => [] end) ++ map (Free m) (lj_owned (ljrun m st0 ops k)))
    with (map (Free m) (ljlist (ljrun m st0 ops k))); [exact E'|].
  unfold ljlist. rewrite map_app. destruct (lj_held (ljrun m st0 ops k)); reflexivity.
Qed.
