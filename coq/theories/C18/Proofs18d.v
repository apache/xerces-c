(** C18 -- Initialize/Terminate state machine: invariants for every call sequence. *)
From Coq Require Import NArith List Bool Lia.
From XV Require Import C18.Model18I.
Import ListNotations.
Local Open Scope N_scope.

Definition is_new (e : ievent) : bool := match e with ENewOwnMgr => true | _ => false end.
Definition is_del_own (e : ievent) : bool := match e with EDeleteMgr GmOwn => true | _ => false end.
Definition news (l : list ievent) : nat := length (filter is_new l).
Definition dels (l : list ievent) : nat := length (filter is_del_own l).

Record Inv (st : istate) : Prop := {
  inv_live : i_live st = (0 <? i_cnt st);
  inv_zero : i_cnt st = 0 -> i_mgr st = GmNone /\ i_adopted st = true;
  inv_pos : 0 < i_cnt st -> i_mgr st <> GmNone /\ (i_adopted st = false <-> exists m, i_mgr st = GmUser m);
  inv_nouser : forall who, In (EDeleteMgr who) (i_log st) -> who = GmOwn;
  inv_bal : news (i_log st) = (dels (i_log st) + (match i_mgr st with GmOwn => 1 | _ => 0 end))%nat
}.

Lemma news_app : forall a b, news (a ++ b) = (news a + news b)%nat.
Proof. intros. unfold news. rewrite filter_app, app_length. reflexivity. Qed.
Lemma dels_app : forall a b, dels (a ++ b) = (dels a + dels b)%nat.
Proof. intros. unfold dels. rewrite filter_app, app_length. reflexivity. Qed.

Lemma inv_pristine : forall d, Inv (pristine d).
Proof.
  intros. constructor; cbn; try reflexivity; try lia; auto; try (intros who []).
Qed.

(** a nested Initialize and an inner Terminate only move the count, between positive values *)
Lemma inv_count : forall st c, Inv st -> 0 < i_cnt st -> 0 < c ->
  Inv {| i_cnt := c; i_mgr := i_mgr st; i_adopted := i_adopted st; i_live := i_live st; i_dom := i_dom st; i_log := i_log st |}.
Proof.
  intros st c [L Z P U B] H0 Hc. constructor; cbn [i_cnt i_mgr i_adopted i_live i_log]; try assumption; try lia.
  - rewrite L. destruct (N.ltb_spec 0 (i_cnt st)), (N.ltb_spec 0 c); try reflexivity; lia.
  - intros _. apply P. exact H0.
Qed.

Lemma inv_step : forall rd cap st op, Inv st -> Inv (istep rd cap st op).
Proof.
  intros rd cap st op I. pose proof I as [L Z P U B]. destruct op as [user dom|]; cbn [istep].
  - destruct (N.eqb_spec (i_cnt st) cap) as [E|E]; [constructor; assumption|].
    destruct (N.ltb_spec 1 (i_cnt st + 1)) as [G|G].
    + apply inv_count; [exact I|lia|lia].
    + assert (Z0 : i_cnt st = 0) by lia. destruct (Z Z0) as [M A]. rewrite M in *. cbn [is_none].
      destruct user as [m|]; constructor; cbn [i_cnt i_mgr i_adopted i_live i_log]; try lia; try (rewrite Z0; reflexivity).
      * (* user manager [m], field inv_pos *) intros _. split; [discriminate|]. split; [intros _; exists m; reflexivity|reflexivity].
      * (* inv_nouser: the log gains ECreate only *) intros who H. apply in_app_or in H. destruct H as [H|[H|[]]]; [apply U; exact H|discriminate].
      * (* inv_bal *) rewrite news_app, dels_app, B. reflexivity.
      * (* own manager, field inv_pos *) intros _. split; [discriminate|]. rewrite A. split; [discriminate|intros [m H]; discriminate].
      * (* inv_nouser: the log gains ENewOwnMgr and ECreate *) intros who H. apply in_app_or in H. destruct H as [H|[H|[]]]; [|discriminate].
        apply in_app_or in H. destruct H as [H|[H|[]]]; [apply U; exact H|discriminate].
      * (* inv_bal: one more own manager created, and one installed *) rewrite !news_app, !dels_app, B. cbn. lia.
  - destruct (N.eqb_spec (i_cnt st) 0) as [E|E]; [constructor; assumption|].
    destruct (N.ltb_spec 0 (i_cnt st - 1)) as [G|G].
    + apply inv_count; [exact I|lia|exact G].
    + assert (Hpos : 0 < i_cnt st) by lia. destruct (P Hpos) as [NN AD].
      constructor; cbn [i_cnt i_mgr i_adopted i_live i_log]; auto; try lia.
      * (* inv_nouser: the manager is deleted only if adopted, and an adopted manager is the library's own *)
        intros who H. apply in_app_or in H. destruct H as [H|H]; [apply U; exact H|].
        destruct H as [H|H]; [discriminate|].
        destruct (i_adopted st) eqn:A; [|destruct H].
        destruct H as [H|[]]. inversion H; subst.
        destruct (i_mgr st) as [| |m] eqn:M; [contradiction|reflexivity|].
        exfalso. assert (X : true = false) by (apply AD; exists m; reflexivity). discriminate.
      * (* inv_bal: the installed own manager, if any, is the one deleted *)
        rewrite !news_app, !dels_app.
        destruct (i_adopted st) eqn:A.
        -- destruct (i_mgr st) as [| |m] eqn:M; cbn in *; try lia.
        -- destruct (proj1 AD eq_refl) as [m M]. rewrite M in *. cbn in *. lia.
Qed.

Lemma inv_run : forall rd cap ops st, Inv st -> Inv (irun rd cap st ops).
Proof.
  intros rd cap ops. induction ops as [|op r IH]; intros st I; cbn [irun fold_left]; [exact I|].
  apply IH, inv_step, I.
Qed.

Lemma cnt_step : forall rd cap st op, i_cnt (istep rd cap st op) = count_after cap (i_cnt st) op.
Proof.
  intros rd cap st op. destruct op as [user dom|]; cbn [istep count_after].
  - destruct (N.eqb_spec (i_cnt st) cap); [reflexivity|].
    destruct (N.ltb_spec 1 (i_cnt st + 1)); [reflexivity|].
    destruct (is_none (i_mgr st)); [destruct user|]; reflexivity.
  - destruct (N.eqb_spec (i_cnt st) 0) as [E|E]; [rewrite E; reflexivity|].
    destruct (N.ltb_spec 0 (i_cnt st - 1)); cbn; lia.
Qed.

Lemma cnt_run : forall rd cap ops st, i_cnt (irun rd cap st ops) = fold_left (count_after cap) ops (i_cnt st).
Proof.
  intros rd cap ops. induction ops as [|op r IH]; intros st; cbn [irun fold_left]; [reflexivity|].
  unfold irun in IH. rewrite IH, cnt_step. reflexivity.
Qed.

(** the DOM heap parameters only change through an Initialize that carries them *)
Definition no_dom_args (op : iop) : Prop := match op with Init _ (Some _) => False | _ => True end.

Lemma dom_step : forall cap st op, no_dom_args op -> i_dom (istep None cap st op) = i_dom st.
Proof.
  intros cap st op H. destruct op as [user [d|]|]; cbn [no_dom_args] in H; [contradiction| |]; cbn [istep].
  - destruct (i_cnt st =? cap); [reflexivity|]. destruct (1 <? i_cnt st + 1); [reflexivity|].
    destruct (is_none (i_mgr st)); [destruct user|]; reflexivity.
  - destruct (i_cnt st =? 0); [reflexivity|]. destruct (0 <? i_cnt st - 1); reflexivity.
Qed.

Lemma dom_run : forall cap ops st, Forall no_dom_args ops -> i_dom (irun None cap st ops) = i_dom st.
Proof.
  intros cap ops. induction ops as [|op r IH]; intros st F; cbn [irun fold_left]; [reflexivity|].
  inversion F; subst. unfold irun in IH. rewrite IH by assumption. apply dom_step. assumption.
Qed.

Lemma initterm_main : forall rd cap d ops,
  let st := irun rd cap (pristine d) ops in
  (i_live st = true <-> 0 < i_cnt st) /\
  i_cnt st = fold_left (count_after cap) ops 0 /\
  (i_cnt st = 0 -> i_mgr st = GmNone /\ i_adopted st = true /\ i_live st = false) /\
  (forall who, In (EDeleteMgr who) (i_log st) -> who = GmOwn) /\
  news (i_log st) = (dels (i_log st) + (match i_mgr st with GmOwn => 1 | _ => 0 end))%nat.
Proof.
  intros rd cap d ops st. destruct (inv_run rd cap ops (pristine d) (inv_pristine d)) as [L Z P U B].
  fold st in L, Z, P, U, B. repeat split.
  - rewrite L. intros H. apply N.ltb_lt. exact H.
  - rewrite L. intros H. apply N.ltb_lt. exact H.
  - unfold st. rewrite cnt_run. reflexivity.
  - apply Z; assumption.
  - apply Z; assumption.
  - rewrite L, H. reflexivity.
  - exact U.
  - exact B.
Qed.

(** with Terminate restoring the defaults [d] the DOM heap parameters are [d] whenever the count is 0, for every sequence *)
Lemma dom_zero_step : forall cap d st op, (i_cnt st = 0 -> i_dom st = d) ->
  i_cnt (istep (Some d) cap st op) = 0 -> i_dom (istep (Some d) cap st op) = d.
Proof.
  intros cap d st op H. destruct op as [user dom|]; cbn [istep].
  - destruct (N.eqb_spec (i_cnt st) cap) as [E|E]; [exact H|].
    destruct (N.ltb_spec 1 (i_cnt st + 1)); [cbn; lia|].
    destruct (is_none (i_mgr st)); [destruct user|]; cbn; lia.
  - destruct (N.eqb_spec (i_cnt st) 0) as [E|E]; [exact H|].
    destruct (N.ltb_spec 0 (i_cnt st - 1)); cbn; [lia|reflexivity].
Qed.

Lemma dom_zero_run : forall cap d ops st, (i_cnt st = 0 -> i_dom st = d) ->
  i_cnt (irun (Some d) cap st ops) = 0 -> i_dom (irun (Some d) cap st ops) = d.
Proof.
  intros cap d ops. induction ops as [|op r IH]; intros st H; cbn [irun fold_left]; [exact H|].
  apply IH, dom_zero_step, H.
Qed.

(** after the last Terminate the state is the pristine one (up to the log) when Terminate restores the DOM heap parameters, or
    when no Initialize carried any *)
Lemma pristine_again : forall rd cap d ops, rd = Some d \/ rd = None /\ Forall no_dom_args ops ->
  let st := irun rd cap (pristine d) ops in
  i_cnt st = 0 -> st = {| i_cnt := 0; i_mgr := GmNone; i_adopted := true; i_live := false; i_dom := d; i_log := i_log st |}.
Proof.
  intros rd cap d ops H st Z0.
  destruct (initterm_main rd cap d ops) as [_ [_ [Z _]]]. fold st in Z. destruct (Z Z0) as [M [A L]].
  assert (D : i_dom st = d).
  { destruct H as [->|[-> F]]; [apply dom_zero_run; [reflexivity|exact Z0]|]. unfold st. rewrite dom_run by exact F. reflexivity. }
  destruct st; cbn in *. subst. reflexivity.
Qed.
