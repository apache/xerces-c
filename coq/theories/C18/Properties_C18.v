(** Property C18 -- MemoryManager discipline and Initialize/Terminate lifecycle are leak-free.

    CLAIM: PARTIAL.  Proved: the ledger monitor, the XMemory header mechanism, the DOM arena, the Initialize/Terminate state
    machine with the message-loader strings, grammar ownership, the generated pairing obligations, scope guards and adopting
    vectors.  NOT proved: that the whole parser (100k lines of exception paths) produces only disciplined traces -- that part
    of C18 rests on monitored exploration, where the extracted [ledger_check] judges every recorded trace. *)
From Coq Require Import NArith List Bool String FMapPositive Permutation.
From XV Require Import Gen.GenC18DomHeap Gen.GenC18Init Gen.GenC18Janitor.
From XV Require Import C18.Spec18 C18.Model18 C18.Model18X C18.Model18A C18.Model18I C18.Model18M C18.Model18G C18.Model18J C18.Model18V.
From XV Require Import C18.Proofs18b C18.Proofs18c C18.Proofs18d C18.Proofs18e C18.Proofs18f C18.Proofs18g C18.Proofs18h C18.Proofs18j C18.Proofs18v.
Import ListNotations.
Local Open Scope N_scope.

(** the extracted monitor answers [V_Ok] exactly for the traces in which every Free matches one earlier, not yet
    released Alloc of the same manager and nothing is live at the end.  The verdict on a *recorded* trace therefore
    needs no trust in harness bookkeeping. *)
Theorem T18_monitor_sound_complete : forall tr, ledger_check tr = V_Ok <-> disciplined tr.
Proof. exact ledger_sound_complete. Qed.
Print Assumptions T18_monitor_sound_complete.

(** the other verdicts mean what they say: the monitor reports an error iff the trace is not [safe_so_far] (a bad Free or
    a live address handed out again), an error verdict carries the index of the FIRST event that breaks the discipline,
    and [V_Outstanding l] lists exactly the blocks whose allocation is the last event on their address *)
Theorem T18_monitor_no_error_iff : forall tr, ~ is_error (ledger_check tr) <-> safe_so_far tr.
Proof. exact ledger_no_error_iff. Qed.
Print Assumptions T18_monitor_no_error_iff.

Theorem T18_monitor_error_index : forall tr, is_error (ledger_check tr) ->
  exists pre e post i, tr = pre ++ e :: post /\ verdict_index (ledger_check tr) = Some i /\ i = N.of_nat (List.length pre) /\
                       safe_so_far pre /\ ~ safe_so_far (pre ++ [e]).
Proof. exact ledger_error. Qed.
Print Assumptions T18_monitor_error_index.

Theorem T18_monitor_outstanding : forall tr l, ledger_check tr = V_Outstanding l ->
  safe_so_far tr /\ l <> [] /\ forall p m n, In (p, m, n) l <-> outstanding tr m p n.
Proof. exact ledger_outstanding. Qed.
Print Assumptions T18_monitor_outstanding.

Example monitor_accepts : ledger_check [Alloc 1 100 8; Alloc 2 200 16; Free 1 100; Alloc 1 100 4; Free 2 200; Free 1 100] = V_Ok.
Proof. reflexivity. Qed.
Example monitor_rejects_wrong_manager : ledger_check [Alloc 1 100 8; Free 2 100] = V_WrongManager 1.
Proof. reflexivity. Qed.
Example monitor_rejects_double_free : ledger_check [Alloc 1 100 8; Free 1 100; Free 1 100] = V_DoubleFree 2.
Proof. reflexivity. Qed.
Example monitor_rejects_foreign : ledger_check [Alloc 1 100 8; Free 1 104] = V_ForeignFree 1.
Proof. reflexivity. Qed.
Example monitor_reports_leak : ledger_check [Alloc 1 100 8; Alloc 1 200 9; Free 1 100] = V_Outstanding [(200, 1, 9)].
Proof. reflexivity. Qed.

(** for ANY interleaving of new(size, m_i) / new(size) / delete / change of the global manager that the model
    accepts (managers return non-overlapping blocks, the client deletes live objects):
    - once every object is deleted the trace of calls to the managers is disciplined (each block went back to the
      manager that allocated it, exactly once);
    - the header word of every live object holds its allocating manager, the payload starts behind it and
      stays inside the block;
    - header+payload of distinct live blocks do not overlap. *)
Theorem T18_xmemory : forall c g ops st, 0 < ptr_size c -> 0 < alignment c -> xrun c (xinit g) ops = Some st ->
  (x_objs st = [] -> ledger_check (x_trace st) = V_Ok) /\
  (forall o, In o (x_objs st) -> PositiveMap.find (key (o_base o)) (x_hdr st) = Some (o_mgr o) /\
                                 o_p o = o_base o + header c /\ ptr_size c <= header c /\ o_p o <= o_base o + o_tot o) /\
  (forall a b, In a (x_objs st) -> In b (x_objs st) -> a <> b ->
               overlaps (o_base a) (o_tot a) (o_base b) (o_tot b) = false).
Proof. exact xmemory_main. Qed.
Print Assumptions T18_xmemory.

(** every delete hands the block base to the manager of the matching allocation, whatever the global manager is now *)
Theorem T18_xmemory_owner : forall c g ops st p st', 0 < ptr_size c -> 0 < alignment c ->
  xrun c (xinit g) ops = Some st -> xdelete c st p = Some st' ->
  exists o, In o (x_objs st) /\ o_p o = p /\ x_trace st' = x_trace st ++ [Free (o_mgr o) (o_base o)] /\
            exists pre mid, x_trace st = pre ++ Alloc (o_mgr o) (o_base o) (o_tot o) :: mid /\ untouched (o_base o) mid.
Proof. exact xdelete_owner. Qed.
Print Assumptions T18_xmemory_owner.

(** non-vacuity: three managers, the global manager changes between new and delete *)
Example xmemory_run :
  option_map (fun st => (x_trace st, List.length (x_objs st)))
    (xrun xcfg64 (xinit 1) [XNew 2 40 1000; XNewGlobal 16 2000; XSetGlobal 3; XNew 3 7 3000; XDelete 2008; XNewGlobal 1 4000;
                            XDeleteWith 1008 3; XDelete 3008; XDelete 4008])
  = Some ([Alloc 2 1000 48; Alloc 1 2000 24; Alloc 3 3000 15; Free 1 2000; Alloc 3 4000 9; Free 2 1000; Free 3 3000; Free 3 4000], 0%nat).
Proof. reflexivity. Qed.

(** Code as it is ([fx = false]): under  kMaxSubAllocationSize + header <= kInitialHeapAllocSize  and
    kMaxHeapAllocSize <= 2^63, for every request sequence in which the manager returns fresh blocks and
    setMemoryAllocationBlockSize stays out of (maxSub, maxSub+header):  every non-empty region handed out lies
    inside one block owned by the document (behind its header), regions are pairwise disjoint, and deleteHeap
    hands back exactly the blocks that were requested (a permutation: each exactly once). *)
Theorem T18_arena : forall c ops, cfg_base c -> cfg_ok c -> avalid false c (ainit c) ops ->
  let st := arun false c (ainit c) ops in
  (forall r, In r (s_regions st) -> snd r = 0 \/ exists blk, In blk (delete_heap st) /\ within (a_hdr c) r blk) /\
  pdisj (s_regions st) /\
  Permutation (s_reqs st) (delete_heap st).
Proof. intros c ops B K V. exact (arena_main false c ops B (or_introl K) V). Qed.
Print Assumptions T18_arena.

(** repaired allocate ([fx = true], fixes/C18-dom-arena-block-size.patch): no hypothesis on the configuration or on
    setMemoryAllocationBlockSize *)
Theorem T18_arena_fixed : forall c ops, cfg_base c -> avalid true c (ainit c) ops ->
  let st := arun true c (ainit c) ops in
  (forall r, In r (s_regions st) -> snd r = 0 \/ exists blk, In blk (delete_heap st) /\ within (a_hdr c) r blk) /\
  pdisj (s_regions st) /\
  Permutation (s_reqs st) (delete_heap st).
Proof. intros c ops B V. exact (arena_main true c ops B (or_intror eq_refl) V). Qed.
Print Assumptions T18_arena_fixed.

(** the configuration compiled into /repo (regenerated on every run) satisfies the hypotheses *)
Definition repo_cfg : acfg :=
  {| a_init := kInitialHeapAllocSize; a_max := kMaxHeapAllocSize; a_sub := kMaxSubAllocationSize; a_hdr := header xcfg64; a_al := 8 |}.
Theorem T18_arena_default_cfg_ok : cfg_base repo_cfg /\ cfg_ok repo_cfg.
Proof. vm_compute. repeat split; try reflexivity; discriminate. Qed.
Print Assumptions T18_arena_default_cfg_ok.

(** the arena AS BUILT in /repo: the translator reports whether allocate() sizes a fresh block to fit the request
    ([arena_block_fits_request]; true in /repo, fix c3af9bb) and the compiled-in constants; with these the safety statement
    holds for every request sequence (and, when the flag is true, for every setMemoryAllocationBlockSize). *)
Theorem T18_arena_as_built : forall ops, avalid arena_block_fits_request repo_cfg (ainit repo_cfg) ops ->
  let st := arun arena_block_fits_request repo_cfg (ainit repo_cfg) ops in
  (forall r, In r (s_regions st) -> snd r = 0 \/ exists blk, In blk (delete_heap st) /\ within (a_hdr repo_cfg) r blk) /\
  pdisj (s_regions st) /\
  Permutation (s_reqs st) (delete_heap st).
Proof.
  intros ops V. destruct T18_arena_default_cfg_ok as [B K]. exact (arena_main _ repo_cfg ops B (or_introl K) V).
Qed.
Print Assumptions T18_arena_as_built.

(** every region handed out is aligned (pointer and length) when the manager returns aligned blocks; the header size is
    a multiple of the alignment by construction (second statement) *)
Theorem T18_arena_regions_aligned : forall fx c ops, 0 < a_al c -> a_hdr c mod a_al c = 0 -> bases_aligned c ops ->
  forall r, In r (s_regions (arun fx c (ainit c) ops)) -> fst r mod a_al c = 0 /\ snd r mod a_al c = 0.
Proof.
  intros fx c ops Ha Hh B. apply (alinv_run fx c ops (ainit c) Ha Hh B). constructor; cbn.
  - reflexivity.
  - intros r [].
Qed.
Print Assumptions T18_arena_regions_aligned.

Theorem T18_header_aligned : forall c, 0 < alignment c -> header c mod alignment c = 0 /\ ptr_size c <= header c.
Proof. intros c H. split; [apply align_up_mod; exact H|apply align_up_ge; exact H]. Qed.
Print Assumptions T18_header_aligned.

(** every region's length is a multiple of the alignment (so sub-allocations stay aligned) *)
Theorem T18_arena_aligned : forall c, 0 < a_al c -> forall x, (align_up (a_al c) x) mod (a_al c) = 0.
Proof. intros c H x. apply align_up_mod. exact H. Qed.
Print Assumptions T18_arena_aligned.

(** F23: Initialize(initialDOMHeapAllocSize, max, maxDOMSubAllocationSize) accepts maxSub > initial.  Then the very
    first allocate(2000) returns a 2000-byte region in a fresh 1024-byte block: it lies in NO owned block, and
    fFreeBytesRemaining has wrapped around to 2^64 - 984 (so every later request is "served" past the block too).
    The request sequence satisfies the environment obligations, only [cfg_ok] fails. *)
Definition f23_cfg : acfg := {| a_init := 1024; a_max := 4096; a_sub := 2048; a_hdr := 8; a_al := 8 |}.
Definition not_in_any_block (r : N * N) (hdr : N) (st : astate) : bool :=
  forallb (fun blk => negb (inside r blk hdr)) (delete_heap st).
Theorem T18_arena_cfg_refuted :
  let st := arun false f23_cfg (ainit f23_cfg) [AAlloc 2000 65536] in
  avalid false f23_cfg (ainit f23_cfg) [AAlloc 2000 65536] /\ cfg_base f23_cfg /\
  s_reqs st = [(65536, 1024)] /\ s_regions st = [(65544, 2000)] /\
  not_in_any_block (65544, 2000) 8 st = true /\ (s_fr st =? W - 984) = true.
Proof.
  split; [apply avalidb_sound; vm_compute; reflexivity|].
  split; [vm_compute; repeat split; try reflexivity; discriminate|].
  repeat split; vm_compute; reflexivity.
Qed.
Print Assumptions T18_arena_cfg_refuted.

(** with the DEFAULT parameters of /repo: setMemoryAllocationBlockSize(maxSub+1) then allocate(maxSub) overruns the
    fresh block of maxSub+1 bytes (finding C18-ARENA-SETBLOCK) *)
Theorem T18_arena_setblock_refuted :
  let ops := [ASetBlock (kMaxSubAllocationSize + 1); AAlloc kMaxSubAllocationSize 65536] in
  let st := arun false repo_cfg (ainit repo_cfg) ops in
  match s_regions st with
  | r :: _ => s_reqs st = [(65536, kMaxSubAllocationSize + 1)] /\ not_in_any_block r (a_hdr repo_cfg) st = true
  | [] => False
  end.
Proof. vm_compute. split; reflexivity. Qed.
Print Assumptions T18_arena_setblock_refuted.

(** the repaired allocate serves both witnesses from blocks that are large enough *)
Example arena_fixed_witnesses :
  s_reqs (arun true f23_cfg (ainit f23_cfg) [AAlloc 2000 65536]) = [(65536, 2008)] /\
  s_reqs (arun true repo_cfg (ainit repo_cfg) [ASetBlock 257; AAlloc 256 65536]) = [(65536, 264)].
Proof. vm_compute. split; reflexivity. Qed.

(** non-vacuity of T18_arena: a request sequence on the default configuration with sub-allocations, a singleton
    block, a block change and a legal setMemoryAllocationBlockSize satisfies [avalid] *)
Example arena_valid_run :
  avalid false repo_cfg (ainit repo_cfg)
    [AAlloc 24 1048576; AAlloc 300 2097152; AAlloc 256 0; AAlloc 16000 3145728; AAlloc 100 4194304; ASetBlock 4096; AAlloc 8 0].
Proof. apply avalidb_sound. vm_compute. reflexivity. Qed.

(** [rd] says whether Terminate restores the built-in DOM heap parameters ([Some d]) or not ([None]); the statements
    below hold for both.  For EVERY sequence of Initialize(args)/Terminate calls from the pristine state:
    resources are live iff gInitFlag > 0;  gInitFlag is the saturating count of the calls;  whenever the count is
    back to 0 the manager is gone, the adopted flag is reset and nothing is live;  the only manager ever deleted is
    the library's own default manager (a user-supplied one never);  own managers created = own managers deleted
    (+1 while one is installed). *)
Theorem T18_initterm : forall rd cap d ops, 0 < cap ->
  let st := irun rd cap (pristine d) ops in
  (i_live st = true <-> 0 < i_cnt st) /\
  i_cnt st = fold_left (count_after cap) ops 0 /\
  (i_cnt st = 0 -> i_mgr st = GmNone /\ i_adopted st = true /\ i_live st = false) /\
  (forall who, In (EDeleteMgr who) (i_log st) -> who = GmOwn) /\
  news (i_log st) = (dels (i_log st) + (match i_mgr st with GmOwn => 1 | _ => 0 end))%nat.
Proof. intros rd cap d ops _. apply initterm_main. Qed.
Print Assumptions T18_initterm.

(** an extra Terminate is a no-op *)
Theorem T18_initterm_extra_terminate : forall rd cap st, i_cnt st = 0 -> istep rd cap st Term = st.
Proof. intros rd cap st H. cbn [istep]. rewrite H. reflexivity. Qed.
Print Assumptions T18_initterm_extra_terminate.

(** code WITHOUT the reset: after the last matching Terminate the state equals the pristine state (up to the event
    log) only if no Initialize carried DOM heap arguments ... *)
Theorem T18_initterm_pristine : forall cap d ops, 0 < cap -> Forall no_dom_args ops ->
  let st := irun None cap (pristine d) ops in
  i_cnt st = 0 -> st = {| i_cnt := 0; i_mgr := GmNone; i_adopted := true; i_live := false; i_dom := d; i_log := i_log st |}.
Proof. intros cap d ops _ F. exact (pristine_again None cap d ops (or_intror (conj eq_refl F))). Qed.
Print Assumptions T18_initterm_pristine.

(** ... because Terminate does not restore them (finding C18-DOMHEAP-STICKY) *)
Theorem T18_initterm_domheap_sticky_refuted :
  let d := (kInitialHeapAllocSize, kMaxHeapAllocSize, kMaxSubAllocationSize) in
  exists ops, i_cnt (irun None long_max (pristine d) ops) = 0 /\ i_dom (irun None long_max (pristine d) ops) <> d.
Proof.
  intros d. exists [Init None (Some (kInitialHeapAllocSize + 1, kMaxHeapAllocSize, kMaxSubAllocationSize)); Term].
  split; [reflexivity|]. vm_compute. intros E. discriminate E.
Qed.
Print Assumptions T18_initterm_domheap_sticky_refuted.

(** code WITH the reset (fixes/C18-domheap-reset-on-terminate.patch): pristine again after the last Terminate for EVERY
    sequence, whatever arguments the Initialize calls carried *)
Theorem T18_initterm_pristine_fixed : forall cap d ops, 0 < cap ->
  let st := irun (Some d) cap (pristine d) ops in
  i_cnt st = 0 -> st = {| i_cnt := 0; i_mgr := GmNone; i_adopted := true; i_live := false; i_dom := d; i_log := i_log st |}.
Proof. intros cap d ops _. exact (pristine_again (Some d) cap d ops (or_introl eq_refl)). Qed.
Print Assumptions T18_initterm_pristine_fixed.

Example initterm_run :
  let st := irun None long_max (pristine (1, 2, 3)) [Init (Some 7) None; Init None None; Term; Term; Term; Init None None; Term] in
  (i_cnt st, i_mgr st, i_live st, i_log st) = (0, GmNone, false, [ECreate; EDestroy; ENewOwnMgr; ECreate; EDestroy; EDeleteMgr GmOwn]).
Proof. reflexivity. Qed.

(** message-loader strings (XMLMsgLoader::fLocale / fPath, set from the locale / nlsHome arguments of Initialize) and the
    panic handler, for EVERY sequence of Initialize/Terminate: none is left after the last matching Terminate, each string is
    owned by the current global manager and is never released through another one *)
Theorem T18_initterm_msgloader : forall rd cap d ops, 0 < cap ->
  let st := mrun rd cap (mpristine d) ops in
  (i_cnt (m_i st) = 0 -> m_loc st = None /\ m_nls st = None /\ m_ph st = None) /\
  (forall g, m_loc st = Some g \/ m_nls st = Some g -> g = i_mgr (m_i st)) /\
  (forall o v, In (EStrFree o v) (m_slog st) -> o = v) /\
  sallocs (m_slog st) = (sfrees (m_slog st) + b2n (m_loc st) + b2n (m_nls st))%nat /\
  m_i st = irun rd cap (pristine d) (map to_iop ops).
Proof. intros rd cap d ops _. apply msgloader_main. Qed.
Print Assumptions T18_initterm_msgloader.

Example msgloader_run :
  let st := mrun None long_max (mpristine (1, 2, 3))
              [MInit (Some 4) None true true false; MInit (Some 5) None true false true; MTerm; MTerm; MInit (Some 5) None false true true; MTerm] in
  (m_loc st, m_nls st, m_slog st) =
  (None, None, [EStrAlloc (GmUser 4); EStrAlloc (GmUser 4); EStrFree (GmUser 4) (GmUser 4); EStrFree (GmUser 4) (GmUser 4);
                EStrAlloc (GmUser 5); EStrFree (GmUser 5) (GmUser 5)]).
Proof. reflexivity. Qed.

(** For EVERY sequence of parses (caching on/off, ending before the DOCTYPE or reaching the re-keying of the DTD grammar from
    "[dtd]" to the system id through orphanGrammar/putGrammar), pool lock/unlock between parses and resolver resets:
    no grammar is owned by both the pool and the resolver's bucket, none is dropped, and the destructors of resolver and pool
    delete every grammar exactly once.  For the code as it is ([bf = false]) the statement holds when no caching parse ends
    before the DOCTYPE ([gop_ok]); with the bucket asked first ([bf = true]) [gop_ok] only asks that no system id is "[dtd]",
    and the lemma behind the theorem (Proofs18h.grammar_single_owner) does without even that. *)
Theorem T18_grammar_single_owner : forall bf ops, Forall (gop_ok bf) ops ->
  let st := grun bf ginit ops in
  NoDup (map snd (g_pool st) ++ map snd (g_bucket st)) /\ g_orphaned st = [] /\ NoDup (final_deletes st).
Proof. intros bf ops F. exact (grammar_single_owner bf ops (or_intror F)). Qed.
Print Assumptions T18_grammar_single_owner.

(** finding C18-DG-GRAMMAR-DOUBLE-OWNED on the model of the code as it is: a caching parse that ends before the DOCTYPE, then a parse
    of a document with an external subset: the second grammar (id 2) ends up in BOTH owners, the first (id 1) is dropped, and the
    destructors delete grammar 2 twice *)
Theorem T18_grammar_double_owner_refuted :
  let st := grun false ginit [GParse true true 7; GParse true false 7] in
  g_pool st = [(7, 2)] /\ g_bucket st = [(0, 2)] /\ g_orphaned st = [1] /\ final_deletes st = [2; 2].
Proof. vm_compute. repeat split; reflexivity. Qed.
Print Assumptions T18_grammar_double_owner_refuted.

(** the same history with the repaired order: single owner, nothing dropped *)
Example grammar_repaired_history :
  let st := grun true ginit [GParse true true 7; GParse true false 7; GLock; GParse true false 8; GUnlock; GParse false false 9] in
  (g_pool st, g_bucket st, g_orphaned st, g_deleted st) = ([(7, 2); (0, 1)], [(0, 4)], [], [3]).
Proof. reflexivity. Qed.

(** the variant /repo has (the translator reads which owner GrammarResolver::orphanGrammar asks first) *)
Theorem T18_grammar_as_built : forall ops, Forall (gop_ok orphan_bucket_first) ops ->
  let st := grun orphan_bucket_first ginit ops in
  NoDup (map snd (g_pool st) ++ map snd (g_bucket st)) /\ g_orphaned st = [] /\ NoDup (final_deletes st).
Proof. intros ops F. exact (grammar_single_owner _ ops (or_intror F)). Qed.
Print Assumptions T18_grammar_as_built.

(** every initializeX() of XMLInitializer::initializeStaticData has its terminateX() in terminateStaticData, in
    exactly the reverse order *)
Theorem T18_init_pairing : static_terms = rev static_inits.
Proof. vm_compute. reflexivity. Qed.
Print Assumptions T18_init_pairing.

(** every global created with new/makeXxx() in XMLPlatformUtils::Initialize is deleted and reset to 0 in Terminate *)
Theorem T18_init_globals_released :
  forallb (fun g => existsb (String.eqb g) globals_deleted && existsb (String.eqb g) globals_zeroed) globals_created = true.
Proof. vm_compute. reflexivity. Qed.
Print Assumptions T18_init_globals_released.

(** every XMLMsgLoader::setX(argument) of Initialize (a string replicated with the global manager) has its
    XMLMsgLoader::setX(0) in Terminate *)
Theorem T18_init_msgloader_released :
  forallb (fun f => existsb (String.eqb f) msgloader_reset) msgloader_set = true.
Proof. vm_compute. reflexivity. Qed.
Print Assumptions T18_init_msgloader_released.

(** the guarded constructor of Model18J.v (`CleanupType cleanup(this, &T::cleanUp); ... cleanup.release();`): for EVERY
    body, EVERY choice of the statement that throws (and for no throw), a constructor that satisfies [ctor_ok] leaves a trace
    the monitor accepts over the whole life of the object *)
Theorem T18_janitor_paths : forall m base c k, ctor_ok c = true -> ledger_check (jlife m base c k) = V_Ok.
Proof. exact janitor_paths. Qed.
Print Assumptions T18_janitor_paths.

(** non-vacuity, and the three ways to break the obligation each produce a trace the monitor rejects *)
Example janitor_ok_example :
  ctor_ok {| c_init := [7]; c_body := body_of [0; 1; 2] false; c_cleanup := [2; 1; 0; 7; 9]; c_dtor := [0; 1; 2; 7] |} = true.
Proof. reflexivity. Qed.
Theorem T18_janitor_missing_member_refuted : exists k,      (* cleanUp forgets member 1: a throw after its allocation leaks it *)
  ledger_check (jlife 1 100 {| c_init := []; c_body := body_of [0; 1] false; c_cleanup := [0]; c_dtor := [0; 1] |} (Some k))
  = V_Outstanding [(101, 1, 1)].
Proof. exists 4%nat. vm_compute. reflexivity. Qed.
Theorem T18_janitor_early_release_refuted : exists k,       (* work after cleanup.release(): a throw there leaks everything *)
  ledger_check (jlife 1 100 {| c_init := []; c_body := body_of [0] true; c_cleanup := [0]; c_dtor := [0] |} (Some k))
  = V_Outstanding [(100, 1, 1)].
Proof. exists 3%nat. vm_compute. reflexivity. Qed.
Theorem T18_janitor_no_release_refuted :                   (* release() never called: the guard fires on the normal exit, then the destructor *)
  ledger_check (jlife 1 100 {| c_init := []; c_body := [JAlloc 0; JCall]; c_cleanup := [0]; c_dtor := [0] |} None) = V_DoubleFree 2.
Proof. reflexivity. Qed.

(** generated per-constructor obligations: every function of /repo that arms `CleanupType cleanup(this, &C::fn)`, with the
    members it (and what it calls, two calls deep, and its initialiser list) assigns from new / allocate / replicate and keeps,
    the members C::fn and ~C release, and the place of `cleanup.release()`, satisfies [ctor_ok] ... *)
Theorem T18_ctor_guard_obligations : forallb (fun x => ctor_ok (snd x)) guard_sites = true.
Proof. vm_compute. reflexivity. Qed.
Print Assumptions T18_ctor_guard_obligations.
(** ... hence every modelled exit of each of them is leak-free and free of double releases *)
Theorem T18_ctor_guard_as_built : forall nm c, In (nm, c) guard_sites ->
  forall m base k, ledger_check (jlife m base c k) = V_Ok.
Proof.
  intros nm c I m base k. apply janitor_paths.
  pose proof T18_ctor_guard_obligations as H. rewrite forallb_forall in H. exact (H (nm, c) I).
Qed.
Print Assumptions T18_ctor_guard_as_built.
Example guard_sites_nonempty : Nat.leb 20 (List.length guard_sites) = true.
Proof. vm_compute. reflexivity. Qed.
(** Janitor.c still has the statements the models follow (destructor = reset(); release() forgets the block; reset() releases it) *)
Theorem T18_janitor_shapes : forallb snd janitor_shapes = true.
Proof. vm_compute. reflexivity. Qed.

(** a temporary under Janitor<T> / ArrayJanitor<T>: for EVERY sequence of possibly throwing calls, reset(new block) and
    release() (hand-over to a later owner) and every throw choice, the trace is accepted by the monitor (unconditional) *)
Theorem T18_janitor_local : forall m base ops k, ledger_check (ljlife m base ops k) = V_Ok.
Proof. exact janitor_local. Qed.
Print Assumptions T18_janitor_local.

(** RefVectorOf, for EVERY history of its operations (bad indices included) followed by the destructor, when the client hands
    in distinct objects: an adopting vector deletes each object it holds exactly once and never one it handed back; one that
    does not adopt deletes nothing *)
Theorem T18_vector_adopt : forall adopt maxElems ops, NoDup (vadded ops) ->
  let st := vdestroy adopt (vrun adopt (vinit maxElems) ops) in
  v_el st = [] /\ NoDup (v_del st ++ v_out st) /\ Permutation (v_del st ++ v_out st) (vadded ops).
Proof. exact vector_accounting. Qed.
Print Assumptions T18_vector_adopt.
Theorem T18_vector_no_adopt : forall maxElems ops, v_del (vdestroy false (vrun false (vinit maxElems) ops)) = [].
Proof. exact vector_no_adopt. Qed.
Print Assumptions T18_vector_no_adopt.
Example vector_run :
  let st := vdestroy true (vrun true (vinit 2) [VAdd 1; VAdd 2; VAdd 3; VSet 4 1; VOrphan 0; VInsert 5 9; VRemoveLast; VAdd 6]) in
  (v_del st, v_out st, v_blk st) = ([2; 3; 4; 6], [1; 5], [2; 3]).
Proof. reflexivity. Qed.
