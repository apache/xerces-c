(** C18 -- DOM arena (DOMDocumentImpl::allocate): regions inside owned blocks, pairwise disjoint; deleteHeap frees
    exactly the blocks that were requested.  [fx = false] is the code as it is (needs the configuration hypothesis),
    [fx = true] the repaired allocate (no hypothesis on the configuration). *)
From Coq Require Import NArith List Bool Lia Permutation.
From Coq Require Import ZifyN.
From XV Require Import C18.Spec18 C18.Model18X C18.Model18A.
Import ListNotations.
Local Open Scope N_scope.

Definition rdisj (r q : N * N) : Prop := snd r = 0 \/ snd q = 0 \/ fst r + snd r <= fst q \/ fst q + snd q <= fst r.
Definition bdisj (a b : N * N) : Prop := fst a + snd a <= fst b \/ fst b + snd b <= fst a.
Definition within (hdr : N) (r blk : N * N) : Prop := fst blk + hdr <= fst r /\ fst r + snd r <= fst blk + snd blk.
Fixpoint pdisj (l : list (N * N)) : Prop :=
  match l with [] => True | r :: t => Forall (rdisj r) t /\ pdisj t end.

Definition BIG : N := 4611686018427387904.   (* 2^62 *)

(** configuration hypothesis for the unrepaired code *)
Definition cfg_ok (c : acfg) : Prop := a_sub c + a_hdr c <= a_init c /\ a_max c <= 2 * BIG.
(** what both variants need: sizes are size_t values, a sane header/alignment *)
Definition cfg_base (c : acfg) : Prop :=
  0 < a_al c /\ a_al c <= BIG /\ 0 < a_hdr c /\ a_hdr c <= BIG /\ a_sub c <= BIG /\ a_init c < W.

(** the size the next allocate(amount0) requests from the manager, if any *)
Definition next_request (fx : bool) (c : acfg) (st : astate) (amount0 : N) : option N :=
  let amount := align_up (a_al c) amount0 in
  if a_sub c <? amount then Some ((a_hdr c + amount) mod W)
  else if s_fr st <? amount then
    Some (if fx && (s_heap st <? a_hdr c + amount) then a_hdr c + amount else s_heap st)
  else None.

(** obligations of the environment: the client asks for less than 2^62 bytes, the manager returns a block that does
    not overlap a block the document owns; setMemoryAllocationBlockSize stays out of (maxSub, maxSub+header) *)
Definition aop_ok (fx : bool) (c : acfg) (st : astate) (op : aop) : Prop :=
  match op with
  | AAlloc amount0 base =>
      amount0 <= BIG /\
      forall sz, next_request fx c st amount0 = Some sz -> forall blk, In blk (delete_heap st) -> bdisj (base, sz) blk
  | ASetBlock size => size < W /\ (fx = true \/ size <= a_sub c \/ a_sub c + a_hdr c <= size)
  end.

Fixpoint avalid (fx : bool) (c : acfg) (st : astate) (ops : list aop) : Prop :=
  match ops with
  | [] => True
  | op :: r => aop_ok fx c st op /\ avalid fx c (astep fx c st op) r
  end.

Lemma W_val : W = 4 * BIG.
Proof. reflexivity. Qed.

Lemma wsub_ok : forall a b, b <= a -> a < W -> wsub a b = a - b.
Proof.
  intros a b H1 H2. unfold wsub. assert (WP : W <> 0) by discriminate.
  rewrite (N.mod_small b W) by lia.
  replace (a + W - b) with ((a - b) + 1 * W) by lia.
  rewrite N.mod_add by exact WP. apply N.mod_small. lia.
Qed.

Lemma no_wrap : forall h n, h <= BIG -> n <= 2 * BIG -> (h + n) mod W = h + n.
Proof. intros h n Hh Hn. apply N.mod_small. rewrite W_val. assert (0 < BIG) by reflexivity. lia. Qed.

Lemma align_up_le : forall a x, 0 < a -> align_up a x <= x + a.
Proof.
  intros a x Ha. unfold align_up. destruct (N.eqb_spec (x mod a) 0); lia.
Qed.

Lemma in_link_single : forall b l x, In x (link_single b l) <-> x = b \/ In x l.
Proof.
  intros b l x. destruct l as [|h t]; cbn [link_single In].
  - split; intros [H|H]; auto.
  - split; [intros [H|[H|H]]|intros [H|[H|H]]]; auto.
Qed.

(** deleteHeap returns what was requested: a step that asks the manager for a block links it into one of the two chains.
    This needs nothing of the configuration or of the requests. *)
Lemma reqs_step : forall fx c st op, Permutation (s_reqs st) (delete_heap st) ->
  Permutation (s_reqs (astep fx c st op)) (delete_heap (astep fx c st op)).
Proof.
  intros fx c st op HP. unfold delete_heap in *. destruct op as [amount0 base|size]; unfold astep.
  - destruct (a_sub c <? align_up (a_al c) amount0); [|destruct (s_fr st <? align_up (a_al c) amount0)];
      cbn [s_reqs s_curs s_singles app].
    + rewrite <- Permutation_cons_append, HP, Permutation_middle. apply Permutation_app_head.
      destruct (s_singles st) as [|h t]; cbn [link_single]; [apply Permutation_refl|apply perm_swap].
    + rewrite <- Permutation_cons_append, HP. apply Permutation_refl.
    + exact HP.
  - destruct (a_sub c <? size); exact HP.
Qed.

Lemma reqs_run : forall fx c ops st, Permutation (s_reqs st) (delete_heap st) ->
  Permutation (s_reqs (arun fx c st ops)) (delete_heap (arun fx c st ops)).
Proof.
  intros fx c ops. induction ops as [|op r IH]; intros st HP; [exact HP|]. apply IH, reqs_step, HP.
Qed.

Lemma within_fresh : forall h b n sz, h + n <= sz -> within h (b + h, n) (b, sz).
Proof. intros h b n sz H. unfold within. cbn [fst snd]. lia. Qed.

Lemma within_bdisj_rdisj : forall h r blk q blk', within h r blk -> within h q blk' -> bdisj blk blk' -> rdisj r q.
Proof. intros h [r1 r2] [b1 b2] [q1 q2] [c1 c2] [A B] [C D] E. unfold rdisj, bdisj in *. cbn in *. lia. Qed.

(** a region inside one block lies outside a window [fp, fp + fr) that sits inside a disjoint block *)
Lemma outside_window : forall h r blk cur fp fr, within h r blk -> bdisj blk cur ->
  fst cur <= fp -> fp + fr = fst cur + snd cur -> fst r + snd r <= fp \/ fp + fr <= fst r.
Proof. intros h [r1 r2] [b1 b2] [c1 c2] fp fr [A B] D C1 C2. unfold bdisj in D. cbn [fst snd] in *. lia. Qed.

(** a region in a block that is disjoint from every owned block is disjoint from every region handed out so far *)
Lemma fresh_block_disj : forall h r blk regs heap, within h r blk -> (forall b, In b heap -> bdisj blk b) ->
  (forall q, In q regs -> snd q = 0 \/ exists b, In b heap /\ within h q b) -> Forall (rdisj r) regs.
Proof.
  intros h r blk regs heap WI FR INS. apply Forall_forall. intros q Iq.
  destruct (INS q Iq) as [Z|[b [IB WQ]]]; [right; left; exact Z|]. exact (within_bdisj_rdisj h r blk q b WI WQ (FR b IB)).
Qed.

Lemma bdisj_sym : forall a b, bdisj a b -> bdisj b a.
Proof. intros a b [H|H]; [right|left]; exact H. Qed.

(** The invariant of the arena.  [ai_cur]: the free window [s_fp, s_fp + s_fr) is the tail of the current block, behind its
    header (no current block: empty window).  [ai_reg]: a non-empty region handed out lies inside an owned block AND outside
    the free window; the second half is what makes a bump allocation, which is carved off the front of the window, disjoint from
    every earlier region.  [ai_heap]: the next block size is a size_t value and, in the code as it is, large enough for the
    largest sub-allocation plus header. *)
Record AInv (fx : bool) (c : acfg) (st : astate) : Prop := {
  ai_heap : s_heap st < W /\ (fx = true \/ a_sub c + a_hdr c <= s_heap st);
  ai_cur : match s_curs st with
           | [] => s_fr st = 0 /\ s_fp st = 0
           | blk :: _ => fst blk + a_hdr c <= s_fp st /\ s_fp st + s_fr st = fst blk + snd blk
           end;
  ai_reg : forall r, In r (s_regions st) -> snd r = 0 \/
             ((exists blk, In blk (delete_heap st) /\ within (a_hdr c) r blk) /\
              (fst r + snd r <= s_fp st \/ s_fp st + s_fr st <= fst r));
  ai_disj : pdisj (s_regions st)
}.

Lemma ainv_inside : forall fx c st, AInv fx c st ->
  forall r, In r (s_regions st) -> snd r = 0 \/ exists blk, In blk (delete_heap st) /\ within (a_hdr c) r blk.
Proof. intros fx c st H r Hr. destruct (ai_reg _ _ _ H r Hr) as [Z|[EX _]]; [left; exact Z|right; exact EX]. Qed.

Lemma ainv_init : forall fx c, cfg_base c -> cfg_ok c \/ fx = true -> AInv fx c (ainit c).
Proof.
  intros fx c [_ [_ [_ [_ [_ IW]]]]] H. constructor; cbn.
  - split; [exact IW|]. destruct H as [[A B]|H]; [right; lia|left; exact H].
  - split; reflexivity.
  - intros r [].
  - exact I.
Qed.

(** allocate(amount0), by the branch DOMDocumentImpl::allocate takes *)
Section Allocate.
  Variables (fx : bool) (c : acfg) (st : astate) (amount0 base : N).
  Hypotheses (Hal : 0 < a_al c) (Hal2 : a_al c <= BIG) (Hh2 : a_hdr c <= BIG) (HM : fx = true \/ a_max c <= 2 * BIG).
  Hypothesis (HI : AInv fx c st) (AB : amount0 <= BIG).
  Hypothesis FRESH : forall sz, next_request fx c st amount0 = Some sz ->
    forall blk, In blk (delete_heap st) -> bdisj (base, sz) blk.
  Let amount := align_up (a_al c) amount0.

  Lemma amount_le : amount <= amount0 + a_al c.
  Proof. apply align_up_le. exact Hal. Qed.

  (** a request above the sub-allocation limit gets a block of its own; the cursor and its window stay where they are *)
  Lemma ainv_singleton : a_sub c < amount -> AInv fx c (astep fx c st (AAlloc amount0 base)).
  Proof.
    intros BIGREQ. pose proof amount_le as A1. pose proof W_val as EW. destruct HI as [[HW HH] HC HR HD].
    unfold astep. unfold next_request in FRESH. fold amount in FRESH |- *.
    destruct (N.ltb_spec (a_sub c) amount) as [_|X]; [|lia].
    rewrite (no_wrap (a_hdr c) amount) in * by lia. specialize (FRESH _ eq_refl).
    pose proof (within_fresh (a_hdr c) base amount _ (N.le_refl _)) as NEWIN.
    constructor; cbn [s_curs s_singles s_fp s_fr s_heap s_regions].
    - split; assumption.
    - exact HC.
    - intros r [E|Hr].
      + subst r. right. split.
        * exists (base, a_hdr c + amount). split; [|exact NEWIN].
          unfold delete_heap. cbn [s_curs s_singles]. apply in_or_app. right. apply in_link_single. left. reflexivity.
        * destruct (s_curs st) as [|blk t] eqn:CU; destruct HC as [C1 C2].
          -- right. cbn [fst]. lia.
          -- apply (outside_window _ _ _ blk _ _ NEWIN); [|lia|exact C2].
             apply FRESH. unfold delete_heap. rewrite CU. left. reflexivity.
      + destruct (HR r Hr) as [Z|[[blk [IB WI]] FA]]; [left; exact Z|right]. split; [|exact FA].
        exists blk. split; [|exact WI]. unfold delete_heap in *. cbn [s_curs s_singles].
        apply in_app_or in IB. apply in_or_app. destruct IB as [IB|IB]; [left; exact IB|right; apply in_link_single; right; exact IB].
    - split; [|exact HD]. exact (fresh_block_disj _ _ _ _ _ NEWIN FRESH (ainv_inside _ _ _ HI)).
  Qed.

  (** the window is too small: a fresh sub-allocation block, and the window moves into it *)
  Lemma ainv_fresh_block : amount <= a_sub c -> s_fr st < amount -> AInv fx c (astep fx c st (AAlloc amount0 base)).
  Proof.
    intros SMALL SHORT. pose proof amount_le as A1. pose proof W_val as EW. assert (GB : 0 < BIG) by reflexivity.
    destruct HI as [[HW HH] HC HR HD].
    unfold astep. unfold next_request in FRESH. fold amount in FRESH |- *.
    destruct (N.ltb_spec (a_sub c) amount) as [X|_]; [lia|]. destruct (N.ltb_spec (s_fr st) amount) as [_|X]; [|lia].
    set (bsz := if fx && (s_heap st <? a_hdr c + amount) then a_hdr c + amount else s_heap st) in *.
    specialize (FRESH _ eq_refl).
    assert (BS : a_hdr c + amount <= bsz /\ bsz < W).
    { unfold bsz. destruct fx; cbn [andb].
      - destruct (N.ltb_spec (s_heap st) (a_hdr c + amount)); lia.
      - destruct HH as [F|H1]; [discriminate|]. lia. }
    destruct BS as [BS1 BS2].
    rewrite (wsub_ok bsz (a_hdr c)), (wsub_ok (bsz - a_hdr c) amount) by lia.
    pose proof (within_fresh (a_hdr c) base amount bsz BS1) as NEWIN.
    constructor; cbn [s_curs s_singles s_fp s_fr s_heap s_regions].
    - destruct (N.ltb_spec (s_heap st) (a_max c)) as [LT|GE]; [|split; assumption].
      split; [apply N.mod_lt; lia|].
      destruct HH as [F|H1]; [left; exact F|]. destruct HM as [F|HM']; [left; exact F|right].
      rewrite N.mod_small; lia.
    - cbn [fst snd]. lia.
    - intros r [E|Hr].
      + subst r. right. split; [|left; cbn [fst snd]; lia].
        exists (base, bsz). split; [left; reflexivity|exact NEWIN].
      + destruct (HR r Hr) as [Z|[[blk [IB WI]] _]]; [left; exact Z|right]. split.
        * exists blk. split; [right; exact IB|exact WI].
        * apply (outside_window _ _ _ (base, bsz) _ _ WI (bdisj_sym _ _ (FRESH blk IB))); cbn [fst snd]; lia.
    - split; [|exact HD]. exact (fresh_block_disj _ _ _ _ _ NEWIN FRESH (ainv_inside _ _ _ HI)).
  Qed.

  (** the request fits: it is carved off the front of the window, which every earlier region lies outside of *)
  Lemma ainv_bump : amount <= a_sub c -> amount <= s_fr st -> AInv fx c (astep fx c st (AAlloc amount0 base)).
  Proof.
    intros SMALL FITS. destruct HI as [[HW HH] HC HR HD]. unfold astep. fold amount.
    destruct (N.ltb_spec (a_sub c) amount) as [X|_]; [lia|]. destruct (N.ltb_spec (s_fr st) amount) as [X|_]; [lia|].
    constructor; cbn [s_curs s_singles s_fp s_fr s_heap s_regions].
    - split; assumption.
    - destruct (s_curs st) as [|blk t]; lia.
    - intros r [E|Hr].
      + subst r. cbn [fst snd]. destruct (N.eq_dec amount 0) as [Z|NZ]; [left; exact Z|right].
        destruct (s_curs st) as [|blk t] eqn:CU; [lia|]. destruct HC as [C1 C2]. split; [|left; lia].
        exists blk. split; [unfold delete_heap; cbn [s_curs]; left; reflexivity|]. unfold within. cbn [fst snd]. lia.
      + destruct (HR r Hr) as [Z|[EX FA]]; [left; exact Z|right]. split; [exact EX|]. lia.
    - split; [|exact HD]. apply Forall_forall. intros q Iq. unfold rdisj. cbn [fst snd].
      destruct (HR q Iq) as [Z|[_ FA]]; [right; left; exact Z|]. lia.
  Qed.
End Allocate.

Lemma ainv_step : forall fx c st op, cfg_base c -> (fx = true \/ a_max c <= 2 * BIG) ->
  AInv fx c st -> aop_ok fx c st op -> AInv fx c (astep fx c st op).
Proof.
  intros fx c st op [Hal [Hal2 [_ [Hh2 _]]]] HM HI OK. destruct op as [amount0 base|size].
  - destruct OK as [AB FRESH].
    destruct (N.lt_ge_cases (a_sub c) (align_up (a_al c) amount0)) as [BIGREQ|SMALL].
    + apply ainv_singleton; assumption.
    + destruct (N.lt_ge_cases (s_fr st) (align_up (a_al c) amount0)) as [SHORT|FITS].
      * apply ainv_fresh_block; assumption.
      * apply ainv_bump; assumption.
  - destruct HI as [[HW HH] HC HR HD]. destruct OK as [SW SOK]. unfold astep.
    destruct (N.ltb_spec (a_sub c) size) as [GT|LE].
    + constructor; cbn [s_curs s_singles s_fp s_fr s_heap s_regions]; try assumption.
      split; [exact SW|]. destruct SOK as [F|[L|G]]; [left; exact F|lia|right; exact G].
    + constructor; try assumption. split; assumption.
Qed.

Lemma ainv_run : forall fx c ops st, cfg_base c -> (fx = true \/ a_max c <= 2 * BIG) ->
  AInv fx c st -> avalid fx c st ops -> AInv fx c (arun fx c st ops).
Proof.
  intros fx c ops. induction ops as [|op r IH]; intros st B M I V; cbn [arun fold_left]; [exact I|].
  destruct V as [V1 V2]. apply IH; auto. apply ainv_step; auto.
Qed.

Lemma arena_main : forall fx c ops, cfg_base c -> cfg_ok c \/ fx = true -> avalid fx c (ainit c) ops ->
  let st := arun fx c (ainit c) ops in
  (forall r, In r (s_regions st) -> snd r = 0 \/ exists blk, In blk (delete_heap st) /\ within (a_hdr c) r blk) /\
  pdisj (s_regions st) /\
  Permutation (s_reqs st) (delete_heap st).
Proof.
  intros fx c ops B H V st.
  assert (M : fx = true \/ a_max c <= 2 * BIG) by (destruct H as [[_ H]|H]; [right; exact H|left; exact H]).
  pose proof (ainv_run fx c ops (ainit c) B M (ainv_init fx c B H) V) as HI. fold st in HI.
  split; [exact (ainv_inside _ _ _ HI)|]. split; [exact (ai_disj _ _ _ HI)|apply reqs_run, Permutation_refl].
Qed.

(** a computable check of the environment obligations, used for the non-vacuity examples *)
Definition bdisjb (a b : N * N) : bool := (fst a + snd a <=? fst b) || (fst b + snd b <=? fst a).
Definition aop_okb (fx : bool) (c : acfg) (st : astate) (op : aop) : bool :=
  match op with
  | AAlloc amount0 base =>
      (amount0 <=? BIG) &&
      match next_request fx c st amount0 with
      | None => true
      | Some sz => forallb (bdisjb (base, sz)) (delete_heap st)
      end
  | ASetBlock size => (size <? W) && (fx || (size <=? a_sub c) || (a_sub c + a_hdr c <=? size))
  end.
Fixpoint avalidb (fx : bool) (c : acfg) (st : astate) (ops : list aop) : bool :=
  match ops with
  | [] => true
  | op :: r => aop_okb fx c st op && avalidb fx c (astep fx c st op) r
  end.

Lemma aop_okb_sound : forall fx c st op, aop_okb fx c st op = true -> aop_ok fx c st op.
Proof.
  intros fx c st op H. destruct op as [amount0 base|size]; cbn [aop_okb aop_ok] in *.
  - apply andb_true_iff in H. destruct H as [H1 H2]. split; [apply N.leb_le; exact H1|].
    intros sz E blk I. rewrite E in H2. rewrite forallb_forall in H2. specialize (H2 blk I).
    unfold bdisjb in H2. unfold bdisj. apply orb_true_iff in H2. destruct H2 as [H2|H2]; apply N.leb_le in H2; auto.
  - apply andb_true_iff in H. destruct H as [H1 H2]. split; [apply N.ltb_lt; exact H1|].
    apply orb_true_iff in H2. destruct H2 as [H2|H2].
    + apply orb_true_iff in H2. destruct H2 as [H2|H2]; [left; exact H2|right; left; apply N.leb_le; exact H2].
    + right. right. apply N.leb_le. exact H2.
Qed.

Lemma avalidb_sound : forall fx c ops st, avalidb fx c st ops = true -> avalid fx c st ops.
Proof.
  intros fx c ops. induction ops as [|op r IH]; intros st H; cbn [avalidb avalid] in *; [exact I|].
  apply andb_true_iff in H. destruct H as [H1 H2]. split; [apply aop_okb_sound; exact H1|apply IH; exact H2].
Qed.
