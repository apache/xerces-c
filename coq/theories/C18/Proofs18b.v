(** C18 -- XMemory header mechanism: every interleaving of new/delete over several managers keeps the
    ledger disciplined, each block returns to the manager stored in its header, live blocks are disjoint. *)
From Coq Require Import NArith List Bool FMapPositive Lia.
From XV Require Import C18.Spec18 C18.Model18 C18.Proofs18e C18.Model18X.
Import ListNotations.
Local Open Scope N_scope.

Lemma align_up_ge : forall a x, 0 < a -> x <= align_up a x.
Proof.
  intros a x Ha. unfold align_up. destruct (N.eqb_spec (x mod a) 0); [lia|].
  assert (x mod a < a) by (apply N.mod_lt; lia). lia.
Qed.

Lemma align_up_mod : forall a x, 0 < a -> (align_up a x) mod a = 0.
Proof.
  intros a x Ha. unfold align_up. destruct (N.eqb_spec (x mod a) 0) as [E|E]; [exact E|].
  assert (L : x mod a < a) by (apply N.mod_lt; lia).
  assert (D : x = a * (x / a) + x mod a) by (apply N.div_mod; lia).
  assert (R : x + a - x mod a = (x / a + 1) * a) by lia.
  rewrite R. apply N.mod_mul. lia.
Qed.

Definition lookup (b : N) (l : list xobj) : option (N * N) :=
  match find (fun o => o_base o =? b) l with Some o => Some (o_mgr o, o_tot o) | None => None end.

Record XInv (c : xcfg) (st : xstate) : Prop := {
  xi_exec : exists s, exec lempty (x_trace st) = Some s /\ forall b, view s b = lookup b (x_objs st);
  xi_obj : forall o, In o (x_objs st) ->
      o_p o = o_base o + header c /\ PositiveMap.find (key (o_base o)) (x_hdr st) = Some (o_mgr o) /\ header c <= o_tot o;
  xi_nodup : NoDup (map o_base (x_objs st));
  xi_disj : forall a b, In a (x_objs st) -> In b (x_objs st) -> o_base a <> o_base b ->
      overlaps (o_base a) (o_tot a) (o_base b) (o_tot b) = false
}.

Lemma overlaps_sym : forall a la b lb, overlaps a la b lb = overlaps b lb a la.
Proof. intros. unfold overlaps. apply andb_comm. Qed.

Lemma overlaps_same : forall a la lb, 0 < la -> 0 < lb -> overlaps a la a lb = true.
Proof.
  intros. unfold overlaps. destruct (N.ltb_spec a (a + lb)); [|lia]. destruct (N.ltb_spec a (a + la)); [reflexivity|lia].
Qed.

Lemma lookup_in : forall l o, NoDup (map o_base l) -> In o l -> find (fun x => o_base x =? o_base o) l = Some o.
Proof.
  induction l as [|x l IH]; intros o ND H; [destruct H|]. cbn [find]. cbn [map] in ND. inversion ND; subst.
  destruct H as [H|H].
  - subst. rewrite N.eqb_refl. reflexivity.
  - destruct (N.eqb_spec (o_base x) (o_base o)) as [E|E].
    + exfalso. apply H2. rewrite E. apply in_map. exact H.
    + apply IH; assumption.
Qed.

Lemma lookup_none : forall l b, (forall o, In o l -> o_base o <> b) -> lookup b l = None.
Proof.
  intros l b H. unfold lookup. destruct (find (fun o => o_base o =? b) l) as [o|] eqn:E; [|reflexivity].
  apply find_some in E. destruct E as [I E]. apply N.eqb_eq in E. exfalso. exact (H o I E).
Qed.

Lemma lookup_filter : forall l b0 b,
  lookup b (filter (fun o => negb (o_base o =? b0)) l) = if b =? b0 then None else lookup b l.
Proof.
  intros l b0 b. unfold lookup. induction l as [|x l IH]; cbn [filter find].
  - destruct (b =? b0); reflexivity.
  - destruct (N.eqb_spec (o_base x) b0) as [E|E]; cbn [negb].
    + rewrite IH. destruct (N.eqb_spec b b0) as [F|F]; [reflexivity|].
      destruct (N.eqb_spec (o_base x) b); [lia|reflexivity].
    + cbn [find]. destruct (N.eqb_spec (o_base x) b) as [F|F].
      * destruct (N.eqb_spec b b0); [lia|reflexivity].
      * exact IH.
Qed.

Lemma nodup_map_filter : forall (f : xobj -> bool) l, NoDup (map o_base l) -> NoDup (map o_base (filter f l)).
Proof.
  intros f l. induction l as [|x l IH]; intros ND; cbn [filter map]; [constructor|].
  cbn [map] in ND. inversion ND; subst. destruct (f x); cbn [map]; [|apply IH; assumption].
  constructor; [|apply IH; assumption]. intros H. apply H1. apply in_map_iff in H. destruct H as [y [E I]].
  apply filter_In in I. destruct I as [I _]. apply in_map_iff. exists y. auto.
Qed.

Lemma xinv_init : forall c g, XInv c (xinit g).
Proof.
  intros. constructor; cbn.
  - exists lempty. split; [reflexivity|]. intros b. rewrite view_empty. reflexivity.
  - intros o [].
  - constructor.
  - intros a b [].
Qed.

Lemma xinv_new : forall c st m size base st', 0 < header c -> XInv c st -> xnew c st m size base = Some st' -> XInv c st'.
Proof.
  intros c st m size base st' Hh [[s [Ex V]] Ob ND D] H. unfold xnew in H.
  destruct (existsb _ (x_objs st)) eqn:EX; [discriminate|]. inversion H; subst; clear H.
  assert (NO : forall o, In o (x_objs st) -> overlaps base (header c + size) (o_base o) (o_tot o) = false).
  { intros o I. destruct (overlaps base (header c + size) (o_base o) (o_tot o)) eqn:E; [|reflexivity].
    assert (X : existsb (fun o => overlaps base (header c + size) (o_base o) (o_tot o)) (x_objs st) = true)
      by (apply existsb_exists; exists o; auto). congruence. }
  assert (NB : forall o, In o (x_objs st) -> o_base o <> base).
  { intros o I E. specialize (NO o I). rewrite E in NO. destruct (Ob o I) as [_ [_ T]].
    rewrite overlaps_same in NO; [discriminate|lia|lia]. }
  constructor; cbn [x_trace x_objs x_hdr].
  - assert (VN : view s base = None) by (rewrite V; apply lookup_none; exact NB).
    exists (PositiveMap.add (key base) (m, header c + size) s). split.
    + apply (exec_snoc _ _ _ _ _ Ex), step_alloc. auto.
    + intros b. unfold lookup. cbn [find o_base]. destruct (N.eqb_spec base b) as [E|E].
      * subst. rewrite view_add_same. reflexivity.
      * rewrite view_add_other by exact E. rewrite V. reflexivity.
  - intros o [E|I].
    + subst o. cbn. split; [reflexivity|]. split; [apply PositiveMap.gss|lia].
    + destruct (Ob o I) as [A [B C]]. split; [exact A|]. split; [|exact C].
      rewrite PositiveMap.gso; [exact B|]. intros K. apply key_inj in K. exact (NB o I K).
  - cbn [map o_base]. constructor; [|exact ND]. intros I. apply in_map_iff in I. destruct I as [o [E I]]. exact (NB o I E).
  - intros a b [Ea|Ia] [Eb|Ib] Hne.
    + subst. contradiction.
    + subst a. cbn. apply NO. exact Ib.
    + subst b. cbn. rewrite overlaps_sym. apply NO. exact Ia.
    + apply D; assumption.
Qed.

Lemma xinv_delete : forall c st p st', XInv c st -> xdelete c st p = Some st' ->
  XInv c st' /\ exists o, In o (x_objs st) /\ o_p o = p /\ x_trace st' = x_trace st ++ [Free (o_mgr o) (o_base o)].
Proof.
  intros c st p st' [[s [Ex V]] Ob ND D] H. unfold xdelete in H.
  destruct (existsb (fun o => o_p o =? p) (x_objs st)) eqn:EX; [|discriminate].
  apply existsb_exists in EX. destruct EX as [o [I E]]. apply N.eqb_eq in E.
  destruct (Ob o I) as [P [HD T]].
  assert (B : p - header c = o_base o) by lia. rewrite B in H. rewrite HD in H. inversion H; subst st'; clear H.
  assert (FE : filter (fun x => negb (o_p x =? p)) (x_objs st) = filter (fun x => negb (o_base x =? o_base o)) (x_objs st)).
  { apply filter_ext_in. intros x Ix. destruct (Ob x Ix) as [Px _]. f_equal.
    destruct (N.eqb_spec (o_p x) p), (N.eqb_spec (o_base x) (o_base o)); try reflexivity; lia. }
  split; [|exists o; auto].
  constructor; cbn [x_trace x_objs x_hdr]; rewrite ?FE.
  - assert (VS : view s (o_base o) = Some (o_mgr o, o_tot o)).
    { rewrite V. unfold lookup. rewrite (lookup_in _ _ ND I). reflexivity. }
    exists (PositiveMap.remove (key (o_base o)) s). split.
    + apply (exec_snoc _ _ _ _ _ Ex), step_free. split; [exists (o_tot o); exact VS|reflexivity].
    + intros b. rewrite lookup_filter. destruct (N.eqb_spec b (o_base o)) as [F|F].
      * subst. apply view_rem_same.
      * rewrite view_rem_other by (intro; apply F; auto). apply V.
  - intros x Ix. apply filter_In in Ix. destruct Ix as [Ix _]. apply Ob. exact Ix.
  - apply nodup_map_filter. exact ND.
  - intros a b Ia Ib. apply filter_In in Ia. apply filter_In in Ib. apply D; tauto.
Qed.

Lemma xinv_step : forall c st op st', 0 < header c -> XInv c st -> xstep c st op = Some st' -> XInv c st'.
Proof.
  intros c st op st' Hh I H. destruct op; cbn [xstep] in H.
  - eapply xinv_new; eauto.
  - eapply xinv_new; eauto.
  - inversion H; subst. destruct I as [E Ob ND D]. constructor; assumption.
  - eapply xinv_delete; eauto.
  - eapply xinv_delete; eauto.
Qed.

Lemma xinv_run : forall c ops st st', 0 < header c -> XInv c st -> xrun c st ops = Some st' -> XInv c st'.
Proof.
  intros c ops. induction ops as [|op r IH]; intros st st' Hh I H; cbn [xrun] in H.
  - inversion H; subst. exact I.
  - destruct (xstep c st op) as [st1|] eqn:S; [|discriminate].
    exact (IH st1 st' Hh (xinv_step c st op st1 Hh I S) H).
Qed.

Lemma header_pos : forall c, 0 < ptr_size c -> 0 < alignment c -> ptr_size c <= header c /\ 0 < header c.
Proof. intros c P A. unfold header. pose proof (align_up_ge (alignment c) (ptr_size c) A). lia. Qed.

Lemma xmemory_main : forall c g ops st, 0 < ptr_size c -> 0 < alignment c -> xrun c (xinit g) ops = Some st ->
  (x_objs st = [] -> ledger_check (x_trace st) = V_Ok) /\
  (forall o, In o (x_objs st) -> PositiveMap.find (key (o_base o)) (x_hdr st) = Some (o_mgr o) /\
                                 o_p o = o_base o + header c /\ ptr_size c <= header c /\ o_p o <= o_base o + o_tot o) /\
  (forall a b, In a (x_objs st) -> In b (x_objs st) -> a <> b ->
               overlaps (o_base a) (o_tot a) (o_base b) (o_tot b) = false).
Proof.
  intros c g ops st P A H. destruct (header_pos c P A) as [HP H0].
  pose proof (xinv_run c ops (xinit g) st H0 (xinv_init c g) H) as [[s [Ex V]] Ob ND D].
  split; [|split].
  - intros E. apply run_ok. exists s. split; [exact Ex|].
    apply is_empty_view. intros b. rewrite V, E. reflexivity.
  - intros o I. destruct (Ob o I) as [X [Y Z]]. repeat split; auto. lia.
  - intros a b Ia Ib Hne. apply D; auto. intros E. apply Hne.
    pose proof (lookup_in _ _ ND Ia) as La. pose proof (lookup_in _ _ ND Ib) as Lb. rewrite E in La. congruence.
Qed.

(** each delete hands the block to the manager recorded at allocation time, whatever the global manager is *)
Lemma xdelete_owner : forall c g ops st p st', 0 < ptr_size c -> 0 < alignment c ->
  xrun c (xinit g) ops = Some st -> xdelete c st p = Some st' ->
  exists o, In o (x_objs st) /\ o_p o = p /\ x_trace st' = x_trace st ++ [Free (o_mgr o) (o_base o)] /\
            exists pre mid, x_trace st = pre ++ Alloc (o_mgr o) (o_base o) (o_tot o) :: mid /\ untouched (o_base o) mid.
Proof.
  intros c g ops st p st' P A H Hd. destruct (header_pos c P A) as [HP H0].
  pose proof (xinv_run c ops (xinit g) st H0 (xinv_init c g) H) as I.
  destruct (xinv_delete c st p st' I Hd) as [_ [o [Io [Ep Et]]]].
  exists o. repeat split; auto.
  destruct I as [[s [Ex V]] Ob ND D].
  assert (VS : view s (o_base o) = Some (o_mgr o, o_tot o)).
  { rewrite V. unfold lookup. rewrite (lookup_in _ _ ND Io). reflexivity. }
  exact (proj1 (view_outstanding _ _ _ _ _ Ex) VS).
Qed.
