(** C18 -- DOM arena: every region handed out is aligned (pointer and length), provided the manager returns aligned
    blocks and the header size is a multiple of the alignment (it is: header = align_up alignment (sizeof void* )). *)
From Coq Require Import NArith List Bool Lia.
From XV Require Import C18.Spec18 C18.Model18X C18.Model18A C18.Proofs18b.
Import ListNotations.
Local Open Scope N_scope.

Lemma mod0_add : forall a x y, a <> 0 -> x mod a = 0 -> y mod a = 0 -> (x + y) mod a = 0.
Proof. intros a x y Ha Hx Hy. rewrite N.add_mod by exact Ha. rewrite Hx, Hy. rewrite N.add_0_r. apply N.mod_0_l. exact Ha. Qed.

Definition bases_aligned (c : acfg) (ops : list aop) : Prop :=
  Forall (fun op => match op with AAlloc _ base => base mod a_al c = 0 | ASetBlock _ => True end) ops.

Record AlInv (c : acfg) (st : astate) : Prop := {
  al_fp : s_fp st mod a_al c = 0;
  al_reg : forall r, In r (s_regions st) -> fst r mod a_al c = 0 /\ snd r mod a_al c = 0
}.

Lemma alinv_step : forall fx c st op, 0 < a_al c -> a_hdr c mod a_al c = 0 ->
  (match op with AAlloc _ base => base mod a_al c = 0 | ASetBlock _ => True end) ->
  AlInv c st -> AlInv c (astep fx c st op).
Proof.
  intros fx c st op Ha Hh Hb [FP RG]. assert (NZ : a_al c <> 0) by lia.
  destruct op as [amount0 base|size]; unfold astep.
  - set (amount := align_up (a_al c) amount0).
    assert (AM : amount mod a_al c = 0) by (apply align_up_mod; exact Ha).
    assert (BH : (base + a_hdr c) mod a_al c = 0) by (apply mod0_add; assumption).
    destruct (a_sub c <? amount).
    + constructor; cbn [s_fp s_regions]; [exact FP|].
      intros r [E|I]; [subst r; cbn [fst snd]; auto|apply RG; exact I].
    + destruct (s_fr st <? amount).
      * constructor; cbn [s_fp s_regions].
        -- apply mod0_add; assumption.
        -- intros r [E|I]; [subst r; cbn [fst snd]; auto|apply RG; exact I].
      * constructor; cbn [s_fp s_regions].
        -- apply mod0_add; assumption.
        -- intros r [E|I]; [subst r; cbn [fst snd]; auto|apply RG; exact I].
  - destruct (a_sub c <? size); constructor; cbn [s_fp s_regions]; assumption.
Qed.

Lemma alinv_run : forall fx c ops st, 0 < a_al c -> a_hdr c mod a_al c = 0 -> bases_aligned c ops ->
  AlInv c st -> AlInv c (arun fx c st ops).
Proof.
  intros fx c ops. induction ops as [|op r IH]; intros st Ha Hh B I; cbn [arun fold_left]; [exact I|].
  inversion B; subst. apply IH; auto. apply alinv_step; auto.
Qed.
