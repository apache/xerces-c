(** C18 -- message-loader strings: owned by the current global manager while initialised, gone after the last
    Terminate, never released through another manager, allocations = releases + live strings. *)
From Coq Require Import NArith List Bool Lia.
From XV Require Import C18.Model18I C18.Model18M C18.Proofs18d.
Import ListNotations.
Local Open Scope N_scope.

Definition is_salloc (e : sevent) : bool := match e with EStrAlloc _ => true | _ => false end.
Definition is_sfree (e : sevent) : bool := match e with EStrFree _ _ => true | _ => false end.
Definition sallocs (l : list sevent) : nat := length (filter is_salloc l).
Definition sfrees (l : list sevent) : nat := length (filter is_sfree l).
Definition b2n (o : option gm) : nat := match o with Some _ => 1 | None => 0 end.

Record MInv (st : mstate) : Prop := {
  mi_zero : i_cnt (m_i st) = 0 -> m_loc st = None /\ m_nls st = None /\ m_ph st = None;
  mi_loc : forall g, m_loc st = Some g -> g = i_mgr (m_i st);
  mi_nls : forall g, m_nls st = Some g -> g = i_mgr (m_i st);
  mi_free : forall o v, In (EStrFree o v) (m_slog st) -> o = v;
  mi_bal : sallocs (m_slog st) = (sfrees (m_slog st) + b2n (m_loc st) + b2n (m_nls st))%nat
}.

(** the global manager only changes when the body of Initialize / Terminate runs *)
Lemma mgr_kept_init : forall rd cap st u d, negb ((i_cnt st =? 0) && (i_cnt (istep rd cap st (Init u d)) =? 1)) = true ->
  i_mgr (istep rd cap st (Init u d)) = i_mgr st.
Proof.
  intros rd cap st u d H. rewrite cnt_step in H. cbn [count_after] in H. cbn [istep].
  destruct (N.eqb_spec (i_cnt st) cap); [reflexivity|].
  destruct (N.ltb_spec 1 (i_cnt st + 1)); [reflexivity|].
  exfalso. assert (Z : i_cnt st = 0) by lia. rewrite Z in H. cbn in H. discriminate.
Qed.

Lemma mgr_kept_term : forall rd cap st, negb (negb (i_cnt st =? 0) && (i_cnt (istep rd cap st Term) =? 0)) = true ->
  i_mgr (istep rd cap st Term) = i_mgr st.
Proof.
  intros rd cap st H. rewrite cnt_step in H. cbn [count_after] in H. cbn [istep].
  destruct (N.eqb_spec (i_cnt st) 0) as [E|E]; [reflexivity|].
  destruct (N.ltb_spec 0 (i_cnt st - 1)); [reflexivity|].
  exfalso. assert (P : N.pred (i_cnt st) = 0) by lia. rewrite P in H.
  destruct (N.eqb_spec (i_cnt st) 0); [contradiction|]. cbn in H. discriminate.
Qed.

Lemma minv_pristine : forall d, MInv (mpristine d).
Proof.
  intros. constructor; cbn; auto; try discriminate. intros o v [].
Qed.

Lemma count_app : forall a b, sallocs (a ++ b) = (sallocs a + sallocs b)%nat /\ sfrees (a ++ b) = (sfrees a + sfrees b)%nat.
Proof. intros. unfold sallocs, sfrees. rewrite !filter_app, !app_length. auto. Qed.

(** a call that does not run the body of Initialize / Terminate changes only the Initialize/Terminate part, and neither its
    manager nor "the count is 0" *)
Lemma minv_idle : forall st i', MInv st -> i_mgr i' = i_mgr (m_i st) -> (i_cnt i' = 0 -> i_cnt (m_i st) = 0) ->
  MInv {| m_i := i'; m_loc := m_loc st; m_nls := m_nls st; m_ph := m_ph st; m_slog := m_slog st |}.
Proof.
  intros st i' [Z L Nl F B] K C. constructor; cbn [m_i m_loc m_nls m_ph m_slog]; auto.
  - intros g E. rewrite K. apply L. exact E.
  - intros g E. rewrite K. apply Nl. exact E.
Qed.

Lemma minv_step : forall rd cap st op, MInv st -> MInv (mstep rd cap st op).
Proof.
  intros rd cap st op I. pose proof I as [Z L Nl F B].
  destruct op as [u d l n ph|]; unfold mstep; cbn [to_iop] in *.
  - destruct ((i_cnt (m_i st) =? 0) && (i_cnt (istep rd cap (m_i st) (Init u d)) =? 1)) eqn:C.
    + apply andb_true_iff in C. destruct C as [C0 C1]. apply N.eqb_eq in C0. apply N.eqb_eq in C1.
      (* the count was 0, so both strings are absent and the two setters release nothing *)
      destruct (Z C0) as [ZL [ZN _]]. rewrite ZL, ZN in *. unfold setter, release. cbn [app].
      constructor; cbn [m_i m_loc m_nls m_ph m_slog].
      * intros E. rewrite E in C1. discriminate.
      * intros g E. destruct l; inversion E. reflexivity.
      * intros g E. destruct n; inversion E. reflexivity.
      * intros o v H. apply in_app_or in H. destruct H as [H|H]; [apply F; exact H|].
        destruct l, n; cbn in H; repeat (destruct H as [H|H]; [discriminate|]); destruct H.
      * destruct (count_app (m_slog st) ((if l then [EStrAlloc (i_mgr (istep rd cap (m_i st) (Init u d)))] else []) ++
                                          (if n then [EStrAlloc (i_mgr (istep rd cap (m_i st) (Init u d)))] else []))) as [A1 A2].
        rewrite A1, A2, B. destruct l, n; cbn; lia.
    + apply (minv_idle st _ I); [apply mgr_kept_init; rewrite C; reflexivity|].
      rewrite cnt_step. cbn [count_after]. destruct (N.eqb_spec (i_cnt (m_i st)) cap); lia.
  - destruct (negb (i_cnt (m_i st) =? 0) && (i_cnt (istep rd cap (m_i st) Term) =? 0)) eqn:C.
    + unfold setter. cbn [app]. rewrite !app_nil_r.
      constructor; cbn [m_i m_loc m_nls m_ph m_slog]; auto; try discriminate.
      * intros o v H. apply in_app_or in H. destruct H as [H|H]; [apply F; exact H|].
        apply in_app_or in H. unfold release in H. destruct H as [H|H].
        -- destruct (m_loc st) as [g|] eqn:E; [|destruct H]. destruct H as [H|[]]. inversion H; subst. apply L. reflexivity.
        -- destruct (m_nls st) as [g|] eqn:E; [|destruct H]. destruct H as [H|[]]. inversion H; subst. apply Nl. reflexivity.
      * destruct (count_app (m_slog st) (release (m_loc st) (i_mgr (m_i st)) ++ release (m_nls st) (i_mgr (m_i st)))) as [A1 A2].
        rewrite A1, A2, B. unfold release. destruct (m_loc st), (m_nls st); cbn; lia.
    + apply (minv_idle st _ I); [apply mgr_kept_term; rewrite C; reflexivity|].
      intros E. apply andb_false_iff in C. destruct C as [C|C].
      * apply negb_false_iff in C. apply N.eqb_eq in C. exact C.
      * apply N.eqb_neq in C. contradiction.
Qed.

Lemma minv_run : forall rd cap ops st, MInv st -> MInv (mrun rd cap st ops).
Proof.
  intros rd cap ops. induction ops as [|op r IH]; intros st I; cbn [mrun fold_left]; [exact I|].
  apply IH, minv_step, I.
Qed.

Lemma m_i_run : forall rd cap ops st, m_i (mrun rd cap st ops) = irun rd cap (m_i st) (map to_iop ops).
Proof.
  intros rd cap ops. induction ops as [|op r IH]; intros st; cbn [mrun fold_left map irun]; [reflexivity|].
  unfold mrun, irun in IH. rewrite IH. f_equal.
  destruct op as [u d l n ph|]; unfold mstep; cbn [to_iop].
  - destruct ((i_cnt (m_i st) =? 0) && (i_cnt (istep rd cap (m_i st) (Init u d)) =? 1)); unfold setter; reflexivity.
  - destruct (negb (i_cnt (m_i st) =? 0) && (i_cnt (istep rd cap (m_i st) Term) =? 0)); unfold setter; reflexivity.
Qed.

Lemma msgloader_main : forall rd cap d ops,
  let st := mrun rd cap (mpristine d) ops in
  (i_cnt (m_i st) = 0 -> m_loc st = None /\ m_nls st = None /\ m_ph st = None) /\
  (forall g, m_loc st = Some g \/ m_nls st = Some g -> g = i_mgr (m_i st)) /\
  (forall o v, In (EStrFree o v) (m_slog st) -> o = v) /\
  sallocs (m_slog st) = (sfrees (m_slog st) + b2n (m_loc st) + b2n (m_nls st))%nat /\
  m_i st = irun rd cap (pristine d) (map to_iop ops).
Proof.
  intros rd cap d ops st. destruct (minv_run rd cap ops (mpristine d) (minv_pristine d)) as [Z L Nl F B].
  fold st in Z, L, Nl, F, B. repeat split; auto.
  - apply Z; assumption.
  - apply Z; assumption.
  - apply Z; assumption.
  - intros g [E|E]; [apply L|apply Nl]; exact E.
  - unfold st. rewrite m_i_run. reflexivity.
Qed.
