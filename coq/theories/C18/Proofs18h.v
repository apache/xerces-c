(** C18 -- single-owner invariant of grammars over scanReset + the re-keying step ("[dtd]" -> system id), for every sequence of
    parses (caching on/off, ending before the DOCTYPE or not), pool lock/unlock between parses and resolver resets.
    The argument: putGrammar adds one id to [all_ids] wherever it goes, and the orphanGrammar of the re-keying undoes the
    putGrammar before it, so a parse is one put of a fresh id. *)
From Coq Require Import NArith List Bool Lia Permutation.
From XV Require Import C18.Model18G.
Import ListNotations.
Local Open Scope N_scope.

Lemma aget_notin : forall k l, amem k l = false -> aget k l = [].
Proof.
  intros k l. unfold amem, aget. induction l as [|e l IH]; cbn [existsb filter map]; [reflexivity|].
  destruct (fst e =? k); cbn; [discriminate|exact IH].
Qed.

Lemma aremove_notin : forall k l, amem k l = false -> aremove k l = l.
Proof.
  intros k l. unfold amem, aremove. induction l as [|e l IH]; cbn [existsb filter]; [reflexivity|].
  destruct (fst e =? k); cbn; [discriminate|]. intros H. rewrite IH by exact H. reflexivity.
Qed.

Lemma aget_aremove : forall k l, Permutation (aget k l ++ map snd (aremove k l)) (map snd l).
Proof.
  intros k l. unfold aget, aremove. induction l as [|e l IH]; cbn [filter map app]; [constructor|].
  destruct (fst e =? k); cbn [negb map app].
  - constructor. exact IH.
  - apply Permutation_sym, Permutation_cons_app, Permutation_sym, IH.
Qed.

(** environment obligations for the code as it is ([bf = false]): no parse with caching ends before the DOCTYPE (that is the known
    finding), and a system id is never the reserved key "[dtd]" *)
Definition gop_ok (bf : bool) (op : gop) : Prop :=
  match op with
  | GParse cache early sys => sys <> dtd_key /\ (bf = true \/ cache && early = false)
  | _ => True
  end.

Lemma gput_ids : forall cache g k st, Permutation (all_ids (gput cache g k st)) (g :: all_ids st).
Proof.
  intros cache g k [P B L n D Or]. unfold gput, all_ids. cbn [g_pool g_bucket g_locked g_next g_deleted g_orphaned].
  destruct (cache && negb L && negb (amem k P)); cbn [g_pool g_bucket g_locked g_next g_deleted g_orphaned].
  - (* into the pool *) cbn [map snd app]. rewrite !(app_assoc D Or). apply Permutation_sym, Permutation_cons_app. reflexivity.
  - (* into the bucket: the displaced entry [aget k B] moves to the deleted ones *)
    cbn [map snd]. rewrite <- (aget_aremove k B), <- (app_assoc D).
    transitivity (g :: D ++ aget k B ++ Or ++ map snd P ++ map snd (aremove k B)).
    + rewrite !app_assoc. apply Permutation_sym, Permutation_middle.
    + apply perm_skip, Permutation_app_head. rewrite !(app_assoc Or). apply Permutation_app_swap_app.
Qed.

Lemma gput_pool_other : forall cache g k k' st, k <> k' -> amem k' (g_pool (gput cache g k st)) = amem k' (g_pool st).
Proof.
  intros cache g k k' st NE. unfold gput. destruct (cache && negb (g_locked st) && negb (amem k (g_pool st))); [|reflexivity].
  cbn [g_pool amem existsb fst]. apply N.eqb_neq in NE. rewrite NE. reflexivity.
Qed.

Lemma gput_rest : forall cache g k st,
  g_next (gput cache g k st) = g_next st /\ g_orphaned (gput cache g k st) = g_orphaned st.
Proof. intros. unfold gput. destruct (cache && negb (g_locked st) && negb (amem k (g_pool st))); split; reflexivity. Qed.

Lemma assoc_here : forall k g l,
  amem k ((k, g) :: l) = true /\ aget k ((k, g) :: l) = g :: aget k l /\ aremove k ((k, g) :: l) = aremove k l.
Proof. intros. unfold amem, aget, aremove. cbn [existsb filter fst]. rewrite N.eqb_refl. repeat split. Qed.

(** putGrammar into a resolver whose bucket is empty, then orphanGrammar of the same key: the grammar comes back and nothing has
    changed.  With the pool asked first this needs the key to be absent from the pool: otherwise a locked or occupied pool sends the
    put to the bucket while an unlocked pool answers the orphan with its own entry. *)
Lemma put_then_orphan : forall bf g k st, g_bucket st = [] -> bf = true \/ amem k (g_pool st) = false ->
  gorphan bf true k (gput true g k st) = ([g], st).
Proof.
  intros bf g k [P B L n D Or] HB HP. cbn [g_bucket g_pool] in HB, HP. subst B.
  pose proof (assoc_here k g []) as Hb. change (aget k []) with (@nil N) in Hb. change (aremove k []) with (@nil (N * N)) in Hb.
  destruct Hb as [Mb [Gb Rb]]. destruct (assoc_here k g P) as [Mp [Gp Rp]].
  unfold gput, gorphan. cbn [g_pool g_bucket g_locked g_next g_deleted g_orphaned andb negb].
  change (aget k []) with (@nil N). change (aremove k []) with (@nil (N * N)).
  destruct L, (amem k P) eqn:M; cbn [g_pool g_bucket g_locked g_next g_deleted g_orphaned andb negb].
  all: rewrite ?Mb, ?Gb, ?Rb, ?Mp, ?Gp, ?Rp, ?app_nil_r.
  - destruct bf; reflexivity.
  - destruct bf; reflexivity.
  - destruct HP as [->|X]; [reflexivity|discriminate X].
  - change (amem k []) with false. rewrite (aget_notin k P M), (aremove_notin k P M). destruct bf; reflexivity.
Qed.

(** the state in which scanReset puts the fresh DTD grammar: bucket emptied, one id taken *)
Definition gfresh (st : gstate) : gstate :=
  {| g_pool := g_pool st; g_bucket := []; g_locked := g_locked st; g_next := g_next st + 1;
     g_deleted := g_deleted st ++ map snd (g_bucket st); g_orphaned := g_orphaned st |}.

(* the left side is what [all_ids (gfresh st)] reduces to *)
Lemma reset_ids : forall D B Or P : list N, Permutation ((D ++ B) ++ Or ++ P ++ []) (D ++ Or ++ P ++ B).
Proof.
  intros. rewrite app_nil_r, <- app_assoc. apply Permutation_app_head. rewrite (app_assoc Or P B). apply Permutation_app_comm.
Qed.

Lemma parse_plain : forall bf st cache early sys, early || negb cache = true ->
  gstep bf st (GParse cache early sys) = gput cache (g_next st) dtd_key (gfresh st).
Proof. intros bf st cache early sys E. cbn [gstep]. rewrite E. reflexivity. Qed.

Lemma parse_rekey : forall bf st sys, bf = true \/ amem dtd_key (g_pool st) = false ->
  gstep bf st (GParse true false sys) = gput true (g_next st) sys (gfresh st).
Proof.
  intros bf st sys H. cbn [gstep orb negb].
  change (gput true _ dtd_key _) with (gput true (g_next st) dtd_key (gfresh st)).
  rewrite put_then_orphan by (try reflexivity; exact H).
  change (g_next (greset_bucket st)) with (g_next st). cbn [filter]. rewrite N.eqb_refl. cbn [negb]. rewrite app_nil_r.
  destruct (gput true (g_next st) sys (gfresh st)). reflexivity.
Qed.

Record GInv (bf : bool) (st : gstate) : Prop := {
  gi_nodup : NoDup (all_ids st);
  gi_fresh : Forall (fun x => x < g_next st) (all_ids st);
  gi_nodtd : bf = true \/ amem dtd_key (g_pool st) = false;
  gi_noorphan : g_orphaned st = []
}.

Lemma ginv_init : forall bf, GInv bf ginit.
Proof. intros. constructor; cbn; auto; constructor. Qed.

Lemma ginv_perm : forall bf st st', GInv bf st -> Permutation (all_ids st) (all_ids st') -> g_next st' = g_next st ->
  g_pool st' = g_pool st -> g_orphaned st' = g_orphaned st -> GInv bf st'.
Proof.
  intros bf st st' [I1 I2 I3 I4] PM NX PL OR. constructor.
  - exact (Permutation_NoDup PM I1).
  - rewrite NX. exact (Permutation_Forall PM I2).
  - rewrite PL. exact I3.
  - rewrite OR. exact I4.
Qed.

Lemma ginv_put_fresh : forall bf st cache k, GInv bf st -> (k = dtd_key -> bf = true \/ cache = false) ->
  GInv bf (gput cache (g_next st) k (gfresh st)).
Proof.
  intros bf st cache k [I1 I2 I3 I4] HK.
  assert (PM : Permutation (g_next st :: all_ids st) (all_ids (gput cache (g_next st) k (gfresh st)))).
  { apply Permutation_sym. etransitivity; [apply gput_ids|]. constructor. apply reset_ids. }
  destruct (gput_rest cache (g_next st) k (gfresh st)) as [NX OR]. constructor.
  - apply (Permutation_NoDup PM). constructor; [|exact I1].
    intros IN. rewrite Forall_forall in I2. specialize (I2 _ IN). lia.
  - rewrite NX. apply (Permutation_Forall PM). constructor; [cbn; lia|].
    eapply Forall_impl; [|exact I2]. cbn. intros. lia.
  - destruct (N.eq_dec k dtd_key) as [->|NE].
    + destruct (HK eq_refl) as [B|C]; [left; exact B|]. subst cache. exact I3.
    + rewrite gput_pool_other by exact NE. exact I3.
  - rewrite OR. exact I4.
Qed.

(** with the bucket asked first ([bf = true]) no step needs an obligation *)
Lemma ginv_step : forall bf st op, bf = true \/ gop_ok bf op -> GInv bf st -> GInv bf (gstep bf st op).
Proof.
  intros bf st op OK I. destruct op as [cache early sys| | |].
  - destruct (early || negb cache) eqn:E.
    + rewrite parse_plain by exact E. apply ginv_put_fresh; [exact I|]. intros _.
      destruct OK as [B|[_ [B|C]]]; [left; exact B|left; exact B|]. right. destruct cache, early; try reflexivity; discriminate.
    + apply orb_false_elim in E. destruct E as [-> E]. apply negb_false_iff in E. subst cache.
      rewrite parse_rekey by exact (gi_nodtd _ _ I). apply ginv_put_fresh; [exact I|]. intros E.
      destruct OK as [B|[SK _]]; [left; exact B|contradiction].
  - apply (ginv_perm bf st _ I); reflexivity.
  - apply (ginv_perm bf st _ I); reflexivity.
  - apply (ginv_perm bf st _ I); [|reflexivity..]. apply Permutation_sym, reset_ids.
Qed.

Lemma ginv_run : forall bf ops st, Forall (fun op => bf = true \/ gop_ok bf op) ops -> GInv bf st -> GInv bf (grun bf st ops).
Proof.
  intros bf ops. induction ops as [|op r IH]; intros st F I; cbn [grun fold_left]; [exact I|].
  inversion F; subst. apply IH; [assumption|]. apply ginv_step; assumption.
Qed.

Lemma nodup_drop_prefix : forall (a b : list N), NoDup (a ++ b) -> NoDup b.
Proof. induction a as [|x a IH]; intros b H; [exact H|]. cbn [app] in H. inversion H; subst. apply IH. assumption. Qed.

Lemma grammar_single_owner : forall bf ops, bf = true \/ Forall (gop_ok bf) ops ->
  let st := grun bf ginit ops in
  NoDup (map snd (g_pool st) ++ map snd (g_bucket st)) /\ g_orphaned st = [] /\ NoDup (final_deletes st).
Proof.
  intros bf ops H st.
  assert (F : Forall (fun op => bf = true \/ gop_ok bf op) ops).
  { destruct H as [B|F]; [apply Forall_forall; intros op _; left; exact B|].
    eapply Forall_impl; [|exact F]. intros op K. right. exact K. }
  destruct (ginv_run bf ops ginit F (ginv_init bf)) as [I1 _ _ I4]. fold st in I1, I4.
  unfold all_ids in I1. rewrite I4 in I1. cbn [app] in I1. split; [|split; [exact I4|]].
  - exact (nodup_drop_prefix _ _ I1).
  - unfold final_deletes. eapply Permutation_NoDup; [|exact I1]. apply Permutation_app_head, Permutation_app_comm.
Qed.
