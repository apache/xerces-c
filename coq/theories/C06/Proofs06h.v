(** Lemmas for T06_resolve_wf: WFXMLScanner::scanStartTagNS over WFElemStack against the Spec.  The attributes are
    handled while they are scanned (declarations are pushed at once, [xml:] / [xmlns:] / unprefixed attributes get their
    namespace at once, the others are deferred to the end of the tag), the duplicate check on expanded names and the
    element prefix come last.  The scanner state represents the declarations of the open elements in LOOKUP order
    (latest declaration of a level first, Proofs06g); a tag that passes the duplicate check declares no prefix twice,
    so that order is immaterial and the state is equivalent, row by row, to the Spec's rows.
    Last: [scan_resolves], the document theorem for every scanner. *)
From XV Require Import Base.XDefs Gen.GenElemStack C06.Spec06 C06.Model06 C06.Proofs06a C06.Proofs06d C06.Proofs06e C06.Proofs06f C06.Proofs06g.
From Coq Require Import Arith Lia.
Local Open Scope nat_scope.

Definition iswf (c : cfg) : Prop := c_scanner c = WF.
Definition row_eqv (a b : list decl) : Prop := forall p, find_decl p a = find_decl p b.
Definition rows_eqv (R rows : list (list decl)) : Prop := Forall2 row_eqv R rows.

Definition SInvW0 (v11 : bool) (s : scan) (R : list (list decl)) : Prop :=
  exists rid, WInv (sc_wf s) rid /\ pool_ok (sc_uris s) /\ (exists q, sc_uris s = uri_pool0 ++ q) /\
              Forall (uid_ok (sc_uris s)) rid /\ map (txt (sc_uris s)) rid = R /\ all_legal v11 R.
Definition SInvW (v11 : bool) (s : scan) (rows : list (list decl)) : Prop := exists R, SInvW0 v11 s R /\ rows_eqv R rows.

Definition wf_rows (s : scan) (rid : list (list (name * nat))) : Prop := WInv (sc_wf s) rid.
Lemma sinvw0_scan_inv : forall v11 s R, SInvW0 v11 s R <-> scan_inv wf_rows v11 s R.
Proof. intros v11 s R. reflexivity. Qed.

Lemma wf_view : forall c, iswf c -> stack_view c true wf_rows.
Proof.
  intros c Hc. unfold iswf in Hc. constructor.
  - exact winv_init.
  - intros s rid p HI. unfold st_map. rewrite Hc. apply wfs_map_correct. exact HI.
  - intros s rid HI. destruct (winv_addLevel _ rid HI) as (w' & He & HI'). exists (mkScan (sc_es s) w' (sc_uris s)).
    unfold st_addLevel. rewrite Hc, He. split; [reflexivity|]. split; [exact HI'|reflexivity].
  - intros s rd rid HI. destruct (winv_popTop _ rd rid HI) as (r & w' & He & HI').
    exists (w_uri r), (w_pfx r), (w_loc r), (mkScan (sc_es s) w' (sc_uris s)).
    unfold st_pop. rewrite Hc, He. split; [reflexivity|]. split; [exact HI'|reflexivity].
  - intros s rid uri pfx loc HI. unfold st_setTop. rewrite Hc. split; [|reflexivity]. apply winv_setTop. exact HI.
  - intros s rd rid p v up uid Ea HI. destruct (winv_addPrefix _ rd rid p uid HI) as (w' & He & HI').
    exists (mkScan (sc_es s) w' up). unfold st_addPrefix. rewrite Ea, Hc, He. split; [reflexivity|]. split; [exact HI'|reflexivity].
Qed.

Definition wf_early (a : rattr) : option nat :=
  match ra_pfx a with
  | [] => Some emptyId
  | p => if name_eqb p s_xml then Some xmlId else if name_eqb p s_xmlns then Some xmlnsId else None
  end.
Definition wf_entry (a : rattr) : option nat * rattr := (wf_early a, a).

Lemma existsb_map_snd : forall (f : rattr -> bool) (done : list (option nat * rattr)),
  existsb (fun x => f (snd x)) done = existsb f (map snd done).
Proof. intros f done. symmetry. apply existsb_map. Qed.

Lemma wf_scan_step : forall c s a r done,
  wf_scanAttrs c s (a :: r) done =
  if existsb (fun q => name_eqb q (raw_name a)) (map (fun e => raw_name (snd e)) done) then Err E_AttrAlreadyUsedInSTag
  else do s' <- (if is_nsdecl a then updateNSMap c s a else Ok s); wf_scanAttrs c s' r (wf_entry a :: done).
Proof.
  intros c s a r done. cbn [wf_scanAttrs]. rewrite existsb_map. unfold raw_name.
  destruct (existsb _ done); [reflexivity|].
  unfold is_nsdecl, wf_entry, wf_early. destruct (ra_pfx a) as [|c0 p0] eqn:Ep.
  - (* xmlns="..." *)
    destruct (name_eqb (ra_loc a) s_xmlns); [|reflexivity].
    unfold updateNSMap, nsmap_check, bind. rewrite Ep. cbn [name_eqb negb]. rewrite andb_true_r.
    destruct (name_eqb (ra_nval a) uri_xmlns); [reflexivity|]. destruct (name_eqb (ra_nval a) uri_xml); reflexivity.
  - destruct (name_eqb (c0 :: p0) s_xml) eqn:N1.
    + apply name_eqb_eq in N1. rewrite N1. reflexivity.
    + (* xmlns:loc="...": WFXMLScanner makes the checks of nsmap_check in two groups *)
      destruct (name_eqb (c0 :: p0) s_xmlns); [|reflexivity].
      unfold updateNSMap, nsmap_check, bind. rewrite Ep.
      destruct (name_eqb (ra_loc a) s_xmlns); [reflexivity|].
      destruct (name_eqb (ra_loc a) s_xml && negb (name_eqb (ra_nval a) uri_xml)); [reflexivity|].
      destruct (ra_nval a) as [|d v]; [destruct (c_v11 c); reflexivity|].
      destruct (name_eqb (d :: v) uri_xmlns); [reflexivity|].
      destruct (name_eqb (d :: v) uri_xml && negb (name_eqb (ra_loc a) s_xml)); reflexivity.
Qed.

Lemma wf_scan_as_raw : forall c attrs s done,
  match wf_scanAttrs c s attrs done with
  | Ok (s', l) => scanRawAttrListforNameSpaces c s attrs = Ok s' /\ l = rev done ++ map wf_entry attrs
  | Err e => (e = E_AttrAlreadyUsedInSTag /\ rawdup (map (fun e => raw_name (snd e)) done) attrs = true) \/
             scanRawAttrListforNameSpaces c s attrs = Err e
  end.
Proof.
  intros c attrs. induction attrs as [|a r IH]; intros s done.
  - cbn. rewrite app_nil_r. split; reflexivity.
  - rewrite wf_scan_step. cbn [rawdup scanRawAttrListforNameSpaces map].
    destruct (existsb _ (map _ done)); [left; split; reflexivity|]. cbn [orb]. unfold bind.
    destruct (if is_nsdecl a then updateNSMap c s a else Ok s) as [s1|e]; [|right; reflexivity].
    specialize (IH s1 (wf_entry a :: done)). destruct (wf_scanAttrs c s1 r (wf_entry a :: done)) as [[s' l]|e]; [|exact IH].
    destruct IH as [IH1 IH2]. split; [exact IH1|]. rewrite IH2. cbn [rev]. rewrite <- app_assoc. reflexivity.
Qed.

Lemma wf_early_resolve : forall c s a u, wf_early a = Some u -> resolvePrefix c s (ra_pfx a) true = Ok u.
Proof.
  intros c s a u. unfold wf_early, resolvePrefix. destruct (ra_pfx a) as [|c0 p0]; [intros [= <-]; reflexivity|].
  destruct (name_eqb (c0 :: p0) s_xml) eqn:N1.
  - intros [= <-]. apply name_eqb_eq in N1. rewrite N1. reflexivity.
  - destruct (name_eqb (c0 :: p0) s_xmlns); [intros [= <-]; reflexivity|discriminate].
Qed.
Lemma wf_deferred_eq : forall c s attrs, wf_resolveDeferred c s (map wf_entry attrs) = resolve_all c s attrs.
Proof.
  intros c s attrs. induction attrs as [|a r IH]; cbn [map wf_entry wf_resolveDeferred resolve_all]; [reflexivity|].
  rewrite attr_uri_eq, IH. destruct (wf_early a) as [u|] eqn:Ee; [|reflexivity].
  rewrite (wf_early_resolve c s a u Ee). reflexivity.
Qed.

Lemma wf_dup_pairs_spec : forall uris xs keys, pool_ok uris -> Forall2 (xkey_rel uris) xs keys -> wf_dup_pairs xs = has_dup keys.
Proof.
  intros uris xs keys Hok F. induction F as [|x [rk nk] xs0 ks0 [Hx Hl] Hr IH]; [reflexivity|]. cbn [fst snd] in Hx, Hl.
  cbn [wf_dup_pairs has_dup]. rewrite IH, Hl, (same_expanded_keys uris xs0 ks0 _ _ nk Hok Hr Hx). reflexivity.
Qed.

Lemma rows_eqv_equiv : forall R rows, rows_eqv R rows -> rows_equiv R rows.
Proof. intros R rows H p. induction H as [|a b R0 r0 Hab _ IH]; [reflexivity|]. cbn [nearest]. rewrite (Hab p), IH. reflexivity. Qed.
Lemma attr_ns_ext : forall A B p, (forall q, inscope A q = inscope B q) -> attr_ns A p = attr_ns B p.
Proof. intros A B p H. unfold attr_ns. destruct p; [reflexivity|]. rewrite H. reflexivity. Qed.
Lemma elem_ns_ext : forall A B p, (forall q, inscope A q = inscope B q) -> elem_ns A p = elem_ns B p.
Proof. intros A B p H. unfold elem_ns. rewrite H. reflexivity. Qed.
Lemma sp_tag_in_ext : forall v ds A B pfx attrs, (forall q, inscope A q = inscope B q) ->
  sp_tag_in v ds A pfx attrs = sp_tag_in v ds B pfx attrs.
Proof.
  intros v ds A B pfx attrs H. unfold sp_tag_in. rewrite (elem_ns_ext A B pfx H), (map_ext _ _ (fun a => attr_ns_ext A B (ra_pfx a) H)).
  rewrite (map_ext (fun a => (attr_ns A (ra_pfx a), ra_loc a)) (fun a => (attr_ns B (ra_pfx a), ra_loc a))); [reflexivity|].
  intros a. rewrite (attr_ns_ext A B _ H). reflexivity.
Qed.
Lemma row_eqv_refl : forall a, row_eqv a a.
Proof. intros a p. reflexivity. Qed.
Lemma sp_tag_eqv : forall v R rows pfx attrs, rows_eqv R rows ->
  sp_tag v R pfx (map sp_of attrs) = sp_tag v rows pfx (map sp_of attrs).
Proof.
  intros v R rows pfx attrs H. rewrite !sp_tag_raw. apply sp_tag_in_ext. intros q. apply inscope_equiv, rows_eqv_equiv.
  constructor; [apply row_eqv_refl|exact H].
Qed.

Lemma rev_row_eqv : forall ds : list decl, NoDup (map fst ds) -> row_eqv (rev ds) ds.
Proof. intros ds H p. apply find_decl_rev_nodup. exact H. Qed.
Lemma rows_eqv_refl : forall R, rows_eqv R R.
Proof. induction R; constructor; [apply row_eqv_refl|assumption]. Qed.

(** a tag without two attributes of one expanded name (in whatever scope) declares no prefix twice: lookup order and
    declaration order of its row then agree *)
Lemma sp_tag_in_rev : forall v R pfx attrs, Forall wf_attr attrs ->
  sp_tag_in v (sp_decls (map sp_of attrs)) (rev (sp_decls (map sp_of attrs)) :: R) pfx attrs =
  sp_tag_in v (sp_decls (map sp_of attrs)) (sp_decls (map sp_of attrs) :: R) pfx attrs.
Proof.
  intros v R pfx attrs Hwf. set (ds := sp_decls (map sp_of attrs)). set (D := ds :: R). set (L := rev ds :: R).
  assert (Hsame : forall A, has_dup (map (akey A) attrs) = false -> sp_tag_in v ds L pfx attrs = sp_tag_in v ds D pfx attrs).
  { intros A HA. apply sp_tag_in_ext. intros q. apply inscope_equiv, rows_eqv_equiv. constructor; [|apply rows_eqv_refl].
    apply rev_row_eqv. apply (decls_nodup A attrs Hwf HA). }
  destruct (has_dup (map (akey L) attrs)) eqn:HL; [|exact (Hsame L HL)].
  destruct (has_dup (map (akey D) attrs)) eqn:HD; [|exact (Hsame D HD)].
  rewrite !reject_dup; [reflexivity|exact HD|exact HL].
Qed.

Lemma wf_startTag_spec0 : forall c s R pfx loc attrs, iswf c -> SInvW0 (c_v11 c) s R -> Forall wf_attr attrs ->
  let L := rev (sp_decls (map sp_of attrs)) :: R in
  match wf_startTag c s pfx loc attrs with
  | Ok (s', uri, xs) =>
    exists e ans, sp_tag_in (c_v11 c) (sp_decls (map sp_of attrs)) L pfx attrs = Some (e, ans) /\
                  res_ok (sc_uris s') uri e /\ Forall2 (fun x r => res_ok (sc_uris s') (xa_uri x) r) xs ans /\
                  map triple_x xs = map triple_a attrs /\
                  SInvW0 (c_v11 c) s' L /\ exists q, sc_uris s' = sc_uris s ++ q
  | Err e => ns_error e = true /\
             (Forall ncname_attr attrs -> sp_tag_in (c_v11 c) (sp_decls (map sp_of attrs)) L pfx attrs = None)
  end.
Proof.
  intros c s R pfx loc attrs Hc HS Hwf L. apply sinvw0_scan_inv in HS. unfold wf_startTag, bind.
  destruct (st_addLevel_inv _ _ _ (wf_view c Hc) s R HS) as (s1 & E1 & I1 & U1). rewrite E1.
  pose proof (wf_scan_as_raw c attrs s1 []) as W.
  pose proof (scanRaw_spec _ _ _ (wf_view c Hc) attrs s1 [] R I1 Hwf) as Rw. cbn [add_decls] in Rw. rewrite app_nil_r in Rw. fold L in Rw.
  destruct (wf_scanAttrs c s1 attrs []) as [[s2 l]|e].
  2:{ split.
      - destruct W as [[-> _]|W]; [reflexivity|]. rewrite W in Rw. exact (proj1 Rw).
      - intros Hnc. destruct W as [[_ W]|W]; [|rewrite W in Rw; apply reject_illegal; exact (proj2 Rw)].
        destruct (rawdup_dup L attrs [] (Forall_nil _) Hnc W) as [K|K]; [apply reject_attr_unbound; exact K|].
        apply reject_dup. cbn [map] in K. rewrite dup_lr_nil in K. exact K. }
  destruct W as [W ->]. rewrite W in Rw. destruct Rw as (Lg & I2 & Q2). cbn [rev app]. rewrite U1 in Q2.
  pose proof (attrs_spec _ _ _ (wf_view c Hc) s2 L attrs I2) as A. rewrite wf_deferred_eq.
  destruct (resolve_all c s2 attrs) as [xs|e].
  2:{ destruct A as [A1 A2]. split; [exact A1|]. intros _. apply reject_attr_unbound. exact A2. }
  destruct A as (Df & Ah & _). destruct (built_facts _ _ _ _ Df) as (B1 & B2 & B3).
  assert (Hok : pool_ok (sc_uris s2)) by (destruct I2 as (rid & _ & HU); exact (proj1 (uris_inv_pool _ _ _ _ HU))).
  assert (Hdupeq : (if attr_hash_threshold <? length xs then wf_dup_hashed xs [] else wf_dup_pairs xs) =
                   has_dup (map (fun a => (attr_ns L (ra_pfx a), ra_loc a)) attrs)).
  { destruct (attr_hash_threshold <? length xs); [exact Ah|]. apply (wf_dup_pairs_spec _ xs _ Hok (built_keys _ _ _ _ Df)). }
  rewrite Hdupeq.
  destruct (has_dup (map (fun a => (attr_ns L (ra_pfx a), ra_loc a)) attrs)) eqn:HdL.
  { split; [reflexivity|]. intros _. apply reject_dup. exact HdL. }
  pose proof (resolvePrefix_spec _ _ _ (wf_view c Hc) s2 L pfx false I2) as P. cbn [ns_of] in P.
  destruct (resolvePrefix c s2 pfx false) as [uri|e].
  2:{ destruct P as [-> P]. split; [reflexivity|]. intros _. apply reject_elem_unbound. exact P. }
  destruct (st_setTop_inv _ _ _ (wf_view c Hc) s2 L uri pfx loc I2) as [I3 U3]. rewrite U3.
  exists (elem_ns L pfx), (map (fun a => attr_ns L (ra_pfx a)) attrs).
  split; [exact (sp_tag_in_accept _ _ _ _ _ Lg (res_ok_not_unbound _ _ _ P) B1 HdL)|].
  split; [exact P|]. split; [exact B2|]. split; [exact B3|].
  split; [apply sinvw0_scan_inv; exact I3|exact Q2].
Qed.

Lemma wf_startTag_spec : forall c s rows pfx loc attrs, iswf c -> SInvW (c_v11 c) s rows -> Forall wf_attr attrs ->
  tag_post (c_v11 c) (SInvW (c_v11 c)) s rows pfx attrs (startTag c s pfx loc attrs).
Proof.
  intros c s rows pfx loc attrs Hc (R & H0 & Heq) Hwf. unfold startTag. rewrite Hc. unfold tag_post.
  pose proof (wf_startTag_spec0 c s R pfx loc attrs Hc H0 Hwf) as K. cbv zeta in K.
  rewrite <- (sp_tag_eqv _ R rows _ _ Heq), sp_tag_raw, <- (sp_tag_in_rev _ R pfx attrs Hwf).
  destruct (wf_startTag c s pfx loc attrs) as [[[s' uri] xs]|e]; [|exact K].
  destruct K as (e & ans & K1 & K2 & K3 & K4 & K5 & K6). exists e, ans.
  split; [exact K1|]. split; [exact K2|]. split; [exact K3|]. split; [exact K4|].
  split; [|exact K6]. exists (rev (sp_decls (map sp_of attrs)) :: R). split; [exact K5|].
  constructor; [|exact Heq]. apply rev_row_eqv. apply (decls_nodup (rev (sp_decls (map sp_of attrs)) :: R) attrs Hwf).
  exact (proj1 (proj2 (sp_tag_in_some _ _ _ _ _ _ _ K1))).
Qed.

Lemma st_pop_wf : forall c s ds rows, iswf c -> SInvW (c_v11 c) s (ds :: rows) ->
  exists uri pfx loc s', st_pop c s = Ok (uri, pfx, loc, s') /\ SInvW (c_v11 c) s' rows /\ sc_uris s' = sc_uris s.
Proof.
  intros c s ds rows Hc (R & H0 & Heq). destruct (Forall2_inv_r Heq) as (dR & R' & -> & Hd & Hr).
  apply sinvw0_scan_inv in H0. destruct (st_pop_inv _ _ _ (wf_view c Hc) s dR R' H0) as (uri & pfx & loc & s' & E & I' & U).
  exists uri, pfx, loc, s'. split; [exact E|]. split; [|exact U]. exists R'. split; [apply sinvw0_scan_inv; exact I'|exact Hr].
Qed.
Lemma sinvw_init : forall v11, SInvW v11 scan_init [].
Proof.
  intros v11. exists []. split; [|constructor]. apply sinvw0_scan_inv. exact (scan_inv_init _ _ _ (wf_view (mkCfg WF v11) eq_refl) v11).
Qed.

Lemma scan_resolves : forall c ts s' devs err, toks_nc ts -> toks_nested ts 0 = true ->
  scan_toks c scan_init ts = (s', devs, err) ->
  Forall2 (start_ok (sc_uris s')) (dev_starts devs) (fst (sp_doc (c_v11 c) (map sp_tok_of ts) [])) /\
  (snd (sp_doc (c_v11 c) (map sp_tok_of ts) []) = true <-> err <> None) /\
  (forall e, err = Some e -> ns_error e = true).
Proof.
  intros c ts s' devs err.
  assert (Hc : nonwf c \/ iswf c) by (unfold nonwf, iswf; destruct (c_scanner c); [left; exact I|right; reflexivity|left; exact I]).
  destruct Hc as [Hc|Hc].
  - apply (doc_resolve_init c (SInvR (c_v11 c))).
    + apply sinvr_init.
    + intros s rows pfx loc attrs. apply startTag_spec. exact Hc.
    + intros s ds rows. apply sinvr_pop. exact Hc.
  - apply (doc_resolve_init c (SInvW (c_v11 c))).
    + apply sinvw_init.
    + intros s rows pfx loc attrs. apply wf_startTag_spec. exact Hc.
    + intros s ds rows. apply st_pop_wf. exact Hc.
Qed.
