(** The start tag against the Spec ([decl_legal], [elem_ns] / [attr_ns], [has_dup], assembled in [sp_tag]).  First for any
    scanner: the state invariant over an abstract element stack ([stack_view], [scan_inv]), resolvePrefix, the declaration
    pass, the attribute checks, the Spec's verdict [sp_tag_in], what a start tag has to achieve [tag_post].  Then
    IGXMLScanner / SGXMLScanner over ElemStack (T06_resolve_sound, _errors, _complete) and the error cases of updateNSMap. *)
From XV Require Import Base.XDefs Gen.GenElemStack C06.Spec06 C06.Model06 C06.Proofs06a.
From Coq Require Import Arith Lia.
Local Open Scope nat_scope.

(** ** the scanner state represents the declarations [rows] of the open elements *)
Definition uid_ok (uris : pool) (m : list (name * nat)) : Prop := Forall (fun d => 1 <= snd d <= length uris) m.
Definition txt (uris : pool) (m : list (name * nat)) : list decl := map (fun d => (fst d, pool_value uris (snd d))) m.
Definition all_legal (v11 : bool) (rows : list (list decl)) : Prop := Forall (Forall (fun d => decl_legal v11 d = true)) rows.
Definition SInvR (v11 : bool) (s : scan) (rows : list (list decl)) : Prop :=
  exists rid, Inv (sc_es s) rid [] /\ pool_ok (sc_uris s) /\ (exists q, sc_uris s = uri_pool0 ++ q) /\
              Forall (uid_ok (sc_uris s)) rid /\ map (txt (sc_uris s)) rid = rows /\ all_legal v11 rows.

(** the URI ids in the rows [rid] denote the namespace names of [rows] *)
Definition uris_inv (v11 : bool) (uris : pool) (rid : list (list (name * nat))) (rows : list (list decl)) : Prop :=
  pool_ok uris /\ (exists q, uris = uri_pool0 ++ q) /\ Forall (uid_ok uris) rid /\ map (txt uris) rid = rows /\ all_legal v11 rows.
(** [SInvR] for any element stack holding the rows [rid] in search order ([V s rid]) *)
Definition scan_inv (V : scan -> list (list (name * nat)) -> Prop) (v11 : bool) (s : scan) (rows : list (list decl)) : Prop :=
  exists rid, V s rid /\ uris_inv v11 (sc_uris s) rid rows.
Definition es_rows (s : scan) (rid : list (list (name * nat))) : Prop := Inv (sc_es s) rid [].
Lemma sinvr_scan_inv : forall v11 s rows, SInvR v11 s rows <-> scan_inv es_rows v11 s rows.
Proof. intros v11 s rows. reflexivity. Qed.

(** new declarations go to the end of ElemStack's row, to the front of WFElemStack's ([front]) *)
Definition add_decls {A : Type} (front : bool) (l ds : list A) : list A := if front then rev l ++ ds else ds ++ l.
Lemma add_decls_nil : forall (A : Type) front (ds : list A), add_decls front [] ds = ds.
Proof. intros A [|] ds; [reflexivity|apply app_nil_r]. Qed.
Lemma add_decls_app : forall (A : Type) front (l1 l2 ds : list A), add_decls front (l1 ++ l2) ds = add_decls front l2 (add_decls front l1 ds).
Proof. intros A [|] l1 l2 ds; cbn [add_decls]; [rewrite rev_app_distr, app_assoc; reflexivity|apply app_assoc]. Qed.
Lemma map_add_decls : forall (A B : Type) (f : A -> B) front l ds, map f (add_decls front l ds) = add_decls front (map f l) (map f ds).
Proof. intros A B f [|] l ds; cbn [add_decls]; rewrite map_app; [rewrite map_rev|]; reflexivity. Qed.
Lemma Forall_add_decls : forall (A : Type) (P : A -> Prop) front l ds, Forall P l -> Forall P ds -> Forall P (add_decls front l ds).
Proof. intros A P [|] l ds Hl Hd; apply Forall_app; split; [apply Forall_rev| | |]; assumption. Qed.

Record stack_view (c : cfg) (front : bool) (V : scan -> list (list (name * nat)) -> Prop) : Prop := mkView {
  sv_init : V scan_init [];
  sv_map : forall s rid p, V s rid -> st_map c s p = map_answer (map_spec rid p);
  sv_push : forall s rid, V s rid -> exists s', st_addLevel c s = Ok s' /\ V s' ([] :: rid) /\ sc_uris s' = sc_uris s;
  sv_pop : forall s rd rid, V s (rd :: rid) ->
    exists uri pfx loc s', st_pop c s = Ok (uri, pfx, loc, s') /\ V s' rid /\ sc_uris s' = sc_uris s;
  sv_setTop : forall s rid uri pfx loc, V s rid ->
    V (st_setTop c s uri pfx loc) rid /\ sc_uris (st_setTop c s uri pfx loc) = sc_uris s;
  sv_decl : forall s rd rid p v up uid, pool_addOrFind (sc_uris s) v = (up, uid) -> V s (rd :: rid) ->
    exists s', st_addPrefix c s p v = Ok s' /\ V s' (add_decls front [(p, uid)] rd :: rid) /\ sc_uris s' = up }.

Lemma uid_ok_ext : forall uris q m, uid_ok uris m -> uid_ok (uris ++ q) m.
Proof. intros uris q m. exact (in_pool_ext _ snd uris q m). Qed.
Lemma txt_ext : forall uris q m, uid_ok uris m -> txt (uris ++ q) m = txt uris m.
Proof. intros uris q m. exact (pool_map_ext _ _ snd (fun d n => (fst d, n)) uris q m). Qed.
Lemma rows_ext : forall uris q rid, Forall (uid_ok uris) rid ->
  Forall (uid_ok (uris ++ q)) rid /\ map (txt (uris ++ q)) rid = map (txt uris) rid.
Proof.
  intros uris q rid H. induction H as [|m r Hm Hr [IH1 IH2]]; [split; [constructor|reflexivity]|].
  split; [constructor; [apply uid_ok_ext; exact Hm|exact IH1]|]. cbn [map]. rewrite txt_ext by exact Hm. rewrite IH2. reflexivity.
Qed.

Lemma find_decl_txt : forall uris p m, find_decl p (txt uris m) = option_map (pool_value uris) (find_decl p m).
Proof.
  intros uris p m. induction m as [|[q u] m IH]; cbn [txt map find_decl fst snd option_map]; [reflexivity|].
  destruct (name_eqb q p); [reflexivity|exact IH].
Qed.
Lemma nearest_txt : forall uris p rid, nearest (map (txt uris) rid) p = option_map (pool_value uris) (nearest rid p).
Proof.
  intros uris p rid. induction rid as [|m r IH]; cbn [map nearest option_map]; [reflexivity|].
  rewrite find_decl_txt. destruct (find_decl p m); [reflexivity|exact IH].
Qed.
Lemma found_uid : forall uris rid p u, Forall (uid_ok uris) rid -> nearest rid p = Some u -> 1 <= u <= length uris.
Proof.
  intros uris rid p u Hids En. destruct (nearest_in _ _ _ _ En) as (m & Hm & Hin).
  rewrite Forall_forall in Hids. specialize (Hids m Hm). unfold uid_ok in Hids. rewrite Forall_forall in Hids. exact (Hids _ Hin).
Qed.

Lemma inscope_xml : forall rows, inscope rows s_xml = Some uri_xml.
Proof. reflexivity. Qed.
Lemma inscope_xmlns : forall rows, inscope rows s_xmlns = Some uri_xmlns.
Proof. reflexivity. Qed.
Lemma inscope_plain : forall rows q, name_eqb q s_xml = false -> name_eqb q s_xmlns = false ->
  inscope rows q = canon (nearest rows q).
Proof.
  intros rows q H1 H2. unfold inscope. rewrite H1, H2. destruct (nearest rows q) as [[|c l]|]; reflexivity.
Qed.
Lemma found_legal : forall v rows p u, all_legal v rows -> nearest rows p = Some u -> decl_legal v (p, u) = true.
Proof.
  intros v rows p u Hleg En. destruct (nearest_in _ _ _ _ En) as (m & Hm & Hin).
  unfold all_legal in Hleg. rewrite Forall_forall in Hleg. specialize (Hleg m Hm). rewrite Forall_forall in Hleg. exact (Hleg _ Hin).
Qed.

Lemma uri_pool0_ok : pool_ok uri_pool0.
Proof. intros i Hi. cbn in Hi. destruct i as [|[|[|[|[|i]]]]]; try lia; reflexivity. Qed.
Lemma uri_pool_facts : forall q, let uris := uri_pool0 ++ q in
  pool_value uris emptyId = [] /\ pool_value uris xmlId = uri_xml /\ pool_value uris xmlnsId = uri_xmlns /\
  5 <= length uris /\ pool_getId uris [] = emptyId.
Proof.
  intros q uris. unfold uris. split; [reflexivity|]. split; [reflexivity|]. split; [reflexivity|].
  split; [rewrite app_length; cbn; lia|]. apply getId_app_l. reflexivity.
Qed.
Lemma res_ok_reserved : forall uris, (exists q, uris = uri_pool0 ++ q) ->
  res_ok uris emptyId NsNone /\ res_ok uris xmlId (NsIn uri_xml) /\ res_ok uris xmlnsId (NsIn uri_xmlns).
Proof.
  intros uris [q ->]. destruct (uri_pool_facts q) as (F1 & F3 & F4 & F5 & _). unfold res_ok, emptyId, xmlId, xmlnsId in *.
  split; [split; [lia|exact F1]|]. split; (split; [lia|split; [assumption|discriminate]]).
Qed.
Lemma empty_id_text : forall uris u, pool_ok uris -> (exists q, uris = uri_pool0 ++ q) -> 1 <= u <= length uris ->
  (u =? emptyId) = name_eqb (pool_value uris u) [].
Proof.
  intros uris u Hok [q Hq] Hu. destruct (uri_pool_facts q) as (_ & _ & _ & _ & G). rewrite <- Hq in G.
  rewrite <- G. apply id_eqb_name; assumption.
Qed.

Lemma uris_inv_init : forall v11, uris_inv v11 uri_pool0 [] [].
Proof. intros v11. split; [exact uri_pool0_ok|]. split; [exists []; reflexivity|]. repeat split; constructor. Qed.
Lemma uris_inv_pool : forall v11 uris rid rows, uris_inv v11 uris rid rows -> pool_ok uris /\ exists q, uris = uri_pool0 ++ q.
Proof. intros v11 uris rid rows (Hok & Hpre & _). split; assumption. Qed.
Lemma uris_inv_legal : forall v11 uris rid rows, uris_inv v11 uris rid rows -> all_legal v11 rows.
Proof. intros v11 uris rid rows (_ & _ & _ & _ & H). exact H. Qed.
Lemma uris_inv_found : forall v11 uris rid rows p, uris_inv v11 uris rid rows ->
  nearest rows p = option_map (pool_value uris) (nearest rid p) /\ forall u, nearest rid p = Some u -> 1 <= u <= length uris.
Proof.
  intros v11 uris rid rows p (_ & _ & Hids & Htxt & _). split; [rewrite <- Htxt; apply nearest_txt|].
  intros u En. exact (found_uid _ _ _ _ Hids En).
Qed.
Lemma uris_inv_push : forall v11 uris rid rows, uris_inv v11 uris rid rows -> uris_inv v11 uris ([] :: rid) ([] :: rows).
Proof.
  intros v11 uris rid rows (Hok & Hpre & Hids & Htxt & Hleg). split; [exact Hok|]. split; [exact Hpre|].
  split; [constructor; [constructor|exact Hids]|]. split; [cbn [map txt]; rewrite Htxt; reflexivity|constructor; [constructor|exact Hleg]].
Qed.
Lemma uris_inv_pop : forall v11 uris rid ds rows, uris_inv v11 uris rid (ds :: rows) ->
  exists rd rr, rid = rd :: rr /\ uris_inv v11 uris rr rows.
Proof.
  intros v11 uris rid ds rows (Hok & Hpre & Hids & Htxt & Hleg). destruct rid as [|rd rr]; [discriminate|].
  cbn [map] in Htxt. injection Htxt as _ Ht2. exists rd, rr. split; [reflexivity|]. split; [exact Hok|]. split; [exact Hpre|].
  split; [exact (Forall_inv_tail Hids)|]. split; [exact Ht2|exact (Forall_inv_tail Hleg)].
Qed.
Lemma uris_inv_decl : forall v11 front uris q rd rr ds rows p t uid, uris_inv v11 uris (rd :: rr) (ds :: rows) ->
  decl_legal v11 (p, t) = true -> pool_ok (uris ++ q) -> 1 <= uid <= length (uris ++ q) -> pool_value (uris ++ q) uid = t ->
  uris_inv v11 (uris ++ q) (add_decls front [(p, uid)] rd :: rr) (add_decls front [(p, t)] ds :: rows).
Proof.
  intros v11 front uris q rd rr ds rows p t uid (Hok & Hpre & Hids & Htxt & Hleg) Hl Hok' Hrange Hv.
  cbn [map] in Htxt. injection Htxt as Ht1 Ht2.
  pose proof (Forall_inv Hids) as Hrd. destruct (rows_ext uris q rr (Forall_inv_tail Hids)) as [Hrr' Hrrt].
  split; [exact Hok'|]. split; [exact (pre_ext _ _ q Hpre)|].
  split; [constructor; [apply Forall_add_decls; [constructor; [exact Hrange|constructor]|apply uid_ok_ext; exact Hrd]|exact Hrr']|].
  split; [|constructor; [apply Forall_add_decls; [constructor; [exact Hl|constructor]|exact (Forall_inv Hleg)]|exact (Forall_inv_tail Hleg)]].
  cbn [map]. rewrite Hrrt, Ht2. unfold txt at 1. rewrite map_add_decls. cbn [map fst snd]. rewrite Hv.
  fold (txt (uris ++ q) rd). rewrite txt_ext, Ht1 by exact Hrd. reflexivity.
Qed.

Definition ns_of (attrMode : bool) (rows : list (list decl)) (p : name) : nsres :=
  if attrMode then attr_ns rows p else elem_ns rows p.


Lemma nsmap_check_legal : forall v11 colon p v, (colon = true -> p <> []) -> (colon = false -> p = []) ->
  match nsmap_check v11 colon p v with
  | Ok _ => decl_legal v11 (p, v) = true
  | Err e => ns_error e = true /\ decl_legal v11 (p, v) = false
  end.
Proof.
  intros v11 colon p v H1 H2. unfold nsmap_check, decl_legal, bind.
  destruct colon.
  - specialize (H1 eq_refl). destruct p as [|c0 p0]; [contradiction|]. set (p := c0 :: p0) in *.
    (* xmlns:xmlns -- NoUseOfxmlnsAsPrefix *)
    destruct (name_eqb p s_xmlns); [split; reflexivity|].
    destruct (name_eqb v uri_xmlns) eqn:Dn.
    { (* bound to the xmlns name -- NoUseOfxmlnsURI, unless the xml: check fires first *)
      destruct (name_eqb p s_xml && negb (name_eqb v uri_xml)); [split; reflexivity|].
      destruct v; [discriminate Dn|split; reflexivity]. }
    destruct (name_eqb p s_xml); cbn [andb negb].
    { (* xml: must be bound to its own name -- PrefixXMLNotMatchXMLURI *)
      destruct (name_eqb v uri_xml) eqn:Dx; [|split; reflexivity]. destruct v; [discriminate Dx|reflexivity]. }
    destruct (name_eqb v uri_xml) eqn:Dx.
    { (* another prefix bound to the xml name -- XMLURINotMatchXMLPrefix *)
      destruct v; [discriminate Dx|split; reflexivity]. }
    (* xmlns:p="" -- NoEmptyStrNamespace, in 1.0 *)
    destruct v; [destruct v11; [reflexivity|split; reflexivity]|reflexivity].
  - (* xmlns="...": the two reserved names are refused *)
    specialize (H2 eq_refl). subst p. cbn [name_eqb negb andb].
    destruct (name_eqb v uri_xmlns); [split; reflexivity|].
    rewrite andb_true_r. destruct (name_eqb v uri_xml); [split; reflexivity|]. destruct v; reflexivity.
Qed.

Lemma sp_decls_cons : forall x l, sp_decls (x :: l) = sp_decl_of x ++ sp_decls l.
Proof. reflexivity. Qed.
Lemma is_nsdecl_spec : forall a, ra_loc a <> [] ->
  sp_decl_of (sp_of a) = if is_nsdecl a then [(match ra_pfx a with [] => [] | _ => ra_loc a end, ra_nval a)] else [].
Proof.
  intros a Hl. unfold sp_decl_of, sp_of, is_nsdecl. cbn [spa_pfx spa_loc spa_val].
  destruct (ra_pfx a) as [|c0 p0] eqn:Ep.
  - cbn [name_eqb]. destruct (name_eqb (ra_loc a) s_xmlns); reflexivity.
  - destruct (name_eqb (c0 :: p0) s_xmlns); reflexivity.
Qed.

Section View.
Variables (c : cfg) (front : bool) (V : scan -> list (list (name * nat)) -> Prop).
Hypothesis SV : stack_view c front V.

Lemma scan_inv_init : forall v11, scan_inv V v11 scan_init [].
Proof. intros v11. exists []. split; [exact (sv_init _ _ _ SV)|apply uris_inv_init]. Qed.

Lemma st_map_rows : forall s rows p, scan_inv V (c_v11 c) s rows -> name_eqb p s_xml = false -> name_eqb p s_xmlns = false ->
  match nearest rows p with
  | Some t => exists u, st_map c s p = (u, false) /\ 1 <= u <= length (sc_uris s) /\ pool_value (sc_uris s) u = t
  | None => st_map c s p = match p with [] => (emptyId, false) | _ => (unknownId, true) end
  end.
Proof.
  intros s rows p (rid & HI & HU) N1 N2. destruct (uris_inv_found _ _ _ _ p HU) as [Hn Hu].
  rewrite (sv_map _ _ _ SV s rid p HI), Hn. unfold map_spec. rewrite N1, N2.
  destruct (nearest rid p) as [u|]; cbn [option_map map_answer]; [|destruct p; reflexivity].
  exists u. split; [reflexivity|]. split; [exact (Hu u eq_refl)|reflexivity].
Qed.

Lemma resolvePrefix_spec : forall s rows p mode, scan_inv V (c_v11 c) s rows ->
  match resolvePrefix c s p mode with
  | Ok u => res_ok (sc_uris s) u (ns_of mode rows p)
  | Err e => e = E_UnknownPrefix /\ ns_of mode rows p = NsUnbound
  end.
Proof.
  intros s rows p mode HS. pose proof HS as (rid & _ & HU). destruct (uris_inv_pool _ _ _ _ HU) as [Hok Hpre].
  pose proof (uris_inv_legal _ _ _ _ HU) as Hleg.
  destruct (res_ok_reserved _ Hpre) as (Rempty & Rxml & Rxmlns).
  unfold resolvePrefix. destruct p as [|ch p'].
  - destruct mode; cbn [ns_of]; [exact Rempty|].
    pose proof (st_map_rows s rows [] HS eq_refl eq_refl) as M. unfold elem_ns, inscope. cbn [name_eqb].
    destruct (nearest rows []) as [t|]; [|rewrite M; exact Rempty].
    destruct M as (u & -> & Hu & Hv). unfold res_ok. destruct t; (split; [exact Hu|]); [exact Hv|]. split; [exact Hv|discriminate].
  - set (p := ch :: p') in *.
    assert (Hmode : ns_of mode rows p = match inscope rows p with Some u => NsIn u | None => NsUnbound end).
    { unfold ns_of, attr_ns, elem_ns, p. destruct mode; reflexivity. }
    rewrite Hmode. clear Hmode.
    destruct (name_eqb p s_xmlns) eqn:N2.
    + apply name_eqb_eq in N2. rewrite N2, inscope_xmlns. exact Rxmlns.
    + destruct (name_eqb p s_xml) eqn:N1.
      * apply name_eqb_eq in N1. rewrite N1, inscope_xml. exact Rxml.
      * pose proof (st_map_rows s rows p HS N1 N2) as M. unfold inscope. rewrite N1, N2.
        destruct (nearest rows p) as [t|] eqn:En; [|rewrite M; split; reflexivity].
        destruct M as (u & -> & Hu & Hv). rewrite (empty_id_text _ u Hok Hpre Hu), Hv.
        destruct t as [|c0 l]; cbn [name_eqb].
        -- destruct (c_v11 c) eqn:Ev11; cbn [andb]; [split; reflexivity|].
           exfalso. (* a prefix bound to "" cannot be in a 1.0 scope: such a declaration is illegal *)
           pose proof (found_legal _ rows p [] Hleg En) as Hl. unfold decl_legal in Hl. rewrite N2, N1 in Hl. discriminate.
        -- rewrite andb_false_r. unfold res_ok. split; [exact Hu|]. split; [exact Hv|discriminate].
Qed.

Lemma st_addPrefix_inv : forall s ds rows p v, scan_inv V (c_v11 c) s (ds :: rows) -> decl_legal (c_v11 c) (p, v) = true ->
  exists s', st_addPrefix c s p v = Ok s' /\ scan_inv V (c_v11 c) s' (add_decls front [(p, v)] ds :: rows) /\
             exists q, sc_uris s' = sc_uris s ++ q.
Proof.
  intros s ds rows p v (rid & HI & HU) Hl. destruct (uris_inv_pop _ _ _ _ _ HU) as (rd & rr & -> & _).
  destruct (addOrFind_spec (sc_uris s) v) as (q & uid & Ea & Hrange & Hv & Hok').
  destruct (sv_decl _ _ _ SV s rd rr p v _ uid Ea HI) as (s' & E & HI' & U).
  exists s'. split; [exact E|]. split; [|exists q; exact U].
  exists (add_decls front [(p, uid)] rd :: rr). rewrite U. split; [exact HI'|].
  apply uris_inv_decl; [exact HU|exact Hl|exact (Hok' (proj1 (uris_inv_pool _ _ _ _ HU)))|exact Hrange|exact Hv].
Qed.
Lemma st_addLevel_inv : forall s rows, scan_inv V (c_v11 c) s rows ->
  exists s', st_addLevel c s = Ok s' /\ scan_inv V (c_v11 c) s' ([] :: rows) /\ sc_uris s' = sc_uris s.
Proof.
  intros s rows (rid & HI & HU). destruct (sv_push _ _ _ SV s rid HI) as (s' & E & HI' & U).
  exists s'. split; [exact E|]. split; [|exact U]. exists ([] :: rid). rewrite U. split; [exact HI'|apply uris_inv_push; exact HU].
Qed.
Lemma st_pop_inv : forall s ds rows, scan_inv V (c_v11 c) s (ds :: rows) ->
  exists uri pfx loc s', st_pop c s = Ok (uri, pfx, loc, s') /\ scan_inv V (c_v11 c) s' rows /\ sc_uris s' = sc_uris s.
Proof.
  intros s ds rows (rid & HI & HU). destruct (uris_inv_pop _ _ _ _ _ HU) as (rd & rr & -> & HU').
  destruct (sv_pop _ _ _ SV s rd rr HI) as (uri & pfx & loc & s' & E & HI' & U).
  exists uri, pfx, loc, s'. split; [exact E|]. split; [|exact U]. exists rr. rewrite U. split; [exact HI'|exact HU'].
Qed.
Lemma st_setTop_inv : forall s rows uri pfx loc, scan_inv V (c_v11 c) s rows ->
  scan_inv V (c_v11 c) (st_setTop c s uri pfx loc) rows /\ sc_uris (st_setTop c s uri pfx loc) = sc_uris s.
Proof.
  intros s rows uri pfx loc (rid & HI & HU). destruct (sv_setTop _ _ _ SV s rid uri pfx loc HI) as [HI' U].
  split; [|exact U]. exists rid. rewrite U. split; [exact HI'|exact HU].
Qed.

Lemma updateNSMap_spec : forall s ds rows a, scan_inv V (c_v11 c) s (ds :: rows) -> ra_loc a <> [] -> is_nsdecl a = true ->
  match updateNSMap c s a with
  | Ok s' => forallb (decl_legal (c_v11 c)) (sp_decl_of (sp_of a)) = true /\
             scan_inv V (c_v11 c) s' (add_decls front (sp_decl_of (sp_of a)) ds :: rows) /\ exists q, sc_uris s' = sc_uris s ++ q
  | Err e => ns_error e = true /\ forallb (decl_legal (c_v11 c)) (sp_decl_of (sp_of a)) = false
  end.
Proof.
  intros s ds rows a HS Hl Hd. rewrite (is_nsdecl_spec a Hl), Hd. unfold updateNSMap.
  set (colon := match ra_pfx a with [] => false | _ => true end).
  set (pp := if colon then ra_loc a else []).
  assert (Epp : match ra_pfx a with [] => [] | _ => ra_loc a end = pp).
  { unfold pp, colon. destruct (ra_pfx a); reflexivity. }
  rewrite Epp.
  assert (H1 : colon = true -> pp <> []) by (unfold pp; intros ->; exact Hl).
  assert (H2 : colon = false -> pp = []) by (unfold pp; intros ->; reflexivity).
  pose proof (nsmap_check_legal (c_v11 c) colon pp (ra_nval a) H1 H2) as K. unfold bind at 1.
  destruct (nsmap_check (c_v11 c) colon pp (ra_nval a)) as [[]|e].
  - destruct (st_addPrefix_inv s ds rows pp (ra_nval a) HS K) as (s' & E & I' & Q). rewrite E.
    cbn [forallb]. rewrite K. split; [reflexivity|]. split; [exact I'|exact Q].
  - destruct K as [K1 K2]. cbn [forallb]. rewrite K2. split; [exact K1|reflexivity].
Qed.

Lemma scanRaw_spec : forall attrs s ds rows, scan_inv V (c_v11 c) s (ds :: rows) -> Forall wf_attr attrs ->
  match scanRawAttrListforNameSpaces c s attrs with
  | Ok s' => forallb (decl_legal (c_v11 c)) (sp_decls (map sp_of attrs)) = true /\
             scan_inv V (c_v11 c) s' (add_decls front (sp_decls (map sp_of attrs)) ds :: rows) /\ exists q, sc_uris s' = sc_uris s ++ q
  | Err e => ns_error e = true /\ forallb (decl_legal (c_v11 c)) (sp_decls (map sp_of attrs)) = false
  end.
Proof.
  induction attrs as [|a r IH]; intros s ds rows HS Hwf; cbn [scanRawAttrListforNameSpaces map].
  - cbn [sp_decls flat_map]. rewrite add_decls_nil. split; [reflexivity|]. split; [exact HS|]. exists []. symmetry. apply app_nil_r.
  - pose proof (Forall_inv Hwf) as Ha. pose proof (Forall_inv_tail Hwf) as Hr.
    rewrite sp_decls_cons, forallb_app, add_decls_app. unfold bind at 1.
    destruct (is_nsdecl a) eqn:Ed.
    + pose proof (updateNSMap_spec s ds rows a HS Ha Ed) as U.
      destruct (updateNSMap c s a) as [s1|e].
      * destruct U as (L1 & I1 & [q1 Q1]). specialize (IH s1 _ rows I1 Hr).
        destruct (scanRawAttrListforNameSpaces c s1 r) as [s2|e2].
        -- destruct IH as (L2 & I2 & [q2 Q2]). rewrite L1, L2. split; [reflexivity|].
           split; [exact I2|]. exists (q1 ++ q2). rewrite Q2, Q1. rewrite app_assoc. reflexivity.
        -- destruct IH as [E1 E2]. rewrite E2. rewrite andb_false_r. split; [exact E1|reflexivity].
      * destruct U as [E1 E2]. rewrite E2. split; [exact E1|reflexivity].
    + assert (Hnil : sp_decl_of (sp_of a) = []) by (rewrite (is_nsdecl_spec a Ha), Ed; reflexivity).
      rewrite Hnil, add_decls_nil. cbn [forallb andb]. exact (IH s ds rows HS Hr).
Qed.
End View.

Lemma key_eqb_sym : forall a b, key_eqb a b = key_eqb b a.
Proof.
  intros [[x| |] n] [[y| |] m]; unfold key_eqb; cbn [fst snd]; try reflexivity.
  - rewrite (name_eqb_sym x y), (name_eqb_sym n m). reflexivity.
  - apply name_eqb_sym.
Qed.
(** [has_dup] as the scanners compute it: every key against the earlier ones [seen] *)
Fixpoint dup_lr (seen l : list (nsres * name)) : bool :=
  match l with
  | [] => false
  | k :: r => existsb (key_eqb k) seen || dup_lr (k :: seen) r
  end.
Lemma existsb_cons_seen : forall k seen r,
  existsb (fun k' => key_eqb k' k || existsb (key_eqb k') seen) r =
  existsb (key_eqb k) r || existsb (fun k' => existsb (key_eqb k') seen) r.
Proof.
  intros k seen r. induction r as [|x r IH]; cbn [existsb]; [reflexivity|].
  rewrite IH. rewrite (key_eqb_sym x k).
  destruct (key_eqb k x), (existsb (key_eqb x) seen), (existsb (key_eqb k) r),
           (existsb (fun k' => existsb (key_eqb k') seen) r); reflexivity.
Qed.
Lemma dup_lr_spec : forall l seen, dup_lr seen l = existsb (fun k => existsb (key_eqb k) seen) l || has_dup l.
Proof.
  induction l as [|k r IH]; intros seen; cbn [dup_lr has_dup]; [reflexivity|].
  rewrite IH.
  change (existsb (fun k0 => existsb (key_eqb k0) (k :: seen)) r)
    with (existsb (fun k0 => key_eqb k0 k || existsb (key_eqb k0) seen) r).
  rewrite existsb_cons_seen.
  change (existsb (fun k0 => existsb (key_eqb k0) seen) (k :: r))
    with (existsb (key_eqb k) seen || existsb (fun k0 => existsb (key_eqb k0) seen) r).
  destruct (existsb (key_eqb k) seen), (existsb (key_eqb k) r), (existsb (fun k' => existsb (key_eqb k') seen) r),
           (has_dup r); reflexivity.
Qed.
Lemma dup_lr_nil : forall l, dup_lr [] l = has_dup l.
Proof.
  intros l. rewrite dup_lr_spec. replace (existsb (fun k => existsb (key_eqb k) []) l) with false; [reflexivity|].
  induction l as [|k r IH]; cbn [existsb]; [reflexivity|]. exact IH.
Qed.

(** two ids of the URI pool are equal exactly when they denote the same namespace *)
Lemma res_ok_same : forall uris u1 r1 u2 r2 n1 n2, pool_ok uris -> res_ok uris u1 r1 -> res_ok uris u2 r2 ->
  (u1 =? u2) && name_eqb n1 n2 = key_eqb (r2, n2) (r1, n1).
Proof.
  intros uris u1 r1 u2 r2 n1 n2 Hok [H1 K1] [H2 K2].
  assert (Inj : (u1 =? u2) = name_eqb (pool_value uris u2) (pool_value uris u1)).
  { assert (G : pool_getId uris (pool_value uris u1) = u1).
    { unfold pool_value. rewrite (Hok (u1 - 1)) by lia. lia. }
    rewrite <- (id_eqb_name uris (pool_value uris u1) u2 Hok H2), G. apply Nat.eqb_sym. }
  unfold key_eqb. cbn [fst snd]. rewrite Inj. rewrite (name_eqb_sym n1 n2).
  destruct r1 as [t1| |]; destruct r2 as [t2| |]; try contradiction.
  - destruct K1 as [-> _], K2 as [-> _]. reflexivity.
  - destruct K1 as [-> N]. rewrite K2. destruct t1; [contradiction|reflexivity].
  - destruct K2 as [-> N]. rewrite K1. destruct t2; [contradiction|]. reflexivity.
  - rewrite K1, K2. reflexivity.
Qed.

Definition xkey_rel (uris : pool) (x : xattr) (k : nsres * name) : Prop := res_ok uris (xa_uri x) (fst k) /\ xa_loc x = snd k.

Lemma same_expanded_keys : forall uris done seen u r loc, pool_ok uris -> Forall2 (xkey_rel uris) done seen ->
  res_ok uris u r -> existsb (same_expanded u loc) done = existsb (key_eqb (r, loc)) seen.
Proof.
  intros uris done seen u r loc Hok H Hr. induction H as [|x k done seen [Hx Hl] Hrest IH]; [reflexivity|].
  cbn [existsb]. rewrite IH. f_equal. unfold same_expanded. rewrite Hl.
  destruct k as [rk nk]. cbn [fst snd] in *. rewrite (res_ok_same uris (xa_uri x) rk u r nk loc Hok Hx Hr). reflexivity.
Qed.

Lemma colon_split_inj : forall p1 l1 p2 l2, ncname p1 -> ncname p2 ->
  p1 ++ 58%N :: l1 = p2 ++ 58%N :: l2 -> p1 = p2 /\ l1 = l2.
Proof.
  induction p1 as [|a p1 IH]; intros l1 p2 l2 H1 H2 E.
  - destruct p2 as [|b p2]; cbn [app] in E.
    + injection E as ->. split; reflexivity.
    + injection E as <- _. exfalso. apply H2. left. reflexivity.
  - destruct p2 as [|b p2]; cbn [app] in E.
    + injection E as -> _. exfalso. apply H1. left. reflexivity.
    + injection E as -> E. destruct (IH l1 p2 l2) as [-> ->]; [| |exact E|split; reflexivity].
      * intros K. apply H1. right. exact K.
      * intros K. apply H2. right. exact K.
Qed.
Lemma qname_of_inj : forall p1 l1 p2 l2, ncname p1 -> ncname p2 -> ncname l1 -> ncname l2 ->
  qname_of p1 l1 = qname_of p2 l2 -> p1 = p2 /\ l1 = l2.
Proof.
  intros p1 l1 p2 l2 H1 H2 H3 H4 E. unfold qname_of in E.
  destruct p1 as [|a p1]; destruct p2 as [|b p2].
  - split; [reflexivity|exact E].
  - exfalso. apply H3. rewrite E. apply in_or_app. right. left. reflexivity.
  - exfalso. apply H4. rewrite <- E. apply in_or_app. right. left. reflexivity.
  - cbn [app] in E. apply (colon_split_inj (a :: p1) l1 (b :: p2) l2 H1 H2). exact E.
Qed.

Definition triple_x (x : xattr) := (xa_pfx x, xa_loc x, xa_val x).
Definition triple_a (a : rattr) := (ra_pfx a, ra_loc a, ra_nval a).

Definition resolved (u : nat) (a : rattr) : xattr := mkXAttr u (ra_pfx a) (ra_loc a) (ra_nval a).
Fixpoint resolve_all (c : cfg) (s : scan) (attrs : list rattr) : res (list xattr) xerr :=
  match attrs with
  | [] => Ok []
  | a :: r => do u <- attr_uri c s (ra_pfx a); do xs <- resolve_all c s r; Ok (resolved u a :: xs)
  end.
Definition raw_name (a : rattr) : name := qname_of (ra_pfx a) (ra_loc a).
Definition built_raw_name (x : xattr) : name := qname_of (xa_pfx x) (xa_loc x).
Fixpoint rawdup (seen : list name) (attrs : list rattr) : bool :=
  match attrs with
  | [] => false
  | a :: r => existsb (fun q => name_eqb q (raw_name a)) seen || rawdup (raw_name a :: seen) r
  end.

Lemma attr_uri_eq : forall c s p, attr_uri c s p = resolvePrefix c s p true.
Proof. intros c s [|ch p]; reflexivity. Qed.

Definition built_rel (uris : pool) (rows : list (list decl)) (x : xattr) (a : rattr) : Prop :=
  xa_pfx x = ra_pfx a /\ xa_loc x = ra_loc a /\ xa_val x = ra_nval a /\ res_ok uris (xa_uri x) (attr_ns rows (ra_pfx a)).

Lemma ncname_wf : forall attrs, Forall ncname_attr attrs -> Forall wf_attr attrs.
Proof. intros attrs H. eapply Forall_impl; [|exact H]. intros a (_ & _ & K). exact K. Qed.

Lemma res_ok_not_unbound : forall uris u r, res_ok uris u r -> is_unbound r = false.
Proof. intros uris u [t| |] [_ H]; [reflexivity|reflexivity|contradiction]. Qed.
Lemma built_facts : forall uris rows xs attrs, Forall2 (built_rel uris rows) xs attrs ->
  existsb is_unbound (map (fun a => attr_ns rows (ra_pfx a)) attrs) = false /\
  Forall2 (fun x r => res_ok uris (xa_uri x) r) xs (map (fun a => attr_ns rows (ra_pfx a)) attrs) /\
  map triple_x xs = map triple_a attrs.
Proof.
  intros uris rows xs attrs F. induction F as [|x a xs0 as0 (A & B & C & Hr) _ (IH1 & IH2 & IH3)]; cbn [map existsb].
  - split; [reflexivity|]. split; [constructor|reflexivity].
  - split; [rewrite (res_ok_not_unbound _ _ _ Hr); exact IH1|]. split; [constructor; [exact Hr|exact IH2]|].
    rewrite IH3. unfold triple_x, triple_a. rewrite A, B, C. reflexivity.
Qed.
Lemma key_eqb_refl : forall r n, is_unbound r = false -> key_eqb (r, n) (r, n) = true.
Proof. intros [u| |] n H; unfold key_eqb; cbn [fst snd]; try discriminate; rewrite !name_eqb_refl; reflexivity. Qed.
(** a raw-name duplicate is a duplicate of the expanded name (or the name is unbound) *)
Lemma rawdup_dup : forall rows attrs seen, Forall ncname_attr seen -> Forall ncname_attr attrs ->
  rawdup (map raw_name seen) attrs = true ->
  existsb is_unbound (map (fun a => attr_ns rows (ra_pfx a)) attrs) = true \/
  dup_lr (map (fun a => (attr_ns rows (ra_pfx a), ra_loc a)) seen) (map (fun a => (attr_ns rows (ra_pfx a), ra_loc a)) attrs) = true.
Proof.
  intros rows attrs. induction attrs as [|a r IH]; intros seen Hs Ha H; cbn [rawdup] in H; [discriminate|].
  destruct (Forall_inv Ha) as (Na1 & Na2 & _). pose proof (Forall_inv_tail Ha) as Hr. cbn [map existsb dup_lr].
  destruct (is_unbound (attr_ns rows (ra_pfx a))) eqn:Eu; [left; reflexivity|]. cbn [orb].
  apply orb_true_iff in H. destruct H as [H|H].
  - right. rewrite existsb_map in H. apply existsb_exists in H. destruct H as (x & Hx & Ex). apply name_eqb_eq in Ex. unfold raw_name in Ex.
    rewrite Forall_forall in Hs. destruct (Hs x Hx) as (X1 & X2 & _).
    destruct (qname_of_inj _ _ _ _ X1 Na1 X2 Na2 Ex) as [P1 P2].
    rewrite existsb_map. replace (existsb _ seen) with true; [reflexivity|]. symmetry. apply existsb_exists.
    exists x. split; [exact Hx|]. rewrite P1, P2. apply key_eqb_refl. exact Eu.
  - destruct (IH (a :: seen) (Forall_cons _ (Forall_inv Ha) Hs) Hr H) as [K|K].
    + left. exact K.
    + right. cbn [map] in K. rewrite K. apply orb_true_r.
Qed.

Lemma wf_dup_hashed_spec : forall uris xs keys seen seenk, pool_ok uris -> Forall2 (xkey_rel uris) xs keys ->
  Forall2 (xkey_rel uris) seen seenk -> wf_dup_hashed xs seen = dup_lr seenk keys.
Proof.
  intros uris xs keys seen seenk Hok F. revert seen seenk.
  induction F as [|x [rk nk] xs0 ks0 [Hx Hl] Hr IH]; intros seen seenk Hs; [reflexivity|]. cbn [fst snd] in Hx, Hl.
  cbn [wf_dup_hashed dup_lr]. rewrite (IH (x :: seen) ((rk, nk) :: seenk)) by (constructor; [split; assumption|exact Hs]).
  rewrite Hl, (same_expanded_keys uris seen seenk _ _ nk Hok Hs Hx). reflexivity.
Qed.
Lemma built_keys : forall uris L xs attrs, Forall2 (built_rel uris L) xs attrs ->
  Forall2 (xkey_rel uris) xs (map (fun a => (attr_ns L (ra_pfx a), ra_loc a)) attrs).
Proof.
  intros uris L xs attrs F. induction F as [|x a xs0 as0 (_ & Hl & _ & Hr) _ IH]; [constructor|]. cbn [map].
  constructor; [|exact IH]. split; [exact Hr|exact Hl].
Qed.

Section Attrs.
Variables (c : cfg) (front : bool) (V : scan -> list (list (name * nat)) -> Prop).
Hypothesis SV : stack_view c front V.

Lemma attrs_spec : forall s L attrs, scan_inv V (c_v11 c) s L ->
  match resolve_all c s attrs with
  | Ok xs => Forall2 (built_rel (sc_uris s) L) xs attrs /\
             wf_dup_hashed xs [] = has_dup (map (fun a => (attr_ns L (ra_pfx a), ra_loc a)) attrs) /\
             (Forall ncname_attr attrs -> rawdup [] attrs = true ->
              has_dup (map (fun a => (attr_ns L (ra_pfx a), ra_loc a)) attrs) = true)
  | Err e => ns_error e = true /\ existsb is_unbound (map (fun a => attr_ns L (ra_pfx a)) attrs) = true
  end.
Proof.
  intros s L attrs HS.
  assert (R : match resolve_all c s attrs with
              | Ok xs => Forall2 (built_rel (sc_uris s) L) xs attrs
              | Err e => ns_error e = true /\ existsb is_unbound (map (fun a => attr_ns L (ra_pfx a)) attrs) = true
              end).
  { induction attrs as [|a r IH]; cbn [resolve_all map existsb]; [constructor|]. unfold bind. rewrite attr_uri_eq.
    pose proof (resolvePrefix_spec c front V SV s L (ra_pfx a) true HS) as P. cbn [ns_of] in P.
    destruct (resolvePrefix c s (ra_pfx a) true) as [u|e]; [|destruct P as [-> P]; rewrite P; split; reflexivity].
    destruct (resolve_all c s r) as [xs|e].
    - constructor; [|exact IH]. split; [reflexivity|]. split; [reflexivity|]. split; [reflexivity|exact P].
    - destruct IH as [I1 I2]. split; [exact I1|]. rewrite I2. apply orb_true_r. }
  destruct (resolve_all c s attrs) as [xs|e]; [|exact R]. split; [exact R|].
  assert (Hok : pool_ok (sc_uris s)) by (destruct HS as (rid & _ & HU); exact (proj1 (uris_inv_pool _ _ _ _ HU))).
  split; [rewrite (wf_dup_hashed_spec _ xs _ [] [] Hok (built_keys _ _ _ _ R) (Forall2_nil _)); apply dup_lr_nil|].
  intros Hnc Hraw. destruct (rawdup_dup L attrs [] (Forall_nil _) Hnc Hraw) as [K|K].
  - rewrite (proj1 (built_facts _ _ _ _ R)) in K. discriminate.
  - cbn [map] in K. rewrite dup_lr_nil in K. exact K.
Qed.
End Attrs.

Lemma combine_map : forall (A B C : Type) (f : A -> B) (g : A -> C) l, combine (map f l) (map g l) = map (fun a => (f a, g a)) l.
Proof. intros. induction l as [|a l IH]; cbn; [reflexivity|]. rewrite IH. reflexivity. Qed.
(** [sp_tag], names being resolved in a scope [Sc] that has the declarations [ds] of the tag *)
Definition sp_tag_in (v : bool) (ds : list decl) (Sc : list (list decl)) (pfx : name) (attrs : list rattr)
  : option (nsres * list nsres) :=
  if forallb (decl_legal v) ds && negb (is_unbound (elem_ns Sc pfx)) &&
     negb (existsb is_unbound (map (fun a => attr_ns Sc (ra_pfx a)) attrs)) &&
     negb (has_dup (map (fun a => (attr_ns Sc (ra_pfx a), ra_loc a)) attrs))
  then Some (elem_ns Sc pfx, map (fun a => attr_ns Sc (ra_pfx a)) attrs) else None.
Lemma sp_tag_raw : forall v rows pfx attrs,
  sp_tag v rows pfx (map sp_of attrs) = sp_tag_in v (sp_decls (map sp_of attrs)) (sp_decls (map sp_of attrs) :: rows) pfx attrs.
Proof.
  intros v rows pfx attrs. unfold sp_tag, sp_tag_in. rewrite !map_map. cbn [sp_of spa_pfx spa_loc].
  rewrite (combine_map _ _ _ (fun a => attr_ns _ (ra_pfx a)) (fun a => ra_loc a)). reflexivity.
Qed.
Lemma sp_tag_in_some : forall v ds Sc pfx attrs e ans, sp_tag_in v ds Sc pfx attrs = Some (e, ans) ->
  forallb (decl_legal v) ds = true /\ has_dup (map (fun a => (attr_ns Sc (ra_pfx a), ra_loc a)) attrs) = false /\
  e = elem_ns Sc pfx /\ ans = map (fun a => attr_ns Sc (ra_pfx a)) attrs.
Proof.
  intros v ds Sc pfx attrs e ans. unfold sp_tag_in. destruct (forallb (decl_legal v) ds); [|discriminate].
  destruct (is_unbound (elem_ns Sc pfx)); [discriminate|]. destruct (existsb is_unbound _); [discriminate|].
  destruct (has_dup _); [discriminate|]. cbn [andb negb]. intros [= <- <-]. repeat split.
Qed.
Lemma sp_tag_in_none : forall v ds Sc pfx attrs,
  forallb (decl_legal v) ds = false \/ is_unbound (elem_ns Sc pfx) = true \/
  existsb is_unbound (map (fun a => attr_ns Sc (ra_pfx a)) attrs) = true \/
  has_dup (map (fun a => (attr_ns Sc (ra_pfx a), ra_loc a)) attrs) = true -> sp_tag_in v ds Sc pfx attrs = None.
Proof.
  intros v ds Sc pfx attrs H. unfold sp_tag_in. destruct H as [H|[H|[H|H]]]; rewrite H; [reflexivity| | |].
  - destruct (forallb (decl_legal v) ds); reflexivity.
  - rewrite andb_false_r. reflexivity.
  - rewrite andb_false_r. reflexivity.
Qed.
(** the four ways in which the Spec rejects a tag *)
Lemma reject_illegal : forall v ds Sc pfx attrs, forallb (decl_legal v) ds = false -> sp_tag_in v ds Sc pfx attrs = None.
Proof. intros v ds Sc pfx attrs H. apply sp_tag_in_none. left. exact H. Qed.
Lemma reject_elem_unbound : forall v ds Sc pfx attrs, elem_ns Sc pfx = NsUnbound -> sp_tag_in v ds Sc pfx attrs = None.
Proof. intros v ds Sc pfx attrs H. apply sp_tag_in_none. right. left. rewrite H. reflexivity. Qed.
Lemma reject_attr_unbound : forall v ds Sc pfx attrs,
  existsb is_unbound (map (fun a => attr_ns Sc (ra_pfx a)) attrs) = true -> sp_tag_in v ds Sc pfx attrs = None.
Proof. intros v ds Sc pfx attrs H. apply sp_tag_in_none. right. right. left. exact H. Qed.
Lemma reject_dup : forall v ds Sc pfx attrs,
  has_dup (map (fun a => (attr_ns Sc (ra_pfx a), ra_loc a)) attrs) = true -> sp_tag_in v ds Sc pfx attrs = None.
Proof. intros v ds Sc pfx attrs H. apply sp_tag_in_none. right. right. right. exact H. Qed.
Lemma sp_tag_in_accept : forall v ds Sc pfx attrs,
  forallb (decl_legal v) ds = true -> is_unbound (elem_ns Sc pfx) = false ->
  existsb is_unbound (map (fun a => attr_ns Sc (ra_pfx a)) attrs) = false ->
  has_dup (map (fun a => (attr_ns Sc (ra_pfx a), ra_loc a)) attrs) = false ->
  sp_tag_in v ds Sc pfx attrs = Some (elem_ns Sc pfx, map (fun a => attr_ns Sc (ra_pfx a)) attrs).
Proof. intros v ds Sc pfx attrs H1 H2 H3 H4. unfold sp_tag_in. rewrite H1, H2, H3, H4. reflexivity. Qed.

(** (a rejection is the Spec's only for NCNames: with a colon inside a name two raw names can coincide without a duplicate) *)
Definition tag_post (v11 : bool) (J : scan -> list (list decl) -> Prop) (s : scan) (rows : list (list decl)) (pfx : name)
    (attrs : list rattr) (r : res (scan * nat * list xattr) xerr) : Prop :=
  match r with
  | Ok (s', uri, xs) =>
    exists e ans, sp_tag v11 rows pfx (map sp_of attrs) = Some (e, ans) /\
                  res_ok (sc_uris s') uri e /\ Forall2 (fun x r => res_ok (sc_uris s') (xa_uri x) r) xs ans /\
                  map triple_x xs = map triple_a attrs /\
                  J s' (sp_decls (map sp_of attrs) :: rows) /\ exists q, sc_uris s' = sc_uris s ++ q
  | Err e => ns_error e = true /\ (Forall ncname_attr attrs -> sp_tag v11 rows pfx (map sp_of attrs) = None)
  end.

Lemma tag_sound : forall v11 J s rows pfx attrs s' uri xs, tag_post v11 J s rows pfx attrs (Ok (s', uri, xs)) ->
  exists e ans, sp_tag v11 rows pfx (map sp_of attrs) = Some (e, ans) /\
                res_ok (sc_uris s') uri e /\ Forall2 (fun x r => res_ok (sc_uris s') (xa_uri x) r) xs ans /\
                map triple_x xs = map triple_a attrs /\ J s' (sp_decls (map sp_of attrs) :: rows).
Proof.
  intros v11 J s rows pfx attrs s' uri xs (e & ans & K1 & K2 & K3 & K4 & K5 & _). exists e, ans.
  split; [exact K1|]. split; [exact K2|]. split; [exact K3|]. split; [exact K4|exact K5].
Qed.
Lemma tag_rejects : forall v11 J s rows pfx attrs r, tag_post v11 J s rows pfx attrs r ->
  sp_tag v11 rows pfx (map sp_of attrs) = None -> exists e, r = Err e /\ ns_error e = true.
Proof.
  intros v11 J s rows pfx attrs [[[s' uri] xs]|e] K H.
  - destruct K as (e & ans & K & _). congruence.
  - exists e. split; [reflexivity|exact (proj1 K)].
Qed.
Lemma tag_complete : forall v11 J s rows pfx attrs r e ans, tag_post v11 J s rows pfx attrs r -> Forall ncname_attr attrs ->
  sp_tag v11 rows pfx (map sp_of attrs) = Some (e, ans) -> exists s' uri xs, r = Ok (s', uri, xs).
Proof.
  intros v11 J s rows pfx attrs [[[s' uri] xs]|e0] e ans K Hnc Hsp.
  - eexists _, _, _. reflexivity.
  - rewrite (proj2 K Hnc) in Hsp. discriminate.
Qed.

Lemma nonwf_case : forall c (A : Type) (x y : A), nonwf c -> match c_scanner c with WF => x | _ => y end = y.
Proof. intros c A x y H. unfold nonwf in H. destruct (c_scanner c); [reflexivity|contradiction|reflexivity]. Qed.
Lemma nearest_nil_row : forall (U : Type) (rows : list (list (name * U))) p, nearest (rows ++ [[]]) p = nearest rows p.
Proof. intros U rows p. rewrite <- !nearest_concat, concat_app. cbn [concat]. rewrite !app_nil_r. reflexivity. Qed.

Lemma es_view : forall c, nonwf c -> stack_view c false es_rows.
Proof.
  intros c Hc. constructor.
  - exact inv_init.
  - (* the scanners never call addGlobalPrefix: the global row stays empty *)
    intros s rid p HI. unfold st_map. rewrite (nonwf_case c _ _ _ Hc), (mapPrefix_correct _ rid [] p HI).
    unfold map_spec. rewrite nearest_nil_row. reflexivity.
  - intros s rid HI. destruct (inv_addLevel _ rid [] HI) as (e' & He & HI'). exists (mkScan e' (sc_wf s) (sc_uris s)).
    unfold st_addLevel. rewrite (nonwf_case c _ _ _ Hc), He. split; [reflexivity|]. split; [exact HI'|reflexivity].
  - intros s rd rid HI. destruct (inv_popTop _ rd rid [] HI) as (r & e' & He & HI').
    exists (r_uri r), (r_pfx r), (r_loc r), (mkScan e' (sc_wf s) (sc_uris s)).
    unfold st_pop. rewrite (nonwf_case c _ _ _ Hc), He. split; [reflexivity|]. split; [exact HI'|reflexivity].
  - intros s rid uri pfx loc HI. unfold st_setTop. rewrite (nonwf_case c _ _ _ Hc). split; [|reflexivity].
    apply inv_setTop. exact HI.
  - intros s rd rid p v up uid Ea HI. destruct (inv_addPrefix _ rd rid [] p uid HI) as (e' & He & HI').
    exists (mkScan e' (sc_wf s) up). unfold st_addPrefix. rewrite Ea, (nonwf_case c _ _ _ Hc), He.
    split; [reflexivity|]. split; [exact HI'|reflexivity].
Qed.

Lemma sinvr_uris_ext : forall v s rows, SInvR v s rows -> True.
Proof. intros. exact I. Qed.

(** [wf_dup_hashed] is the model's function for "an expanded name among the earlier ones", whichever scanner asks *)
Lemma build_parts : forall c s attrs done,
  match buildAttList c s attrs done with
  | Ok xs => exists new, resolve_all c s attrs = Ok new /\ xs = rev done ++ new /\
             rawdup (map built_raw_name done) attrs = false /\ wf_dup_hashed new done = false
  | Err e => resolve_all c s attrs = Err e \/
             (e = E_AttrAlreadyUsedInSTag /\
              forall new, resolve_all c s attrs = Ok new -> rawdup (map built_raw_name done) attrs = true \/ wf_dup_hashed new done = true)
  end.
Proof.
  intros c s attrs. induction attrs as [|a r IH]; intros done; cbn [buildAttList resolve_all rawdup].
  - exists []. rewrite app_nil_r. repeat split.
  - unfold bind. destruct (attr_uri c s (ra_pfx a)) as [u|e]; [|left; reflexivity].
    rewrite (existsb_map _ _ (fun q => name_eqb q (raw_name a)) built_raw_name). fold (raw_name a). unfold built_raw_name at 1.
    destruct (existsb _ done) eqn:Eq.
    { right. split; [reflexivity|]. intros new _. left. reflexivity. }
    destruct (existsb (same_expanded u (ra_loc a)) done) eqn:Ed.
    { right. split; [reflexivity|]. intros new Hn. right. destruct (resolve_all c s r); [|discriminate].
      injection Hn as <-. cbn [wf_dup_hashed resolved xa_uri xa_loc]. rewrite Ed. reflexivity. }
    specialize (IH (resolved u a :: done)). fold (resolved u a). cbn [orb].
    destruct (buildAttList c s r (resolved u a :: done)) as [xs|e].
    + destruct IH as (new & Rn & -> & Hr & Hh). exists (resolved u a :: new). rewrite Rn.
      split; [reflexivity|]. split; [cbn [rev]; rewrite <- app_assoc; reflexivity|]. split; [exact Hr|].
      cbn [wf_dup_hashed resolved xa_uri xa_loc]. rewrite Ed. exact Hh.
    + destruct IH as [IH|[-> IH]]; [left; rewrite IH; reflexivity|]. right. split; [reflexivity|].
      intros new Hn. destruct (resolve_all c s r) as [new'|]; [|discriminate]. injection Hn as <-.
      cbn [wf_dup_hashed resolved xa_uri xa_loc]. rewrite Ed. exact (IH new' eq_refl).
Qed.

Lemma startTag_spec : forall c s rows pfx loc attrs, nonwf c -> SInvR (c_v11 c) s rows -> Forall wf_attr attrs ->
  tag_post (c_v11 c) (SInvR (c_v11 c)) s rows pfx attrs (startTag c s pfx loc attrs).
Proof.
  intros c s rows pfx loc attrs Hc HS Hwf. apply sinvr_scan_inv in HS. unfold startTag. rewrite (nonwf_case c _ _ _ Hc).
  unfold ig_startTag, bind, tag_post. rewrite sp_tag_raw.
  set (ds := sp_decls (map sp_of attrs)). set (Sc := ds :: rows).
  destruct (st_addLevel_inv _ _ _ (es_view c Hc) s rows HS) as (s1 & E1 & I1 & U1). rewrite E1.
  pose proof (scanRaw_spec _ _ _ (es_view c Hc) attrs s1 [] rows I1 Hwf) as R. fold ds in R. cbn [add_decls app] in R. fold Sc in R.
  destruct (scanRawAttrListforNameSpaces c s1 attrs) as [s2|e].
  2:{ destruct R as [R1 R2]. split; [exact R1|]. intros _. apply reject_illegal. exact R2. }
  destruct R as (L & I2 & Q2). rewrite U1 in Q2.
  pose proof (resolvePrefix_spec _ _ _ (es_view c Hc) s2 Sc pfx false I2) as P. cbn [ns_of] in P.
  destruct (resolvePrefix c s2 pfx false) as [uri|e].
  2:{ destruct P as [-> P]. split; [reflexivity|]. intros _. apply reject_elem_unbound. exact P. }
  pose proof (build_parts c s2 attrs []) as B. pose proof (attrs_spec _ _ _ (es_view c Hc) s2 Sc attrs I2) as A.
  destruct (buildAttList c s2 attrs []) as [xs|e].
  2:{ (* buildAttList fails where resolve_all fails (an unbound prefix) or on a raw-name or expanded-name duplicate (for the
         Spec both are two attributes of one expanded name) *)
      destruct B as [B|[-> B]].
      - rewrite B in A. destruct A as [A1 A2]. split; [exact A1|]. intros _. apply reject_attr_unbound. exact A2.
      - split; [reflexivity|]. intros Hnc.
        destruct (resolve_all c s2 attrs) as [new|e]; [|apply reject_attr_unbound; exact (proj2 A)]. destruct A as (_ & Ah & Ar).
        apply reject_dup. destruct (B new eq_refl) as [K|K]; [exact (Ar Hnc K)|rewrite <- Ah; exact K]. }
  destruct B as (new & Rn & En & _ & Hh). cbn [rev app] in En. subst new. rewrite Rn in A. destruct A as (F & Ah & _).
  rewrite Hh in Ah. symmetry in Ah.
  destruct (st_setTop_inv _ _ _ (es_view c Hc) s2 Sc uri pfx loc I2) as [I3 U3]. rewrite U3.
  destruct (built_facts _ _ _ _ F) as (B1 & B2 & B3).
  exists (elem_ns Sc pfx), (map (fun a => attr_ns Sc (ra_pfx a)) attrs).
  split; [exact (sp_tag_in_accept _ _ _ _ _ L (res_ok_not_unbound _ _ _ P) B1 Ah)|].
  split; [exact P|]. split; [exact B2|]. split; [exact B3|].
  split; [apply sinvr_scan_inv; exact I3|exact Q2].
Qed.

Lemma sinvr_init : forall v11, SInvR v11 scan_init [].
Proof. intros v11. apply sinvr_scan_inv. exact (scan_inv_init _ _ _ (es_view (mkCfg IG v11) I) v11). Qed.
Lemma sinvr_pop : forall c s ds rows, nonwf c -> SInvR (c_v11 c) s (ds :: rows) ->
  exists uri pfx loc s', st_pop c s = Ok (uri, pfx, loc, s') /\ SInvR (c_v11 c) s' rows /\ sc_uris s' = sc_uris s.
Proof.
  intros c s ds rows Hc HS. apply sinvr_scan_inv in HS.
  destruct (st_pop_inv _ _ _ (es_view c Hc) s ds rows HS) as (uri & pfx & loc & s' & E & I' & U).
  exists uri, pfx, loc, s'. split; [exact E|]. split; [apply sinvr_scan_inv; exact I'|exact U].
Qed.

Lemma uri_xml_neq_xmlns : name_eqb uri_xml uri_xmlns = false.
Proof. reflexivity. Qed.
Lemma updateNSMap_error_cases : forall c s (p u : name),
  updateNSMap c s (mkRAttr s_xmlns s_xmlns u) = Err E_NoUseOfxmlnsAsPrefix /\
  (norm_raw u <> uri_xml -> updateNSMap c s (mkRAttr s_xmlns s_xml u) = Err E_PrefixXMLNotMatchXMLURI) /\
  (c_v11 c = false -> p <> s_xmlns -> p <> s_xml -> updateNSMap c s (mkRAttr s_xmlns p []) = Err E_NoEmptyStrNamespace) /\
  (p <> s_xmlns -> p <> s_xml -> updateNSMap c s (mkRAttr s_xmlns p uri_xmlns) = Err E_NoUseOfxmlnsURI) /\
  (p <> s_xmlns -> p <> s_xml -> updateNSMap c s (mkRAttr s_xmlns p uri_xml) = Err E_XMLURINotMatchXMLPrefix) /\
  updateNSMap c s (mkRAttr [] s_xmlns uri_xmlns) = Err E_NoUseOfxmlnsURI /\
  updateNSMap c s (mkRAttr [] s_xmlns uri_xml) = Err E_XMLURINotMatchXMLPrefix.
Proof.
  intros c s p u.
  assert (Pfx : forall loc v nv e, norm_raw v = nv -> nsmap_check (c_v11 c) true loc nv = Err e ->
                updateNSMap c s (mkRAttr s_xmlns loc v) = Err e).
  { intros loc v nv e <- H. unfold updateNSMap. cbv beta iota zeta delta [ra_pfx ra_loc ra_val ra_nval s_xmlns]. rewrite H. reflexivity. }
  assert (Dft : forall v nv e, norm_raw v = nv -> nsmap_check (c_v11 c) false [] nv = Err e ->
                updateNSMap c s (mkRAttr [] s_xmlns v) = Err e).
  { intros v nv e <- H. unfold updateNSMap. cbv beta iota zeta delta [ra_pfx ra_loc ra_val ra_nval]. rewrite H. reflexivity. }
  split; [|split; [|split; [|split; [|split; [|split]]]]].
  - apply (Pfx _ _ _ _ eq_refl). unfold nsmap_check, bind. rewrite name_eqb_refl. reflexivity.
  - intros Hu. apply name_eqb_neq in Hu. apply (Pfx _ _ _ _ eq_refl). unfold nsmap_check, bind.
    change (name_eqb s_xml s_xmlns) with false. rewrite name_eqb_refl, Hu. reflexivity.
  - intros Hv N1 N2. apply name_eqb_neq in N1, N2. apply (Pfx p [] [] _ eq_refl). unfold nsmap_check, bind.
    rewrite N1, N2, Hv. reflexivity.
  - intros N1 N2. apply name_eqb_neq in N1, N2. apply (Pfx p uri_xmlns uri_xmlns _ eq_refl). unfold nsmap_check, bind.
    rewrite N1, N2, name_eqb_refl. reflexivity.
  - intros N1 N2. apply name_eqb_neq in N1, N2. apply (Pfx p uri_xml uri_xml _ eq_refl). unfold nsmap_check, bind.
    rewrite N1, N2, uri_xml_neq_xmlns, name_eqb_refl. reflexivity.
  - apply (Dft uri_xmlns uri_xmlns _ eq_refl). unfold nsmap_check, bind. rewrite name_eqb_refl. reflexivity.
  - apply (Dft uri_xml uri_xml _ eq_refl). unfold nsmap_check, bind. rewrite uri_xml_neq_xmlns, name_eqb_refl. reflexivity.
Qed.
