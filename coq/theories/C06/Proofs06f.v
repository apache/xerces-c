(** T06_resolve at document level: for every well-nested token sequence the start-tag events the scanner delivers are,
    in order, exactly what the Spec ([sp_doc]) demands -- namespace of every element and attribute -- up to the first
    tag that violates a namespace constraint, where (and only where) the scan ends with a namespace error. *)
From XV Require Import Base.XDefs Gen.GenElemStack C06.Spec06 C06.Model06 C06.Proofs06a C06.Proofs06d.
From Coq Require Import Arith Lia.
Local Open Scope nat_scope.

Lemma res_ok_ext : forall uris q u r, res_ok uris u r -> res_ok (uris ++ q) u r.
Proof.
  intros uris q u r [H K]. split; [rewrite app_length; lia|]. rewrite pool_value_app by exact H. exact K.
Qed.
Lemma start_ok_ext : forall uris q d r, start_ok uris d r -> start_ok (uris ++ q) d r.
Proof.
  intros uris q d r [A B]. split; [apply res_ok_ext; exact A|].
  induction B; constructor; [apply res_ok_ext; assumption|assumption].
Qed.
Lemma starts_ext : forall uris q l l', Forall2 (start_ok uris) l l' -> Forall2 (start_ok (uris ++ q)) l l'.
Proof. intros uris q l l' H. induction H; constructor; [apply start_ok_ext; assumption|assumption]. Qed.

Lemma dev_starts_app : forall a b, dev_starts (a ++ b) = dev_starts a ++ dev_starts b.
Proof.
  induction a as [|e a IH]; intros b; [reflexivity|]. cbn [app dev_starts]. destruct e; cbn [app]; rewrite IH; reflexivity.
Qed.

(** [J s rows]: the scanner state [s] represents the declarations [rows] of the open elements *)
Section Doc.
Variables (c : cfg) (J : scan -> list (list decl) -> Prop).
Hypothesis J_init : J scan_init [].
Hypothesis J_tag : forall s rows pfx loc attrs, J s rows -> Forall wf_attr attrs ->
  tag_post (c_v11 c) J s rows pfx attrs (startTag c s pfx loc attrs).
Hypothesis J_pop : forall s ds rows, J s (ds :: rows) ->
  exists uri pfx loc s', st_pop c s = Ok (uri, pfx, loc, s') /\ J s' rows /\ sc_uris s' = sc_uris s.

Definition doc_post (s : scan) (rows : list (list decl)) (ts : list tok) (res : scan * list dev * option xerr) : Prop :=
  let '(s', devs, err) := res in
  (exists q, sc_uris s' = sc_uris s ++ q) /\
  Forall2 (start_ok (sc_uris s')) (dev_starts devs) (fst (sp_doc (c_v11 c) (map sp_tok_of ts) rows)) /\
  (snd (sp_doc (c_v11 c) (map sp_tok_of ts) rows) = true <-> err <> None) /\
  (forall e, err = Some e -> ns_error e = true).

Lemma doc_step : forall s rows t r s1 evs rows1 pre,
  scan_tok c s t = Ok (s1, evs) -> (exists q, sc_uris s1 = sc_uris s ++ q) ->
  Forall2 (start_ok (sc_uris s1)) (dev_starts evs) pre ->
  sp_doc (c_v11 c) (map sp_tok_of (t :: r)) rows =
    (pre ++ fst (sp_doc (c_v11 c) (map sp_tok_of r) rows1), snd (sp_doc (c_v11 c) (map sp_tok_of r) rows1)) ->
  doc_post s1 rows1 r (scan_toks c s1 r) -> doc_post s rows (t :: r) (scan_toks c s (t :: r)).
Proof.
  intros s rows t r s1 evs rows1 pre Et [q1 Q1] Hpre Hsp. cbn [scan_toks]. rewrite Et. unfold doc_post. rewrite Hsp.
  destruct (scan_toks c s1 r) as [[s3 evs3] e3]. intros ([q3 Q3] & F & B & E). cbn [fst snd].
  split; [exists (q1 ++ q3); rewrite Q3, Q1, app_assoc; reflexivity|]. split; [|split; [exact B|exact E]].
  rewrite dev_starts_app. apply Forall2_app; [|exact F]. rewrite Q3. apply starts_ext. exact Hpre.
Qed.

Lemma doc_resolve : forall ts s rows, J s rows -> toks_nc ts -> toks_nested ts (length rows) = true ->
  doc_post s rows ts (scan_toks c s ts).
Proof.
  induction ts as [|t r IH]; intros s rows HS Hnc Hnest.
  - cbn. split; [exists []; symmetry; apply app_nil_r|]. split; [constructor|].
    split; [split; [discriminate|congruence]|discriminate].
  - pose proof (Forall_inv Hnc) as Ht. pose proof (Forall_inv_tail Hnc) as Hr.
    assert (Hsame : exists q, sc_uris s = sc_uris s ++ q) by (exists []; symmetry; apply app_nil_r).
    (* [toks_nc] admits no start tag with DTD defaults (TStartD): [Ht] is False there *)
    destruct t as [pfx loc attrs empty| | | |p0 l0 a0 d0 e0]; [| | | |contradiction]; cbn [toks_nested] in Hnest.
    + pose proof (J_tag s rows pfx loc attrs HS (ncname_wf _ Ht)) as K.
      destruct (startTag c s pfx loc attrs) as [[[s1 uri] xs]|e0] eqn:Est.
      * destruct K as (en & ans & Hsp & Re & Ra & _ & I1 & Q1).
        set (rows1 := if empty then rows else sp_decls (map sp_of attrs) :: rows).
        assert (N : exists s2, scan_tok c s (TStart pfx loc attrs empty) = Ok (s2, [DStart uri pfx loc xs empty]) /\
                               J s2 rows1 /\ sc_uris s2 = sc_uris s1).
        { cbn [scan_tok]. unfold bind, rows1. rewrite Est. destruct empty; [|exists s1; repeat split; exact I1].
          destruct (J_pop s1 _ rows I1) as (u0 & p0 & l0 & s2 & Ep & I2 & U2). rewrite Ep. exists s2. repeat split; assumption. }
        destruct N as (s2 & Et & I2 & U2). apply (doc_step s rows _ r s2 _ rows1 [(en, ans)] Et).
        -- rewrite U2. exact Q1.
        -- rewrite U2. constructor; [split; [exact Re|exact Ra]|constructor].
        -- cbn [map sp_tok_of sp_doc]. rewrite Hsp. fold rows1. destruct (sp_doc (c_v11 c) (map sp_tok_of r) rows1). reflexivity.
        -- apply (IH s2 rows1 I2 Hr). unfold rows1. destruct empty; exact Hnest.
      * destruct K as [K1 K2]. unfold doc_post. cbn [scan_toks scan_tok map sp_tok_of sp_doc]. unfold bind. rewrite Est, (K2 Ht).
        cbn [fst snd dev_starts].
        split; [exact Hsame|]. split; [constructor|].
        split; [split; [discriminate|reflexivity]|]. intros e Ee. injection Ee as <-. exact K1.
    + destruct rows as [|ds rows]; [discriminate|]. cbn [length] in Hnest.
      destruct (J_pop s ds rows HS) as (u0 & p0 & l0 & s1 & Ep & I1 & U1).
      apply (doc_step s (ds :: rows) TEnd r s1 [DEnd u0 p0 l0] rows []).
      * cbn [scan_tok]. unfold bind. rewrite Ep. reflexivity.
      * rewrite U1. exact Hsame.
      * constructor.
      * cbn [map sp_tok_of sp_doc tl app]. apply surjective_pairing.
      * exact (IH s1 rows I1 Hr Hnest).
    + apply (doc_step s rows TText r s [DChars] rows []);
        [reflexivity|exact Hsame|constructor|apply surjective_pairing|exact (IH s rows HS Hr Hnest)].
    + apply (doc_step s rows TComment r s [DComment] rows []);
        [reflexivity|exact Hsame|constructor|apply surjective_pairing|exact (IH s rows HS Hr Hnest)].
Qed.

Lemma doc_resolve_init : forall ts s' devs err, toks_nc ts -> toks_nested ts 0 = true ->
  scan_toks c scan_init ts = (s', devs, err) ->
  Forall2 (start_ok (sc_uris s')) (dev_starts devs) (fst (sp_doc (c_v11 c) (map sp_tok_of ts) [])) /\
  (snd (sp_doc (c_v11 c) (map sp_tok_of ts) []) = true <-> err <> None) /\
  (forall e, err = Some e -> ns_error e = true).
Proof.
  intros ts s' devs err Hnc Hn H. pose proof (doc_resolve ts scan_init [] J_init Hnc Hn) as K. rewrite H in K. exact (proj2 K).
Qed.
End Doc.
