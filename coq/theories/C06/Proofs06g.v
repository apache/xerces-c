(** Lemmas for T06_wfmap: WFElemStack (one flat prefix map shared by all levels, each level remembers fTopPrefix).
    Refinement to the declarations in scope for every history of addLevel / popTop / addPrefix: the rows of the
    abstraction are kept in LOOKUP order (innermost level first, within a level the latest declaration first), because
    WFElemStack::mapPrefixToURI searches the flat map from fTopPrefix downwards. *)
From XV Require Import Base.XDefs Gen.GenElemStack C06.Spec06 C06.Model06 C06.Proofs06a.
From Coq Require Import Arith Lia.
Local Open Scope nat_scope.

Definition wtop_of (live : list wfrow) : nat := match live with [] => 0 | r :: _ => w_top r end.
Definition wtop (w : wfstack) : nat := wtop_of (ws_live w).

(** fTopPrefix + 1 of every level = number of entries of that level and of all the outer ones *)
Fixpoint tops_ok (live : list wfrow) (rows : list (list (name * nat))) : Prop :=
  match live, rows with
  | [], [] => True
  | r :: l, ds :: up => w_top r = length (concat (ds :: up)) /\ tops_ok l up
  | _, _ => False
  end.
Definition wcap_ok (c : nat) : Prop := c = 0 \/ wf_map_init <= c.

Record WInv (w : wfstack) (rows : list (list (name * nat))) : Prop := mkWInv {
  wi_pool : pool_ok (ws_pool w);
  wi_pre : exists q, ws_pool w = pfx_pool0 ++ q;
  wi_tops : tops_ok (ws_live w) rows;
  wi_ids : ids_ok (ws_pool w) (firstn (wtop w) (ws_map w));
  wi_abs : abs (ws_pool w) (firstn (wtop w) (ws_map w)) = rev (concat rows);
  wi_mapcap : wtop w <= ws_mapcap w /\ wcap_ok (ws_mapcap w);
  wi_top : length (ws_live w) <= ws_cap w;
  wi_cap : wf_stack_init <= ws_cap w }.

Lemma wtop_live : forall w r l, ws_live w = r :: l -> wtop w = w_top r.
Proof. intros w r l E. unfold wtop. rewrite E. reflexivity. Qed.
Lemma tops_len : forall live rows, tops_ok live rows -> wtop_of live = length (concat rows).
Proof.
  intros [|r l] [|ds up] H; cbn [tops_ok wtop_of] in *; try contradiction; [reflexivity|]. destruct H as [H _]. exact H.
Qed.
Lemma tops_length : forall live rows, tops_ok live rows -> length live = length rows.
Proof.
  induction live as [|r l IH]; intros [|ds up] H; cbn [tops_ok] in H; try contradiction; [reflexivity|].
  destruct H as [_ H]. cbn [length]. rewrite (IH up H). reflexivity.
Qed.

Lemma winv_init : WInv wfs_init [].
Proof.
  constructor; cbn.
  - exact pfx_pool0_ok.
  - exists []. reflexivity.
  - exact I.
  - constructor.
  - reflexivity.
  - split; [lia|left; reflexivity].
  - lia.
  - lia.
Qed.

Lemma wf_grow_stack_gt : forall c, wf_stack_init <= c -> c < c * wf_stack_num / wf_stack_den.
Proof. intros c H. unfold wf_stack_init, wf_stack_num, wf_stack_den in *. apply Nat.div_le_lower_bound; lia. Qed.
Lemma wf_grow_map_gt : forall c, wcap_ok c -> c < wf_grow_map c /\ wcap_ok (wf_grow_map c).
Proof.
  intros c H. destruct (grow_gt wf_map_init wf_map_num wf_map_den c) as [G1 G2]; try exact H;
    unfold wf_map_init, wf_map_num, wf_map_den; try lia.
  split; [exact G1|right; exact G2].
Qed.

Lemma winv_addLevel : forall w rows, WInv w rows -> exists w', wfs_addLevel w = Ok w' /\ WInv w' ([] :: rows).
Proof.
  intros w rows [P Pre T Ids A M Tp C]. unfold wfs_addLevel.
  set (cap := if length (ws_live w) =? ws_cap w then ws_cap w * wf_stack_num / wf_stack_den else ws_cap w).
  assert (Hc : length (ws_live w) < cap /\ wf_stack_init <= cap).
  { unfold cap. destruct (Nat.eqb_spec (length (ws_live w)) (ws_cap w)) as [E|E]; [|lia].
    pose proof (wf_grow_stack_gt (ws_cap w) C). lia. }
  destruct Hc as [Hc1 Hc2]. rewrite (proj2 (Nat.ltb_lt _ _) Hc1). eexists. split; [reflexivity|].
  fold (wtop_of (ws_live w)). fold (wtop w).
  constructor; cbn [ws_pool ws_live ws_map ws_mapcap ws_cap]; unfold wtop; cbn [ws_live wtop_of w_top]; fold (wtop w);
    try assumption.
  cbn [tops_ok concat app]. split; [|exact T]. unfold wtop. apply tops_len. exact T.
Qed.

Lemma ids_ok_firstn : forall pl n m, ids_ok pl m -> ids_ok pl (firstn n m).
Proof. intros pl n m H. rewrite <- (firstn_skipn n m) in H. apply Forall_app in H. apply H. Qed.
Lemma abs_length : forall pl m, length (abs pl m) = length m.
Proof. intros. unfold abs. apply map_length. Qed.
Lemma abs_firstn : forall pl n m, abs pl (firstn n m) = firstn n (abs pl m).
Proof. intros. unfold abs. symmetry. apply firstn_map. Qed.

Lemma winv_popTop : forall w ds rows, WInv w (ds :: rows) -> exists r w', wfs_popTop w = Ok (r, w') /\ WInv w' rows.
Proof.
  intros w ds rows [P Pre T Ids A M Tp C]. unfold wfs_popTop.
  destruct (ws_live w) as [|r l] eqn:El; [cbn [tops_ok] in T; contradiction|].
  cbn [tops_ok] in T. destruct T as [T1 T2].
  exists r. eexists. split; [reflexivity|].
  rewrite (wtop_live w r l El) in *.
  pose proof (tops_len l rows T2) as Hn'.
  assert (Hle : wtop_of l <= w_top r).
  { rewrite Hn', T1. cbn [concat]. rewrite app_length. lia. }
  assert (Hf : firstn (wtop_of l) (ws_map w) = firstn (wtop_of l) (firstn (w_top r) (ws_map w))).
  { rewrite firstn_firstn. rewrite Nat.min_l by exact Hle. reflexivity. }
  constructor; cbn [ws_pool ws_live ws_map ws_mapcap ws_cap]; unfold wtop; cbn [ws_live]; try assumption.
  - rewrite Hf. apply ids_ok_firstn. exact Ids.
  - rewrite Hf. rewrite abs_firstn, A. cbn [concat]. rewrite rev_app_distr.
    rewrite Hn'. rewrite <- (rev_length (concat rows)). rewrite firstn_app, Nat.sub_diag. cbn [firstn].
    rewrite app_nil_r. apply firstn_all.
  - destruct M as [M1 M2]. split; [lia|exact M2].
  - apply Nat.lt_le_incl. exact Tp.
Qed.
Lemma wfs_popTop_empty : forall w, WInv w [] -> wfs_popTop w = Err E_StackUnderflow.
Proof. intros w [_ _ T _ _ _ _ _]. unfold wfs_popTop. destruct (ws_live w); [reflexivity|cbn in T; contradiction]. Qed.

Lemma winv_addPrefix : forall w ds rows p u, WInv w (ds :: rows) ->
  exists w', wfs_addPrefix w p u = Ok w' /\ WInv w' (((p, u) :: ds) :: rows).
Proof.
  intros w ds rows p u [P Pre T Ids A M Tp C]. unfold wfs_addPrefix.
  destruct (ws_live w) as [|r l] eqn:El; [cbn [tops_ok] in T; contradiction|].
  cbn [tops_ok] in T. destruct T as [T1 T2].
  rewrite (wtop_live w r l El) in *.
  destruct (addOrFind_spec (ws_pool w) p) as (q & prefId & Ea & Hrange & Hv & P'). rewrite Ea, stored_uri.
  set (n := w_top r) in *. destruct M as [M1 M2].
  set (mcap := if n =? ws_mapcap w then wf_grow_map (ws_mapcap w) else ws_mapcap w).
  set (m := if n =? ws_mapcap w then firstn (ws_mapcap w) (ws_map w) else ws_map w).
  assert (Hm : n < mcap /\ wcap_ok mcap /\ firstn n m = firstn n (ws_map w)).
  { unfold mcap, m. destruct (Nat.eqb_spec n (ws_mapcap w)) as [E|E].
    - destruct (wf_grow_map_gt _ M2) as [G1 G2]. split; [lia|]. split; [exact G2|].
      rewrite firstn_firstn. rewrite Nat.min_l by lia. reflexivity.
    - split; [lia|]. split; [exact M2|reflexivity]. }
  destruct Hm as (Hm1 & Hm2 & Hm3). rewrite (proj2 (Nat.ltb_lt _ _) Hm1), Hm3.
  eexists. split; [reflexivity|].
  assert (Hlen : length (firstn n (ws_map w)) = n).
  { rewrite <- (abs_length (ws_pool w)). rewrite A. rewrite rev_length. symmetry. exact T1. }
  assert (Hfull : firstn (S n) (firstn n (ws_map w) ++ [(prefId, u)]) = firstn n (ws_map w) ++ [(prefId, u)]).
  { apply firstn_all2. rewrite app_length, Hlen. cbn. lia. }
  constructor; cbn [ws_pool ws_live ws_map ws_mapcap ws_cap]; unfold wtop; cbn [ws_live wtop_of w_top]; try assumption.
  - exact (P' P).
  - exact (pre_ext _ _ q Pre).
  - cbn [tops_ok]. split; [|exact T2]. cbn [concat app length]. cbn [concat] in T1. rewrite T1. reflexivity.
  - rewrite Hfull. apply ids_ok_app; [apply ids_ok_ext; exact Ids|constructor; [exact Hrange|constructor]].
  - rewrite Hfull. rewrite abs_app, abs_ext, A by exact Ids. cbn [abs map fst snd]. rewrite Hv. reflexivity.
  - split; [lia|exact Hm2].
Qed.
Lemma wfs_addPrefix_empty : forall w p u, WInv w [] -> wfs_addPrefix w p u = Err E_EmptyStack.
Proof. intros w p u [_ _ T _ _ _ _ _]. unfold wfs_addPrefix. destruct (ws_live w); [reflexivity|cbn in T; contradiction]. Qed.

Lemma winv_setTop : forall w rows uri pfx loc, WInv w rows -> WInv (wfs_setTop w uri pfx loc) rows.
Proof.
  intros [live cap m mcap pl] rows uri pfx loc HI. destruct live as [|r l]; [exact HI|].
  destruct HI as [P Pre T Ids A M Tp C]. constructor; assumption.
Qed.

Lemma find_last_rev : forall id m acc, find_last id m acc = match find_id id (rev m) with Some u => Some u | None => acc end.
Proof.
  intros id m. induction m as [|[p u] m IH]; intros acc; cbn [find_last rev]; [reflexivity|].
  rewrite IH, find_id_app. cbn [find_id]. destruct (find_id id (rev m)); [reflexivity|]. destruct (p =? id); reflexivity.
Qed.

Lemma abs_rev : forall pl m, abs pl (rev m) = rev (abs pl m).
Proof. intros. unfold abs. apply map_rev. Qed.

Lemma wfs_map_correct : forall w rows p, WInv w rows -> wfs_mapPrefixToURI w p = map_answer (map_spec rows p).
Proof.
  intros w rows p [P Pre T Ids A M Tp C]. apply Forall_rev in Ids.
  rewrite map_spec_concat, <- (rev_involutive (concat rows)), <- A, <- abs_rev.
  rewrite <- (id_answer_spec _ p _ P Pre Ids).
  unfold wfs_mapPrefixToURI, id_answer. rewrite find_last_rev. fold (wtop_of (ws_live w)). fold (wtop w).
  destruct (find_id (pool_getId (ws_pool w) p) (rev (firstn (wtop w) (ws_map w)))); reflexivity.
Qed.

(** WFElemStack has no global declarations *)
Definition wfs_step (w : wfstack) (op : sop nat) : res wfstack xerr :=
  match op with
  | SPush => wfs_addLevel w
  | SPop => do r <- wfs_popTop w; Ok (snd r)
  | SDecl p u => wfs_addPrefix w p u
  | SGlobal _ _ => Ok w
  end.
Fixpoint wfs_run (ops : list (sop nat)) (w : wfstack) : res wfstack xerr :=
  match ops with
  | [] => Ok w
  | op :: r => do w' <- wfs_step w op; wfs_run r w'
  end.
Definition no_global (op : sop nat) : Prop := match op with SGlobal _ _ => False | _ => True end.
(** lookup order of the rows the Spec collects in declaration order *)
Definition latest_first (rows : list (list (name * nat))) : list (list (name * nat)) := map (@rev _) rows.
Lemma wfs_run_refines : forall ops w rows, Forall no_global ops -> WInv w (latest_first rows) ->
  match wfs_run ops w with
  | Ok w' => exists rows', sop_run ops rows [] = Some (rows', []) /\ WInv w' (latest_first rows')
  | Err e => (e = E_StackUnderflow \/ e = E_EmptyStack) /\ sop_run ops rows [] = None
  end.
Proof.
  induction ops as [|op ops IH]; intros w rows Hg HI; cbn [wfs_run sop_run].
  - exists rows. split; [reflexivity|exact HI].
  - pose proof (Forall_inv Hg) as Hop. pose proof (Forall_inv_tail Hg) as Hr.
    destruct op as [| |p u|p u]; cbn [wfs_step]; unfold bind; [| | |destruct Hop].
    + destruct (winv_addLevel w _ HI) as (w' & E & HI'). rewrite E. apply (IH w' ([] :: rows) Hr). exact HI'.
    + destruct rows as [|ds rows]; cbn [latest_first map] in HI.
      * rewrite (wfs_popTop_empty w HI). split; [left; reflexivity|reflexivity].
      * destruct (winv_popTop w _ _ HI) as (r & w' & E & HI'). rewrite E. cbn [snd]. apply (IH w' rows Hr). exact HI'.
    + destruct rows as [|ds rows]; cbn [latest_first map] in HI.
      * rewrite (wfs_addPrefix_empty w p u HI). split; [right; reflexivity|reflexivity].
      * destruct (winv_addPrefix w _ _ p u HI) as (w' & E & HI'). rewrite E.
        apply (IH w' ((ds ++ [(p, u)]) :: rows) Hr). cbn [latest_first map]. rewrite rev_app_distr. exact HI'.
Qed.

(** when no level declares a prefix twice (what the scanner guarantees: a second [xmlns:p] in one tag is a duplicate
    attribute) the order inside a level is immaterial: the answer is the Spec's for the rows as declared *)
Lemma nearest_latest_nodup : forall rows p, Forall (fun ds => NoDup (map fst ds)) rows -> nearest (latest_first rows) p = nearest rows p.
Proof.
  intros rows p H. induction H as [|ds r Hd Hr IH]; [reflexivity|]. cbn [latest_first map nearest].
  rewrite (find_decl_rev_nodup _ ds p Hd). fold (latest_first r). rewrite IH. reflexivity.
Qed.
