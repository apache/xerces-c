(** The DOM side.  First T06_dom_lookup: DOMNodeImpl::lookupNamespaceURI / isDefaultNamespace / lookupPrefix (as
    modelled, with the null check on DOCUMENT_NODE) answer what the declarations in scope imply.  Then T06_dom_built: the
    element AbstractDOMParser::startElement creates from a resolved start tag is namespace-well-formed ([parsed_elem]) and
    consistent with the declarations in scope, so that the hypotheses of T06_dom_lookup hold on the trees the parser
    builds.  The attribute map is sorted by name: declarations are read off it in another order than they were written,
    which does not matter because a tag cannot declare a prefix twice ([decls_nodup], used by WFXMLScanner's proof too). *)
From XV Require Import Base.XDefs Gen.GenElemStack C06.Spec06 C06.Model06 C06.Proofs06a C06.Proofs06d.
From Coq Require Import Arith Lia Permutation.
Local Open Scope nat_scope.

Lemma oname_eqb_eq : forall a b, oname_eqb a b = true <-> a = b.
Proof.
  intros [a|] [b|]; cbn [oname_eqb]; split; intros H; try discriminate; try reflexivity.
  - apply name_eqb_eq in H. congruence.
  - injection H as ->. apply name_eqb_refl.
Qed.
Lemma qname_prefixed_not_xmlns : forall l, name_eqb (qname_of s_xmlns l) s_xmlns = false.
Proof.
  intros l. apply name_eqb_neq. unfold qname_of, s_xmlns. cbn [app]. intros H. discriminate.
Qed.

Lemma lookup_attrs_decl : forall atts p, Forall parsed_attr atts -> p <> Some [] ->
  m_lookup_ns_attrs atts p = find_decl (pfx_or_empty p) (belem_decls atts).
Proof.
  intros atts p H Hp. induction H as [|a r Ha Hr IH]; cbn [m_lookup_ns_attrs belem_decls]; [reflexivity|].
  destruct Ha as (Hns & Hloc & Hpe & Hxx). rewrite Hns. unfold decl_attr.
  destruct (oname_eqb (ba_prefix a) (Some s_xmlns)) eqn:E1; cbn [orb].
  - (* xmlns:l *)
    apply oname_eqb_eq in E1. unfold battr_qname. rewrite E1. rewrite qname_prefixed_not_xmlns.
    rewrite andb_false_r. cbn [andb find_decl].
    destruct p as [p'|]; cbn [oname_eqb pfx_or_empty].
    + destruct (name_eqb (ba_local a) p'); [reflexivity|exact IH].
    + destruct (ba_local a) as [|c l] eqn:El; [contradiction|]. cbn [name_eqb]. exact IH.
  - destruct (oname_eqb (ba_prefix a) None && name_eqb (ba_local a) s_xmlns) eqn:E2.
    + (* xmlns *)
      apply andb_true_iff in E2. destruct E2 as [E2 E3]. apply oname_eqb_eq in E2. apply name_eqb_eq in E3.
      unfold battr_qname. rewrite E2, E3. cbn [qname_of]. rewrite name_eqb_refl. rewrite andb_true_r.
      cbn [oname_eqb find_decl].
      destruct p as [p'|]; cbn [oname_eqb pfx_or_empty andb].
      * destruct p' as [|c l]; [congruence|]. cbn [name_eqb]. exact IH.
      * reflexivity.
    + exact IH.
Qed.


Lemma chain_rows_cons : forall e up, chain_rows (e :: up) = belem_decls (be_attrs e) :: chain_rows up.
Proof. reflexivity. Qed.
Lemma canon_nonempty : forall ns, ns <> [] -> canon (Some ns) = Some ns.
Proof. intros [|c l] H; [contradiction|reflexivity]. Qed.

Lemma lookup_ns_inscope : forall chain p, Forall parsed_elem chain -> consistent chain -> p <> Some [] ->
  name_eqb (pfx_or_empty p) s_xml = false -> name_eqb (pfx_or_empty p) s_xmlns = false ->
  canon (m_lookup_ns chain p) = inscope (chain_rows chain) (pfx_or_empty p).
Proof.
  intros chain p HP HC Hp N1 N2. rewrite (inscope_plain _ _ N1 N2).
  induction chain as [|e up IH]; [reflexivity|].
  pose proof (Forall_inv HP) as He. pose proof (Forall_inv_tail HP) as Hup. destruct HC as (Hc & Hpe & Hcu).
  rewrite chain_rows_cons. cbn [m_lookup_ns nearest].
  assert (Rest : canon (match m_lookup_ns_attrs (be_attrs e) p with Some v => Some v | None => m_lookup_ns up p end) =
                 canon (match find_decl (pfx_or_empty p) (belem_decls (be_attrs e)) with Some u => Some u | None => nearest (chain_rows up) (pfx_or_empty p) end)).
  { rewrite (lookup_attrs_decl _ p He Hp). destruct (find_decl (pfx_or_empty p) (belem_decls (be_attrs e))); [reflexivity|].
    apply IH; assumption. }
  destruct (be_ns e) as [ns|] eqn:Ens; [|exact Rest].
  destruct Hc as [Hne Hin].
  assert (Short : forall (E : pfx_or_empty p = pfx_or_empty (be_prefix e)),
            canon (Some ns) = canon (match find_decl (pfx_or_empty p) (belem_decls (be_attrs e)) with
                                     | Some u => Some u | None => nearest (chain_rows up) (pfx_or_empty p) end)).
  { intros E. rewrite E. rewrite <- E in Hin. rewrite (inscope_plain _ _ N1 N2) in Hin.
    rewrite chain_rows_cons in Hin. cbn [nearest] in Hin. rewrite <- E. rewrite Hin. apply canon_nonempty. exact Hne. }
  destruct p as [p'|]; destruct (be_prefix e) as [q'|] eqn:Epf; cbn [oname_eqb andb].
  - destruct (name_eqb q' p') eqn:E; [|exact Rest]. apply name_eqb_eq in E. subst q'. apply Short. reflexivity.
  - exact Rest.
  - exact Rest.
  - apply Short. reflexivity.
Qed.

Lemma default_attr_decl : forall atts, Forall parsed_attr atts -> m_default_attr atts = find_decl [] (belem_decls atts).
Proof.
  intros atts H. induction H as [|a r Ha Hr IH]; cbn [m_default_attr belem_decls]; [reflexivity|].
  destruct Ha as (Hns & Hloc & Hpe & Hxx). rewrite Hns. unfold decl_attr.
  destruct (oname_eqb (ba_prefix a) (Some s_xmlns)) eqn:E1; cbn [orb].
  - apply oname_eqb_eq in E1. cbn [andb find_decl].
    destruct (name_eqb (ba_local a) s_xmlns) eqn:E3.
    + exfalso. apply Hxx. apply name_eqb_eq in E3. split; assumption.
    + destruct (ba_local a) as [|c l]; [contradiction|]. cbn [name_eqb]. exact IH.
  - destruct (oname_eqb (ba_prefix a) None) eqn:E2; cbn [andb].
    + destruct (name_eqb (ba_local a) s_xmlns) eqn:E3; cbn [andb find_decl name_eqb]; [reflexivity|exact IH].
    + exact IH.
Qed.
Lemma inscope_default : forall rows, inscope rows [] = canon (nearest rows []).
Proof. intros rows. apply inscope_plain; reflexivity. Qed.

Lemma is_default_inscope : forall chain u, Forall parsed_elem chain -> consistent chain -> u <> [] ->
  m_is_default chain (Some u) = oname_eqb (inscope (chain_rows chain) []) (Some u).
Proof.
  intros chain u HP HC Hu. induction chain as [|e up IH]; [reflexivity|].
  pose proof (Forall_inv HP) as He. pose proof (Forall_inv_tail HP) as Hup. destruct HC as (Hc & Hpe & Hcu).
  cbn [m_is_default].
  destruct (be_prefix e) as [q|] eqn:Epf.
  - rewrite (default_attr_decl _ He). rewrite inscope_default, chain_rows_cons. cbn [nearest].
    destruct (find_decl [] (belem_decls (be_attrs e))) as [v|].
    + unfold xeq. destruct v as [|c l]; cbn [canon oname_eqb].
      * apply name_eqb_neq. exact Hu.
      * apply name_eqb_sym.
    + rewrite <- inscope_default. apply IH; assumption.
  - destruct (be_ns e) as [ns|] eqn:Ens.
    + destruct Hc as [Hne Hin]. cbn [pfx_or_empty] in Hin. rewrite Hin. unfold xeq. cbn [oname_eqb]. apply name_eqb_sym.
    + destruct Hc as [_ Hin]. rewrite Hin. unfold xeq. cbn [oname_eqb]. apply name_eqb_neq. exact Hu.
Qed.

(** lookupPrefix: whatever it answers is bound to the namespace name in scope of the original element *)
Lemma lookup_prefix_attrs_sound : forall orig atts u p, m_lookup_prefix_attrs orig atts u = Some p ->
  exists f, m_lookup_ns orig (Some p) = Some f /\ name_eqb f u = true.
Proof.
  intros orig atts u p. induction atts as [|a r IH]; cbn [m_lookup_prefix_attrs]; intros H; [discriminate|].
  destruct (oname_eqb (ba_ns a) (Some uri_xmlns) && oname_eqb (ba_prefix a) (Some s_xmlns) && name_eqb (ba_value a) u);
    [|exact (IH H)].
  destruct (m_lookup_ns orig (Some (ba_local a))) as [f|] eqn:El; [|exact (IH H)].
  destruct (name_eqb f u) eqn:Ef; [|exact (IH H)]. injection H as <-. exists f. split; assumption.
Qed.
(** lookupPrefix at one element: the element's own prefix, if it is bound to the name, before its attributes *)
Definition own_prefix (orig : list belem) (e : belem) (ns : name) : option name :=
  match be_ns e, be_prefix e with
  | Some ens, Some pfx =>
    if name_eqb ens ns then match m_lookup_ns orig (Some pfx) with Some f => if name_eqb f ns then Some pfx else None | None => None end
    else None
  | _, _ => None
  end.
Lemma lookup_prefix_from_cons : forall orig e up ns, m_lookup_prefix_from orig (e :: up) ns =
  match own_prefix orig e ns with
  | Some p => Some p
  | None => match m_lookup_prefix_attrs orig (be_attrs e) ns with Some p => Some p | None => m_lookup_prefix_from orig up ns end
  end.
Proof. reflexivity. Qed.

Lemma lookup_prefix_from_sound : forall orig chain u p, m_lookup_prefix_from orig chain u = Some p ->
  exists f, m_lookup_ns orig (Some p) = Some f /\ name_eqb f u = true.
Proof.
  intros orig chain u p. induction chain as [|e up IH]; [discriminate|]. rewrite lookup_prefix_from_cons. intros H.
  destruct (own_prefix orig e u) as [p0|] eqn:E0.
  - injection H as <-. unfold own_prefix in E0. destruct (be_ns e) as [ens|]; [|discriminate]. destruct (be_prefix e) as [pfx|]; [|discriminate].
    destruct (name_eqb ens u); [|discriminate]. destruct (m_lookup_ns orig (Some pfx)) as [f|] eqn:El; [|discriminate].
    destruct (name_eqb f u) eqn:Ef; [|discriminate]. injection E0 as <-. exists f. split; [exact El|exact Ef].
  - destruct (m_lookup_prefix_attrs orig (be_attrs e) u) as [p1|] eqn:E1.
    + injection H as <-. exact (lookup_prefix_attrs_sound _ _ _ _ E1).
    + apply IH. exact H.
Qed.
Lemma lookup_prefix_sound : forall chain u p, Forall parsed_elem chain -> consistent chain -> u <> [] ->
  m_lookup_prefix chain u = Some p -> p <> [] -> name_eqb p s_xml = false -> name_eqb p s_xmlns = false ->
  inscope (chain_rows chain) p = Some u.
Proof.
  intros chain u p HP HC Hu H Hp N1 N2. unfold m_lookup_prefix in H.
  destruct (lookup_prefix_from_sound _ _ _ _ H) as (f & Hf & Ef). apply name_eqb_eq in Ef. subst f.
  assert (Hne : Some p <> Some []) by congruence.
  pose proof (lookup_ns_inscope chain (Some p) HP HC Hne N1 N2) as L. cbn [pfx_or_empty] in L.
  rewrite Hf in L. rewrite canon_nonempty in L by exact Hu. symmetry. exact L.
Qed.

(** lookupPrefix is complete: when some non-reserved prefix is bound to the namespace name in scope, it answers one *)
(** [a] is the declaration [xmlns:q="u"] of a namespace-well-formed tree *)
Definition declares (a : battr) (q u : name) : Prop :=
  oname_eqb (ba_ns a) (Some uri_xmlns) = true /\ ba_prefix a = Some s_xmlns /\ ba_local a = q /\ ba_value a = u.

Lemma lookup_prefix_attrs_hit : forall orig atts u q a, In a atts -> declares a q u ->
  m_lookup_ns orig (Some q) = Some u -> m_lookup_prefix_attrs orig atts u <> None.
Proof.
  intros orig atts u q a Hin (Hns & Hp & Hl & Hv) Hlk. induction atts as [|x r IH]; [destruct Hin|].
  cbn [m_lookup_prefix_attrs]. destruct Hin as [->|Hin].
  - rewrite Hns, Hp, Hv, Hl. cbn [oname_eqb]. rewrite !name_eqb_refl. cbn [andb]. rewrite Hlk, name_eqb_refl. discriminate.
  - destruct (oname_eqb (ba_ns x) (Some uri_xmlns) && oname_eqb (ba_prefix x) (Some s_xmlns) && name_eqb (ba_value x) u).
    + destruct (m_lookup_ns orig (Some (ba_local x))) as [f|]; [|apply IH; exact Hin].
      destruct (name_eqb f u); [discriminate|apply IH; exact Hin].
    + apply IH. exact Hin.
Qed.
Lemma lookup_prefix_from_hit : forall orig chain u q e a, In e chain -> In a (be_attrs e) -> declares a q u ->
  m_lookup_ns orig (Some q) = Some u -> m_lookup_prefix_from orig chain u <> None.
Proof.
  intros orig chain u q e a He Ha Hd Hlk. induction chain as [|x up IH]; [destruct He|].
  rewrite lookup_prefix_from_cons. destruct (own_prefix orig x u); [discriminate|].
  destruct He as [->|He].
  - pose proof (lookup_prefix_attrs_hit orig (be_attrs e) u q a Ha Hd Hlk) as K.
    destruct (m_lookup_prefix_attrs orig (be_attrs e) u); [discriminate|contradiction].
  - destruct (m_lookup_prefix_attrs orig (be_attrs x) u); [discriminate|]. apply IH. exact He.
Qed.
Lemma belem_decls_in : forall atts q u, Forall parsed_attr atts -> q <> [] -> In (q, u) (belem_decls atts) ->
  exists a, In a atts /\ declares a q u.
Proof.
  intros atts q u H Hq. induction H as [|a r Ha Hr IH]; cbn [belem_decls]; intros Hin; [destruct Hin|].
  destruct Ha as (Hns & _ & _ & _). unfold decl_attr in Hns.
  destruct (oname_eqb (ba_prefix a) (Some s_xmlns)) eqn:E1.
  - destruct Hin as [E|Hin].
    + injection E as <- <-. exists a. split; [left; reflexivity|]. cbn [orb] in Hns. split; [exact Hns|].
      apply oname_eqb_eq in E1. repeat split; assumption.
    + destruct (IH Hin) as (b & Hb & R). exists b. split; [right; exact Hb|exact R].
  - destruct (oname_eqb (ba_prefix a) None && name_eqb (ba_local a) s_xmlns).
    + destruct Hin as [E|Hin]; [injection E as E _; congruence|].
      destruct (IH Hin) as (b & Hb & R). exists b. split; [right; exact Hb|exact R].
    + destruct (IH Hin) as (b & Hb & R). exists b. split; [right; exact Hb|exact R].
Qed.
Lemma lookup_prefix_complete : forall chain u q, Forall parsed_elem chain -> consistent chain -> u <> [] -> q <> [] ->
  name_eqb q s_xml = false -> name_eqb q s_xmlns = false -> inscope (chain_rows chain) q = Some u ->
  m_lookup_prefix chain u <> None.
Proof.
  intros chain u q HP HC Hu Hq N1 N2 Hin.
  assert (Hne : Some q <> Some []) by congruence.
  pose proof (lookup_ns_inscope chain (Some q) HP HC Hne N1 N2) as L. cbn [pfx_or_empty] in L. rewrite Hin in L.
  assert (Hlk : m_lookup_ns chain (Some q) = Some u).
  { destruct (m_lookup_ns chain (Some q)) as [[|c l]|]; cbn [canon] in L; try discriminate. exact L. }
  rewrite (inscope_plain _ _ N1 N2) in Hin.
  destruct (nearest (chain_rows chain) q) as [v|] eqn:En; [|discriminate].
  assert (Hv : v = u) by (destruct v; cbn [canon] in Hin; [discriminate|congruence]). subst v.
  destruct (nearest_in _ _ _ _ En) as (m & Hm & Hmu).
  unfold chain_rows in Hm. apply in_map_iff in Hm. destruct Hm as (e & <- & He).
  rewrite Forall_forall in HP. specialize (HP e He).
  destruct (belem_decls_in _ q u HP Hq Hmu) as (a & Ha & Hd).
  unfold m_lookup_prefix. exact (lookup_prefix_from_hit chain chain u q e a He Ha Hd Hlk).
Qed.

Definition rows_equiv (r1 r2 : list (list decl)) : Prop := forall p, nearest r1 p = nearest r2 p.

Lemma inscope_equiv : forall r1 r2 p, rows_equiv r1 r2 -> inscope r1 p = inscope r2 p.
Proof. intros r1 r2 p H. unfold inscope. rewrite (H p). reflexivity. Qed.

Lemma insert_perm : forall a l, Permutation (attr_insert a l) (a :: l).
Proof.
  intros a l. induction l as [|x r IH]; cbn [attr_insert]; [apply Permutation_refl|].
  destruct (name_ltb (battr_qname a) (battr_qname x)); [apply Permutation_refl|].
  eapply Permutation_trans; [apply perm_skip; exact IH|]. apply perm_swap.
Qed.
Lemma fold_insert_perm : forall (f : xattr -> battr) l acc,
  Permutation (fold_left (fun m a => attr_insert (f a) m) l acc) (map f l ++ acc).
Proof.
  intros f l. induction l as [|a r IH]; intros acc; cbn [fold_left map app]; [apply Permutation_refl|].
  eapply Permutation_trans; [apply IH|].
  eapply Permutation_trans; [apply Permutation_app_head; apply insert_perm|].
  apply Permutation_sym. apply Permutation_middle.
Qed.

Definition decl_of (a : battr) : list decl :=
  if oname_eqb (ba_prefix a) (Some s_xmlns) then [(ba_local a, ba_value a)]
  else if oname_eqb (ba_prefix a) None && name_eqb (ba_local a) s_xmlns then [([], ba_value a)] else [].
Lemma belem_decls_flat : forall l, belem_decls l = flat_map decl_of l.
Proof.
  induction l as [|a r IH]; cbn [belem_decls flat_map]; [reflexivity|]. unfold decl_of at 1.
  destruct (oname_eqb (ba_prefix a) (Some s_xmlns)); [cbn [app]; rewrite IH; reflexivity|].
  destruct (oname_eqb (ba_prefix a) None && name_eqb (ba_local a) s_xmlns); cbn [app]; rewrite IH; reflexivity.
Qed.

Lemma opt_name_xmlns : forall p, oname_eqb (opt_name p) (Some s_xmlns) = name_eqb p s_xmlns.
Proof. intros [|c l]; reflexivity. Qed.
Lemma opt_name_none : forall p, oname_eqb (opt_name p) None = match p with [] => true | _ => false end.
Proof. intros [|c l]; reflexivity. Qed.

Lemma dom_decls_unsorted : forall uris xs attrs, map triple_x xs = map triple_a attrs ->
  flat_map decl_of (map (dom_attr uris) xs) = sp_decls (map sp_of attrs).
Proof.
  intros uris xs. induction xs as [|x xs IH]; intros attrs H; destruct attrs as [|a attrs]; try discriminate; [reflexivity|].
  cbn [map] in H. unfold triple_x, triple_a in H. injection H as P L V H2.
  cbn [map flat_map]. rewrite sp_decls_cons, (IH attrs H2). f_equal.
  unfold decl_of, dom_attr, sp_decl_of, sp_of. cbn [ba_prefix ba_local ba_value spa_pfx spa_loc spa_val].
  rewrite opt_name_xmlns, opt_name_none. rewrite P, L, V.
  destruct (name_eqb (ra_pfx a) s_xmlns); [reflexivity|]. destruct (ra_pfx a); [|reflexivity].
  cbn [andb]. destruct (name_eqb (ra_loc a) s_xmlns); reflexivity.
Qed.

Definition akey (rows : list (list decl)) (a : rattr) : nsres * name := (attr_ns rows (ra_pfx a), ra_loc a).

Lemma attr_ns_xmlns : forall rows, attr_ns rows s_xmlns = NsIn uri_xmlns.
Proof. intros rows. unfold attr_ns, inscope. reflexivity. Qed.

(** a tag without two attributes of one expanded name (in whatever scope [rows]) declares no prefix twice *)
Lemma decls_nodup : forall rows attrs, Forall wf_attr attrs -> has_dup (map (akey rows) attrs) = false ->
  NoDup (map fst (sp_decls (map sp_of attrs))).
Proof.
  intros rows attrs Hwf. induction attrs as [|a r IH]; intros H; [constructor|].
  pose proof (Forall_inv Hwf) as Ha. pose proof (Forall_inv_tail Hwf) as Hr. cbn [map has_dup] in H. apply orb_false_iff in H. destruct H as [H1 H2].
  cbn [map]. rewrite sp_decls_cons. specialize (IH Hr H2).
  rewrite (is_nsdecl_spec a Ha). destruct (is_nsdecl a) eqn:Ed; [|exact IH].
  cbn [app map fst]. constructor; [|exact IH].
  intros Hin. apply in_map_iff in Hin. destruct Hin as ([q v] & Eq & Hin). cbn [fst] in Eq. subst q.
  unfold sp_decls in Hin. apply in_flat_map in Hin. destruct Hin as (sb & Hsb & Hd).
  apply in_map_iff in Hsb. destruct Hsb as (b & <- & Hb).
  rewrite Forall_forall in Hr. pose proof (Hr b Hb) as Hbl. rewrite (is_nsdecl_spec b Hbl) in Hd.
  destruct (is_nsdecl b) eqn:Edb; [|destruct Hd]. destruct Hd as [Hd|[]]. injection Hd as Hp _.
  (* a and b are declarations of the same prefix: their expanded names coincide *)
  assert (K : key_eqb (akey rows a) (akey rows b) = true).
  { unfold is_nsdecl in Ed, Edb. unfold akey, key_eqb. cbn [fst snd].
    destruct (ra_pfx a) as [|ca pa] eqn:Epa; destruct (ra_pfx b) as [|cb pb] eqn:Epb.
    - apply name_eqb_eq in Ed, Edb. rewrite Ed, Edb. cbn [attr_ns]. apply name_eqb_refl.
    - exfalso. unfold wf_attr in Hbl. congruence.
    - exfalso. unfold wf_attr in Ha. congruence.
    - apply name_eqb_eq in Ed, Edb. rewrite Ed, Edb. rewrite attr_ns_xmlns. rewrite name_eqb_refl. cbn [andb].
      rewrite Hp. apply name_eqb_refl. }
  assert (Hex : existsb (key_eqb (akey rows a)) (map (akey rows) r) = true).
  { apply existsb_exists. exists (akey rows b). split; [apply in_map; exact Hb|exact K]. }
  congruence.
Qed.

(** ** legal scopes never bind an ordinary prefix to the xmlns namespace name *)
Lemma inscope_not_xmlns_uri : forall v rows p, all_legal v rows -> name_eqb p s_xmlns = false ->
  inscope rows p <> Some uri_xmlns.
Proof.
  intros v rows p Hleg N2 H. unfold inscope in H. rewrite N2 in H.
  destruct (name_eqb p s_xml); [discriminate|].
  destruct (nearest rows p) as [u|] eqn:En; [|discriminate].
  assert (Hu : u = uri_xmlns) by (destruct u; [discriminate|congruence]). subst u.
  pose proof (found_legal v rows p uri_xmlns Hleg En) as Hl.
  unfold decl_legal in Hl. rewrite N2 in Hl. rewrite name_eqb_refl in Hl. discriminate.
Qed.

Lemma dom_attr_ns : forall uris a, pool_value uris emptyId = [] ->
  ba_ns (dom_attr uris a) =
  opt_name (pool_value uris (match xa_pfx a with [] => if name_eqb (xa_loc a) s_xmlns then xmlnsId else xa_uri a | _ => xa_uri a end)).
Proof.
  intros uris a He. unfold dom_attr. cbn [ba_ns].
  set (u := match xa_pfx a with [] => if name_eqb (xa_loc a) s_xmlns then xmlnsId else xa_uri a | _ => xa_uri a end).
  destruct (u =? emptyId) eqn:E; [|reflexivity]. apply Nat.eqb_eq in E. rewrite E, He. reflexivity.
Qed.

Lemma dom_attr_parsed : forall v uris rows x a,
  pool_value uris emptyId = [] -> pool_value uris xmlnsId = uri_xmlns -> all_legal v rows ->
  built_rel uris rows x a -> wf_attr a -> ~ (ra_pfx a = s_xmlns /\ ra_loc a = s_xmlns) ->
  parsed_attr (dom_attr uris x).
Proof.
  intros v uris rows x a He Hx Hleg (P & L & V & R) Hwf Hxx. unfold parsed_attr.
  rewrite (dom_attr_ns uris x He). unfold decl_attr, dom_attr. cbn [ba_prefix ba_local].
  rewrite opt_name_xmlns, opt_name_none. rewrite P, L.
  split; [|split; [exact Hwf|split]].
  - destruct (ra_pfx a) as [|c0 p0] eqn:Ep.
    + cbn [name_eqb orb andb]. destruct (name_eqb (ra_loc a) s_xmlns).
      * rewrite Hx. reflexivity.
      * destruct R as [_ R]. cbn [attr_ns] in R. rewrite R. reflexivity.
    + rewrite orb_false_r. destruct R as [_ R]. unfold attr_ns in R.
      destruct (inscope rows (c0 :: p0)) as [t|] eqn:Ei; [|contradiction]. destruct R as [R Rn]. rewrite R.
      assert (Ho : opt_name t = Some t) by (destruct t; [contradiction|reflexivity]). rewrite Ho. cbn [oname_eqb].
      destruct (name_eqb (c0 :: p0) s_xmlns) eqn:N2.
      * apply name_eqb_eq in N2. rewrite N2, inscope_xmlns in Ei.
        injection Ei as <-. apply name_eqb_refl.
      * apply name_eqb_neq. intros E. apply (inscope_not_xmlns_uri v rows (c0 :: p0) Hleg N2). rewrite Ei, E. reflexivity.
  - destruct (ra_pfx a); cbn [opt_name]; discriminate.
  - intros [A B]. apply Hxx. split; [|exact B]. destruct (ra_pfx a); cbn [opt_name] in A; [discriminate|congruence].
Qed.

Lemma xmlns_xmlns_illegal : forall v attrs a, forallb (decl_legal v) (sp_decls (map sp_of attrs)) = true -> In a attrs ->
  ~ (ra_pfx a = s_xmlns /\ ra_loc a = s_xmlns).
Proof.
  intros v attrs a H Hin [A B]. rewrite forallb_forall in H.
  assert (Hd : In (s_xmlns, ra_nval a) (sp_decls (map sp_of attrs))).
  { unfold sp_decls. apply in_flat_map. exists (sp_of a). split; [apply in_map; exact Hin|].
    unfold sp_decl_of, sp_of. cbn [spa_pfx spa_loc spa_val]. rewrite A, B. left. reflexivity. }
  specialize (H _ Hd). unfold decl_legal in H. cbn in H. discriminate.
Qed.

Lemma built_from : forall uris rows xs attrs,
  Forall2 (fun x r => res_ok uris (xa_uri x) r) xs (map (fun a => attr_ns rows (ra_pfx a)) attrs) ->
  map triple_x xs = map triple_a attrs -> Forall2 (built_rel uris rows) xs attrs.
Proof.
  intros uris rows xs. induction xs as [|x xs IH]; intros attrs Ra Tr; destruct attrs as [|a attrs]; try discriminate; [constructor|].
  cbn [map] in Ra, Tr. destruct (Forall2_inv_r Ra) as (x0 & xs0 & [= <- <-] & R1 & R2). unfold triple_x, triple_a in Tr. injection Tr as P L V T2.
  constructor; [split; [exact P|split; [exact L|split; [exact V|exact R1]]]|]. apply IH; assumption.
Qed.
Lemma parsed_from : forall v uris rows xs attrs,
  pool_value uris emptyId = [] -> pool_value uris xmlnsId = uri_xmlns -> all_legal v rows ->
  Forall2 (built_rel uris rows) xs attrs -> Forall wf_attr attrs ->
  (forall a, In a attrs -> ~ (ra_pfx a = s_xmlns /\ ra_loc a = s_xmlns)) ->
  Forall parsed_attr (map (dom_attr uris) xs).
Proof.
  intros v uris rows xs attrs F1 F4 Hleg Hbuilt. induction Hbuilt as [|x a xs0 as0 Hb _ IH]; intros Hwf Hxx; [constructor|].
  cbn [map]. constructor.
  - apply (dom_attr_parsed v uris rows x a F1 F4 Hleg Hb (Forall_inv Hwf)). apply Hxx. left. reflexivity.
  - apply IH; [exact (Forall_inv_tail Hwf)|]. intros b Hb'. apply Hxx. right. exact Hb'.
Qed.

Lemma dom_elem_fields : forall uris uri pfx loc xs, let e := dom_elem uris uri pfx loc xs in
  be_attrs e = fold_left (fun m a => attr_insert (dom_attr uris a) m) xs [] /\
  be_ns e = (if uri =? emptyId then None else Some (pool_value uris uri)) /\
  be_prefix e = (if uri =? emptyId then None else opt_name pfx).
Proof. intros uris uri pfx loc xs e. unfold e, dom_elem. destruct (uri =? emptyId); repeat split. Qed.
Lemma dom_elem_perm : forall uris uri pfx loc xs, Permutation (be_attrs (dom_elem uris uri pfx loc xs)) (map (dom_attr uris) xs).
Proof.
  intros uris uri pfx loc xs. rewrite (proj1 (dom_elem_fields uris uri pfx loc xs)).
  eapply Permutation_trans; [apply fold_insert_perm|]. rewrite app_nil_r. apply Permutation_refl.
Qed.
Lemma dom_elem_decls : forall uris uri pfx loc xs attrs rows p, map triple_x xs = map triple_a attrs ->
  Forall wf_attr attrs -> has_dup (map (akey rows) attrs) = false ->
  find_decl p (belem_decls (be_attrs (dom_elem uris uri pfx loc xs))) = find_decl p (sp_decls (map sp_of attrs)).
Proof.
  intros uris uri pfx loc xs attrs rows p Tr Hwf Hd. rewrite belem_decls_flat. symmetry.
  rewrite <- (dom_decls_unsorted uris xs attrs Tr). apply find_decl_perm.
  - rewrite (dom_decls_unsorted uris xs attrs Tr). apply (decls_nodup rows); assumption.
  - apply Permutation_flat_map. apply Permutation_sym. apply dom_elem_perm.
Qed.

Lemma dom_elem_names : forall uris uri pfx loc xs rows, pool_ok uris -> (exists q, uris = uri_pool0 ++ q) ->
  res_ok uris uri (elem_ns rows pfx) ->
  let e := dom_elem uris uri pfx loc xs in
  match be_ns e with
  | Some ns => ns <> [] /\ inscope rows (pfx_or_empty (be_prefix e)) = Some ns
  | None => be_prefix e = None /\ inscope rows [] = None
  end /\ be_prefix e <> Some [].
Proof.
  intros uris uri pfx loc xs rows Hok Hpre [Hr Re] e. destruct (dom_elem_fields uris uri pfx loc xs) as (_ & Hns & Hpf). fold e in Hns, Hpf.
  rewrite Hns, Hpf, (empty_id_text uris uri Hok Hpre Hr). unfold elem_ns in Re. split.
  - destruct (inscope rows pfx) as [t|] eqn:Ei.
    + destruct Re as [Rt Rn]. rewrite Rt. destruct t as [|d t']; [contradiction|]. cbn [name_eqb].
      split; [discriminate|]. replace (pfx_or_empty (opt_name pfx)) with pfx by (destruct pfx; reflexivity). exact Ei.
    + destruct pfx as [|c0 p0]; [|contradiction]. rewrite Re. cbn [name_eqb]. split; [reflexivity|exact Ei].
  - destruct (name_eqb (pool_value uris uri) []); [discriminate|]. destruct pfx; cbn [opt_name]; discriminate.
Qed.

Lemma dom_elem_built : forall c s rows pfx loc attrs s' uri xs up,
  nonwf c -> SInvR (c_v11 c) s rows -> Forall wf_attr attrs -> startTag c s pfx loc attrs = Ok (s', uri, xs) ->
  rows_equiv (chain_rows up) rows -> consistent up ->
  let e := dom_elem (sc_uris s') uri pfx loc xs in
  parsed_elem e /\ consistent (e :: up) /\ rows_equiv (chain_rows (e :: up)) (sp_decls (map sp_of attrs) :: rows).
Proof.
  intros c s rows pfx loc attrs s' uri xs up Hc HS Hwf Hst Heq Hcons e.
  pose proof (startTag_spec c s rows pfx loc attrs Hc HS Hwf) as K. rewrite Hst in K.
  destruct K as (en & ans & Hsp & Re & Ra & Tr & HS' & _).
  set (ds := sp_decls (map sp_of attrs)) in *. set (rows' := ds :: rows) in *. set (uris := sc_uris s') in *.
  rewrite sp_tag_raw in Hsp. destruct (sp_tag_in_some _ _ _ _ _ _ _ Hsp) as (C1 & C4 & -> & ->).
  fold ds rows' in C1, C4, Ra. fold (akey rows') in C4.
  apply sinvr_scan_inv in HS'. destruct HS' as (rid & _ & HU). fold uris in HU.
  destruct (uris_inv_pool _ _ _ _ HU) as [Hok Hpre]. pose proof (uris_inv_legal _ _ _ _ HU) as Hleg.
  pose proof Hpre as [q Hq]. destruct (uri_pool_facts q) as (F1 & _ & F4 & F5 & _). rewrite <- Hq in F1, F4, F5.
  pose proof (built_from uris rows' xs attrs Ra Tr) as Hbuilt.
  pose proof (parsed_from (c_v11 c) uris rows' xs attrs F1 F4 Hleg Hbuilt Hwf (fun a => xmlns_xmlns_illegal (c_v11 c) attrs a C1)) as Hparsed.
  split.
  { unfold parsed_elem. rewrite Forall_forall in *. intros a Ha. apply Hparsed.
    apply (Permutation_in _ (dom_elem_perm uris uri pfx loc xs)). exact Ha. }
  assert (Hequiv : rows_equiv (chain_rows (e :: up)) rows').
  { intros p. unfold e. rewrite chain_rows_cons. unfold rows'. cbn [nearest].
    rewrite (dom_elem_decls _ _ _ _ _ attrs rows' p Tr Hwf C4). fold ds. destruct (find_decl p ds); [reflexivity|apply Heq]. }
  split; [|exact Hequiv].
  assert (Re' : res_ok uris uri (elem_ns (chain_rows (e :: up)) pfx)).
  { unfold elem_ns. rewrite (inscope_equiv _ _ _ Hequiv). exact Re. }
  destruct (dom_elem_names uris uri pfx loc xs _ Hok Hpre Re') as [N1 N2].
  cbn [consistent]. split; [exact N1|]. split; [exact N2|exact Hcons].
Qed.
