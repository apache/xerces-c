(** Property C06 -- Namespace processing binds every name to the URI the declarations in scope imply.
    The property theorems, each followed by [Print Assumptions], and the non-vacuity examples; the lemmas are in
    Proofs06*.v.  Specification: Spec06.v (inscope, sp_tag / sp_doc, dyck; stream_ok and the Appendix B functions are the
    oracle of the correspondence and occur in no theorem).
    Models: Model06.v (capacities, duplicate-check threshold and error classes: Gen/GenElemStack.v, regenerated from
    /repo on every run). *)
From XV Require Import Base.XDefs Gen.GenElemStack C06.Spec06 C06.Model06 C06.Proofs06a C06.Proofs06b C06.Proofs06d C06.Proofs06e C06.Proofs06f C06.Proofs06g C06.Proofs06h.
From Coq Require Import Arith.
Local Open Scope nat_scope.

(** *** T06_map: ElemStack.  For EVERY history of addLevel / popTop / addPrefix / addGlobalPrefix from the reset
    state, mapPrefixToURI answers exactly what the declarations pushed by that history imply (innermost level first,
    first entry of a level, global declarations last, [xml] / [xmlns] fixed, empty prefix = default) ... *)
Theorem T06_map : forall ops st, es_run ops es_init = Ok st ->
  exists rows g, sop_run ops [] [] = Some (rows, g) /\
                 forall p, es_mapPrefixToURI st p = map_answer (map_spec (rows ++ [g]) p).
Proof.
  intros ops st H. pose proof (es_run_refines ops es_init [] [] inv_init) as R. rewrite H in R.
  destruct R as (rows & g & E & I). exists rows, g. split; [exact E|]. intros p. apply mapPrefix_correct. exact I.
Qed.
Print Assumptions T06_map.

(** ... the only failures are the caller's (popTop / addPrefix on an empty stack: exactly the histories the
    specification rejects), never a write outside an allocated array, whatever the depth or the number of prefixes
    (capacities 32 and 16 growing by 5/4: read from the source) ... *)
Theorem T06_map_no_fault : forall ops e, es_run ops es_init = Err e ->
  (e = E_StackUnderflow \/ e = E_EmptyStack) /\ sop_run ops ([] : list (list (name * nat))) [] = None.
Proof. intros ops e H. pose proof (es_run_refines ops es_init [] [] inv_init) as R. rewrite H in R. exact R. Qed.
Print Assumptions T06_map_no_fault.

Theorem T06_map_total : forall ops rows g, sop_run ops ([] : list (list (name * nat))) [] = Some (rows, g) ->
  exists st, es_run ops es_init = Ok st.
Proof.
  intros ops rows g H. pose proof (es_run_refines ops es_init [] [] inv_init) as R.
  destruct (es_run ops es_init) as [st|e]; [exists st; reflexivity|]. destruct R as [_ R]. congruence.
Qed.
Print Assumptions T06_map_total.

(** ... and capacity growth never loses an entry: expandMap copies the old capacity, which always covers the map *)
Theorem T06_map_growth : forall r, length (r_map r) <= r_cap r -> r_map (expandMap r) = r_map r.
Proof. exact expandMap_keeps. Qed.
Print Assumptions T06_map_growth.
Theorem T06_map_growth_strict : forall c, cap_ok c -> c < grow_map c /\ cap_ok (grow_map c).
Proof. exact grow_map_gt. Qed.
Print Assumptions T06_map_growth_strict.

(** *** T06_resolve: the two-pass start-tag processing (IGXMLScanner / SGXMLScanner path).  In a scanner state that
    represents the declarations [rows] of the open elements: the tag is accepted exactly when the Spec accepts it
    ([sp_tag]: all declarations legal, no unbound prefix, no two attributes with one expanded name), the element and
    every attribute get the namespace [inscope] assigns -- the declarations of the tag itself included, wherever
    they stand among the attributes -- and the new state represents the extended scope.
    ([wf_attr]: the local part of an attribute name is not empty; [triple_x] / [triple_a]: prefix, local part, value) *)
Theorem T06_resolve_sound : forall c s rows pfx loc attrs s' uri xs,
  nonwf c -> SInvR (c_v11 c) s rows -> Forall wf_attr attrs -> startTag c s pfx loc attrs = Ok (s', uri, xs) ->
  exists e ans, sp_tag (c_v11 c) rows pfx (map sp_of attrs) = Some (e, ans) /\
                res_ok (sc_uris s') uri e /\ Forall2 (fun x r => res_ok (sc_uris s') (xa_uri x) r) xs ans /\
                map triple_x xs = map triple_a attrs /\
                SInvR (c_v11 c) s' (sp_decls (map sp_of attrs) :: rows).
Proof.
  intros c s rows pfx loc attrs s' uri xs Hc HS Hwf H. apply (tag_sound _ _ s). rewrite <- H. apply startTag_spec; assumption.
Qed.
Print Assumptions T06_resolve_sound.

(** every tag that violates a namespace constraint (unbound prefix, xmlns:xmlns, re-binding xml, binding the xml /
    xmlns namespace names, xmlns:p="" in 1.0, colliding expanded names) is rejected with one of the namespace errors *)
Theorem T06_resolve_errors : forall c s rows pfx loc attrs,
  nonwf c -> SInvR (c_v11 c) s rows -> Forall wf_attr attrs -> sp_tag (c_v11 c) rows pfx (map sp_of attrs) = None ->
  exists e, startTag c s pfx loc attrs = Err e /\ ns_error e = true.
Proof. intros c s rows pfx loc attrs Hc HS Hwf. apply (tag_rejects _ (SInvR (c_v11 c)) s). apply startTag_spec; assumption. Qed.
Print Assumptions T06_resolve_errors.

(** no false alarm: a tag the Spec accepts is accepted (names are NCNames: no colon inside prefix / local part) *)
Theorem T06_resolve_complete : forall c s rows pfx loc attrs e ans,
  nonwf c -> SInvR (c_v11 c) s rows -> Forall ncname_attr attrs ->
  sp_tag (c_v11 c) rows pfx (map sp_of attrs) = Some (e, ans) ->
  exists s' uri xs, startTag c s pfx loc attrs = Ok (s', uri, xs).
Proof.
  intros c s rows pfx loc attrs e ans Hc HS Hnc. apply (tag_complete _ (SInvR (c_v11 c)) s); [|exact Hnc].
  apply startTag_spec; [exact Hc|exact HS|exact (ncname_wf _ Hnc)].
Qed.
Print Assumptions T06_resolve_complete.

(** the invariant holds initially and is restored by the end tag, so the above applies to every tag of a document *)
Theorem T06_resolve_init : forall v11, SInvR v11 scan_init [].
Proof. exact sinvr_init. Qed.
Print Assumptions T06_resolve_init.
Theorem T06_resolve_endtag : forall c s ds rows, nonwf c -> SInvR (c_v11 c) s (ds :: rows) ->
  exists uri pfx loc s', st_pop c s = Ok (uri, pfx, loc, s') /\ SInvR (c_v11 c) s' rows /\ sc_uris s' = sc_uris s.
Proof. exact sinvr_pop. Qed.
Print Assumptions T06_resolve_endtag.

(** ... which gives the property for whole documents: for EVERY well-nested token sequence (names are NCNames), parsed
    from the initial scanner state, the start-tag events delivered are -- in order, namespace of the element and of every
    attribute -- exactly what the Spec demands ([sp_doc]: [inscope] of the declarations of the open elements and of the
    tag itself), up to the first tag that violates a namespace constraint; the scan ends with an error exactly when
    there is such a tag, and the error is a namespace error *)
Theorem T06_resolve : forall c ts s' devs err, nonwf c -> toks_nc ts -> toks_nested ts 0 = true ->
  scan_toks c scan_init ts = (s', devs, err) ->
  Forall2 (start_ok (sc_uris s')) (dev_starts devs) (fst (sp_doc (c_v11 c) (map sp_tok_of ts) [])) /\
  (snd (sp_doc (c_v11 c) (map sp_tok_of ts) []) = true <-> err <> None) /\
  (forall e, err = Some e -> ns_error e = true).
Proof. intros c ts s' devs err _. apply scan_resolves. Qed.
Print Assumptions T06_resolve.

Theorem T06_resolve_error_cases : forall c s (p u : name), nonwf c -> p <> [] ->
  updateNSMap c s (mkRAttr s_xmlns s_xmlns u) = Err E_NoUseOfxmlnsAsPrefix /\
  (norm_raw u <> uri_xml -> updateNSMap c s (mkRAttr s_xmlns s_xml u) = Err E_PrefixXMLNotMatchXMLURI) /\
  (c_v11 c = false -> p <> s_xmlns -> p <> s_xml -> updateNSMap c s (mkRAttr s_xmlns p []) = Err E_NoEmptyStrNamespace) /\
  (p <> s_xmlns -> p <> s_xml -> updateNSMap c s (mkRAttr s_xmlns p uri_xmlns) = Err E_NoUseOfxmlnsURI) /\
  (p <> s_xmlns -> p <> s_xml -> updateNSMap c s (mkRAttr s_xmlns p uri_xml) = Err E_XMLURINotMatchXMLPrefix) /\
  updateNSMap c s (mkRAttr [] s_xmlns uri_xmlns) = Err E_NoUseOfxmlnsURI /\
  updateNSMap c s (mkRAttr [] s_xmlns uri_xml) = Err E_XMLURINotMatchXMLPrefix.
Proof. intros c s p u _ _. apply updateNSMap_error_cases. Qed.
Print Assumptions T06_resolve_error_cases.

(** attribute-value normalisation: the raw value the scanner keeps (escape mark 0xFFFF before referenced characters,
    literal TAB / LF) is normalised by [norm_raw] exactly as XML 1.0 section 3.3.3 prescribes for the value as written;
    updateNSMap binds the prefix to that value ([ra_nval]), and T06_resolve* above are stated over it ([sp_of]): the
    declaration, the element names and the attribute names all see the NORMALISED namespace name *)
Theorem T06_norm : forall l, Forall (fun i => match i with AvLit c => c <> esc_mark | AvRef _ => True end) l ->
  norm_raw (raw_of l) = spec_norm l.
Proof.
  intros l H. induction H as [|i r Hi Hr IH]; [reflexivity|]. destruct i as [c|c]; cbn [raw_of flat_map app spec_norm].
  - fold (raw_of r). cbn [norm_raw]. apply N.eqb_neq in Hi. rewrite Hi. rewrite IH. reflexivity.
  - fold (raw_of r). cbn [norm_raw app]. change (N.eqb esc_mark esc_mark) with true. cbn iota. rewrite IH. reflexivity.
Qed.
Print Assumptions T06_norm.
Example T06_nonvacuous_norm :   (* urn:a&amp;b&#x3A;<TAB>c  ->  "urn:a&b: c" *)
  norm_raw (raw_of [AvLit 117; AvRef 38; AvLit 98; AvRef 58; AvLit 9; AvLit 99]) = [117; 38; 98; 58; 32; 99]%N.
Proof. vm_compute. reflexivity. Qed.

(** *** T06_wfmap: WFElemStack (WFXMLScanner's element stack: ONE flat prefix map shared by all levels, every level
    remembers fTopPrefix, mapPrefixToURI searches from fTopPrefix downwards).  For EVERY history of addLevel / popTop /
    addPrefix from the reset state the lookup answers what the declarations pushed by that history imply, with the
    LATEST declaration of a level winning ([latest_first]: WFElemStack searches backwards, ElemStack forwards) ... *)
Theorem T06_wfmap : forall ops w, Forall no_global ops -> wfs_run ops wfs_init = Ok w ->
  exists rows, sop_run ops [] [] = Some (rows, []) /\
               forall p, wfs_mapPrefixToURI w p = map_answer (map_spec (latest_first rows) p).
Proof.
  intros ops w Hg H. pose proof (wfs_run_refines ops wfs_init [] Hg winv_init) as R. rewrite H in R.
  destruct R as (rows & E & I). exists rows. split; [exact E|]. intros p. apply wfs_map_correct. exact I.
Qed.
Print Assumptions T06_wfmap.
Theorem T06_wfmap_nodup : forall ops w, Forall no_global ops -> wfs_run ops wfs_init = Ok w ->
  exists rows, sop_run ops [] [] = Some (rows, []) /\
    (Forall (fun ds => NoDup (map fst ds)) rows -> forall p, wfs_mapPrefixToURI w p = map_answer (map_spec rows p)).
Proof.
  intros ops w Hg H. destruct (T06_wfmap ops w Hg H) as (rows & E & K). exists rows. split; [exact E|].
  intros Hn p. rewrite K. unfold map_spec. rewrite (nearest_latest_nodup rows p Hn). reflexivity.
Qed.
Print Assumptions T06_wfmap_nodup.
(** ... and the only failures are the caller's; no write leaves the flat map or the stack array whatever the depth or
    the number of prefixes (capacities 32 / 16 growing by 5/4, read from the source; a popped sibling's entries above
    fTopPrefix are overwritten, expandMap copies the old capacity which covers every live entry) *)
Theorem T06_wfmap_no_fault : forall ops e, Forall no_global ops -> wfs_run ops wfs_init = Err e ->
  (e = E_StackUnderflow \/ e = E_EmptyStack) /\ sop_run ops ([] : list (list (name * nat))) [] = None.
Proof. intros ops e Hg H. pose proof (wfs_run_refines ops wfs_init [] Hg winv_init) as R. rewrite H in R. exact R. Qed.
Print Assumptions T06_wfmap_no_fault.

(** *** T06_resolve_wf: WFXMLScanner::scanStartTagNS (attributes handled while they are scanned: declarations pushed at
    once, [xml:] / [xmlns:] / unprefixed attributes resolved at once, the others deferred to the end of the tag, then
    the duplicate check on expanded names, then the element prefix) delivers exactly what the Spec demands, as
    T06_resolve_sound / _errors / _complete / T06_resolve do for the IGXMLScanner path.  [SInvW]: the scanner state
    represents the declarations of the open elements, row by row up to the order inside a row. *)
Theorem T06_resolve_wf_sound : forall c s rows pfx loc attrs s' uri xs,
  iswf c -> SInvW (c_v11 c) s rows -> Forall wf_attr attrs -> startTag c s pfx loc attrs = Ok (s', uri, xs) ->
  exists e ans, sp_tag (c_v11 c) rows pfx (map sp_of attrs) = Some (e, ans) /\
                res_ok (sc_uris s') uri e /\ Forall2 (fun x r => res_ok (sc_uris s') (xa_uri x) r) xs ans /\
                map triple_x xs = map triple_a attrs /\
                SInvW (c_v11 c) s' (sp_decls (map sp_of attrs) :: rows).
Proof.
  intros c s rows pfx loc attrs s' uri xs Hc HS Hwf H. apply (tag_sound _ _ s). rewrite <- H. apply wf_startTag_spec; assumption.
Qed.
Print Assumptions T06_resolve_wf_sound.
Theorem T06_resolve_wf_errors : forall c s rows pfx loc attrs,
  iswf c -> SInvW (c_v11 c) s rows -> Forall wf_attr attrs -> sp_tag (c_v11 c) rows pfx (map sp_of attrs) = None ->
  exists e, startTag c s pfx loc attrs = Err e /\ ns_error e = true.
Proof. intros c s rows pfx loc attrs Hc HS Hwf. apply (tag_rejects _ (SInvW (c_v11 c)) s). apply wf_startTag_spec; assumption. Qed.
Print Assumptions T06_resolve_wf_errors.
Theorem T06_resolve_wf_complete : forall c s rows pfx loc attrs e ans,
  iswf c -> SInvW (c_v11 c) s rows -> Forall ncname_attr attrs ->
  sp_tag (c_v11 c) rows pfx (map sp_of attrs) = Some (e, ans) ->
  exists s' uri xs, startTag c s pfx loc attrs = Ok (s', uri, xs).
Proof.
  intros c s rows pfx loc attrs e ans Hc HS Hnc. apply (tag_complete _ (SInvW (c_v11 c)) s); [|exact Hnc].
  apply wf_startTag_spec; [exact Hc|exact HS|exact (ncname_wf _ Hnc)].
Qed.
Print Assumptions T06_resolve_wf_complete.
Theorem T06_resolve_wf_init : forall v11, SInvW v11 scan_init [].
Proof. exact sinvw_init. Qed.
Print Assumptions T06_resolve_wf_init.
Theorem T06_resolve_wf_endtag : forall c s ds rows, iswf c -> SInvW (c_v11 c) s (ds :: rows) ->
  exists uri pfx loc s', st_pop c s = Ok (uri, pfx, loc, s') /\ SInvW (c_v11 c) s' rows /\ sc_uris s' = sc_uris s.
Proof. exact st_pop_wf. Qed.
Print Assumptions T06_resolve_wf_endtag.
Theorem T06_resolve_wf : forall c ts s' devs err, iswf c -> toks_nc ts -> toks_nested ts 0 = true ->
  scan_toks c scan_init ts = (s', devs, err) ->
  Forall2 (start_ok (sc_uris s')) (dev_starts devs) (fst (sp_doc (c_v11 c) (map sp_tok_of ts) [])) /\
  (snd (sp_doc (c_v11 c) (map sp_tok_of ts) []) = true <-> err <> None) /\
  (forall e, err = Some e -> ns_error e = true).
Proof. intros c ts s' devs err _. apply scan_resolves. Qed.
Print Assumptions T06_resolve_wf.

(** all these errors are fatal in the code (codes and the F_LowBounds..F_HighBounds range are read from
    XMLErrorCodes.hpp): the model's "the first error ends the scan" is the code's behaviour *)
Theorem T06_errors_fatal : forallb (fun c => (err_F_low <=? c) && (c <=? err_F_high)) ns_err_codes = true.
Proof. vm_compute. reflexivity. Qed.
Print Assumptions T06_errors_fatal.

(** *** T06_sax2_balanced: for every well-nested sequence of element events the prefix-mapping and element events
    SAX2XMLReaderImpl emits form a Dyck word (each endPrefixMapping p closes the latest open startPrefixMapping p,
    element brackets and mapping brackets nest), and fPrefixes / fPrefixCounts are empty at the end *)
Theorem T06_sax2_balanced : forall nsp uris devs x out, well_nested devs 0 = true ->
  sax2_run nsp uris sax2_init devs = (x, out) ->
  dyck (flat_map bracket_of out) [] = true /\ sx_prefixes x = [] /\ sx_counts x = [].
Proof.
  intros nsp uris devs x out W H.
  assert (I0 : SInv sax2_init) by (split; [reflexivity|constructor]).
  destruct (run_dyck _ _ _ _ _ _ H I0 W) as ([S1 S2] & C & Dk).
  specialize (Dk []). rewrite app_nil_r in Dk. unfold sstack in Dk. rewrite C in Dk. cbn in Dk.
  split; [exact Dk|]. split; [|exact C]. rewrite C in S1. cbn in S1. destruct (sx_prefixes x); [reflexivity|discriminate].
Qed.
Print Assumptions T06_sax2_balanced.

(** one event moves the bracket stack that (fPrefixes, fPrefixCounts) represent as its own brackets do *)
Theorem T06_sax2_step : forall nsp uris x e x' out, sax2_ev nsp uris x e = (x', out) -> SInv x ->
  (match e with DEnd _ _ _ => sx_counts x <> [] | _ => True end) ->
  SInv x' /\ length (sx_counts x') = depth_after e (length (sx_counts x)) /\
  forall w, dyck (flat_map bracket_of out ++ w) (sstack x) = dyck w (sstack x').
Proof. exact ev_dyck. Qed.
Print Assumptions T06_sax2_step.

(** *** T06_dom_lookup: on a namespace-well-formed tree (what the parser builds) lookupNamespaceURI answers the
    in-scope binding, for the null prefix and for every prefix other than the reserved ones (which Appendix B does
    not special-case); isDefaultNamespace and lookupPrefix likewise.  [chain] is the ancestor-or-self element chain
    of the node: elements use their own, attributes their owner's, text / comments their parent's, the document its
    document element's. *)
Theorem T06_dom_lookup : forall chain p, Forall parsed_elem chain -> consistent chain -> p <> Some [] ->
  name_eqb (pfx_or_empty p) s_xml = false -> name_eqb (pfx_or_empty p) s_xmlns = false ->
  canon (m_lookup_ns chain p) = inscope (chain_rows chain) (pfx_or_empty p).
Proof. exact lookup_ns_inscope. Qed.
Print Assumptions T06_dom_lookup.

Theorem T06_dom_is_default : forall chain u, Forall parsed_elem chain -> consistent chain -> u <> [] ->
  m_is_default chain (Some u) = oname_eqb (inscope (chain_rows chain) []) (Some u).
Proof. exact is_default_inscope. Qed.
Print Assumptions T06_dom_is_default.

(** lookupPrefix: sound, and complete for non-reserved prefixes *)
Theorem T06_dom_lookup_prefix : forall chain u p, Forall parsed_elem chain -> consistent chain -> u <> [] ->
  m_lookup_prefix chain u = Some p -> p <> [] -> name_eqb p s_xml = false -> name_eqb p s_xmlns = false ->
  inscope (chain_rows chain) p = Some u.
Proof. exact lookup_prefix_sound. Qed.
Print Assumptions T06_dom_lookup_prefix.
Theorem T06_dom_lookup_prefix_complete : forall chain u q, Forall parsed_elem chain -> consistent chain -> u <> [] -> q <> [] ->
  name_eqb q s_xml = false -> name_eqb q s_xmlns = false -> inscope (chain_rows chain) q = Some u ->
  m_lookup_prefix chain u <> None.
Proof. exact lookup_prefix_complete. Qed.
Print Assumptions T06_dom_lookup_prefix_complete.

(** the trees the DOM parser builds satisfy these hypotheses: the element AbstractDOMParser::startElement creates from
    a resolved start tag (T06_resolve_sound) is namespace-well-formed and consistent, and its ancestor chain carries
    the same bindings as the scanner's scope (the attribute map is sorted by name, so the declarations are read off
    in another order -- immaterial, because a tag cannot declare a prefix twice).  This is the step of the
    induction over a document; the induction itself is not stated (T06_dom_lookup_parsed is what it would feed). *)
Theorem T06_dom_built : forall c s rows pfx loc attrs s' uri xs up,
  nonwf c -> SInvR (c_v11 c) s rows -> Forall wf_attr attrs -> startTag c s pfx loc attrs = Ok (s', uri, xs) ->
  rows_equiv (chain_rows up) rows -> consistent up ->
  let e := dom_elem (sc_uris s') uri pfx loc xs in
  parsed_elem e /\ consistent (e :: up) /\ rows_equiv (chain_rows (e :: up)) (sp_decls (map sp_of attrs) :: rows).
Proof. exact dom_elem_built. Qed.
Print Assumptions T06_dom_built.

Theorem T06_dom_lookup_parsed : forall chain rows p, Forall parsed_elem chain -> consistent chain ->
  rows_equiv (chain_rows chain) rows -> p <> Some [] ->
  name_eqb (pfx_or_empty p) s_xml = false -> name_eqb (pfx_or_empty p) s_xmlns = false ->
  canon (m_lookup_ns chain p) = inscope rows (pfx_or_empty p).
Proof.
  intros chain rows p H1 H2 H3 H4 H5 H6. rewrite (lookup_ns_inscope chain p H1 H2 H4 H5 H6). apply inscope_equiv. exact H3.
Qed.
Print Assumptions T06_dom_lookup_parsed.

(** F8 (fixes/C06-lookup-null.patch): a document without document element answers null / false instead of
    dereferencing a null pointer *)
Theorem T06_lookup_emptydoc : forall roots p u, root_chain roots = [] ->
  doc_lookup_ns roots p = None /\ doc_lookup_prefix roots u = None /\ doc_is_default roots (Some u) = false.
Proof. intros roots p u H. unfold doc_lookup_ns, doc_lookup_prefix, doc_is_default. rewrite H. repeat split. Qed.
Print Assumptions T06_lookup_emptydoc.

Definition nm (l : list N) : name := l.
Definition ex_p : name := [112%N].  Definition ex_q : name := [113%N].  Definition ex_a : name := [97%N].
Definition ex_u : name := [117%N]. Definition ex_v : name := [118%N].
(** a prefix used by the element and by an attribute BEFORE the attribute that declares it *)
Example T06_nonvacuous_later_decl :
  fst (fst (parse_sax2 (mkCfg IG false) true
     [TStart ex_p ex_a [mkRAttr ex_p ex_a ex_v; mkRAttr s_xmlns ex_p ex_u] true])) =
  [SPM ex_p ex_u;
   SE ex_u ex_a (ex_p ++ [58%N] ++ ex_a) [mkSAttr ex_u ex_a (ex_p ++ [58%N] ++ ex_a) ex_v;
                                          mkSAttr uri_xmlns ex_p (s_xmlns ++ [58%N] ++ ex_p) ex_u];
   EE ex_u ex_a (ex_p ++ [58%N] ++ ex_a); EPM ex_p].
Proof. vm_compute. reflexivity. Qed.
Example T06_nonvacuous_errors :
  map (fun t => snd (fst (parse_sax2 (mkCfg IG false) true [t])))
    [TStart ex_q ex_a [] true;
     TStart [] ex_a [mkRAttr s_xmlns s_xmlns ex_u] true;
     TStart [] ex_a [mkRAttr s_xmlns s_xml ex_u] true;
     TStart [] ex_a [mkRAttr s_xmlns ex_p []] true;
     TStart [] ex_a [mkRAttr s_xmlns ex_p ex_u; mkRAttr s_xmlns ex_q ex_u; mkRAttr ex_p ex_a ex_v; mkRAttr ex_q ex_a ex_v] true] =
  [Some E_UnknownPrefix; Some E_NoUseOfxmlnsAsPrefix; Some E_PrefixXMLNotMatchXMLURI; Some E_NoEmptyStrNamespace;
   Some E_AttrAlreadyUsedInSTag].
Proof. vm_compute. reflexivity. Qed.
(** 41 levels and 40 prefixes on one level: both capacities are crossed (32 -> 40 -> 50; 16 -> 20 -> 25 -> 31 -> 38 -> 47) *)
Example T06_nonvacuous_growth :
  match es_run (repeat SPush 41 ++ map (fun i => SDecl [N.of_nat i] (5 + i)) (seq 100 40)) es_init with
  | Ok st => (es_cap st, r_cap (hd (mkRow [] 0 0 [] []) (es_live st)), es_mapPrefixToURI st [100%N], es_mapPrefixToURI st [139%N])
  | Err _ => (0, 0, (0, true), (0, true))
  end = (50, 47, (105, false), (144, false)).
Proof. vm_compute. reflexivity. Qed.
Example T06_nonvacuous_dom :
  let chain := [mkBElem (Some ex_u) (Some ex_p) ex_a [mkBAttr (Some uri_xmlns) (Some s_xmlns) ex_p ex_u]] in
  (m_lookup_ns chain (Some ex_p), m_lookup_prefix chain ex_u, m_is_default chain (Some ex_u), m_lookup_ns chain None) =
  (Some ex_u, Some ex_p, false, None).
Proof. vm_compute. reflexivity. Qed.
(** the hypotheses of T06_resolve are satisfiable by a document with shadowing and un-declaration *)
Definition ex_doc : list tok :=
  [TStart ex_p ex_a [mkRAttr s_xmlns ex_p ex_u; mkRAttr [] s_xmlns ex_v] false;
   TStart [] ex_a [mkRAttr [] s_xmlns []; mkRAttr s_xmlns ex_p ex_v; mkRAttr ex_p ex_q ex_u] true; TText; TEnd].
Example T06_nonvacuous_doc_hyps : toks_nested ex_doc 0 = true /\ toks_nc ex_doc.
Proof.
  split; [vm_compute; reflexivity|].
  unfold toks_nc, ex_doc, ncname_attr, ncname, ex_p, ex_q, ex_a, ex_u, ex_v, s_xmlns. cbn [ra_pfx ra_loc In].
  repeat constructor; try (intros H; repeat (destruct H as [H|H]; [discriminate H|]); exact H); discriminate.
Qed.
Example T06_nonvacuous_doc :
  sp_doc false (map sp_tok_of ex_doc) [] =
  ([(NsIn ex_u, [NsIn uri_xmlns; NsNone]); (NsNone, [NsNone; NsIn uri_xmlns; NsIn ex_v])], false).
Proof. vm_compute. reflexivity. Qed.
(** the document of T06_nonvacuous_doc through WFXMLScanner (same events as through IGXMLScanner); 41 levels with 40
    declarations on the innermost one cross both WFElemStack capacities *)
Example T06_nonvacuous_wf :
  fst (fst (parse_sax2 (mkCfg WF false) true ex_doc)) = fst (fst (parse_sax2 (mkCfg IG false) true ex_doc)) /\
  snd (fst (parse_sax2 (mkCfg WF false) true ex_doc)) = None /\
  map (fun t => snd (fst (parse_sax2 (mkCfg WF false) true [t])))
    [TStart ex_q ex_a [] true;
     TStart [] ex_a [mkRAttr s_xmlns ex_p ex_u; mkRAttr s_xmlns ex_p ex_v] true;
     TStart [] ex_a [mkRAttr s_xmlns ex_p ex_u; mkRAttr s_xmlns ex_q ex_u; mkRAttr ex_p ex_a ex_v; mkRAttr ex_q ex_a ex_v] true] =
  [Some E_UnknownPrefix; Some E_AttrAlreadyUsedInSTag; Some E_AttrAlreadyUsedInSTag].
Proof. vm_compute. repeat split; reflexivity. Qed.
Example T06_nonvacuous_wf_growth :
  match wfs_run (repeat SPush 41 ++ map (fun i => SDecl [N.of_nat i] (5 + i)) (seq 100 40)) wfs_init with
  | Ok w => (ws_cap w, ws_mapcap w, wfs_mapPrefixToURI w [100%N], wfs_mapPrefixToURI w [139%N])
  | Err _ => (0, 0, (0, true), (0, true))
  end = (50, 47, (105, false), (144, false)).
Proof. vm_compute. reflexivity. Qed.
