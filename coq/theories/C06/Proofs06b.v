(** Lemmas for T06_sax2_balanced: the fPrefixes / fPrefixCounts stacks of SAX2XMLReaderImpl produce a Dyck word of
    prefix-mapping and element events, and are empty at the end of every well-nested document. *)
From XV Require Import Base.XDefs Gen.GenElemStack C06.Spec06 C06.Model06 C06.Proofs06a.
From Coq Require Import Arith Lia.
Local Open Scope nat_scope.

Definition pv (storage : pool) (id : nat) : option name := Some (pool_value storage id).

Fixpoint stack_of (storage : pool) (counts : list nat) (prefixes : list nat) : list (option name) :=
  match counts with
  | [] => []
  | n :: cs => None :: map (pv storage) (firstn n prefixes) ++ stack_of storage cs (skipn n prefixes)
  end.
Fixpoint sum (l : list nat) : nat := match l with [] => 0 | x :: r => x + sum r end.

Definition ids_in (storage : pool) (l : list nat) : Prop := Forall (fun id => 1 <= id <= length storage) l.
Definition SInv (x : sax2) : Prop := sum (sx_counts x) = length (sx_prefixes x) /\ ids_in (sx_storage x) (sx_prefixes x).
Definition sstack (x : sax2) : list (option name) := stack_of (sx_storage x) (sx_counts x) (sx_prefixes x).
Definition brackets (evs : list sev) : list bracket := flat_map bracket_of evs.

Lemma brackets_cons : forall e evs, brackets (e :: evs) = bracket_of e ++ brackets evs.
Proof. reflexivity. Qed.
Lemma brackets_app : forall a b, brackets (a ++ b) = brackets a ++ brackets b.
Proof. intros. unfold brackets. apply flat_map_app. Qed.

Lemma ids_in_ext : forall st q l, ids_in st l -> ids_in (st ++ q) l.
Proof. intros st q l. exact (in_pool_ext _ (fun id => id) st q l). Qed.
Lemma map_pv_ext : forall st q l, ids_in st l -> map (pv (st ++ q)) l = map (pv st) l.
Proof. intros st q l. exact (pool_map_ext _ _ (fun id => id) (fun _ n => Some n) st q l). Qed.
Lemma ids_in_split : forall st n l, ids_in st l -> ids_in st (firstn n l) /\ ids_in st (skipn n l).
Proof. intros st n l H. apply Forall_app. rewrite firstn_skipn. exact H. Qed.
Lemma stack_of_ext : forall st q cs l, ids_in st l -> stack_of (st ++ q) cs l = stack_of st cs l.
Proof.
  intros st q cs. induction cs as [|n cs IH]; intros l H; cbn [stack_of]; [reflexivity|].
  destruct (ids_in_split st n l H) as [H1 H2]. rewrite map_pv_ext by exact H1. rewrite IH by exact H2. reflexivity.
Qed.

Lemma push_dyck : forall attrs x n x' evs n', sax2_push x attrs n = (x', evs, n') -> ids_in (sx_storage x) (sx_prefixes x) ->
  exists newids q, sx_prefixes x' = newids ++ sx_prefixes x /\ sx_counts x' = sx_counts x /\
                   sx_storage x' = sx_storage x ++ q /\ n' = n + length newids /\ ids_in (sx_storage x') (sx_prefixes x') /\
                   forall w st, dyck (brackets evs ++ w) st = dyck w (map (pv (sx_storage x')) newids ++ st).
Proof.
  induction attrs as [|a r IH]; intros x n x' evs n' H V; cbn [sax2_push] in H.
  - injection H as <- <- <-. exists [], []. cbn [app length map]. rewrite app_nil_r. repeat split; try reflexivity; [lia|exact V].
  - destruct (sax2_nsdecl a) as [[p u]|].
    + destruct (addOrFind_spec (sx_storage x) p) as (q1 & id & Ea & Hr & Hv & _). rewrite Ea in H.
      destruct (sax2_push (mkSax2 (id :: sx_prefixes x) (sx_counts x) (sx_storage x ++ q1)) r (S n)) as [[x1 evs1] n1] eqn:Ep.
      injection H as <- <- <-.
      assert (V1 : ids_in (sx_storage x ++ q1) (id :: sx_prefixes x)) by (constructor; [exact Hr|apply ids_in_ext; exact V]).
      destruct (IH _ _ _ _ _ Ep V1) as (newids & q & A & B & C & D & E & F). cbn [sx_prefixes sx_counts sx_storage] in *.
      exists (newids ++ [id]), (q1 ++ q). repeat split.
      * rewrite A. rewrite <- app_assoc. reflexivity.
      * exact B.
      * rewrite C. rewrite app_assoc. reflexivity.
      * rewrite app_length. cbn. lia.
      * exact E.
      * intros w st. rewrite brackets_cons. cbn [bracket_of app dyck]. rewrite F.
        rewrite map_app. rewrite <- app_assoc. cbn [map app]. unfold pv at 3. rewrite C, pool_value_app, Hv by exact Hr. reflexivity.
    + apply IH; assumption.
Qed.

Lemma pop_dyck : forall n x x' evs, sax2_pop x n = (x', evs) -> n <= length (sx_prefixes x) ->
  sx_prefixes x' = skipn n (sx_prefixes x) /\ sx_counts x' = sx_counts x /\ sx_storage x' = sx_storage x /\
  forall w st, dyck (brackets evs ++ w) (map (pv (sx_storage x)) (firstn n (sx_prefixes x)) ++ st) = dyck w st.
Proof.
  induction n as [|n IH]; intros x x' evs H L; cbn [sax2_pop] in H.
  - injection H as <- <-. cbn. repeat split; reflexivity.
  - destruct (sx_prefixes x) as [|id ps] eqn:Ep; [cbn in L; lia|].
    destruct (sax2_pop (mkSax2 ps (sx_counts x) (sx_storage x)) n) as [x1 evs1] eqn:E1.
    injection H as <- <-. cbn [length] in L.
    destruct (IH _ _ _ E1 ltac:(cbn; lia)) as (A & B & C & D). cbn [sx_prefixes sx_counts sx_storage] in *.
    repeat split; try assumption.
    intros w st. rewrite brackets_cons. cbn [firstn map app bracket_of]. unfold pv at 1. cbn [dyck].
    rewrite name_eqb_refl. cbn [andb]. apply D.
Qed.

Lemma end_dyck : forall x uris uri pfx loc x' evs n cs, sax2_end x uris uri pfx loc = (x', evs) -> SInv x ->
  sx_counts x = n :: cs ->
  SInv x' /\ sx_counts x' = cs /\ forall w, dyck (brackets evs ++ w) (sstack x) = dyck w (sstack x').
Proof.
  intros x uris uri pfx loc x' evs n cs H [S1 S2] Ec. unfold sax2_end in H. rewrite Ec in H.
  destruct (sax2_pop (mkSax2 (sx_prefixes x) cs (sx_storage x)) n) as [x1 evs1] eqn:Ep.
  injection H as <- <-. rewrite Ec in S1. cbn [sum] in S1.
  destruct (pop_dyck _ _ _ _ Ep ltac:(cbn; lia)) as (A & B & C & D). cbn [sx_prefixes sx_counts sx_storage] in *.
  split; [|split].
  - unfold SInv. rewrite A, B, C. split.
    + rewrite skipn_length. lia.
    + apply ids_in_split. exact S2.
  - exact B.
  - intros w. unfold sstack. rewrite Ec, A, B, C, brackets_cons. cbn [stack_of bracket_of app].
    cbn [dyck]. apply D.
Qed.

Definition depth_after (e : dev) (d : nat) : nat :=
  match e with DStart _ _ _ _ false => S d | DEnd _ _ _ => pred d | _ => d end.

Lemma ev_dyck : forall nsp uris x e x' out, sax2_ev nsp uris x e = (x', out) -> SInv x ->
  (match e with DEnd _ _ _ => sx_counts x <> [] | _ => True end) ->
  SInv x' /\ length (sx_counts x') = depth_after e (length (sx_counts x)) /\
  forall w, dyck (brackets out ++ w) (sstack x) = dyck w (sstack x').
Proof.
  intros nsp uris x e x' out H HI Hne. destruct e as [uri pfx loc attrs empty|uri pfx loc| |]; cbn [sax2_ev] in H.
  - destruct (sax2_push x attrs 0) as [[x1 spm] n] eqn:Ep. destruct HI as [S1 S2].
    destruct (push_dyck _ _ _ _ _ _ Ep S2) as (newids & q & A & B & C & D & E & F). cbn [Nat.add] in D.
    set (x2 := mkSax2 (sx_prefixes x1) (n :: sx_counts x1) (sx_storage x1)) in *.
    assert (I2 : SInv x2).
    { unfold SInv, x2. cbn [sx_prefixes sx_counts sx_storage sum]. split; [|exact E].
      rewrite A, B, app_length. lia. }
    assert (St2 : sstack x2 = None :: map (pv (sx_storage x1)) newids ++ sstack x).
    { unfold sstack, x2. cbn [sx_prefixes sx_counts sx_storage stack_of]. rewrite A, B, D.
      rewrite firstn_app, Nat.sub_diag, firstn_all. cbn [firstn]. rewrite app_nil_r.
      rewrite skipn_app, Nat.sub_diag, skipn_all. cbn [skipn app]. rewrite C. rewrite stack_of_ext by exact S2. reflexivity. }
    destruct empty.
    + destruct (sax2_end x2 uris uri pfx loc) as [x3 evs] eqn:Ee. injection H as <- <-.
      destruct (end_dyck _ _ _ _ _ _ _ n (sx_counts x1) Ee I2 eq_refl) as (I3 & Ec & Dk).
      split; [exact I3|]. split; [rewrite Ec, B; reflexivity|].
      intros w. rewrite !brackets_app. rewrite <- !app_assoc. rewrite F. cbn [brackets flat_map bracket_of app dyck].
      rewrite <- St2. apply Dk.
    + injection H as <- <-. split; [exact I2|]. split; [unfold x2; cbn [sx_counts length]; rewrite B; reflexivity|].
      intros w. rewrite brackets_app. rewrite <- app_assoc. rewrite F. cbn [brackets flat_map bracket_of app dyck].
      rewrite St2. reflexivity.
  - destruct (sx_counts x) as [|n cs] eqn:Ec; [contradiction|].
    destruct (end_dyck _ _ _ _ _ _ _ n cs H HI Ec) as (I3 & Ec' & Dk).
    split; [exact I3|]. split; [rewrite Ec'; reflexivity|exact Dk].
  - injection H as <- <-. split; [exact HI|]. split; [reflexivity|]. intros w. reflexivity.
  - injection H as <- <-. split; [exact HI|]. split; [reflexivity|]. intros w. reflexivity.
Qed.

Lemma run_dyck : forall nsp uris devs x x' out, sax2_run nsp uris x devs = (x', out) -> SInv x ->
  well_nested devs (length (sx_counts x)) = true ->
  SInv x' /\ sx_counts x' = [] /\ forall w, dyck (brackets out ++ w) (sstack x) = dyck w (sstack x').
Proof.
  intros nsp uris devs. induction devs as [|e r IH]; intros x x' out H HI W; cbn [sax2_run] in H.
  - injection H as <- <-. cbn [well_nested] in W. apply Nat.eqb_eq in W.
    split; [exact HI|]. split; [destruct (sx_counts x); [reflexivity|discriminate]|]. intros w. reflexivity.
  - destruct (sax2_ev nsp uris x e) as [x1 o1] eqn:E1. destruct (sax2_run nsp uris x1 r) as [x2 o2] eqn:E2.
    injection H as <- <-.
    assert (Hne : match e with DEnd _ _ _ => sx_counts x <> [] | _ => True end).
    { destruct e; try exact I. cbn [well_nested] in W. destruct (sx_counts x); discriminate. }
    destruct (ev_dyck _ _ _ _ _ _ E1 HI Hne) as (I1 & Hd & Dk).
    assert (W1 : well_nested r (length (sx_counts x1)) = true).
    { rewrite Hd. destruct e as [? ? ? ? [|]| | |]; cbn [well_nested depth_after] in *; try exact W.
      destruct (length (sx_counts x)); [discriminate|exact W]. }
    destruct (IH _ _ _ E2 I1 W1) as (I2 & C2 & Dk2).
    split; [exact I2|]. split; [exact C2|]. intros w. rewrite brackets_app, <- app_assoc. rewrite Dk. apply Dk2.
Qed.
