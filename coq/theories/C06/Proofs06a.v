(** What all of Proofs06* use: names, lists, the string pool, prefix maps and their lookup by pool id.  Then T06_map: the
    refinement ElemStack -> declarations in scope for every history of addLevel / popTop / addPrefix / addGlobalPrefix,
    including the capacity arithmetic. *)
From XV Require Import Base.XDefs Gen.GenElemStack C06.Spec06 C06.Model06.
From Coq Require Import Arith Lia Permutation.
Local Open Scope nat_scope.

Lemma name_eqb_eq : forall a b, name_eqb a b = true <-> a = b.
Proof.
  induction a as [|x a IH]; destruct b as [|y b]; cbn [name_eqb]; split; intros H; try reflexivity; try discriminate.
  - apply andb_true_iff in H. destruct H as [H1 H2]. apply N.eqb_eq in H1. apply IH in H2. subst. reflexivity.
  - injection H as -> ->. rewrite N.eqb_refl. cbn. apply IH. reflexivity.
Qed.
Lemma name_eqb_refl : forall a, name_eqb a a = true.
Proof. intros a. apply name_eqb_eq. reflexivity. Qed.
Lemma name_eqb_neq : forall a b, name_eqb a b = false <-> a <> b.
Proof.
  intros a b. split.
  - intros H E. apply name_eqb_eq in E. congruence.
  - intros H. destruct (name_eqb a b) eqn:E; [|reflexivity]. apply name_eqb_eq in E. contradiction.
Qed.
Lemma name_eqb_sym : forall a b, name_eqb a b = name_eqb b a.
Proof.
  intros a b. destruct (name_eqb a b) eqn:E.
  - apply name_eqb_eq in E. subst. symmetry. apply name_eqb_refl.
  - symmetry. apply name_eqb_neq. apply name_eqb_neq in E. congruence.
Qed.

Lemma existsb_map : forall (A B : Type) (f : B -> bool) (g : A -> B) l, existsb f (map g l) = existsb (fun x => f (g x)) l.
Proof. intros A B f g l. induction l as [|x l IH]; cbn [map existsb]; [reflexivity|]. rewrite IH. reflexivity. Qed.
Lemma Forall2_inv_r : forall {A B : Type} {R : A -> B -> Prop} {l l'}, Forall2 R l l' ->
  match l' with
  | [] => l = []
  | y :: up => exists x l0, l = x :: l0 /\ R x y /\ Forall2 R l0 up
  end.
Proof. intros A B R l l' H. destruct H as [|x y l0 up Hx Hl]; [reflexivity|]. exists x, l0. split; [reflexivity|split; assumption]. Qed.

Lemma getId_bound : forall pl s, pool_getId pl s <= length pl.
Proof.
  induction pl as [|x pl IH]; intros s; cbn [pool_getId length]; [lia|].
  destruct (name_eqb x s); [lia|]. specialize (IH s). destruct (pool_getId pl s); lia.
Qed.
Lemma getId_sound : forall pl s i, pool_getId pl s = S i -> nth i pl [] = s /\ i < length pl.
Proof.
  induction pl as [|x pl IH]; intros s i H; cbn [pool_getId] in H; [discriminate|].
  destruct (name_eqb x s) eqn:E.
  - injection H as <-. apply name_eqb_eq in E. cbn. split; [exact E|lia].
  - destruct (pool_getId pl s) eqn:G; [discriminate|]. injection H as <-.
    destruct (IH s n G) as [A B]. cbn [nth length]. split; [exact A|lia].
Qed.
Lemma getId_zero : forall pl s, pool_getId pl s = 0 -> ~ In s pl.
Proof.
  induction pl as [|x pl IH]; intros s H; cbn [pool_getId] in H; [intros []|].
  destruct (name_eqb x s) eqn:E; [discriminate|].
  destruct (pool_getId pl s) eqn:G; [|discriminate].
  intros [A|A]; [apply name_eqb_neq in E; contradiction|]. exact (IH s G A).
Qed.
Lemma getId_app_l : forall pl q s i, pool_getId pl s = S i -> pool_getId (pl ++ q) s = S i.
Proof.
  induction pl as [|x pl IH]; intros q s i H; cbn [pool_getId app] in *; [discriminate|].
  destruct (name_eqb x s); [exact H|].
  destruct (pool_getId pl s) eqn:G; [discriminate|]. rewrite (IH q s n G). exact H.
Qed.
Lemma getId_app_new : forall pl s, pool_getId pl s = 0 -> pool_getId (pl ++ [s]) s = S (length pl).
Proof.
  induction pl as [|x pl IH]; intros s H; cbn [pool_getId app length] in *.
  - rewrite name_eqb_refl. reflexivity.
  - destruct (name_eqb x s); [discriminate|].
    destruct (pool_getId pl s) eqn:G; [|discriminate]. rewrite (IH s G). reflexivity.
Qed.

Definition pool_ok (pl : pool) : Prop := forall i, i < length pl -> pool_getId pl (nth i pl []) = S i.

Lemma pool_value_S : forall pl i, pool_value pl (S i) = nth i pl [].
Proof. intros pl i. unfold pool_value. rewrite Nat.sub_succ, Nat.sub_0_r. reflexivity. Qed.
Lemma pool_value_app : forall pl q id, 1 <= id <= length pl -> pool_value (pl ++ q) id = pool_value pl id.
Proof. intros pl q id H. unfold pool_value. apply app_nth1. lia. Qed.
(** when the pool grows, ids stay in range and denote the same strings *)
Lemma in_pool_ext : forall (A : Type) (f : A -> nat) (pl q : pool) (l : list A),
  Forall (fun x => 1 <= f x <= length pl) l -> Forall (fun x => 1 <= f x <= length (pl ++ q)) l.
Proof. intros A f pl q l H. eapply Forall_impl; [|exact H]. intros x Hx. cbn beta in *. rewrite app_length. lia. Qed.
Lemma pool_map_ext : forall (A B : Type) (f : A -> nat) (h : A -> name -> B) (pl q : pool) (l : list A),
  Forall (fun x => 1 <= f x <= length pl) l ->
  map (fun x => h x (pool_value (pl ++ q) (f x))) l = map (fun x => h x (pool_value pl (f x))) l.
Proof.
  intros A B f h pl q l H. apply map_ext_in. intros x Hx. rewrite Forall_forall in H. rewrite pool_value_app by (apply H; exact Hx). reflexivity.
Qed.

Lemma addOrFind_spec : forall pl s, exists q id, pool_addOrFind pl s = (pl ++ q, id) /\
  1 <= id <= length (pl ++ q) /\ pool_value (pl ++ q) id = s /\ (pool_ok pl -> pool_ok (pl ++ q)).
Proof.
  intros pl s. unfold pool_addOrFind. destruct (pool_getId pl s) as [|i] eqn:G.
  - exists [s], (S (length pl)). rewrite pool_value_S, app_length, app_nth2, Nat.sub_diag by lia. cbn [length nth].
    split; [reflexivity|]. split; [lia|]. split; [reflexivity|]. intros H j Hj. rewrite app_length in Hj. cbn [length] in Hj.
    destruct (Nat.lt_ge_cases j (length pl)) as [L|L].
    + rewrite app_nth1 by exact L. apply getId_app_l. apply H. exact L.
    + replace j with (length pl) by lia. rewrite app_nth2, Nat.sub_diag by lia. apply getId_app_new. exact G.
  - exists [], (S i). rewrite app_nil_r, pool_value_S. destruct (getId_sound pl s i G) as [A B].
    split; [reflexivity|]. split; [lia|]. split; [exact A|]. intros H. exact H.
Qed.

(** the key fact: comparing ids is comparing strings *)
Lemma id_eqb_name : forall pl p id, pool_ok pl -> 1 <= id <= length pl ->
  (id =? pool_getId pl p) = name_eqb (pool_value pl id) p.
Proof.
  intros pl p id Hok Hid. unfold pool_value.
  destruct (name_eqb (nth (id - 1) pl []) p) eqn:E.
  - apply name_eqb_eq in E. subst p. rewrite (Hok (id - 1)) by lia. apply Nat.eqb_eq. lia.
  - apply Nat.eqb_neq. intros C. destruct id as [|i]; [lia|].
    symmetry in C. destruct (getId_sound pl p i C) as [A _]. rewrite <- pool_value_S in A. unfold pool_value in A.
    rewrite A in E. rewrite name_eqb_refl in E. discriminate.
Qed.

(** reset: "", [xml] and [xmlns] get the ids 1, 2, 3 *)
Lemma reserved_ids : forall pl p, pool_ok pl -> (exists q, pl = pfx_pool0 ++ q) ->
  pool_getId pl [] = globalPoolId /\
  (pool_getId pl p =? xmlPoolId) = name_eqb p s_xml /\ (pool_getId pl p =? xmlnsPoolId) = name_eqb p s_xmlns.
Proof.
  intros pl p Hok [q ->]. split; [apply getId_app_l; reflexivity|].
  assert (L : 3 <= length (pfx_pool0 ++ q)) by (rewrite app_length; cbn; lia).
  split; rewrite Nat.eqb_sym, name_eqb_sym.
  - apply (id_eqb_name (pfx_pool0 ++ q) p xmlPoolId Hok). unfold xmlPoolId. lia.
  - apply (id_eqb_name (pfx_pool0 ++ q) p xmlnsPoolId Hok). unfold xmlnsPoolId. lia.
Qed.

Definition ids_ok (pl : pool) (m : list (nat * nat)) : Prop := Forall (fun e => 1 <= fst e <= length pl) m.
Definition abs (pl : pool) (m : list (nat * nat)) : list (name * nat) := map (fun e => (pool_value pl (fst e), snd e)) m.

Lemma ids_ok_ext : forall pl q m, ids_ok pl m -> ids_ok (pl ++ q) m.
Proof. intros pl q m. exact (in_pool_ext _ fst pl q m). Qed.
Lemma abs_ext : forall pl q m, ids_ok pl m -> abs (pl ++ q) m = abs pl m.
Proof. intros pl q m. exact (pool_map_ext _ _ fst (fun e n => (n, snd e)) pl q m). Qed.
Lemma ids_ok_app : forall pl a b, ids_ok pl a -> ids_ok pl b -> ids_ok pl (a ++ b).
Proof. intros pl a b Ha Hb. apply Forall_app. split; assumption. Qed.
Lemma abs_app : forall pl a b, abs pl (a ++ b) = abs pl a ++ abs pl b.
Proof. intros. apply map_app. Qed.

Lemma find_decl_abs : forall pl p m, pool_ok pl -> ids_ok pl m ->
  find_decl p (abs pl m) = match pool_getId pl p with 0 => None | id => find_id id m end.
Proof.
  intros pl p m Hok Hids. induction m as [|[pid u] m IH]; cbn [find_id abs map find_decl fst snd].
  - destruct (pool_getId pl p); reflexivity.
  - pose proof (Forall_inv Hids) as He. cbn [fst] in He. specialize (IH (Forall_inv_tail Hids)).
    rewrite <- (id_eqb_name pl p pid Hok He). destruct (pool_getId pl p) as [|i].
    + replace (pid =? 0) with false by (symmetry; apply Nat.eqb_neq; lia). exact IH.
    + destruct (pid =? S i); [reflexivity|exact IH].
Qed.
Lemma find_decl_app : forall (U : Type) p (a b : list (name * U)),
  find_decl p (a ++ b) = match find_decl p a with Some u => Some u | None => find_decl p b end.
Proof.
  intros U p a b. induction a as [|[q u] a IH]; cbn [app find_decl]; [reflexivity|].
  destruct (name_eqb q p); [reflexivity|exact IH].
Qed.
Lemma find_decl_in : forall (U : Type) p (m : list (name * U)) u, find_decl p m = Some u -> In (p, u) m.
Proof.
  intros U p m u. induction m as [|[q v] m IH]; cbn [find_decl]; intros H; [discriminate|].
  destruct (name_eqb q p) eqn:E.
  - injection H as <-. apply name_eqb_eq in E. subst q. left. reflexivity.
  - right. apply IH. exact H.
Qed.
Lemma nearest_in : forall (U : Type) p (rows : list (list (name * U))) u, nearest rows p = Some u ->
  exists m, In m rows /\ In (p, u) m.
Proof.
  intros U p rows u. induction rows as [|m r IH]; cbn [nearest]; intros H; [discriminate|].
  destruct (find_decl p m) eqn:E.
  - injection H as <-. exists m. split; [left; reflexivity|]. apply find_decl_in. exact E.
  - destruct (IH H) as (m' & A & B). exists m'. split; [right; exact A|exact B].
Qed.
Lemma find_decl_iff : forall (U : Type) (D : list (name * U)) p u, NoDup (map fst D) -> (find_decl p D = Some u <-> In (p, u) D).
Proof.
  intros U D p u H. split; [apply find_decl_in|]. induction D as [|[q v] r IH]; intros Hin; [destruct Hin|].
  cbn [map fst] in H. apply NoDup_cons_iff in H. destruct H as [Hq Hr]. cbn [find_decl]. destruct Hin as [E|Hin].
  - injection E as -> ->. rewrite name_eqb_refl. reflexivity.
  - destruct (name_eqb q p) eqn:E.
    + exfalso. apply name_eqb_eq in E. subst q. apply Hq. change p with (fst (p, u)). apply in_map. exact Hin.
    + apply IH; assumption.
Qed.
Lemma find_decl_perm : forall (U : Type) (D D' : list (name * U)) p, NoDup (map fst D) -> Permutation D D' -> find_decl p D = find_decl p D'.
Proof.
  intros U D D' p H P.
  assert (H' : NoDup (map fst D')) by (eapply Permutation_NoDup; [apply Permutation_map; exact P|exact H]).
  destruct (find_decl p D') as [u'|] eqn:E'.
  - apply (find_decl_iff U D' p u' H') in E'. apply (find_decl_iff U D p u' H). eapply Permutation_in; [apply Permutation_sym; exact P|exact E'].
  - destruct (find_decl p D) as [u|] eqn:E; [|reflexivity].
    apply (find_decl_iff U D p u H) in E. assert (E2 : In (p, u) D') by (eapply Permutation_in; eassumption).
    apply (find_decl_iff U D' p u H') in E2. congruence.
Qed.
Lemma find_decl_rev_nodup : forall (U : Type) (ds : list (name * U)) p, NoDup (map fst ds) -> find_decl p (rev ds) = find_decl p ds.
Proof. intros U ds p H. symmetry. apply find_decl_perm; [exact H|apply Permutation_rev]. Qed.
Lemma find_id_app : forall id a b, find_id id (a ++ b) = match find_id id a with Some u => Some u | None => find_id id b end.
Proof.
  intros id a b. induction a as [|[p u] a IH]; cbn [app find_id]; [reflexivity|]. destruct (p =? id); [reflexivity|exact IH].
Qed.
Lemma nearest_concat : forall (U : Type) (rows : list (list (name * U))) p, find_decl p (concat rows) = nearest rows p.
Proof.
  intros U rows p. induction rows as [|ds r IH]; cbn [concat nearest]; [reflexivity|]. rewrite find_decl_app, IH. reflexivity.
Qed.
Lemma map_spec_concat : forall (U : Type) (rows : list (list (name * U))) p, map_spec rows p = map_spec [concat rows] p.
Proof. intros U rows p. unfold map_spec. cbn [nearest]. rewrite nearest_concat. destruct (nearest rows p); reflexivity. Qed.

(** mapPrefixToURI of either stack; [found]: the search of its map for [pid] *)
Definition map_answer (r : mapres nat) : nat * bool :=
  match r with
  | MBound u => (u, false) | MXml => (xmlId, false) | MXmlns => (xmlnsId, false)
  | MNoDefault => (emptyId, false) | MUnknown => (unknownId, true)
  end.
Definition id_answer (pid : nat) (p : name) (found : option nat) : nat * bool :=
  if pid =? 0 then (unknownId, true)
  else if pid =? xmlPoolId then (xmlId, false)
  else if pid =? xmlnsPoolId then (xmlnsId, false)
  else match found with
       | Some u => (u, false)
       | None => match p with [] => (emptyId, false) | _ => (unknownId, true) end
       end.

Lemma id_answer_spec : forall pl p m, pool_ok pl -> (exists q, pl = pfx_pool0 ++ q) -> ids_ok pl m ->
  id_answer (pool_getId pl p) p (find_id (pool_getId pl p) m) = map_answer (map_spec [abs pl m] p).
Proof.
  intros pl p m Hok Hpre Hids. destruct (reserved_ids pl p Hok Hpre) as (I1 & E2 & E3).
  unfold id_answer, map_spec. cbn [nearest]. rewrite <- E2, <- E3, (find_decl_abs pl p m Hok Hids).
  destruct (pool_getId pl p) as [|i] eqn:G.
  - destruct p; [rewrite I1 in G; discriminate|reflexivity].
  - change (S i =? 0) with false. cbn iota. destruct (S i =? xmlPoolId); [reflexivity|]. destruct (S i =? xmlnsPoolId); [reflexivity|].
    destruct (find_id (S i) m); [reflexivity|]. destruct p; reflexivity.
Qed.

Definition cap_ok (c : nat) : Prop := c = 0 \/ es_map_init <= c.

(** "capacity growth never loses an entry": expandMap copies oldCap elements, and the map never holds more *)
Lemma expandMap_keeps : forall r, length (r_map r) <= r_cap r -> r_map (expandMap r) = r_map r.
Proof. intros r H. unfold expandMap. cbn [r_map]. apply firstn_all2. exact H. Qed.
Lemma grow_gt : forall init num den c, 0 < init -> den <> 0 -> (forall k, init <= k -> den * S k <= k * num) ->
  c = 0 \/ init <= c ->
  c < (if c =? 0 then init else c * num / den) /\ init <= (if c =? 0 then init else c * num / den).
Proof.
  intros init num den c Hi Hd Hk [->|H]; [split; [exact Hi|apply Nat.le_refl]|].
  replace (c =? 0) with false by (symmetry; apply Nat.eqb_neq; lia). specialize (Hk c H).
  split; apply Nat.div_le_lower_bound; try exact Hd; [exact Hk|].
  apply Nat.le_trans with (den * S c); [apply Nat.mul_le_mono_l; lia|exact Hk].
Qed.
Lemma grow_map_gt : forall c, cap_ok c -> c < grow_map c /\ cap_ok (grow_map c).
Proof.
  intros c H. destruct (grow_gt es_map_init es_map_num es_map_den c) as [G1 G2]; try exact H;
    unfold es_map_init, es_map_num, es_map_den; try lia.
  split; [exact G1|right; exact G2].
Qed.
Lemma grow_stack_gt : forall c, es_stack_init <= c -> c < grow_stack c.
Proof.
  intros c H. unfold grow_stack, es_stack_init, es_stack_num, es_stack_den in *. apply Nat.div_le_lower_bound; lia.
Qed.

Definition row_inv (pl : pool) (r : row) (ds : list (name * nat)) : Prop :=
  ids_ok pl (r_map r) /\ abs pl (r_map r) = ds /\ length (r_map r) <= r_cap r /\ cap_ok (r_cap r).

Lemma row_inv_ext : forall pl q r ds, row_inv pl r ds -> row_inv (pl ++ q) r ds.
Proof.
  intros pl q r ds (A & B & C & D). repeat split; try assumption.
  - apply ids_ok_ext. exact A.
  - rewrite abs_ext by exact A. exact B.
Qed.
Lemma row_inv_empty : forall pl c u p l, cap_ok c -> row_inv pl (mkRow [] c u p l) [].
Proof. intros pl c u p l H. repeat split; [constructor|apply Nat.le_0_l|exact H]. Qed.

(** addPrefix stores fEmptyNamespaceId for the empty prefix with the empty URI: the id it was given *)
Lemma stored_uri : forall prefId uriId, (if (prefId =? globalPoolId) && (uriId =? emptyId) then emptyId else uriId) = uriId.
Proof.
  intros prefId uriId. destruct (prefId =? globalPoolId); [|reflexivity]. destruct (Nat.eqb_spec uriId emptyId) as [E|E]; [|reflexivity].
  symmetry. exact E.
Qed.

Lemma row_add_ok : forall pl r ds prefId uriId, row_inv pl r ds -> 1 <= prefId <= length pl ->
  exists r', row_add r prefId uriId = Ok r' /\ row_inv pl r' (ds ++ [(pool_value pl prefId, uriId)]).
Proof.
  intros pl r ds prefId uriId (A & B & C & D) Hid. unfold row_add. rewrite stored_uri.
  set (r1 := if length (r_map r) =? r_cap r then expandMap r else r).
  assert (H1 : r_map r1 = r_map r /\ length (r_map r) < r_cap r1 /\ cap_ok (r_cap r1)).
  { unfold r1. destruct (Nat.eqb_spec (length (r_map r)) (r_cap r)) as [E|E].
    - destruct (grow_map_gt (r_cap r) D) as [G1 G2]. rewrite (expandMap_keeps r C). cbn [expandMap r_cap].
      split; [reflexivity|]. split; [lia|exact G2].
    - split; [reflexivity|]. split; [lia|exact D]. }
  destruct H1 as (M & L & D'). rewrite M. rewrite (proj2 (Nat.ltb_lt _ _) L). eexists. split; [reflexivity|].
  unfold row_inv. cbn [r_map r_cap]. split; [apply ids_ok_app; [exact A|constructor; [exact Hid|constructor]]|].
  split; [rewrite abs_app, B; reflexivity|]. split; [rewrite app_length; cbn [length]; lia|exact D'].
Qed.

Definition glob_inv (pl : pool) (go : option row) (g : list (name * nat)) : Prop :=
  match go with None => g = [] | Some gr => row_inv pl gr g end.

Record Inv (st : estack) (rows : list (list (name * nat))) (g : list (name * nat)) : Prop := mkInv {
  inv_pool : pool_ok (es_pool st);
  inv_pre : exists q, es_pool st = pfx_pool0 ++ q;
  inv_live : Forall2 (row_inv (es_pool st)) (es_live st) rows;
  inv_dead : Forall (fun r => cap_ok (r_cap r)) (es_dead st);
  inv_glob : glob_inv (es_pool st) (es_global st) g;
  inv_top : length (es_live st) <= es_cap st;
  inv_cap : es_stack_init <= es_cap st }.

Lemma pfx_pool0_ok : pool_ok pfx_pool0.
Proof. intros i Hi. cbn in Hi. destruct i as [|[|[|i]]]; try lia; reflexivity. Qed.

Lemma inv_init : Inv es_init [] [].
Proof.
  constructor; cbn.
  - exact pfx_pool0_ok.
  - exists []. reflexivity.
  - constructor.
  - constructor.
  - reflexivity.
  - lia.
  - lia.
Qed.

Lemma live_ext : forall pl q l rows, Forall2 (row_inv pl) l rows -> Forall2 (row_inv (pl ++ q)) l rows.
Proof. intros pl q l rows H. induction H; constructor; [apply row_inv_ext; assumption|assumption]. Qed.
Lemma glob_ext : forall pl q go g, glob_inv pl go g -> glob_inv (pl ++ q) go g.
Proof. intros pl q [gr|] g H; [apply row_inv_ext; exact H|exact H]. Qed.
Lemma pre_ext : forall (p0 pl q : pool), (exists q0, pl = p0 ++ q0) -> exists q1, pl ++ q = p0 ++ q1.
Proof. intros p0 pl q [q0 ->]. exists (q0 ++ q). symmetry. apply app_assoc. Qed.

Lemma inv_addLevel : forall st rows g, Inv st rows g -> exists st', es_addLevel st = Ok st' /\ Inv st' ([] :: rows) g.
Proof.
  intros st rows g [P Pre L D G T C]. unfold es_addLevel.
  set (cap := if length (es_live st) =? es_cap st then grow_stack (es_cap st) else es_cap st).
  assert (Hc : length (es_live st) < cap /\ es_stack_init <= cap).
  { unfold cap. destruct (Nat.eqb_spec (length (es_live st)) (es_cap st)) as [E|E]; [|lia].
    pose proof (grow_stack_gt (es_cap st) C). lia. }
  destruct Hc as [Hc1 Hc2]. rewrite (proj2 (Nat.ltb_lt _ _) Hc1).
  destruct D as [|d ds Hd Hds]; (eexists; split; [reflexivity|]);
    constructor; cbn [es_pool es_live es_dead es_global es_cap length]; try assumption; try lia.
  - constructor; [apply row_inv_empty; left; reflexivity|exact L].
  - constructor.
  - constructor; [apply row_inv_empty; exact Hd|exact L].
Qed.

Lemma inv_popTop : forall st ds rows g, Inv st (ds :: rows) g ->
  exists r st', es_popTop st = Ok (r, st') /\ Inv st' rows g.
Proof.
  intros st ds rows g [P Pre L D G T C]. unfold es_popTop.
  destruct (Forall2_inv_r L) as (r & l & El & (_ & _ & _ & K) & Hl). rewrite El in *.
  exists r. eexists. split; [reflexivity|].
  constructor; cbn [es_pool es_live es_dead es_global es_cap length] in *; try assumption; [|lia].
  constructor; [exact K|exact D].
Qed.
Lemma popTop_empty : forall st g, Inv st [] g -> es_popTop st = Err E_StackUnderflow.
Proof. intros st g HI. unfold es_popTop. rewrite (Forall2_inv_r (inv_live _ _ _ HI)). reflexivity. Qed.

Lemma inv_addPrefix : forall st ds rows g p u, Inv st (ds :: rows) g ->
  exists st', es_addPrefix st p u = Ok st' /\ Inv st' ((ds ++ [(p, u)]) :: rows) g.
Proof.
  intros st ds rows g p u [P Pre L D G T C]. unfold es_addPrefix.
  destruct (Forall2_inv_r L) as (r & l & El & Hr & Hl). rewrite El in *.
  destruct (addOrFind_spec (es_pool st) p) as (q & prefId & Ea & Hrange & Hv & P'). rewrite Ea.
  destruct (row_add_ok _ r ds prefId u (row_inv_ext _ q _ _ Hr) Hrange) as (r' & Ha & Hi). rewrite Hv in Hi.
  unfold bind. rewrite Ha. eexists. split; [reflexivity|].
  constructor; cbn [es_pool es_live es_dead es_global es_cap length] in *; try assumption.
  - exact (P' P).
  - exact (pre_ext _ _ q Pre).
  - constructor; [exact Hi|apply live_ext; exact Hl].
  - apply glob_ext. exact G.
Qed.
Lemma addPrefix_empty : forall st g p u, Inv st [] g -> es_addPrefix st p u = Err E_EmptyStack.
Proof. intros st g p u HI. unfold es_addPrefix. rewrite (Forall2_inv_r (inv_live _ _ _ HI)). reflexivity. Qed.

Lemma inv_addGlobal : forall st rows g p u, Inv st rows g ->
  exists st', es_addGlobalPrefix st p u = Ok st' /\ Inv st' rows (g ++ [(p, u)]).
Proof.
  intros st rows g p u [P Pre L D G T C]. unfold es_addGlobalPrefix.
  destruct (addOrFind_spec (es_pool st) p) as (q & prefId & Ea & Hrange & Hv & P'). rewrite Ea.
  set (g0 := match es_global st with Some g1 => g1 | None => mkRow [] 0 unknownId [] [] end).
  assert (Hg : row_inv (es_pool st ++ q) g0 g).
  { unfold g0, glob_inv in *. destruct (es_global st); [apply row_inv_ext; exact G|].
    subst g. apply row_inv_empty. left. reflexivity. }
  destruct (row_add_ok _ g0 g prefId u Hg Hrange) as (r' & Ha & Hi). rewrite Hv in Hi.
  unfold bind. rewrite Ha. eexists. split; [reflexivity|].
  constructor; cbn [es_pool es_live es_dead es_global es_cap]; try assumption.
  - exact (P' P).
  - exact (pre_ext _ _ q Pre).
  - apply live_ext. exact L.
Qed.

Lemma inv_setTop : forall st rows g uri pfx loc, Inv st rows g -> Inv (es_setTop st uri pfx loc) rows g.
Proof.
  intros st rows g uri pfx loc HI. unfold es_setTop. destruct (es_live st) as [|r l] eqn:El; [exact HI|].
  destruct HI as [P Pre L D G T C]. rewrite El in L, T.
  constructor; cbn [es_pool es_live es_dead es_global es_cap length] in *; try assumption.
  pose proof (Forall2_inv_r L) as K. destruct rows as [|ds up]; [discriminate K|].
  destruct K as (r0 & l0 & [= <- <-] & Hr & Hl). constructor; [exact Hr|exact Hl].
Qed.

Definition es_flat (st : estack) : list (nat * nat) :=
  concat (map r_map (es_live st)) ++ match es_global st with Some g => r_map g | None => [] end.

Lemma find_rows_flat : forall id l, find_rows id l = find_id id (concat (map r_map l)).
Proof.
  intros id l. induction l as [|r l IH]; cbn [find_rows map concat]; [reflexivity|]. rewrite find_id_app, IH. reflexivity.
Qed.
Lemma inv_flat : forall st rows g, Inv st rows g ->
  ids_ok (es_pool st) (es_flat st) /\ abs (es_pool st) (es_flat st) = concat (rows ++ [g]).
Proof.
  intros st rows g [_ _ L _ G _ _]. unfold es_flat. rewrite concat_app, abs_app. cbn [concat]. rewrite app_nil_r.
  assert (HL : ids_ok (es_pool st) (concat (map r_map (es_live st))) /\
               abs (es_pool st) (concat (map r_map (es_live st))) = concat rows).
  { induction L as [|r ds l rows (A & B & _) _ [IH1 IH2]]; cbn [map concat]; [split; [constructor|reflexivity]|].
    split; [apply ids_ok_app; assumption|]. rewrite abs_app, B, IH2. reflexivity. }
  destruct HL as [L1 L2]. rewrite L2. unfold glob_inv in G.
  destruct (es_global st) as [g0|]; [destruct G as (A & B & _)|subst g].
  - split; [apply ids_ok_app; assumption|]. rewrite B. reflexivity.
  - split; [apply ids_ok_app; [exact L1|constructor]|reflexivity].
Qed.

Lemma mapPrefix_correct : forall st rows g p, Inv st rows g ->
  es_mapPrefixToURI st p = map_answer (map_spec (rows ++ [g]) p).
Proof.
  intros st rows g p HI. destruct (inv_flat st rows g HI) as [F1 F2].
  rewrite map_spec_concat, <- F2, <- (id_answer_spec _ p _ (inv_pool _ _ _ HI) (inv_pre _ _ _ HI) F1).
  destruct (reserved_ids _ p (inv_pool _ _ _ HI) (inv_pre _ _ _ HI)) as [I1 _].
  unfold es_mapPrefixToURI.
  replace (match p with [] => globalPoolId | _ => pool_getId (es_pool st) p end) with (pool_getId (es_pool st) p)
    by (destruct p; [exact I1|reflexivity]).
  unfold id_answer, es_flat. rewrite find_id_app, <- find_rows_flat.
  destruct (find_rows (pool_getId (es_pool st) p) (es_live st)); [reflexivity|]. destruct (es_global st); reflexivity.
Qed.

Lemma es_run_refines : forall ops st rows g, Inv st rows g ->
  match es_run ops st with
  | Ok st' => exists rows' g', sop_run ops rows g = Some (rows', g') /\ Inv st' rows' g'
  | Err e => (e = E_StackUnderflow \/ e = E_EmptyStack) /\ sop_run ops rows g = None
  end.
Proof.
  induction ops as [|op ops IH]; intros st rows g HI; cbn [es_run sop_run].
  - exists rows, g. split; [reflexivity|exact HI].
  - destruct op as [| |p u|p u]; cbn [es_step]; unfold bind.
    + destruct (inv_addLevel st rows g HI) as (st' & E & HI'). rewrite E. apply IH. exact HI'.
    + destruct rows as [|ds rows].
      * rewrite (popTop_empty st g HI). split; [left; reflexivity|reflexivity].
      * destruct (inv_popTop st ds rows g HI) as (r & st' & E & HI'). rewrite E. cbn [snd]. apply IH. exact HI'.
    + destruct rows as [|ds rows].
      * rewrite (addPrefix_empty st g p u HI). split; [right; reflexivity|reflexivity].
      * destruct (inv_addPrefix st ds rows g p u HI) as (st' & E & HI'). rewrite E. apply IH. exact HI'.
    + destruct (inv_addGlobal st rows g p u HI) as (st' & E & HI'). rewrite E. apply IH. exact HI'.
Qed.
