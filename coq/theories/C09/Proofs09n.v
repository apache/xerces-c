(** C09 lemmas, part n: the binary types -- HexBin (isArrayByteHex, getDataLength, getCanonicalRepresentation) and
    Base64::decode (Conf_Schema, fix12 = fix12b = true) against the Spec, for every string of UTF-16 code units. *)
From Coq Require Import NArith Lia ZifyBool.
From XV Require Import C09.Spec09 C09.Spec09b C09.Model09 C09.Model09b C09.Proofs09f.
Local Open Scope N_scope.

Lemma pair_ind : forall (P : list N -> Prop), P [] -> (forall a, P [a]) -> (forall a b r, P r -> P (a :: b :: r)) ->
  forall l, P l.
Proof.
  intros P H0 H1 H2. fix IH 1. intros [|a [|b r]]; [exact H0|apply H1|apply H2; apply IH].
Qed.

Lemma hex_lex_chars : forall s, hex_lex s = Nat.even (length s) && forallb hex_isHex s.
Proof.
  unfold hex_lex. induction s as [| a | a b r IH] using pair_ind; [reflexivity|reflexivity|].
  cbn [hex_value length Nat.even forallb]. rewrite !hex_isHex_spec.
  destruct (hex_digit a); [|cbn; rewrite Bool.andb_false_r; reflexivity].
  destruct (hex_digit b); [|cbn; rewrite Bool.andb_false_r; reflexivity].
  cbn [andb]. rewrite <- IH. destruct (hex_value r); reflexivity.
Qed.

Lemma hex_ok_lex : forall s, hex_ok s = hex_lex s.
Proof. intros s. rewrite hex_lex_chars. destruct s; reflexivity. Qed.

(** the length facet counts the octets of the value *)
Lemma hex_value_length : forall s v, hex_value s = Some v -> length v = Nat.div2 (length s).
Proof.
  induction s as [| a | a b r IH] using pair_ind; intros v H; cbn [hex_value] in H; try discriminate.
  - inversion H. reflexivity.
  - destruct (hex_digit a); [|discriminate]. destruct (hex_digit b); [|discriminate].
    destruct (hex_value r) as [w|] eqn:E; [|discriminate]. inversion H; subst. cbn [length Nat.div2]. f_equal. apply IH. reflexivity.
Qed.

(** canonical form: upper-casing keeps the value, produces no lower-case hex digit and is idempotent *)
Lemma upper_hex : forall c v, hex_digit c = Some v ->
  hex_digit (upper_ascii c) = Some v /\ (0x61 <=? upper_ascii c) && (upper_ascii c <=? 0x66) = false /\
  upper_ascii (upper_ascii c) = upper_ascii c.
Proof.
  intros c v H. apply hex_digit_cases in H. unfold upper_ascii.
  destruct ((97 <=? c) && (c <=? 122)) eqn:U.
  - replace ((97 <=? c - 32) && (c - 32 <=? 122)) with false by lia.
    repeat split; [apply hex_digit_of|]; lia.
  - rewrite U. repeat split; [apply hex_digit_of; exact H|lia].
Qed.

Lemma hex_canon_value : forall s v, hex_value s = Some v ->
  hex_value (map upper_ascii s) = Some v /\
  forallb (fun c => negb ((0x61 <=? c) && (c <=? 0x66))) (map upper_ascii s) = true /\
  map upper_ascii (map upper_ascii s) = map upper_ascii s.
Proof.
  induction s as [| a | a b r IH] using pair_ind; intros v H; cbn [hex_value] in H; try discriminate.
  - inversion H. repeat split.
  - destruct (hex_digit a) as [x|] eqn:Ea; [|discriminate]. destruct (hex_digit b) as [y|] eqn:Eb; [|discriminate].
    destruct (hex_value r) as [w|] eqn:E; [|discriminate]. inversion H; subst.
    destruct (IH w eq_refl) as [I1 [I2 I3]].
    destruct (upper_hex a x Ea) as [A1 [A2 A3]]. destruct (upper_hex b y Eb) as [B1 [B2 B3]].
    cbn [map hex_value forallb]. rewrite A1, B1, I1, I2, I3, A2, B2, A3, B3. repeat split; reflexivity.
Qed.

Lemma b64_val_range : forall c v, b64_val c = Some v -> v < 64 /\ c < 123 /\ c <> ch_eq /\ c <> ch_space.
Proof.
  intros c v H. unfold b64_val in H. unfold ch_eq, ch_space.
  repeat match type of H with (if ?b then _ else _) = _ => destruct b eqn:? end; inversion H; lia.
Qed.

Lemma inv_len : N.of_nat (length base64Inverse) = 256. Proof. vm_compute. reflexivity. Qed.

Lemma b64_inv_spec : forall c, b64_inv true c = match b64_val c with Some v => v | None => 0xFF end.
Proof.
  intros c. unfold b64_inv. rewrite inv_len. destruct (N.ltb_spec c 256) as [L|G].
  - pose proof b64_table_entries as T. rewrite forallb_forall in T.
    assert (I : In c (nrange (length base64Inverse))) by (apply nrange_in; rewrite inv_len; exact L).
    specialize (T c I). destruct (b64_val c); apply N.eqb_eq in T; exact T.
  - destruct (b64_val c) as [v|] eqn:E; [|reflexivity]. destruct (b64_val_range c v E) as [_ [R _]]. lia.
Qed.

Lemma b64_isData_spec : forall c, b64_isData true c = match b64_val c with Some _ => true | None => false end.
Proof.
  intros c. unfold b64_isData. rewrite b64_inv_spec. destruct (b64_val c) as [v|] eqn:E; [|reflexivity].
  destruct (b64_val_range c v E) as [R _]. destruct (N.eqb_spec v 255); [lia|reflexivity].
Qed.

(** the shifted operand and the low bits do not overlap, so the C expression (b1 << n) | b2 is a sum *)
Lemma lor_shiftl : forall a b n, b < 2 ^ n -> N.lor (N.shiftl a n) b = a * 2 ^ n + b.
Proof.
  intros a b n H.
  assert (D : N.land (N.shiftl a n) b = 0).
  { apply N.bits_inj_0. intros m. rewrite N.land_spec. destruct (N.lt_ge_cases m n) as [L|G].
    - rewrite N.shiftl_spec_low by exact L. reflexivity.
    - rewrite <- (N.mod_small b (2 ^ n) H), N.mod_pow2_bits_high by exact G. apply Bool.andb_false_r. }
  rewrite <- N.lxor_lor, <- N.add_nocarry_lxor, N.shiftl_mul_pow2 by exact D. reflexivity.
Qed.

(** the two mask tests of the final quartet are divisibility tests *)
Lemma land_low : forall x, (N.land x 0xF =? 0) = (x mod 16 =? 0) /\ (N.land x 0x3 =? 0) = (x mod 4 =? 0).
Proof. intros x. change 0xF with (N.ones 4). change 0x3 with (N.ones 2). rewrite !N.land_ones. split; reflexivity. Qed.

Lemma bits : forall x y, x < 64 -> y < 64 ->
  set1st x y = 4 * x + y / 16 /\ set2nd x y = 16 * (x mod 16) + y / 4 /\ set3rd x y = 64 * (x mod 4) + y /\
  (N.land x 0xF =? 0) = (x mod 16 =? 0) /\ (N.land x 0x3 =? 0) = (x mod 4 =? 0).
Proof.
  intros x y Hx Hy. unfold set1st, set2nd, set3rd. rewrite !N.shiftr_div_pow2.
  rewrite (lor_shiftl x (y / 2 ^ 4) 2), (lor_shiftl x (y / 2 ^ 2) 4), (lor_shiftl x y 6)
    by (cbn [N.pow Pos.pow Pos.iter Pos.mul]; (zify; lia_div)).
  cbn [N.pow Pos.pow Pos.iter Pos.mul]. repeat split; try (zify; lia_div); apply land_low.
Qed.

Lemma strip_is_despace : forall l w, b64_strip_schema w l = despace w l.
Proof. induction l as [|c r IH]; intros w; [reflexivity|]. cbn [b64_strip_schema despace]. rewrite !IH. reflexivity. Qed.

Lemma pad_not_data : b64_val ch_eq = None. Proof. reflexivity. Qed.

Lemma quad_step : forall a b c d x r, 
  b64_quads_m true (a :: b :: c :: d :: x :: r) =
  match b64_val a, b64_val b, b64_val c, b64_val d, b64_quads_m true (x :: r) with
  | Some p, Some q, Some s, Some t, Some v => Some (4 * p + q / 16 :: 16 * (q mod 16) + s / 4 :: 64 * (s mod 4) + t :: v)
  | _, _, _, _, _ => None
  end.
Proof.
  intros. cbn [b64_quads_m]. rewrite !b64_isData_spec, !b64_inv_spec.
  destruct (b64_val a) as [p|] eqn:Ea; [|reflexivity]. destruct (b64_val b) as [q|] eqn:Eb; [|reflexivity].
  destruct (b64_val c) as [s|] eqn:Ec; [|reflexivity]. destruct (b64_val d) as [t|] eqn:Ed; [|reflexivity].
  cbn [negb orb].
  destruct (b64_val_range _ _ Ea) as [Rp _]. destruct (b64_val_range _ _ Eb) as [Rq _].
  destruct (b64_val_range _ _ Ec) as [Rs _]. destruct (b64_val_range _ _ Ed) as [Rt _].
  destruct (bits p q Rp Rq) as [B1 _]. destruct (bits q s Rq Rs) as [_ [B2 _]]. destruct (bits s t Rs Rt) as [_ [_ [B3 _]]].
  rewrite B1, B2, B3. reflexivity.
Qed.

Lemma quad_final : forall a b c d, b64_quads_m true [a; b; c; d] = b64_quads [a; b; c; d].
Proof.
  intros. cbn [b64_quads_m b64_quads]. rewrite !b64_isData_spec, !b64_inv_spec. unfold b64_isPad.
  destruct (b64_val a) as [p|] eqn:Ea; [|reflexivity]. destruct (b64_val b) as [q|] eqn:Eb; [|reflexivity].
  cbn [negb orb].
  destruct (b64_val_range _ _ Ea) as [Rp _]. destruct (b64_val_range _ _ Eb) as [Rq _].
  destruct (bits p q Rp Rq) as [B1 _]. destruct (land_low q) as [B4 _].
  destruct (N.eqb_spec c ch_eq) as [Ec|Ec]; destruct (N.eqb_spec d ch_eq) as [Ed|Ed]; subst; cbn [andb negb orb].
  - (* "==" *) rewrite B4, B1. destruct (q mod 16 =? 0); reflexivity.
  - (* "=x" *) destruct (b64_val d) as [t|] eqn:Evd; cbn [negb orb]; reflexivity.
  - (* "x=" *) destruct (b64_val c) as [s|] eqn:Evc; cbn [negb orb andb].
    + destruct (b64_val_range _ _ Evc) as [Rs _]. destruct (bits q s Rq Rs) as [_ [B2 _]]. destruct (land_low s) as [_ B5].
      rewrite B5, B1, B2. destruct (s mod 4 =? 0); reflexivity.
    + reflexivity.
  - destruct (b64_val c) as [s|] eqn:Evc; destruct (b64_val d) as [t|] eqn:Evd; cbn [negb orb andb]; try reflexivity.
    destruct (b64_val_range _ _ Evc) as [Rs _]. destruct (b64_val_range _ _ Evd) as [Rt _].
    destruct (bits q s Rq Rs) as [_ [B2 _]]. destruct (bits s t Rs Rt) as [_ [_ [B3 _]]]. rewrite B1, B2, B3. reflexivity.
Qed.

Lemma quad_ind : forall (P : list N -> Prop), P [] -> (forall a, P [a]) -> (forall a b, P [a; b]) -> (forall a b c, P [a; b; c]) ->
  (forall a b c d r, P r -> P (a :: b :: c :: d :: r)) -> forall l, P l.
Proof.
  intros P H0 H1 H2 H3 H4. fix IH 1. intros [|a [|b [|c [|d r]]]]; [exact H0|apply H1|apply H2|apply H3|apply H4; apply IH].
Qed.

Lemma quads_eq : forall q, q <> [] -> b64_quads_m true q = b64_quads q.
Proof.
  induction q as [| a | a b | a b c | a b c d r IH] using quad_ind; intros Hne; try reflexivity; [contradiction|].
  destruct r as [|x r].
  - apply quad_final.
  - rewrite quad_step. rewrite (IH ltac:(discriminate)). cbn [b64_quads].
    destruct (b64_val a); [|reflexivity]. destruct (b64_val b); [|reflexivity].
    destruct (b64_val c); destruct (b64_val d); try reflexivity.
Qed.

Lemma quads_chars : forall q v, b64_quads q = Some v -> forallb (fun c => c <=? 0xFF) q = true.
Proof.
  induction q as [| a | a b | a b c | a b c d r IH] using quad_ind; intros v H; cbn [b64_quads] in H; try discriminate; [reflexivity|].
  destruct (b64_val a) as [p|] eqn:Ea; [|discriminate]. destruct (b64_val b) as [s|] eqn:Eb; [|discriminate].
  destruct (b64_val_range _ _ Ea) as [_ [Ra _]]. destruct (b64_val_range _ _ Eb) as [_ [Rb _]].
  assert (Sm : forall c, (c =? ch_eq) = true \/ (exists z, b64_val c = Some z) -> (c <=? 0xFF) = true).
  { intros c0 [E|[z E]]; apply N.leb_le; [apply N.eqb_eq in E; subst; unfold ch_eq; lia|destruct (b64_val_range _ _ E) as [_ [R _]]; lia]. }
  cbn [forallb]. assert (La : (a <=? 255) = true) by (apply N.leb_le; lia). assert (Lb : (b <=? 255) = true) by (apply N.leb_le; lia).
  rewrite La, Lb. cbn [andb].
  destruct r as [|x r].
  - destruct ((c =? ch_eq) && (d =? ch_eq)) eqn:P2.
    + apply andb_prop in P2. destruct P2 as [P1 P2]. rewrite (Sm c (or_introl P1)), (Sm d (or_introl P2)). reflexivity.
    + destruct (d =? ch_eq) eqn:Pd.
      * destruct (b64_val c) as [z|] eqn:Ec; [|discriminate]. rewrite (Sm c (or_intror (ex_intro _ z Ec))), (Sm d (or_introl Pd)). reflexivity.
      * destruct (b64_val c) as [z|] eqn:Ec; [|discriminate]. destruct (b64_val d) as [w|] eqn:Ed; [|discriminate].
        rewrite (Sm c (or_intror (ex_intro _ z Ec))), (Sm d (or_intror (ex_intro _ w Ed))). reflexivity.
  - destruct (b64_val c) as [z|] eqn:Ec; [|discriminate]. destruct (b64_val d) as [w|] eqn:Ed; [|discriminate].
    destruct (b64_quads (x :: r)) as [v'|] eqn:Er; [|discriminate].
    rewrite (Sm c (or_intror (ex_intro _ z Ec))), (Sm d (or_intror (ex_intro _ w Ed))). cbn [andb]. exact (IH v' eq_refl).
Qed.

Lemma despace_chars : forall l w q, despace w l = Some q -> forallb (fun c => c <=? 0xFF) q = true ->
  forallb (fun c => c <=? 0xFF) l = true.
Proof.
  induction l as [|c r IH]; intros w q H Hq; [reflexivity|]. cbn [despace] in H. cbn [forallb].
  destruct (N.eqb_spec c ch_space) as [E|E].
  - subst c. destruct w; [discriminate|]. rewrite (IH _ _ H Hq). reflexivity.
  - destruct (despace false r) as [q'|] eqn:D; [|discriminate]. inversion H; subst q. cbn [forallb] in Hq.
    apply andb_prop in Hq. destruct Hq as [H1 H2]. rewrite H1, (IH _ _ D H2). reflexivity.
Qed.

Lemma despace_nonempty : forall l q, l <> [] -> despace false l = Some q -> q <> [].
Proof.
  intros [|c r] q Hne H; [contradiction|]. cbn [despace] in H. destruct (c =? ch_space).
  - destruct r as [|x r]; [discriminate|]. cbn [despace] in H. destruct (x =? ch_space); [discriminate|].
    destruct (despace false r); [|discriminate]. inversion H. discriminate.
  - destruct (despace false r); [|discriminate]. inversion H. discriminate.
Qed.

Lemma b64_decode_spec : forall s, s <> [] ->
  match b64_decode true true true s with
  | Some (v, q) => b64_value s = Some v /\ despace false s = Some q
  | None => b64_value s = None
  end.
Proof.
  intros s Hne. unfold b64_decode, b64_narrow, b64_value. destruct s as [|c0 s0]; [contradiction|].
  set (s := c0 :: s0) in *.
  destruct (existsb (fun c => 255 <? c) s) eqn:Ex.
  - (* a code unit above U+00FF: rejected; and not in the lexical space *)
    destruct (c0 =? ch_space); [reflexivity|].
    destruct (despace false s) as [q|] eqn:D; [|reflexivity].
    destruct (b64_quads q) as [v|] eqn:Q; [|reflexivity]. exfalso.
    pose proof (despace_chars s false q D (quads_chars q v Q)) as A.
    apply existsb_exists in Ex. destruct Ex as [x [Ix Lx]]. rewrite forallb_forall in A. specialize (A x Ix).
    apply N.ltb_lt in Lx. apply N.leb_le in A. lia.
  - unfold b64_decode_bytes. fold s. unfold s at 1. fold s.
    destruct (c0 =? ch_space); [reflexivity|]. rewrite strip_is_despace.
    destruct (despace false s) as [q|] eqn:D; [|reflexivity].
    assert (Hq : q <> []) by (apply (despace_nonempty s q); [discriminate|exact D]).
    rewrite (quads_eq q Hq). destruct (b64_quads q); [split; reflexivity|reflexivity].
Qed.
