(** C09 lemmas, part i: XMLDateTime::normalize preserves the instant on the timeline and leaves every field in range. *)
From Coq Require Import ZArith Lia ZifyBool.
From XV Require Import C09.Spec09 C09.Spec09c C09.Spec09e C09.Model09c C09.Model09e C09.Proofs09f.
Local Open Scope Z_scope.

Definition leap_day (y : Z) : Z := if leap_year y then 1 else 0.

Lemma dim_range : forall y m, 28 <= days_in_month y m <= 31.
Proof. intros. unfold days_in_month. repeat match goal with |- context [if ?b then _ else _] => destruct b end; lia. Qed.

Lemma max_day_range : forall y m, 28 <= max_day y m <= 31.
Proof. intros. rewrite max_day_all_years. apply dim_range. Qed.

Lemma dbm_succ : forall y mo, 1 <= mo ->
  days_before_month y (mo + 1) = days_before_month y mo + days_in_month y mo.
Proof.
  intros y mo H. unfold days_before_month. replace (Z.to_nat (mo + 1 - 1)) with (S (Z.to_nat (mo - 1))) by lia.
  cbn [days_before_month_n]. do 2 f_equal. lia.
Qed.

Lemma dbm_n_mono : forall y j k, days_before_month_n y k <= days_before_month_n y (k + j).
Proof.
  induction j as [|j IH]; intros k; [rewrite Nat.add_0_r; lia|].
  replace (k + S j)%nat with (S (k + j)) by lia. cbn [days_before_month_n].
  pose proof (dim_range y (Z.of_nat (S (k + j)))). specialize (IH k). lia.
Qed.

Lemma dbm_mono : forall y a b, 1 <= a <= b -> days_before_month y a <= days_before_month y b.
Proof.
  intros y a b H. unfold days_before_month.
  replace (Z.to_nat (b - 1)) with (Z.to_nat (a - 1) + Z.to_nat (b - a))%nat by lia. apply dbm_n_mono.
Qed.

Lemma year_length : forall y, days_before_month y 13 = 365 + leap_day y.
Proof.
  intros y. unfold days_before_month, leap_day. change (Z.to_nat (13 - 1)) with 12%nat.
  cbn [days_before_month_n Z.of_nat Pos.of_succ_nat Pos.succ]. unfold days_in_month.
  cbn [Z.eqb Pos.eqb orb]. destruct (leap_year y); reflexivity.
Qed.

Lemma dby_succ : forall y, days_before_year (y + 1) = days_before_year y + 365 + leap_day y.
Proof.
  intros y. unfold days_before_year, leap_day, leap_year.
  replace (y + 1 - 1) with y by lia.
  destruct ((y mod 4 =? 0) && (negb (y mod 100 =? 0) || (y mod 400 =? 0))) eqn:L; lia_div.
Qed.

Definition days_of (y mo d : Z) : Z := days_before_year y + days_before_month y mo + (d - 1).

Definition prev_month (y mo : Z) : Z * Z := if mo =? 1 then (y - 1, 12) else (y, mo - 1).
Definition next_month (y mo : Z) : Z * Z := if mo =? 12 then (y + 1, 1) else (y, mo + 1).

(** the day count is continuous across month and year boundaries: day d of the next month is day
    d + (length of this month) of this one *)
Lemma days_of_next : forall y mo d, 1 <= mo <= 12 ->
  days_of (fst (next_month y mo)) (snd (next_month y mo)) d = days_of y mo (d + days_in_month y mo).
Proof.
  intros y mo d H. unfold next_month, days_of. pose proof (dbm_succ y mo ltac:(lia)) as Sc.
  destruct (Z.eqb_spec mo 12) as [E|E]; cbn [fst snd]; [|lia].
  subst mo. change (12 + 1) with 13 in Sc. rewrite year_length in Sc. rewrite dby_succ.
  change (days_before_month (y + 1) 1) with 0. lia.
Qed.

Lemma next_prev_month : forall y mo, 1 <= mo <= 12 ->
  1 <= snd (prev_month y mo) <= 12 /\
  next_month (fst (prev_month y mo)) (snd (prev_month y mo)) = (y, mo) /\
  (* the loop of normalize reads the length of the previous month with the year of this one: month 0 has 31 days *)
  max_day y (mo - 1) = days_in_month (fst (prev_month y mo)) (snd (prev_month y mo)).
Proof.
  intros y mo H. unfold prev_month, next_month. destruct (Z.eqb_spec mo 1) as [E|E]; cbn [fst snd].
  - subst mo. repeat split; try lia. cbn [Z.eqb Pos.eqb]. f_equal. lia.
  - rewrite max_day_all_years. destruct (Z.eqb_spec (mo - 1) 12); [lia|]. repeat split; try lia. f_equal. lia.
Qed.

Lemma days_next : forall y mo, 1 <= mo <= 12 ->
  days_of y mo (max_day y mo + 1) = days_of (fst (next_month y mo)) (snd (next_month y mo)) 1.
Proof. intros y mo H. rewrite days_of_next, max_day_all_years by exact H. f_equal. lia. Qed.

Lemma days_prev : forall y mo, 1 <= mo <= 12 ->
  days_of y mo 0 = days_of (fst (prev_month y mo)) (snd (prev_month y mo)) (max_day y (mo - 1)).
Proof.
  intros y mo H. destruct (next_prev_month y mo H) as [R [N M]].
  pose proof (days_of_next (fst (prev_month y mo)) (snd (prev_month y mo)) 0 R) as D.
  rewrite N in D. cbn [fst snd] in D. rewrite D, M. reflexivity.
Qed.

Lemma quot_small : forall a, -11 <= a <= 11 -> Z.quot a 12 = 0.
Proof. intros. lia_div. Qed.

Lemma nd_ok : forall k y mo d, 1 <= d <= max_day y mo -> norm_days (S k) y mo d = (y, mo, d).
Proof.
  intros k y mo d H. cbn [norm_days].
  destruct (Z.ltb_spec d 1); [lia|]. destruct (Z.ltb_spec (max_day y mo) d); [lia|]. reflexivity.
Qed.

Lemma nd_low : forall k y mo d, 1 <= mo <= 12 -> d < 1 ->
  norm_days (S k) y mo d = norm_days k (fst (prev_month y mo)) (snd (prev_month y mo)) (d + max_day y (mo - 1)).
Proof.
  intros k y mo d Hm Hd. cbn [norm_days]. destruct (Z.ltb_spec d 1); [|lia].
  unfold modulo3, fquot3, prev_month. replace (mo + -1 - 1) with (mo - 2) by lia. replace (13 - 1) with 12 by lia.
  rewrite (quot_small (mo - 2)) by lia. replace (mo - 2 - 0 * 12 + 1) with (mo - 1) by lia.
  destruct (Z.eqb_spec mo 1) as [E|E].
  - subst mo. cbn. f_equal; lia.
  - destruct (Z.leb_spec (mo - 1) 0); [lia|]. cbn [fst snd]. f_equal; lia.
Qed.

Lemma nd_high : forall k y mo d, 1 <= mo <= 12 -> max_day y mo < d -> 1 <= d ->
  norm_days (S k) y mo d = norm_days k (fst (next_month y mo)) (snd (next_month y mo)) (d - max_day y mo).
Proof.
  intros k y mo d Hm Hd H1. cbn [norm_days]. destruct (Z.ltb_spec d 1); [lia|].
  destruct (Z.ltb_spec (max_day y mo) d); [|lia].
  unfold modulo3, fquot3, next_month. replace (mo + 1 - 1) with mo by lia. replace (13 - 1) with 12 by lia.
  destruct (Z.eqb_spec mo 12) as [E|E].
  - subst mo. cbn. f_equal; lia.
  - rewrite (quot_small mo) by lia. replace (mo - 0 * 12 + 1) with (mo + 1) by lia.
    destruct (Z.leb_spec (mo + 1) 0); [lia|]. cbn [fst snd]. f_equal; lia.
Qed.

(** a day number at most one month outside its month is in range after one round of the loop, so the model's fuel of 4
    is never used up *)
Lemma norm_days_spec : forall y mo d y' mo' d', 2 <= y -> 1 <= mo <= 12 -> 0 <= d <= max_day y mo + 1 ->
  norm_days 4 y mo d = (y', mo', d') ->
  days_of y' mo' d' = days_of y mo d /\ 1 <= mo' <= 12 /\ 1 <= d' <= max_day y' mo' /\ 1 <= y'.
Proof.
  intros y mo d y' mo' d' Hy Hm Hd E.
  pose proof (max_day_range y mo) as R.
  destruct (Z_lt_le_dec d 1) as [L|L].
  - (* d = 0: the last day of the previous month *)
    assert (d = 0) by lia. subst d.
    destruct (next_prev_month y mo Hm) as [Rp [_ M]]. rewrite <- max_day_all_years in M.
    pose proof (max_day_range y (mo - 1)) as R'.
    rewrite nd_low, Z.add_0_l, nd_ok in E by lia.
    inversion E; subst. split; [symmetry; apply days_prev; exact Hm|].
    unfold prev_month in *. destruct (Z.eqb_spec mo 1); cbn [fst snd] in *; lia.
  - destruct (Z_lt_le_dec (max_day y mo) d) as [G|G].
    + assert (d = max_day y mo + 1) by lia. subst d.
      pose proof (max_day_range (fst (next_month y mo)) (snd (next_month y mo))) as R'.
      rewrite nd_high, nd_ok in E by lia.
      inversion E; subst. replace (max_day y mo + 1 - max_day y mo) with 1 by lia.
      split; [symmetry; apply days_next; exact Hm|].
      unfold next_month in *. destruct (Z.eqb_spec mo 12); cbn [fst snd] in *; lia.
    + rewrite nd_ok in E by lia. inversion E; subst. lia.
Qed.

(** the C idiom  carry = temp / m (truncating);  x = temp - carry * m;  if (x < 0) { x += m; carry--; }
    computes the floor division *)
Lemma trunc_fix_floor : forall t m, 0 < m ->
  (if t - Z.quot t m * m <? 0 then (t - Z.quot t m * m + m, Z.quot t m - 1) else (t - Z.quot t m * m, Z.quot t m)) =
  (t mod m, t / m).
Proof.
  intros t m H. pose proof (Z.quot_rem' t m) as Q. pose proof (Z.rem_bound_neg_pos t m) as Rn.
  pose proof (Z.rem_bound_pos_pos t m) as Rp. pose proof (Z.mod_pos_bound t m H) as Rm. pose proof (Z.div_mod t m) as D.
  assert (E : t - Z.quot t m * m = Z.rem t m) by lia. rewrite E.
  destruct (Z.ltb_spec (Z.rem t m) 0) as [L|L].
  - assert (Z.quot t m - 1 = t / m) by (Z.to_euclidean_division_equations; nia). f_equal; lia.
  - assert (Z.quot t m = t / m) by (Z.to_euclidean_division_equations; nia). f_equal; lia.
Qed.

(** the same idiom on months 1..12 (modulo(temp, 1, 13), fQuotient(temp, 1, 13)) *)
Lemma month_fix_floor : forall t,
  (if t - 1 - Z.quot (t - 1) 12 * 12 + 1 <=? 0
   then (t - 1 - Z.quot (t - 1) 12 * 12 + 1 + 12, Z.quot (t - 1) 12 - 1)
   else (t - 1 - Z.quot (t - 1) 12 * 12 + 1, Z.quot (t - 1) 12)) = ((t - 1) mod 12 + 1, (t - 1) / 12).
Proof.
  intros t. pose proof (trunc_fix_floor (t - 1) 12 ltac:(lia)) as F.
  destruct (Z.ltb_spec (t - 1 - Z.quot (t - 1) 12 * 12) 0); destruct (Z.leb_spec (t - 1 - Z.quot (t - 1) 12 * 12 + 1) 0);
    try lia; inversion F; f_equal; lia.
Qed.

Definition secs_of (n : dtn) : Z :=
  ((days_of (n_y n) (n_mo n) (n_d n) * 24 + n_h n) * 60 + n_mi n) * 60 + n_s n.

Lemma normalize_floor : forall negate tzh tzm v, 1 <= n_mo v <= 12 ->
  normalize negate tzh tzm v =
  let tm := n_mi v + negate * tzm in
  let th := n_h v + negate * tzh + tm / 60 in
  let '(y, mo, d) := norm_days 4 (n_y v) (n_mo v) (n_d v + th / 24) in
  mkN y mo d (th mod 24) (tm mod 60) (n_s v).
Proof.
  intros negate tzh tzm [y mo d h mi s] Hmo. cbn [n_y n_mo n_d n_h n_mi n_s] in *.
  unfold normalize, modulo3, fquot3, fquot. cbn [n_y n_mo n_d n_h n_mi n_s]. replace (13 - 1) with 12 by lia.
  rewrite (quot_small (mo - 1)) by lia. replace (mo - 1 - 0 * 12 + 1) with mo by lia.
  destruct (Z.leb_spec mo 0); [lia|]. rewrite Z.add_0_r.
  cbv zeta. rewrite (trunc_fix_floor _ 60), (trunc_fix_floor _ 24) by lia. reflexivity.
Qed.

Lemma normalize_timeline : forall negate tzh tzm v,
  (negate = 1 \/ negate = -1) -> 0 <= tzh <= 14 -> 0 <= tzm <= 59 -> 2 <= n_y v -> 1 <= n_mo v <= 12 ->
  1 <= n_d v <= max_day (n_y v) (n_mo v) -> 0 <= n_h v <= 24 -> 0 <= n_mi v <= 59 ->
  let r := normalize negate tzh tzm v in
  secs_of r = secs_of v + negate * (tzh * 60 + tzm) * 60 /\
  1 <= n_mo r <= 12 /\ 1 <= n_d r <= max_day (n_y r) (n_mo r) /\ 0 <= n_h r <= 23 /\ 0 <= n_mi r <= 59 /\ n_s r = n_s v /\
  1 <= n_y r.
Proof.
  intros negate tzh tzm v Hn Hh Hm Hy Hmo Hd Hhr Hmi. rewrite (normalize_floor _ _ _ _ Hmo).
  destruct v as [y mo d h mi s]. cbn [n_y n_mo n_d n_h n_mi n_s] in *.
  (* at most 14:59 either way: the minutes carry at most one hour, the hours at most one day *)
  set (tm := mi + negate * tzm). set (th := h + negate * tzh + tm / 60).
  assert (Btm : -59 <= tm <= 118) by (unfold tm; destruct Hn; subst negate; lia).
  assert (Bth : -15 <= th <= 39) by (unfold th; destruct Hn; subst negate; lia_div).
  destruct (norm_days 4 y mo (d + th / 24)) as [[y' mo'] d'] eqn:ND.
  destruct (norm_days_spec y mo (d + th / 24) y' mo' d' Hy Hmo ltac:(lia_div) ND) as [D [M1 [M2 M3]]].
  unfold secs_of. cbn [n_y n_mo n_d n_h n_mi n_s]. rewrite D. unfold days_of.
  assert (E : (th / 24 * 24 + th mod 24) * 60 + tm mod 60 = (h + negate * tzh) * 60 + mi + negate * tzm)
    by (unfold th, tm; lia_div).
  repeat split; try lia_div.
Qed.

Definition fields_of (n : dtn) (frac : list N) (zone : option Z) : dt_fields :=
  mkF (n_y n) (n_mo n) (n_d n) (n_h n) (n_mi n) (n_s n) frac zone.

Lemma local_seconds_secs_of : forall n frac zone, local_seconds (fields_of n frac zone) = secs_of n.
Proof. intros. unfold local_seconds, secs_of, days_of, fields_of. reflexivity. Qed.
