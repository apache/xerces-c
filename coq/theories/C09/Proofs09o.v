(** C09 lemmas, part o: list and union combinators over abstract member validators. *)
From Coq Require Import Lia.
From XV Require Import C09.Spec09 C09.Spec09d C09.Spec09f C09.Model09 C09.Model09f.
Local Open Scope N_scope.

(** the length facets of a list type count ITEMS *)
Lemma list_check_spec : forall item len_ok s,
  list_check item len_ok (ws_collapse s) = list_type_valid item len_ok s.
Proof. intros. unfold list_check, list_type_valid. apply andb_comm. Qed.

Lemma list_check_forall : forall item len_ok s,
  list_check item len_ok (ws_collapse s) = true <->
  Forall (fun t => item t = true) (tokens (ws_collapse s)) /\ len_ok (length (tokens (ws_collapse s))) = true.
Proof.
  intros. unfold list_check. rewrite andb_true_iff, forallb_forall, Forall_forall. tauto.
Qed.

(** the items are non-empty and contain no space *)
Lemma tokens_go_items : forall l cur, forallb (fun c => negb (c =? ch_space)) cur = true ->
  Forall (fun t => t <> [] /\ forallb (fun c => negb (c =? ch_space)) t = true) (tokens_go cur l).
Proof.
  induction l as [|c r IH]; intros cur Hc; cbn [tokens_go].
  - destruct cur as [|x cur']; [constructor|]. constructor; [|constructor]. split.
    + intros E. apply (f_equal (@length N)) in E. rewrite rev_length in E. discriminate.
    + rewrite forallb_forall in *. intros y Hy. apply Hc. apply in_rev. exact Hy.
  - destruct (c =? ch_space) eqn:E.
    + destruct cur as [|x cur']; [apply IH; reflexivity|]. constructor; [|apply IH; reflexivity]. split.
      * intros E'. apply (f_equal (@length N)) in E'. rewrite rev_length in E'. discriminate.
      * rewrite forallb_forall in *. intros y Hy. apply Hc. apply in_rev. exact Hy.
    + apply IH. cbn [forallb]. rewrite E. exact Hc.
Qed.

Lemma union_check_spec : forall members s, union_check members s = union_type_valid members s.
Proof.
  intros members s. unfold union_check, union_type_valid. induction members as [|m r IH]; [reflexivity|].
  cbn [find existsb]. destruct (m s); [reflexivity|exact IH].
Qed.
Lemma union_check_exists : forall members s, union_check members s = true <-> exists m, In m members /\ m s = true.
Proof. intros. rewrite union_check_spec. unfold union_type_valid. apply existsb_exists. Qed.

