(** C09 lemmas, part e: xs:decimal after parsing -- the record parseDecimal builds, its value, order, digit facets and
    canonical representation (XMLBigDecimal, DecimalDatatypeValidator::checkContent). *)
From Coq Require Import ZArith QArith Lia.
From XV Require Import C09.Spec09 C09.Spec09d C09.Spec09f C09.Model09 C09.Model09f
  C09.Proofs09a C09.Proofs09b C09.Proofs09c C09.Proofs09d C09.Proofs09p.
Local Open Scope Z_scope.

Lemma digit_val_0 : forall c, (c =? ch_0)%N = true -> digit_val c = 0.
Proof. intros c H. apply N.eqb_eq in H. subst c. reflexivity. Qed.

Lemma dval_zeros_l : forall zs l, forallb is0 zs = true -> dval (zs ++ l) = dval l.
Proof.
  induction zs as [|z zs IH]; intros l H; [reflexivity|].
  cbn [forallb] in H. apply andb_prop in H. destruct H as [Hz H].
  cbn [app]. rewrite dval_cons, (digit_val_0 z Hz), (IH l H). lia.
Qed.

Lemma dval_zeros : forall zs, forallb is0 zs = true -> dval zs = 0.
Proof. intros zs H. rewrite <- (app_nil_r zs). rewrite dval_zeros_l by exact H. reflexivity. Qed.

Lemma repeat_is0 : forall k, forallb is0 (repeat ch_0 k) = true.
Proof. induction k; [reflexivity|]. cbn [repeat forallb]. rewrite IHk. reflexivity. Qed.

Lemma dval_zeros_r : forall l k, dval (l ++ repeat ch_0 k) = dval l * P10 k.
Proof. intros. rewrite dval_app, repeat_length, (dval_zeros _ (repeat_is0 k)). lia. Qed.

Lemma strip_tz_spec : forall f rds rds' f', strip_tz rds f = (rds', f') -> (f <= length rds)%nat ->
  exists k, rds = repeat ch_0 k ++ rds' /\ f = (k + f')%nat /\ (f' <= length rds')%nat /\
            ((0 < f')%nat -> first_is rds' ch_0 = false).
Proof.
  induction f as [|g IH]; intros rds rds' f' H L.
  - destruct rds; cbn [strip_tz] in H; inversion H; subst; exists 0%nat; cbn [repeat app]; repeat split; auto; lia.
  - destruct rds as [|c r]; [cbn [length] in L; lia|]. cbn [strip_tz] in H.
    destruct (c =? ch_0)%N eqn:E.
    + cbn [length] in L. destruct (IH r rds' f' H ltac:(lia)) as [k [H1 [H2 [H3 H4]]]].
      exists (S k). apply N.eqb_eq in E. subst c. cbn [repeat app]. rewrite <- H1. repeat split; auto; lia.
    + inversion H; subst. exists 0%nat. cbn [repeat app first_is]. repeat split; auto.
Qed.

Lemma last_is_rev : forall l c, last_is (rev l) c = first_is l c.
Proof. intros. unfold last_is. rewrite rev_involutive. reflexivity. Qed.

Lemma drop_zeros_head : forall r c r', drop_zeros r = c :: r' -> (c =? ch_0)%N = false.
Proof.
  induction r as [|x r IH]; intros c r' H; [discriminate|]. cbn [drop_zeros] in H.
  destruct (x =? ch_0)%N eqn:E; [eauto|]. inversion H; subst. exact E.
Qed.

Lemma all_digits_rev : forall l, all_digits (rev l) = all_digits l.
Proof.
  induction l as [|c l IH]; [reflexivity|]. cbn [rev]. rewrite all_digits_app, IH, !all_digits_cons.
  cbn [all_digits forallb]. rewrite andb_true_r. apply andb_comm.
Qed.

Lemma first_is_app : forall (a b : list N) c, a <> [] -> first_is (a ++ b) c = first_is a c.
Proof. intros a b c H. destruct a; [contradiction|reflexivity]. Qed.

Lemma udec_value_zeros : forall zs l, forallb is0 zs = true -> udec_value (zs ++ l) = udec_value l.
Proof.
  intros zs l Hz. unfold udec_value. rewrite (split_dot_zeros zs l Hz).
  destruct (split_dot l) as [ip [fp|]]; cbn [fst snd]; rewrite <- ?app_assoc, (dval_zeros_l zs _ Hz); reflexivity.
Qed.

(** what the scan loop hands on for a string of the right shape that does not start with '0': digits, at most as many
    fraction digits as digits, no leading zero when there is an integer part, and the value of the string *)
Lemma udec_digits_spec : forall c r', (c =? ch_0)%N = false -> udec_shape (c :: r') = true ->
  let (ds, fract) := udec_digits (c :: r') in
  all_digits ds = true /\ (fract <= length ds)%nat /\ ((fract < length ds)%nat -> first_is ds ch_0 = false) /\
  udec_value (c :: r') = dval ds # pow10 fract.
Proof.
  intros c r' Hc Sh. unfold udec_shape, udec_digits, udec_value in *.
  destruct (split_dot (c :: r')) as [ip [fp|]] eqn:Es; apply split_dot_inv in Es.
  - rewrite all_digits_app, app_length. repeat split; [exact Sh|lia|].
    intros Lt. destruct ip as [|i0 ip]; [cbn [length] in Lt; lia|]. inversion Es; subst i0. exact Hc.
  - rewrite app_nil_r in Es. subst ip. repeat split; [exact Sh|lia|intros _; exact Hc].
Qed.

Lemma rev_repeat : forall (x : N) k, rev (repeat x k) = repeat x k.
Proof.
  intros x. induction k as [|k IH]; [reflexivity|]. cbn [repeat rev]. rewrite IH. clear IH.
  induction k as [|k IH]; [reflexivity|]. cbn [repeat app]. f_equal. exact IH.
Qed.

(** the trailing-zero loop leaves a normalised record; each zero it strips takes one off the scale *)
Lemma strip_tz_norm : forall sign ds fract rds f', (sign = 1 \/ sign = -1) ->
  all_digits ds = true -> (fract <= length ds)%nat -> ((fract < length ds)%nat -> first_is ds ch_0 = false) ->
  strip_tz (rev ds) fract = (rds, f') ->
  let d := mkDec (if (length (rev rds) =? 0)%nat then 0 else sign) (rev rds) (length (rev rds)) f' in
  dec_norm d /\ d_sign d * dval (d_digits d) * P10 fract = sign * dval ds * P10 f'.
Proof.
  intros sign ds fract rds f' Hs Hds Hfl Hip St.
  destruct (strip_tz_spec fract (rev ds) rds f' St ltac:(rewrite rev_length; exact Hfl)) as [k [K1 [K2 [K3 K4]]]].
  assert (Eds : ds = rev rds ++ repeat ch_0 k).
  { rewrite <- (rev_involutive ds), K1, rev_app_distr, rev_repeat. reflexivity. }
  assert (Hd' : all_digits (rev rds) = true).
  { rewrite Eds, all_digits_app in Hds. apply andb_prop in Hds. apply Hds. }
  split.
  - constructor; cbn [d_sign d_digits d_total d_scale].
    + exact Hd'.
    + reflexivity.
    + rewrite rev_length. exact K3.
    + destruct (rev rds) eqn:Er; cbn [length Nat.eqb]; [left; auto|right; split; [discriminate|exact Hs]].
    + intros Lt. rewrite rev_length in Lt.
      assert (Hne : rev rds <> []) by (intros X; apply (f_equal (@length N)) in X; rewrite rev_length in X; cbn in X; lia).
      rewrite <- (first_is_app (rev rds) (repeat ch_0 k) ch_0 Hne), <- Eds.
      apply Hip. rewrite Eds, app_length, rev_length, repeat_length. lia.
    + intros Lt. rewrite last_is_rev. apply K4. exact Lt.
  - cbn [d_sign d_digits]. rewrite Eds, dval_zeros_r, K2, P10_add.
    destruct (length (rev rds) =? 0)%nat eqn:L0; [|ring].
    apply Nat.eqb_eq in L0. destruct (rev rds); [|discriminate]. rewrite dval_nil. ring.
Qed.

Lemma unsigned_norm_value : forall fix10 sign r d, (sign = 1 \/ sign = -1) -> r <> [] ->
  dec_parse_unsigned fix10 sign r = Ok d ->
  dec_norm d /\ exists i n, udec_value r = (i # pow10 n) /\
                            d_sign d * dval (d_digits d) * P10 n = sign * i * P10 (d_scale d).
Proof.
  intros fix10 sign r d Hs Hr H. unfold dec_parse_unsigned in H. cbv zeta in H.
  destruct (drop_zeros_split r) as [zs [E [Hz HL]]]. rewrite E, (udec_value_zeros zs _ Hz).
  destruct (drop_zeros r) as [|c r'] eqn:Er'.
  - (* only zeros *)
    inversion H; subst d. split; [constructor; cbn; auto; lia|]. exists 0, 0%nat. split; [reflexivity|cbn; lia].
  - pose proof (scan_false_spec (c :: r')) as Sc.
    destruct (udec_shape (c :: r')) eqn:Sh; [|destruct Sc as [e Se]; rewrite Se in H; discriminate].
    rewrite Sc in H. pose proof (udec_digits_spec c r' (drop_zeros_head r c r' Er') Sh) as D.
    destruct (udec_digits (c :: r')) as [ds fract]. destruct D as [Hds [Hfl [Hip Hv]]].
    destruct (fix10 && nilb ds && (length (c :: r') =? length r)%nat); [discriminate|].
    destruct (strip_tz (rev ds) fract) as [rds f'] eqn:St.
    destruct (strip_tz_norm sign ds fract rds f' Hs Hds Hfl Hip St) as [Nd V].
    inversion H; subst d. split; [exact Nd|]. exists (dval ds), fract. split; [exact Hv|exact V].
Qed.

Lemma body_norm_value : forall fix10 b d, dec_parse_body fix10 b = Ok d ->
  dec_norm d /\ dec_denote d == dec_value b.
Proof.
  intros fix10 b d H. destruct b as [|c r]; [discriminate|]. rewrite parse_body_sign in H by discriminate.
  unfold dec_value. destruct (strip_sign (c :: r)) as [neg [|x u]]; [discriminate|].
  destruct (unsigned_norm_value fix10 (if neg then -1 else 1) (x :: u) d ltac:(destruct neg; auto) ltac:(discriminate) H) as [Nd [i [n [V E]]]].
  split; [exact Nd|]. rewrite V. unfold dec_denote, Qeq. destruct neg; cbn [Qnum Qden Qopp];
    fold (P10 n) (P10 (d_scale d)); lia.
Qed.

(** XMLBigDecimal(strValue): the fields are normalised and denote the value of the (whitespace-trimmed) literal *)
Lemma parse_norm_value : forall fix10 s d, dec_parse fix10 s = Ok d ->
  dec_norm d /\ dec_denote d == dec_value (trim_ws s).
Proof.
  intros fix10 s d H. unfold dec_parse, dec_parse_raw in H.
  destruct s as [|c s]; [discriminate|]. destruct (drop_ws (c :: s)); [discriminate|].
  exact (body_norm_value fix10 _ d H).
Qed.

Lemma dec_compare_is_order : forall fix10 s1 s2 a b, dec_parse fix10 s1 = Ok a -> dec_parse fix10 s2 = Ok b ->
  dec_cmp a b = dec_order (trim_ws s1) (trim_ws s2).
Proof.
  intros fix10 s1 s2 a b Ha Hb.
  destruct (parse_norm_value fix10 s1 a Ha) as [Na Va]. destruct (parse_norm_value fix10 s2 b Hb) as [Nb Vb].
  rewrite (dec_cmp_correct a b Na Nb). unfold dec_order. rewrite Va, Vb. reflexivity.
Qed.

Lemma dec_compare_trans : forall a b c, dec_norm a -> dec_norm b -> dec_norm c ->
  dec_cmp a b <= 0 -> dec_cmp b c <= 0 -> dec_cmp a c <= 0 /\ (dec_cmp a b = -1 \/ dec_cmp b c = -1 -> dec_cmp a c = -1).
Proof.
  intros a b c Na Nb Nc. rewrite !dec_cmp_correct by assumption.
  destruct (dec_denote a ?= dec_denote b)%Q eqn:E1; destruct (dec_denote b ?= dec_denote c)%Q eqn:E2; cbn; intros H1 H2; try lia;
    rewrite <- ?Qeq_alt, <- ?Qlt_alt in *.
  - assert (E : dec_denote a == dec_denote c) by (rewrite E1; exact E2). rewrite Qeq_alt in E. rewrite E. cbn. split; [lia|intros [X|X]; discriminate].
  - assert (E : (dec_denote a < dec_denote c)%Q) by (rewrite E1; exact E2). rewrite Qlt_alt in E. rewrite E. cbn. split; [lia|auto].
  - assert (E : (dec_denote a < dec_denote c)%Q) by (rewrite <- E2; exact E1). rewrite Qlt_alt in E. rewrite E. cbn. split; [lia|auto].
  - assert (E : (dec_denote a < dec_denote c)%Q) by (eapply Qlt_trans; eauto). rewrite Qlt_alt in E. rewrite E. cbn. split; [lia|auto].
Qed.

Lemma P10_lt_inv : forall a b, P10 a < P10 b -> (a < b)%nat.
Proof. intros a b H. destruct (Nat.lt_ge_cases a b) as [L|G]; [exact L|]. pose proof (P10_le b a G). lia. Qed.

(** the scale of a normalised value is minimal: any representation i * 10^-n of it has n >= scale, i = m * 10^(n - scale) *)
Lemma scale_minimal : forall d i n, dec_norm d -> dec_denote d == i # pow10 n ->
  (d_scale d <= n)%nat /\ i = d_sign d * dval (d_digits d) * P10 (n - d_scale d).
Proof.
  intros d i n Nd E. pose proof Nd as [Hd Ht Hs _ Hl Htr]. apply (proj1 (dec_denote_eq d i n)) in E.
  set (m := d_sign d * dval (d_digits d)) in *. set (k := d_scale d) in *.
  assert (Kn : (k <= n)%nat).
  { destruct (Nat.le_gt_cases k n) as [L|G]; [exact L|]. exfalso.
    assert (Kpos : (0 < k)%nat) by lia. specialize (Htr Kpos).
    assert (Ne : d_digits d <> []) by (intros X; rewrite X in Ht; cbn in Ht; unfold k in *; lia).
    pose proof (dval_last_mod _ Hd Ne Htr) as M.
    replace k with (n + (k - n))%nat in E by lia. rewrite P10_add in E.
    assert (E' : m = i * P10 (k - n)).
    { pose proof (P10_pos n). apply (Z.mul_reg_r _ _ (P10 n)); [lia|]. rewrite E. ring. }
    replace (k - n)%nat with (S (k - n - 1)) in E' by lia. rewrite P10_S in E'.
    assert (Dm : (dval (d_digits d)) mod 10 = 0).
    { destruct (norm_sign_cases d Nd) as [[X _]|[[_ Sc]|[_ Sc]]]; [contradiction| |]; unfold m in E'; rewrite Sc in E'.
      - replace (1 * dval (d_digits d)) with (dval (d_digits d)) in E' by ring. rewrite E'.
        replace (i * (10 * P10 (k - n - 1))) with ((i * P10 (k - n - 1)) * 10) by ring. apply Z.mod_mul. lia.
      - assert (dval (d_digits d) = (- i * P10 (k - n - 1)) * 10) by lia. rewrite H. apply Z.mod_mul. lia. }
    contradiction. }
  split; [exact Kn|].
  replace n with (k + (n - k))%nat in E at 1 by lia. rewrite P10_add in E.
  pose proof (P10_pos k). apply (Z.mul_reg_r _ _ (P10 k)); [lia|]. rewrite <- E. ring.
Qed.

Lemma fraction_digits_spec : forall d fd, dec_norm d ->
  (fraction_digits_ok (dec_denote d) fd <-> (d_scale d <= fd)%nat).
Proof.
  intros d fd Nd. split.
  - intros [i [n [E L]]]. destruct (scale_minimal d i n Nd E) as [K _]. lia.
  - intros L. exists (d_sign d * dval (d_digits d)), (d_scale d). split; [reflexivity|exact L].
Qed.

Lemma total_digits_spec : forall d td, dec_norm d ->
  (total_digits_ok (dec_denote d) td <-> (d_total d <= td)%nat /\ (d_scale d <= td)%nat).
Proof.
  intros d td Nd. pose proof Nd as [Hd Ht Hs _ Hl Htr]. split.
  - intros [i [n [E [A L]]]]. destruct (scale_minimal d i n Nd E) as [K Ei].
    split; [|lia]. destruct (Nat.eq_dec (d_scale d) (d_total d)) as [Ek|Ek]; [lia|].
    assert (Lt : (d_scale d < d_total d)%nat) by lia. specialize (Hl Lt).
    destruct (d_digits d) as [|c r] eqn:Ed; [cbn in Ht; lia|]. cbn [first_is] in Hl.
    pose proof (dval_lead c r Hd Hl) as Lead. pose proof (P10_pos (n - d_scale d)) as Pp.
    assert (Ab : P10 (length r) <= Z.abs i).
    { pose proof (P10_pos (length r)) as Pr.
      assert (Big : dval (c :: r) * 1 <= dval (c :: r) * P10 (n - d_scale d)) by (apply Z.mul_le_mono_nonneg_l; lia).
      rewrite Ei. destruct (norm_sign_cases d Nd) as [[X _]|[[_ Sc]|[_ Sc]]]; [rewrite Ed in X; discriminate| |]; rewrite Sc.
      - replace (1 * dval (c :: r) * P10 (n - d_scale d)) with (dval (c :: r) * P10 (n - d_scale d)) by ring.
        rewrite Z.abs_eq by lia. lia.
      - replace (-1 * dval (c :: r) * P10 (n - d_scale d)) with (- (dval (c :: r) * P10 (n - d_scale d))) by ring.
        rewrite Z.abs_opp, Z.abs_eq by lia. lia. }
    assert (P10 (length r) < P10 td) by (unfold P10 in *; lia).
    pose proof (P10_lt_inv _ _ H). cbn [length] in Ht. lia.
  - intros [T K]. exists (d_sign d * dval (d_digits d)), (d_scale d). split; [reflexivity|]. split; [|exact K].
    pose proof (dval_bounds _ Hd) as B. rewrite <- Ht in B. pose proof (P10_le _ _ T).
    fold (P10 td). destruct (norm_sign_cases d Nd) as [[_ Sc]|[[_ Sc]|[_ Sc]]]; rewrite Sc.
    + rewrite Z.mul_0_l. cbn. apply P10_pos.
    + rewrite Z.mul_1_l, Z.abs_eq by lia. lia.
    + replace (-1 * dval (d_digits d)) with (- dval (d_digits d)) by ring. rewrite Z.abs_opp, Z.abs_eq by lia. lia.
Qed.

Local Open Scope N_scope.

Lemma split_dot_digits : forall ip fp, all_digits ip = true -> split_dot (ip ++ ch_dot :: fp) = (ip, Some fp).
Proof.
  induction ip as [|c r IH]; intros fp H; [reflexivity|]. apply all_digits_cons_inv in H. destruct H as [H1 H2].
  cbn [app split_dot]. rewrite (digit_not_dot c H1), (IH fp H2). reflexivity.
Qed.

Lemma strip_sign_digit : forall c r, is_digit c = true -> strip_sign (c :: r) = (false, c :: r).
Proof. intros c r H. destruct (digit_not_sign c H) as [A B]. unfold strip_sign. rewrite A, B. reflexivity. Qed.

Lemma first_is_digit_plus : forall c r, is_digit c = true -> first_is (c :: r) ch_plus = false.
Proof. intros c r H. destruct (digit_not_sign c H) as [_ B]. exact B. Qed.

(** the unsigned body  ip '.' fp  of a canonical representation *)
Definition canon_body (ip fp : list N) : Prop :=
  all_digits ip = true /\ all_digits fp = true /\ ip <> [] /\ fp <> [] /\
  (first_is ip ch_0 = false \/ length ip = 1%nat) /\ (last_is fp ch_0 = false \/ length fp = 1%nat).

Lemma body_canonical : forall ip fp (neg : bool), canon_body ip fp -> (neg = true -> dval (ip ++ fp) <> 0%Z) ->
  let l := (if neg then [ch_minus] else []) ++ ip ++ ch_dot :: fp in
  dec_is_canonical l = true /\ dec_lex l = true /\
  dec_value l == (if neg then - dval (ip ++ fp) else dval (ip ++ fp))%Z # pow10 (length fp).
Proof.
  intros ip fp neg [Di [Df [Ni [Nf [Li Lf]]]]] Hz.
  destruct ip as [|i0 ip']; [contradiction|]. pose proof Di as Di'. rewrite all_digits_cons in Di'. apply andb_prop in Di'. destruct Di' as [Di0 _].
  assert (Lead : (negb (first_is (i0 :: ip') ch_0) || (length (i0 :: ip') =? 1)%nat) = true).
  { destruct Li as [Li|Li]; [rewrite Li; reflexivity|rewrite Li; apply Bool.orb_true_r]. }
  assert (Trail : (negb (last_is fp ch_0) || (length fp =? 1)%nat) = true).
  { destruct Lf as [Lf|Lf]; [rewrite Lf; reflexivity|rewrite Lf; apply Bool.orb_true_r]. }
  assert (Nfb : negb (nilb fp) = true) by (destruct fp; [contradiction|reflexivity]).
  set (body := (i0 :: ip') ++ ch_dot :: fp).
  destruct neg; cbn [app]; fold body.
  - (* negative *)
    assert (Nz : negb (dval ((i0 :: ip') ++ fp) =? 0)%Z = true) by (apply Bool.negb_true_iff, Z.eqb_neq, Hz; reflexivity).
    assert (SS : strip_sign (ch_minus :: body) = (true, body)) by reflexivity.
    assert (FP : first_is (ch_minus :: body) ch_plus = false) by reflexivity.
    unfold dec_is_canonical, dec_lex, dec_value. rewrite SS, FP. cbn [snd]. unfold udec_lex, udec_value, body.
    rewrite (split_dot_digits (i0 :: ip') fp Di). rewrite Di, Df, Lead, Trail, Nfb, Nz. cbn [nilb negb andb orb].
    repeat split; try reflexivity.
  - assert (SS : strip_sign body = (false, body)) by (unfold body; cbn [app]; apply strip_sign_digit; exact Di0).
    assert (FP : first_is body ch_plus = false) by (unfold body; cbn [app]; apply first_is_digit_plus; exact Di0).
    unfold dec_is_canonical, dec_lex, dec_value. rewrite SS, FP. cbn [snd]. unfold udec_lex, udec_value, body.
    rewrite (split_dot_digits (i0 :: ip') fp Di). rewrite Di, Df, Lead, Trail, Nfb. cbn [nilb negb andb orb].
    repeat split; try reflexivity.
Qed.

Lemma last_is_app : forall (a b : list N) c, b <> [] -> last_is (a ++ b) c = last_is b c.
Proof.
  intros a b c H. unfold last_is. rewrite rev_app_distr. destruct (rev b) eqn:E; [|reflexivity].
  apply (f_equal (@rev N)) in E. rewrite rev_involutive in E. contradiction.
Qed.

(** the digit string with "0" standing in for an empty integer or fraction part *)
Definition pad0 (l : list N) : list N := match l with [] => [ch_0] | _ => l end.

Lemma pad0_dval : forall l, dval (pad0 l) = dval l.
Proof. intros [|c l]; reflexivity. Qed.

(** the text getCanonicalRepresentation writes after the sign: integer digits, '.', fraction digits *)
Lemma canon_text : forall s ds k, ds <> [] -> (k <= length ds)%nat -> (s =? 0)%Z = false ->
  dec_canon_of (mkDec s ds (length ds) k) =
  (if (s =? -1)%Z then [ch_minus] else []) ++
  pad0 (firstn (length ds - k) ds) ++ ch_dot :: pad0 (skipn (length ds - k) ds).
Proof.
  intros s ds k Hn Hk Hs. unfold dec_canon_of. cbn [d_sign d_digits d_total d_scale]. rewrite Hs.
  destruct (Nat.eqb_spec (length ds) 0) as [E|E]; [destruct ds; [contradiction|discriminate]|]. cbn [orb]. f_equal.
  destruct (Nat.eqb_spec k (length ds)) as [Ekt|Ekt].
  - subst k. rewrite Nat.sub_diag. destruct ds; [contradiction|reflexivity].
  - destruct (Nat.eqb_spec k 0) as [Ek0|Ek0].
    + subst k. rewrite Nat.sub_0_r, firstn_all, skipn_all. destruct ds; [contradiction|reflexivity].
    + set (il := (length ds - k)%nat).
      assert (Lsk : length (skipn il ds) = k) by (rewrite skipn_length; unfold il; lia).
      rewrite (firstn_all2 (skipn il ds)) by lia.
      assert (Lfi : length (firstn il ds) = il) by (rewrite firstn_length; unfold il; lia).
      destruct (firstn il ds) eqn:F; [cbn in Lfi; unfold il in Lfi; lia|].
      destruct (skipn il ds) eqn:Sk; [cbn in Lsk; lia|]. reflexivity.
Qed.

Lemma pad0_value : forall ip fp,
  (dval (pad0 ip ++ pad0 fp) * P10 (length fp) = dval (ip ++ fp) * P10 (length (pad0 fp)))%Z.
Proof.
  intros ip fp. rewrite !dval_app, !pad0_dval. destruct fp as [|c fp]; [|reflexivity].
  cbn [pad0 length]. rewrite dval_nil, P10_S, P10_0. lia.
Qed.

Lemma canon_of_norm : forall d, dec_norm d ->
  dec_is_canonical (dec_canon_of d) = true /\ dec_lex (dec_canon_of d) = true /\ dec_value (dec_canon_of d) == dec_denote d.
Proof.
  intros [s ds t k] Nd. pose proof Nd as [Hd Ht Hs Hsg Hl Htr]. cbn [d_sign d_digits d_total d_scale] in *. subst t.
  destruct Hsg as [[E0 S0]|[Ne Spm]].
  - (* zero *) subst ds s. assert (k = 0%nat) by (cbn [length] in Hs; lia). subst k. repeat split; reflexivity.
  - assert (Pos : (0 < dval ds)%Z) by (apply (norm_pos _ Nd); exact Ne).
    rewrite canon_text by (try assumption; destruct Spm; subst; reflexivity).
    set (il := (length ds - k)%nat). set (ip := firstn il ds). set (fp := skipn il ds).
    assert (Split : ip ++ fp = ds) by apply firstn_skipn.
    assert (Lfp : length fp = k) by (unfold fp; rewrite skipn_length; unfold il; lia).
    assert (Lip : length ip = il) by (unfold ip; rewrite firstn_length; unfold il; lia).
    assert (Dsplit : all_digits ip = true /\ all_digits fp = true).
    { rewrite <- Split, all_digits_app in Hd. apply andb_prop in Hd. exact Hd. }
    destruct Dsplit as [Dip Dfp]. clearbody ip fp.
    assert (Lds : length ds = (il + k)%nat) by (rewrite <- Split, app_length; lia).
    assert (B : canon_body (pad0 ip) (pad0 fp)).
    { repeat split.
      - destruct ip; [reflexivity|exact Dip].
      - destruct fp; [reflexivity|exact Dfp].
      - destruct ip; discriminate.
      - destruct fp; discriminate.
      - destruct ip as [|c ip'] eqn:E; [right; reflexivity|left].
        rewrite <- Split in Hl at 2. apply Hl. cbn [length] in Lip. lia.
      - destruct fp as [|c fp'] eqn:E; [right; reflexivity|left].
        rewrite <- Split, last_is_app in Htr by discriminate. apply Htr. cbn [length] in Lfp. lia. }
    pose proof (pad0_value ip fp) as V. rewrite Split, Lfp in V.
    pose proof (P10_pos k). pose proof (P10_pos (length (pad0 fp))).
    set (neg := (s =? -1)%Z).
    assert (Sneg : s = if neg then (-1)%Z else 1%Z) by (unfold neg; destruct Spm; subst; reflexivity).
    destruct (body_canonical _ _ neg B ltac:(intros _; nia)) as [C1 [C2 C3]].
    repeat split; [exact C1|exact C2|]. rewrite C3. unfold dec_denote, Qeq.
    cbn [Qnum Qden d_sign d_digits d_scale]. fold (P10 k) (P10 (length (pad0 fp))). rewrite Sneg. destruct neg; nia.
Qed.

Lemma str_cmp_zero : forall a b, all_digits a = true -> all_digits b = true -> str_cmp a b = 0%Z -> a = b.
Proof.
  induction a as [|x a IH]; intros [|y b] Ha Hb H; cbn [str_cmp] in H; try reflexivity.
  - apply all_digits_cons_inv in Hb. destruct Hb as [Hy _]. unfold is_digit in Hy.
    apply andb_prop in Hy. destruct Hy as [Hy _]. apply N.leb_le in Hy. lia.
  - apply all_digits_cons_inv in Ha. destruct Ha as [Hx _]. unfold is_digit in Hx.
    apply andb_prop in Hx. destruct Hx as [Hx _]. apply N.leb_le in Hx. lia.
  - rewrite all_digits_cons in Ha, Hb. apply andb_prop in Ha. apply andb_prop in Hb. destruct Ha as [_ Ha]. destruct Hb as [_ Hb].
    destruct (N.eqb_spec x y); [subst; f_equal; apply IH; assumption|lia].
Qed.

(** normalised records that compare equal are equal: digit strings are unique *)
Lemma cmp_zero_eq : forall a b, dec_norm a -> dec_norm b -> dec_cmp a b = 0%Z -> a = b.
Proof.
  intros [s1 d1 t1 k1] [s2 d2 t2 k2] Na Nb H. pose proof Na as [Hd1 Ht1 Hs1 Hg1 _ _]. pose proof Nb as [Hd2 Ht2 Hs2 Hg2 _ _].
  cbn [d_sign d_digits d_total d_scale] in *. unfold dec_cmp in H. cbn [d_sign d_digits d_total d_scale] in H.
  destruct (Z.eqb_spec s1 s2) as [Es|Es]; cbn [negb] in H; [|destruct (s1 >? s2)%Z; discriminate]. subst s2.
  destruct (Z.eqb_spec s1 0) as [E0|E0].
  - subst s1. destruct Hg1 as [[E1 _]|[_ [X|X]]]; try discriminate. destruct Hg2 as [[E2 _]|[_ [X|X]]]; try discriminate.
    subst d1 d2. cbn [length] in *. subst t1 t2. assert (k1 = 0%nat) by lia. assert (k2 = 0%nat) by lia. subst. reflexivity.
  - rewrite sgn_select in H.
    destruct (Nat.ltb_spec (t2 - k2) (t1 - k1)); [lia|]. destruct (Nat.ltb_spec (t1 - k1) (t2 - k2)); [lia|].
    assert (Sg : Z.sgn (str_cmp d1 d2) = 0%Z) by lia. apply (proj1 (Z.sgn_null_iff _)) in Sg.
    pose proof (str_cmp_zero d1 d2 Hd1 Hd2 Sg). subst d2. assert (t1 = t2) by lia. subst t2. assert (k1 = k2) by lia. subst. reflexivity.
Qed.

Lemma char_ok_not_ws : forall c, float_char_ok c = true -> is_ws c = false.
Proof.
  intros c H. unfold float_char_ok, is_digit, is_e, ch_dot, ch_minus, ch_plus in H. unfold is_ws.
  destruct (N.eqb_spec c 32); [subst; discriminate|]. destruct (N.eqb_spec c 9); [subst; discriminate|].
  destruct (N.eqb_spec c 10); [subst; discriminate|]. destruct (N.eqb_spec c 13); [subst; discriminate|]. reflexivity.
Qed.

Lemma drop_ws_id : forall l, match l with x :: _ => is_ws x = false | [] => True end -> drop_ws l = l.
Proof. intros [|x l] H; [reflexivity|]. cbn [drop_ws]. rewrite H. reflexivity. Qed.

Lemma trim_lex : forall l, dec_lex l = true -> trim_ws l = l.
Proof.
  intros l H. pose proof (dec_chars l H) as C. rewrite forallb_forall in C.
  assert (NW : forall x, In x l -> is_ws x = false) by (intros x Hx; apply char_ok_not_ws, C, Hx).
  unfold trim_ws. rewrite (drop_ws_id l) by (destruct l; [exact I|apply NW; left; reflexivity]).
  rewrite (drop_ws_id (rev l)); [apply rev_involutive|].
  destruct (rev l) as [|x r] eqn:E; [exact I|]. apply NW. apply in_rev. rewrite E. left. reflexivity.
Qed.

Lemma dec_canon_spec : forall fix10 s d, dec_parse_raw fix10 s = Ok d ->
  let c := dec_canon_of d in
  dec_is_canonical c = true /\ dec_lex c = true /\ dec_value c == dec_value (trim_ws s) /\
  dec_canon true c = Some c.
Proof.
  intros fix10 s d H c.
  assert (Hp : dec_parse fix10 s = Ok d).
  { unfold dec_parse. destruct s; [cbn in H; discriminate|exact H]. }
  destruct (parse_norm_value fix10 s d Hp) as [Nd Vd].
  destruct (canon_of_norm d Nd) as [C1 [C2 C3]]. fold c in C1, C2, C3.
  repeat split; [exact C1|exact C2|rewrite C3; exact Vd|].
  (* idempotence: re-parsing the canonical literal gives a normalised record of the same value, hence the same record *)
  assert (T : trim_ws c = c) by (apply trim_lex; exact C2).
  assert (Ok' : dec_ok true c = true) by (rewrite (dec_ok_spec true c), T; exact C2).
  unfold dec_ok in Ok'. destruct (dec_parse true c) as [d'|e] eqn:P'; [|discriminate].
  destruct (parse_norm_value true c d' P') as [Nd' Vd']. rewrite T in Vd'.
  assert (E : Qcompare (dec_denote d') (dec_denote d) = Eq) by (apply Qeq_alt; rewrite Vd', C3; reflexivity).
  assert (Zn : dec_cmp d' d = 0%Z) by (rewrite (dec_cmp_correct d' d Nd' Nd), E; reflexivity).
  pose proof (cmp_zero_eq d' d Nd' Nd Zn). subst d'.
  unfold dec_canon. assert (R : dec_parse_raw true c = Ok d).
  { unfold dec_parse in P'. destruct c; [discriminate|exact P']. }
  rewrite R. reflexivity.
Qed.
