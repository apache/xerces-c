(** C09 lemmas, part d: XMLBigDecimal::toCompare on normalised values = order of the denoted rationals. *)
From Coq Require Import ZArith QArith Lia.
From XV Require Import C09.Spec09 C09.Model09 C09.Proofs09a C09.Proofs09b C09.Proofs09c.
Local Open Scope Z_scope.

(** the rational denoted by the fields of an XMLBigDecimal *)
Definition dec_denote (d : dec) : Q := (d_sign d * dval (d_digits d)) # pow10 (d_scale d).

(** what parseDecimal guarantees about the fields ("would eliminate unnecessary leading/trailing zeros") *)
Record dec_norm (d : dec) : Prop := mkNorm {
  n_digits : all_digits (d_digits d) = true;
  n_total : d_total d = length (d_digits d);
  n_scale : (d_scale d <= d_total d)%nat;
  n_sign : (d_digits d = [] /\ d_sign d = 0) \/ (d_digits d <> [] /\ (d_sign d = 1 \/ d_sign d = -1));
  n_lead : (d_scale d < d_total d)%nat -> first_is (d_digits d) ch_0 = false;
  n_trail : (0 < d_scale d)%nat -> last_is (d_digits d) ch_0 = false }.

(** the two forms in which proofs use a normalised record: its value as an equation between integers, its sign as three cases *)
Lemma dec_denote_eq : forall d i n,
  dec_denote d == i # pow10 n <-> d_sign d * dval (d_digits d) * P10 n = i * P10 (d_scale d).
Proof. intros. unfold dec_denote, Qeq. cbn [Qnum Qden]. reflexivity. Qed.

Lemma norm_sign_cases : forall d, dec_norm d ->
  (d_digits d = [] /\ d_sign d = 0) \/ (d_digits d <> [] /\ d_sign d = 1) \/ (d_digits d <> [] /\ d_sign d = -1).
Proof. intros d Nd. destruct (n_sign d Nd) as [Z0|[Ne [P|M]]]; auto. Qed.

Lemma norm_pos : forall d, dec_norm d -> d_digits d <> [] -> 0 < dval (d_digits d).
Proof.
  intros d [Hd Ht Hs _ Hl Htr] Hn.
  destruct (Nat.eq_dec (d_scale d) 0) as [E|E].
  - destruct (d_digits d) as [|c r] eqn:Ed; [contradiction|].
    assert (L : (d_scale d < d_total d)%nat) by (rewrite Ht; cbn [length]; lia).
    specialize (Hl L). cbn [first_is] in Hl. pose proof (dval_lead c r Hd Hl). pose proof (P10_pos (length r)). lia.
  - apply dval_pos_trail; [exact Hd|exact Hn|apply Htr; lia].
Qed.

Lemma Qcompare_unfold : forall p q, Qcompare p q = (Qnum p * Zpos (Qden q) ?= Qnum q * Zpos (Qden p)).
Proof. reflexivity. Qed.

Lemma mag_more_digits : forall a b, dec_norm a -> dec_norm b ->
  (d_total b - d_scale b < d_total a - d_scale a)%nat ->
  dval (d_digits b) * P10 (d_scale a) < dval (d_digits a) * P10 (d_scale b).
Proof.
  intros a b Na Nb L.
  destruct Na as [Hda Hta Hsa _ Hla _]. destruct Nb as [Hdb Htb Hsb _ _ _].
  destruct (d_digits a) as [|c r] eqn:Ea; [cbn [length] in Hta; lia|].
  assert (La : (d_scale a < d_total a)%nat) by lia.
  specialize (Hla La). cbn [first_is] in Hla. pose proof (dval_lead c r Hda Hla) as Lead.
  pose proof (dval_bounds _ Hdb) as Bb. rewrite <- Htb in Bb. cbn [length] in Hta.
  assert (Hexp : (d_total b + d_scale a <= length r + d_scale b)%nat) by lia.
  pose proof (P10_le _ _ Hexp) as Ple. rewrite !P10_add in Ple.
  pose proof (P10_pos (d_scale a)). pose proof (P10_pos (d_scale b)). pose proof (P10_pos (length r)).
  pose proof (P10_pos (d_total b)).
  assert (dval (d_digits b) * P10 (d_scale a) < P10 (d_total b) * P10 (d_scale a)) by (apply Z.mul_lt_mono_pos_r; lia).
  assert (P10 (length r) * P10 (d_scale b) <= dval (c :: r) * P10 (d_scale b)) by (apply Z.mul_le_mono_nonneg_r; lia).
  lia.
Qed.

Lemma mag_cmp : forall a b, dec_norm a -> dec_norm b ->
  (if (d_total b - d_scale b <? d_total a - d_scale a)%nat then 1
   else if (d_total a - d_scale a <? d_total b - d_scale b)%nat then -1
   else Z.sgn (str_cmp (d_digits a) (d_digits b)))
  = cmp_to_Z (dval (d_digits a) * P10 (d_scale b) ?= dval (d_digits b) * P10 (d_scale a)).
Proof.
  intros a b Na Nb.
  destruct (Nat.ltb_spec (d_total b - d_scale b) (d_total a - d_scale a)) as [L|L].
  - symmetry. apply cmpZ_gt. apply mag_more_digits; assumption.
  - destruct (Nat.ltb_spec (d_total a - d_scale a) (d_total b - d_scale b)) as [L'|L'].
    + symmetry. apply cmpZ_lt. apply mag_more_digits; assumption.
    + pose proof Na as [Hda Hta Hsa _ _ Htra]. pose proof Nb as [Hdb Htb Hsb _ _ Htrb].
      rewrite str_cmp_frac; [|exact Hda|exact Hdb| |].
      * f_equal. rewrite <- Hta, <- Htb.
        set (Lc := (d_total a - d_scale a)%nat).
        replace (d_total a) with (Lc + d_scale a)%nat by lia.
        replace (d_total b) with (Lc + d_scale b)%nat by lia.
        rewrite !P10_add.
        replace (dval (d_digits a) * (P10 Lc * P10 (d_scale b))) with (dval (d_digits a) * P10 (d_scale b) * P10 Lc) by ring.
        replace (dval (d_digits b) * (P10 Lc * P10 (d_scale a))) with (dval (d_digits b) * P10 (d_scale a) * P10 Lc) by ring.
        symmetry. apply Zmult_compare_compat_r. pose proof (P10_pos Lc). lia.
      * intros LL. apply Htrb. lia.
      * intros LL. apply Htra. lia.
Qed.

Lemma sgn_select : forall r ls, (if (r >? 0) then 1 * ls else if (r <? 0) then -1 * ls else 0) = ls * Z.sgn r.
Proof.
  intros r ls. destruct (Z.gtb_spec r 0) as [H|H].
  - rewrite Z.sgn_pos by lia. lia.
  - destruct (Z.ltb_spec r 0) as [H'|H'].
    + rewrite Z.sgn_neg by lia. lia.
    + replace r with 0 by lia. cbn. lia.
Qed.

Lemma dec_cmp_correct : forall a b, dec_norm a -> dec_norm b ->
  dec_cmp a b = cmp_to_Z (Qcompare (dec_denote a) (dec_denote b)).
Proof.
  intros a b Na Nb. rewrite Qcompare_unfold. unfold dec_denote. cbn [Qnum Qden]. fold (P10 (d_scale a)) (P10 (d_scale b)).
  pose proof (mag_cmp a b Na Nb) as M.
  pose proof (P10_pos (d_scale a)) as Pa. pose proof (P10_pos (d_scale b)) as Pb.
  unfold dec_cmp. rewrite sgn_select.
  destruct (n_sign a Na) as [[Ea Sa]|[Ea Sa]]; destruct (n_sign b Nb) as [[Eb Sb]|[Eb Sb]].
  - rewrite Sa, Sb. reflexivity.
  - pose proof (norm_pos b Nb Eb) as Pb'. rewrite Sa. destruct Sb as [Sb|Sb]; rewrite Sb; cbn [Z.eqb negb Z.gtb Z.compare].
    + symmetry. apply cmpZ_lt. nia.
    + symmetry. apply cmpZ_gt. nia.
  - pose proof (norm_pos a Na Ea) as Pa'. rewrite Sb. destruct Sa as [Sa|Sa]; rewrite Sa; cbn [Z.eqb negb Z.gtb Z.compare].
    + symmetry. apply cmpZ_gt. nia.
    + symmetry. apply cmpZ_lt. nia.
  - pose proof (norm_pos a Na Ea) as Pa'. pose proof (norm_pos b Nb Eb) as Pb'.
    destruct Sa as [Sa|Sa]; destruct Sb as [Sb|Sb]; rewrite Sa, Sb; cbn [Z.eqb negb Z.gtb Z.compare Pos.eqb].
    + (* both positive *)
      rewrite !Z.mul_1_l, ?Z.mul_1_r. exact M.
    + symmetry. apply cmpZ_gt. nia.
    + symmetry. apply cmpZ_lt. nia.
    + (* both negative *)
      assert (X : forall x y, cmp_to_Z (-1 * x ?= -1 * y) = - cmp_to_Z (x ?= y)).
      { intros x y. replace (-1 * x) with (- x) by ring. replace (-1 * y) with (- y) by ring.
        rewrite Z.compare_opp. rewrite (Z.compare_antisym x y). destruct (x ?= y); reflexivity. }
      replace (-1 * dval (d_digits a) * P10 (d_scale b)) with (-1 * (dval (d_digits a) * P10 (d_scale b))) by ring.
      replace (-1 * dval (d_digits b) * P10 (d_scale a)) with (-1 * (dval (d_digits b) * P10 (d_scale a))) by ring.
      rewrite X, <- M.
      destruct (d_total b - d_scale b <? d_total a - d_scale a)%nat; [reflexivity|].
      destruct (d_total a - d_scale a <? d_total b - d_scale b)%nat; [reflexivity|]. ring.
Qed.
