(** C09 lemmas, part f: the tables translated from Base64.cpp and HexBin.cpp, the witnesses of the findings on the binary
    and dateTime models, and two facts the later parts share (hex digit ranges, maxDayInMonthFor). *)
From Coq Require Import ZArith Lia ZifyBool.
From XV Require Import C09.Spec09 C09.Model09 C09.Spec09b C09.Model09b C09.Spec09c C09.Model09c.
Local Open Scope N_scope.

(** base64Inverse (translated from Base64.cpp) is the inverse of the RFC 2045 alphabet on every index it has *)
Definition b64_table_ok : bool :=
  forallb (fun c => match b64_val c with Some v => tbl base64Inverse c =? v | None => tbl base64Inverse c =? 0xFF end)
          (nrange (length base64Inverse)).
Lemma b64_table_entries :
  forallb (fun c => match b64_val c with Some v => tbl base64Inverse c =? v | None => tbl base64Inverse c =? 0xFF end)
          (nrange (length base64Inverse)) = true.
Proof. vm_compute. reflexivity. Qed.

(** hexNumberTable (translated from HexBin.cpp) agrees with the hex digits of the Spec on every index it has, and
    isHex agrees with the Spec on every code unit below 256 *)
Definition hex_table_ok : bool :=
  forallb (fun c => match hex_digit c with Some v => tbl hexNumberTable c =? v | None => tbl hexNumberTable c =? 0xFF end)
          (nrange (length hexNumberTable)) &&
  forallb (fun c => Bool.eqb (hex_isHex c) (match hex_digit c with Some _ => true | None => false end)) (nrange 256).
Lemma hex_digit_cases : forall c v, hex_digit c = Some v ->
  (48 <= c <= 57 /\ v = c - 48) \/ (65 <= c <= 70 /\ v = c - 55) \/ (97 <= c <= 102 /\ v = c - 87).
Proof.
  intros c v H. unfold hex_digit in H.
  repeat match type of H with (if ?b then _ else _) = _ => destruct b eqn:? end; inversion H; lia.
Qed.

Lemma hex_digit_of : forall c v,
  (48 <= c <= 57 /\ v = c - 48) \/ (65 <= c <= 70 /\ v = c - 55) \/ (97 <= c <= 102 /\ v = c - 87) -> hex_digit c = Some v.
Proof.
  intros c v H. unfold hex_digit.
  destruct ((48 <=? c) && (c <=? 57)) eqn:A; [f_equal; lia|].
  destruct ((65 <=? c) && (c <=? 70)) eqn:B; [f_equal; lia|].
  destruct ((97 <=? c) && (c <=? 102)) eqn:C; [f_equal; lia|lia].
Qed.

Lemma hex_table_entries :
  forallb (fun c => match hex_digit c with Some v => tbl hexNumberTable c =? v | None => tbl hexNumberTable c =? 0xFF end)
          (nrange (length hexNumberTable)) = true.
Proof. vm_compute. reflexivity. Qed.

(** isHex = "is a hex digit", for every code unit: inside the table by its entries, and no hex digit lies beyond it *)
Lemma hex_isHex_spec : forall c, hex_isHex c = match hex_digit c with Some _ => true | None => false end.
Proof.
  intros c. unfold hex_isHex, hex_BASELENGTH. destruct (N.leb_spec 255 c) as [G|L].
  - destruct (hex_digit c) as [v|] eqn:E; [|reflexivity]. apply hex_digit_cases in E. lia.
  - pose proof hex_table_entries as T. rewrite forallb_forall in T.
    assert (I : c < N.of_nat (length hexNumberTable)) by (change (c < 255); exact L).
    specialize (T c (nrange_in _ c I)).
    destruct (hex_digit c) as [v|] eqn:E; apply N.eqb_eq in T; rewrite T; [|reflexivity].
    apply hex_digit_cases in E. destruct (N.eqb_spec v 255); [lia|reflexivity].
Qed.

(** F12: narrowing -- U+0141 'AAA' decodes, U+0100 truncates; neither literal is in the lexical space *)
Lemma b64_narrowing_refuted :
  b64_decode true false false [0x141; 0x41; 0x41; 0x41] = Some ([0; 0; 0], [0x41; 0x41; 0x41; 0x41]) /\
  b64_lex [0x141; 0x41; 0x41; 0x41] = false /\
  b64_decode true false false [0x41; 0x41; 0x41; 0x41; 0x100; 0x21; 0x21] = Some ([0; 0; 0], [0x41; 0x41; 0x41; 0x41]) /\
  b64_lex [0x41; 0x41; 0x41; 0x41; 0x100; 0x21; 0x21] = false /\
  b64_decode true true false [0x141; 0x41; 0x41; 0x41] = None /\
  b64_decode true true false [0x41; 0x41; 0x41; 0x41; 0x100; 0x21; 0x21] = None.
Proof. vm_compute. repeat split; reflexivity. Qed.

(** F26: a base64Inverse of 255 entries is indexed one past its end by byte 0xFF.  The table translated from Base64.cpp has
    an entry for every byte, so 0xFF is looked up inside it and rejected with either setting of the defect switch. *)
Lemma b64_table_refuted :
  N.of_nat (length base64Inverse) = 256 /\
  b64_decode true false false [0xFF; 0x41; 0x41; 0x41] = None /\
  b64_lex [0xFF; 0x41; 0x41; 0x41] = false /\ b64_decode true false true [0xFF; 0x41; 0x41; 0x41] = None.
Proof. vm_compute. repeat split; reflexivity. Qed.

(** F11 / F29 on the faithful dateTime model: "2000-01-01T00:00:60" and "2000-01-01T00:00:00.Z" *)
Definition lit_sec60 : list N :=
  [0x32;0x30;0x30;0x30;0x2D;0x30;0x31;0x2D;0x30;0x31;0x54;0x30;0x30;0x3A;0x30;0x30;0x3A;0x36;0x30].
Definition lit_emptyfrac : list N :=
  [0x32;0x30;0x30;0x30;0x2D;0x30;0x31;0x2D;0x30;0x31;0x54;0x30;0x30;0x3A;0x30;0x30;0x3A;0x30;0x30;0x2E;0x5A].
Lemma dt_second60_refuted : dt_ok false lit_sec60 = true /\ dt_lex lit_sec60 = false /\ dt_ok true lit_sec60 = false.
Proof. vm_compute. repeat split; reflexivity. Qed.
Lemma dt_emptyfraction_refuted : dt_ok true lit_emptyfrac = true /\ dt_lex lit_emptyfrac = false.
Proof. vm_compute. repeat split; reflexivity. Qed.

Lemma span_digits_spec : forall l,
  l = fst (span_digits l) ++ snd (span_digits l) /\ all_digits (fst (span_digits l)) = true /\
  match snd (span_digits l) with c :: _ => is_digit c = false | [] => True end.
Proof.
  induction l as [|c r IH]; [repeat split|]. cbn [span_digits]. destruct (is_digit c) eqn:D.
  - destruct (span_digits r) as [a b]. cbn [fst snd] in *. destruct IH as [I1 [I2 I3]]. repeat split.
    + cbn [app]. f_equal. exact I1.
    + cbn [all_digits forallb]. rewrite D. exact I2.
    + exact I3.
  - cbn [fst snd]. repeat split. exact D.
Qed.

(** lia for goals that divide or take remainders by constants: their Euclidean equations are added first *)
Ltac lia_div := Z.to_euclidean_division_equations; lia.

(** maxDayInMonthFor tests divisibility with the C remainder, the Spec with the mathematical modulo: the same test,
    so the two agree for every year, negative ones included *)
Lemma rem_zero_mod : forall a b, b <> 0%Z -> (Z.rem a b =? 0)%Z = (a mod b =? 0)%Z.
Proof.
  intros a b H. apply Bool.eq_iff_eq_true. rewrite !Z.eqb_eq, Z.rem_divide, Z.mod_divide by exact H. reflexivity.
Qed.

Lemma max_day_all_years : forall y m, max_day y m = days_in_month y m.
Proof. intros y m. unfold max_day, days_in_month, leap_year. rewrite !rem_zero_mod by discriminate. reflexivity. Qed.
