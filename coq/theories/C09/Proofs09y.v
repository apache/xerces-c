(** C09 lemmas, part y: XMLAbstractDoubleFloat::getCanonicalRepresentation (Model09k) against the canonical form of
    xs:float / xs:double (Spec09k).  Finding F40 refuted on the faithful model; the repaired normaliser always starts the
    mantissa with a non-zero digit (for every normalised decimal, i.e. every mantissa parseDecimal accepts). *)
From Coq Require Import ZArith QArith Lia List.
From XV Require Import C09.Spec09 C09.Model09 C09.Proofs09a C09.Proofs09b C09.Proofs09c C09.Proofs09d C09.Proofs09e
                       C09.Spec09k C09.Model09k.
Import ListNotations.
Local Open Scope N_scope.

Definition lit_0_001 : list N := [0x30; 0x2E; 0x30; 0x30; 0x31].                   (* 0.001 *)
Definition lit_0_01Em1 : list N := [0x30; 0x2E; 0x30; 0x31; 0x45; 0x2D; 0x31].       (* 0.01E-1 *)
Definition lit_0_1Em2 : list N := [0x30; 0x2E; 0x31; 0x45; 0x2D; 0x32].              (* 0.1E-2 *)
Definition lit_1_0Em3 : list N := [0x31; 0x2E; 0x30; 0x45; 0x2D; 0x33].              (* 1.0E-3 *)

(** F40: with fix40 = false the normaliser maps 0.001 to 0.01E-1: in the lexical space and of the same value, but not canonical
    (the digit in front of the point is 0), and not a fixed point (0.01E-1 |-> 0.1E-2) *)
Lemma float_canon_f40_refuted :
  exists l c c', float_lex l = true /\ float_canon true false l = Some c /\ float_is_canonical c = false /\
                 float_canon true false c = Some c' /\ c' <> c.
Proof.
  exists lit_0_001, lit_0_01Em1, lit_0_1Em2.
  repeat split; try (vm_compute; reflexivity). discriminate.
Qed.

Lemma drop_zeros_snoc_nz : forall l c, (c =? ch_0) = false -> exists p, drop_zeros (l ++ [c]) = p ++ [c].
Proof.
  induction l as [|x l IH]; intros c Hc.
  - exists []. cbn [app drop_zeros]. rewrite Hc. reflexivity.
  - cbn [app drop_zeros]. destruct (x =? ch_0).
    + exact (IH c Hc).
    + exists (x :: l). reflexivity.
Qed.

Lemma strip_trail0_head : forall c r, (c =? ch_0) = false -> exists r', strip_trail0 (c :: r) = c :: r'.
Proof.
  intros c r Hc. unfold strip_trail0. cbn [rev].
  destruct (drop_zeros_snoc_nz (rev r) c Hc) as [p E]. rewrite E, rev_app_distr. cbn [rev app]. eauto.
Qed.

Lemma drop_zeros_nonnil : forall l, (0 < dval l)%Z -> drop_zeros l <> [].
Proof.
  intros l H E. destruct (drop_zeros_split l) as [zs [E1 [Hz _]]]. rewrite E, app_nil_r in E1. subst zs.
  rewrite (dval_zeros l Hz) in H. lia.
Qed.

Lemma drop_zeros_digits : forall l, all_digits l = true -> all_digits (drop_zeros l) = true.
Proof.
  induction l as [|x l IH]; intros H; [reflexivity|]. cbn [drop_zeros]. destruct (x =? ch_0); [|exact H].
  rewrite all_digits_cons in H. apply andb_prop in H. apply IH, H.
Qed.

(** for every normalised decimal with a non-zero value (= every mantissa parseDecimal accepts with sign <> 0) and every
    exponent: the digit written in front of the point is a digit other than 0 *)
Lemma fcanon_lead_nonzero : forall d e, dec_norm d -> d_digits d <> [] ->
  exists c r, fst (fcanon_parts true d e) = c :: r /\ is_digit c = true /\ (c =? ch_0) = false.
Proof.
  intros d e Nd Hn. pose proof (norm_pos d Nd Hn) as Hp. pose proof (n_digits d Nd) as Hd.
  unfold fcanon_parts. cbn [fst].
  pose proof (drop_zeros_nonnil _ Hp) as Hnn. pose proof (drop_zeros_digits _ Hd) as Hdd.
  destruct (drop_zeros (d_digits d)) as [|c r] eqn:E; [contradiction|].
  pose proof (drop_zeros_head _ _ _ E) as Hc.
  apply all_digits_cons_inv in Hdd. destruct Hdd as [Hdc _].
  destruct (d_scale d =? 0)%nat.
  - destruct (strip_trail0_head c r Hc) as [r' Er]. rewrite Er. eauto.
  - eauto.
Qed.

(** non-vacuity: 0.001 parses to a normalised non-zero decimal *)
Example fcanon_lead_nonvacuous :
  exists d, dec_parse_raw true lit_0_001 = Ok d /\ d_digits d <> [] /\ fst (fcanon_parts true d 0) = [0x31].
Proof. eexists. split; [vm_compute; reflexivity|]. split; [discriminate|vm_compute; reflexivity]. Qed.
