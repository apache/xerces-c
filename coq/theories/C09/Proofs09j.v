(** C09 lemmas, part j: XMLDateTime::compareOrder / compare on normalised, in-range values = the order of the Spec
    (3.2.7.4) on timelines. *)
From Coq Require Import ZArith QArith Lia.
From XV Require Import C09.Spec09 C09.Spec09c C09.Spec09e C09.Model09c C09.Model09e C09.Proofs09c C09.Proofs09d C09.Proofs09f C09.Proofs09i.
Local Open Scope Z_scope.

Lemma dby_mono : forall y1 y2, y1 <= y2 -> days_before_year y1 <= days_before_year y2.
Proof. intros. unfold days_before_year. lia_div. Qed.

Definition date_ok (y mo d : Z) : Prop := 1 <= y /\ 1 <= mo <= 12 /\ 1 <= d <= max_day y mo.

Lemma month_end : forall y a b d, 1 <= a < b -> d <= max_day y a ->
  days_before_month y a + d <= days_before_month y b.
Proof.
  intros y a b d H Hd. rewrite max_day_all_years in Hd.
  pose proof (dbm_succ y a ltac:(lia)). pose proof (dbm_mono y (a + 1) b ltac:(lia)). lia.
Qed.

Lemma days_of_bounds : forall y mo d, date_ok y mo d ->
  days_before_year y <= days_of y mo d < days_before_year (y + 1).
Proof.
  intros y mo d [Hy [Hm Hd]]. unfold days_of. rewrite dby_succ. pose proof (year_length y).
  pose proof (month_end y mo 13 d ltac:(lia) ltac:(lia)). pose proof (dbm_mono y 1 mo ltac:(lia)).
  change (days_before_month y 1) with 0 in *. lia.
Qed.

Lemma days_of_mono : forall y1 mo1 d1 y2 mo2 d2, date_ok y1 mo1 d1 -> date_ok y2 mo2 d2 ->
  (y1 < y2 -> days_of y1 mo1 d1 < days_of y2 mo2 d2) /\
  (y1 = y2 -> mo1 < mo2 -> days_of y1 mo1 d1 < days_of y2 mo2 d2) /\
  (y1 = y2 -> mo1 = mo2 -> d1 < d2 -> days_of y1 mo1 d1 < days_of y2 mo2 d2).
Proof.
  intros y1 mo1 d1 y2 mo2 d2 O1 O2. repeat split.
  - intros L. pose proof (days_of_bounds _ _ _ O1). pose proof (days_of_bounds _ _ _ O2).
    pose proof (dby_mono (y1 + 1) y2 ltac:(lia)). lia.
  - intros E L. subst y2. destruct O1 as [Hy [Hm1 Hd1]]. destruct O2 as [_ [Hm2 Hd2]].
    pose proof (month_end y1 mo1 mo2 d1 ltac:(lia) ltac:(lia)). unfold days_of. lia.
  - intros E1 E2 L. subst. unfold days_of. lia.
Qed.

Record in_range (n : dtn) : Prop := mkIR {
  r_date : date_ok (n_y n) (n_mo n) (n_d n);
  r_h : 0 <= n_h n <= 23; r_mi : 0 <= n_mi n <= 59; r_s : 0 <= n_s n <= 59 }.

Lemma lex_cmp_secs : forall a b, in_range a -> in_range b ->
  lex_cmp [n_y a; n_mo a; n_d a; n_h a; n_mi a; n_s a] [n_y b; n_mo b; n_d b; n_h b; n_mi b; n_s b] =
  cmp_to_Z (secs_of a ?= secs_of b).
Proof.
  intros [y1 mo1 d1 h1 mi1 s1] [y2 mo2 d2 h2 mi2 s2] [D1 H1 M1 S1] [D2 H2 M2 S2].
  cbn [n_y n_mo n_d n_h n_mi n_s] in *. unfold secs_of. cbn [n_y n_mo n_d n_h n_mi n_s lex_cmp].
  destruct (days_of_mono _ _ _ _ _ _ D1 D2) as [A1 [A2 A3]].
  destruct (days_of_mono _ _ _ _ _ _ D2 D1) as [B1 [B2 B3]].
  unfold LESS, GREATER, EQUAL.
  destruct (Z.ltb_spec y1 y2); [symmetry; apply cmpZ_lt; specialize (A1 ltac:(lia)); lia|].
  destruct (Z.ltb_spec y2 y1); [symmetry; apply cmpZ_gt; specialize (B1 ltac:(lia)); lia|].
  assert (y1 = y2) by lia. subst y2.
  destruct (Z.ltb_spec mo1 mo2); [symmetry; apply cmpZ_lt; specialize (A2 eq_refl ltac:(lia)); lia|].
  destruct (Z.ltb_spec mo2 mo1); [symmetry; apply cmpZ_gt; specialize (B2 eq_refl ltac:(lia)); lia|].
  assert (mo1 = mo2) by lia. subst mo2.
  destruct (Z.ltb_spec d1 d2); [symmetry; apply cmpZ_lt; specialize (A3 eq_refl eq_refl ltac:(lia)); lia|].
  destruct (Z.ltb_spec d2 d1); [symmetry; apply cmpZ_gt; specialize (B3 eq_refl eq_refl ltac:(lia)); lia|].
  assert (d1 = d2) by lia. subst d2.
  destruct (Z.ltb_spec h1 h2); [symmetry; apply cmpZ_lt; lia|].
  destruct (Z.ltb_spec h2 h1); [symmetry; apply cmpZ_gt; lia|].
  destruct (Z.ltb_spec mi1 mi2); [symmetry; apply cmpZ_lt; lia|].
  destruct (Z.ltb_spec mi2 mi1); [symmetry; apply cmpZ_gt; lia|].
  destruct (Z.ltb_spec s1 s2); [symmetry; apply cmpZ_lt; lia|].
  destruct (Z.ltb_spec s2 s1); [symmetry; apply cmpZ_gt; lia|].
  symmetry. apply cmpZ_eq. lia.
Qed.

From Coq Require Import Lqa.

Definition tl (n : dtn) (f : list N) : Q := (secs_of n # 1) + ms_q f.

Lemma qcmp_mixed : forall a b n1 n2 (p1 p2 : positive), 0 <= n1 < Zpos p1 -> 0 <= n2 < Zpos p2 ->
  Qcompare ((a # 1) + (n1 # p1)) ((b # 1) + (n2 # p2)) =
  if a <? b then Lt else if b <? a then Gt else Qcompare (n1 # p1) (n2 # p2).
Proof.
  intros a b n1 n2 p1 p2 H1 H2. unfold Qcompare, Qplus. cbn [Qnum Qden Pos.mul].
  destruct (Z.ltb_spec a b).
  - apply Z.compare_lt_iff. pose proof (cross_lt a b n1 n2 (Z.pos p1) (Z.pos p2)). lia.
  - destruct (Z.ltb_spec b a).
    + apply Z.compare_gt_iff. pose proof (cross_lt b a n2 n1 (Z.pos p2) (Z.pos p1)). lia.
    + assert (a = b) by lia. subst b.
      replace ((a * Z.pos p1 + n1 * 1) * Z.pos p2) with (a * (Z.pos p1 * Z.pos p2) + n1 * Z.pos p2) by ring.
      replace ((a * Z.pos p2 + n2 * 1) * Z.pos p1) with (a * (Z.pos p1 * Z.pos p2) + n2 * Z.pos p1) by ring.
      destruct (Z.compare_spec (n1 * Zpos p2) (n2 * Zpos p1)); [apply Z.compare_eq_iff|apply Z.compare_lt_iff|apply Z.compare_gt_iff]; lia.
Qed.

Lemma compare_order_spec : forall a fa b fb, in_range a -> in_range b -> all_digits fa = true -> all_digits fb = true ->
  compare_order a fa b fb = q_cmp (tl a fa) (tl b fb).
Proof.
  intros a fa b fb Ra Rb Da Db. unfold compare_order.
  rewrite (lex_cmp_secs a b Ra Rb). unfold q_cmp, tl, ms_q.
  rewrite (qcmp_mixed (secs_of a) (secs_of b) _ _ _ _ (dval_bounds fa Da) (dval_bounds fb Db)).
  destruct (Z.ltb_spec (secs_of a) (secs_of b)) as [L|L].
  - apply Z.compare_lt_iff in L. rewrite L. reflexivity.
  - destruct (Z.ltb_spec (secs_of b) (secs_of a)) as [G|G].
    + apply Z.compare_gt_iff in G. rewrite G. reflexivity.
    + assert (E : secs_of a = secs_of b) by lia. apply Z.compare_eq_iff in E. rewrite E. cbn [cmp_to_Z Z.eqb negb EQUAL].
      destruct (dval fa # pow10 (length fa) ?= dval fb # pow10 (length fb))%Q; reflexivity.
Qed.

Definition zone_of (p : dtp) : option Z := if p_zoned p then Some 0 else None.
Definition spec_fields (p : dtp) : dt_fields := fields_of (p_n p) (p_frac p) (zone_of p).

Lemma timeline_spec_fields : forall p, timeline (spec_fields p) = tl (p_n p) (p_frac p).
Proof.
  intros p. unfold timeline, spec_fields, tl, ms_q. rewrite local_seconds_secs_of. cbn [f_zone f_frac fields_of].
  unfold zone_of. destruct (p_zoned p); (replace (secs_of (p_n p) - 60 * 0) with (secs_of (p_n p)) by lia); reflexivity.
Qed.

(** what parse + validate + normalize guarantee, outside the findings F31 (hour 24) and F32 (year 0001 stepping to 0000) *)
Record dtp_ok (p : dtp) : Prop := mkOK {
  k_range : in_range (p_n p);
  k_year : p_zoned p = false -> 2 <= n_y (p_n p);
  k_frac : all_digits (p_frac p) = true }.

Definition h14 : Q := (14 * 3600) # 1.
Lemma h14_pos : (0 < h14)%Q. Proof. reflexivity. Qed.

Lemma shift14 : forall n f, in_range n -> 2 <= n_y n ->
  (in_range (normalize (-1) 14 0 n) /\ tl (normalize (-1) 14 0 n) f == tl n f - h14) /\
  (in_range (normalize 1 14 0 n) /\ tl (normalize 1 14 0 n) f == tl n f + h14).
Proof.
  intros n f [[Hy [Hmo Hd]] Hh Hmi Hs] Hy2.
  (* 50400 = 14 * 3600 seconds *)
  assert (Sc : forall negate, negate = 1 \/ negate = -1 ->
            in_range (normalize negate 14 0 n) /\ tl (normalize negate 14 0 n) f == tl n f + (negate * 50400 # 1)).
  { intros negate Hn.
    destruct (normalize_timeline negate 14 0 n Hn ltac:(lia) ltac:(lia) Hy2 Hmo Hd ltac:(lia) Hmi) as [E [M [D [H [MI [Sc Y]]]]]].
    split; [constructor; [repeat split; lia| lia | lia | lia]|].
    unfold tl. rewrite E. unfold Qeq, Qplus. cbn [Qnum Qden Pos.mul]. lia. }
  split; apply Sc; auto.
Qed.

(** getRetVal on two comparisons of which the second is the first shifted upwards, neither being an equality:
    LESS if even the upper one is less, GREATER if even the lower one is greater, else INDETERMINATE; in either order *)
Lemma ret_val_window : forall a1 b1 a2 b2 : Q, (a1 - b1 <= a2 - b2)%Q -> ~ a1 == b1 -> ~ a2 == b2 ->
  get_ret_val (q_cmp a1 b1) (q_cmp a2 b2) = (if Qlt_le_dec a2 b2 then -1 else if Qlt_le_dec b1 a1 then 1 else 2) /\
  get_ret_val (q_cmp a2 b2) (q_cmp a1 b1) = (if Qlt_le_dec a2 b2 then -1 else if Qlt_le_dec b1 a1 then 1 else 2).
Proof.
  intros a1 b1 a2 b2 H N1 N2. unfold q_cmp.
  destruct (Qlt_le_dec a2 b2) as [L2|L2]; [|destruct (Qlt_le_dec b1 a1) as [G1|G1]].
  - assert (L1 : (a1 < b1)%Q) by lra. rewrite (proj1 (Qlt_alt _ _) L1), (proj1 (Qlt_alt _ _) L2). split; reflexivity.
  - assert (G2 : (b2 < a2)%Q) by lra. rewrite (proj1 (Qgt_alt _ _) G1), (proj1 (Qgt_alt _ _) G2). split; reflexivity.
  - assert (L1 : (a1 < b1)%Q) by (destruct (Qlt_le_dec a1 b1); [assumption|exfalso; apply N1; lra]).
    assert (G2 : (b2 < a2)%Q) by (destruct (Qlt_le_dec b2 a2); [assumption|exfalso; apply N2; lra]).
    rewrite (proj1 (Qlt_alt _ _) L1), (proj1 (Qgt_alt _ _) G2). split; reflexivity.
Qed.

Lemma q_cmp_comp : forall a a' b b' : Q, a == a' -> b == b' -> q_cmp a b = q_cmp a' b'.
Proof. intros a a' b b' Ha Hb. unfold q_cmp. rewrite Ha, Hb. reflexivity. Qed.

Lemma dt_compare_spec : forall a b, dtp_ok a -> dtp_ok b ->
  (* outside finding F30: a zoned and an unzoned value exactly 14 hours apart *)
  (p_zoned a <> p_zoned b ->
     ~ timeline (spec_fields a) == timeline (spec_fields b) + h14 /\ ~ timeline (spec_fields a) == timeline (spec_fields b) - h14) ->
  dt_compare a b = dt_order_f (spec_fields a) (spec_fields b).
Proof.
  intros a b [Ra Ya Fa] [Rb Yb Fb] G. unfold dt_compare, dt_order_f.
  rewrite !timeline_spec_fields in *. unfold spec_fields. cbn [f_zone fields_of]. unfold zone_of.
  destruct (p_zoned a) eqn:Za; destruct (p_zoned b) eqn:Zb; cbn [Bool.eqb]; try (apply compare_order_spec; assumption);
    destruct (G ltac:(discriminate)) as [G1 G2]; fold h14.
  - (* a zoned, b not: a against b at +14:00 and at -14:00 *)
    destruct (shift14 (p_n b) (p_frac b) Rb (Yb eq_refl)) as [[R1 E1] [R2 E2]].
    rewrite (compare_order_spec _ _ _ _ Ra R1 Fa Fb), (compare_order_spec _ _ _ _ Ra R2 Fa Fb).
    rewrite (q_cmp_comp _ _ _ _ (Qeq_refl _) E1), (q_cmp_comp _ _ _ _ (Qeq_refl _) E2).
    set (tp := tl (p_n a) (p_frac a)) in *. set (tq := tl (p_n b) (p_frac b)) in *. clearbody tp tq.
    apply (proj2 (ret_val_window tp (tq + h14) tp (tq - h14) ltac:(pose proof h14_pos; lra) G1 G2)).
  - (* a not zoned, b zoned *)
    destruct (shift14 (p_n a) (p_frac a) Ra (Ya eq_refl)) as [[R1 E1] [R2 E2]].
    rewrite (compare_order_spec _ _ _ _ R1 Rb Fa Fb), (compare_order_spec _ _ _ _ R2 Rb Fa Fb).
    rewrite (q_cmp_comp _ _ _ _ E1 (Qeq_refl _)), (q_cmp_comp _ _ _ _ E2 (Qeq_refl _)).
    set (tp := tl (p_n a) (p_frac a)) in *. set (tq := tl (p_n b) (p_frac b)) in *. clearbody tp tq.
    pose proof h14_pos. apply (ret_val_window (tp - h14) tq (tp + h14) tq); lra.
Qed.
