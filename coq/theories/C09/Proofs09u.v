(** C09 lemmas, part u: xs:duration -- the comparison over the four reference dateTimes (3.2.6.2) as XMLDateTime::compare
    (strict) combines it: determinate iff all four comparisons agree; the findings F35, F36, F37 on the faithful model. *)
From Coq Require Import ZArith QArith Lia String Ascii.
From XV Require Import C09.Spec09 C09.Spec09e C09.Spec09h C09.Model09c C09.Model09e C09.Model09h C09.Proofs09k.
Local Open Scope Z_scope.

Lemma lex_cmp_det : forall a b, lex_cmp a b <> INDET.
Proof.
  induction a as [|x a IH]; intros [|y b]; cbn [lex_cmp]; try discriminate.
  destruct (x <? y); [discriminate|]. destruct (y <? x); [discriminate|apply IH].
Qed.

Lemma lex_cmp_equal : forall a b, length a = length b -> lex_cmp a b = EQUAL -> a = b.
Proof.
  induction a as [|x a IH]; intros [|y b] L H; try discriminate; [reflexivity|]. cbn [lex_cmp] in H.
  destruct (Z.ltb_spec x y); [discriminate|]. destruct (Z.ltb_spec y x); [discriminate|].
  f_equal; [lia|apply IH; [cbn [length] in L; lia|exact H]].
Qed.

(** the chain of compareResult calls with the early INDETERMINATE exits = "all four agree, else indeterminate" *)
Definition combine4 (r0 r1 r2 r3 : Z) : Z :=
  if r0 =? INDET then INDET else
  let ra := compare_result r0 r1 true in if ra =? INDET then INDET else
  let ra := compare_result ra r2 true in if ra =? INDET then INDET else compare_result ra r3 true.
Definition agree4 (r0 r1 r2 r3 : Z) : Z := if (r1 =? r0) && (r2 =? r0) && (r3 =? r0) then r0 else INDET.

(** with strict = true, compareResult keeps a result only while the next comparison repeats it *)
Lemma compare_result_strict : forall ra rb,
  compare_result ra rb true = if rb =? INDET then INDET else if ra =? rb then ra else INDET.
Proof. intros. unfold compare_result. destruct (rb =? INDET); [reflexivity|]. destruct (ra =? rb); reflexivity. Qed.

Lemma combine4_spec : forall a b c d, a <> INDET -> b <> INDET -> c <> INDET -> d <> INDET ->
  combine4 a b c d = agree4 a b c d.
Proof.
  intros a b c d Ha Hb Hc Hd. unfold combine4, agree4. rewrite !compare_result_strict.
  apply Z.eqb_neq in Ha, Hb, Hc, Hd. rewrite Ha, Hb.
  rewrite (Z.eqb_sym a b). destruct (Z.eqb_spec b a) as [->|]; cbn [andb]; [rewrite Ha, Hc|reflexivity].
  rewrite (Z.eqb_sym a c). destruct (Z.eqb_spec c a) as [->|]; cbn [andb]; [rewrite Ha, Hd|reflexivity].
  rewrite (Z.eqb_sym a d). destruct (Z.eqb_spec d a) as [->|]; reflexivity.
Qed.

Lemma dur_compare_spec : forall a b,
  dur_compare a b true =
  if fields_cmp (dur_normalize a) (dur_normalize b) =? EQUAL then EQUAL
  else let c i := let r := nth i ref_dates (0, 0) in fields_cmp (add_duration r a) (add_duration r b) in
       agree4 (c 0%nat) (c 1%nat) (c 2%nat) (c 3%nat).
Proof.
  intros a b. unfold dur_compare. destruct (fields_cmp (dur_normalize a) (dur_normalize b) =? EQUAL); [reflexivity|].
  cbv zeta. rewrite <- combine4_spec; [reflexivity| | | |]; apply lex_cmp_det.
Qed.

(** the Spec order has the same shape on the timeline *)
Lemma dur_order_shape : forall x y,
  dur_order_v x y =
  let c i := let r := nth i ref_dates (0, 0) in q_cmp (add_to_ref r x) (add_to_ref r y) in
  agree4 (c 0%nat) (c 1%nat) (c 2%nat) (c 3%nat).
Proof. intros. unfold dur_order_v, agree4. cbn [map ref_dates forallb nth]. rewrite Bool.andb_true_r, Bool.andb_assoc. reflexivity. Qed.

Local Open Scope string_scope.

Lemma f35_refuted : dur_ok (s2l "PY") = true /\ dur_lex (s2l "PY") = false /\ dur_ok (s2l "PT.5S") = true /\ dur_lex (s2l "PT.5S") = false /\
  dur_ok (s2l "P1YM") = true /\ dur_lex (s2l "P1YM") = false /\ dur_ok (s2l "PT0.5S") = true /\ dur_lex (s2l "PT0.5S") = true.
Proof. vm_compute. repeat split; reflexivity. Qed.
Lemma f36_refuted : durv_compare (s2l "PT0.5S") (s2l "PT0.6S") = 0 /\ dur_order (s2l "PT0.5S") (s2l "PT0.6S") = -1.
Proof. vm_compute. repeat split; reflexivity. Qed.
Lemma f37_refuted : durv_compare (s2l "-P1M") (s2l "-P30D") = 0 /\ dur_order (s2l "-P1M") (s2l "-P30D") = 2.
Proof. vm_compute. repeat split; reflexivity. Qed.
