(** C09 lemmas, part v: XMLDateTime::addDuration on the reference dateTimes lands on the instant the Spec computes
    (reference + months, then + seconds), for non-negative durations; hence compare = the 3.2.6.2 order. *)
From Coq Require Import ZArith QArith Lia.
From XV Require Import C09.Spec09 C09.Spec09c C09.Spec09e C09.Spec09h C09.Model09c C09.Model09e C09.Model09h
  C09.Proofs09c C09.Proofs09d C09.Proofs09f C09.Proofs09i C09.Proofs09j C09.Proofs09u.
Local Open Scope Z_scope.

Lemma days_of_shift : forall y mo d k, days_of y mo (d + k) = days_of y mo d + k.
Proof. intros. unfold days_of. lia. Qed.

(** the roll-over loop for a day number >= 1 *)
Lemma roll_up : forall fuel y mo d, 1 <= y -> 1 <= mo <= 12 -> 1 <= d -> (d - 1) / 28 < Z.of_nat fuel ->
  exists y' mo' d', norm_days fuel y mo d = (y', mo', d') /\ days_of y' mo' d' = days_of y mo d /\ date_ok y' mo' d'.
Proof.
  induction fuel as [|fuel IH]; intros y mo d Hy Hm Hd Hf; [lia_div|].
  pose proof (max_day_range y mo) as R.
  destruct (Z_le_gt_dec d (max_day y mo)) as [L|G].
  - exists y, mo, d. rewrite nd_ok by lia. repeat split; lia.
  - rewrite nd_high by lia.
    assert (Hn : 1 <= fst (next_month y mo) /\ 1 <= snd (next_month y mo) <= 12).
    { unfold next_month. destruct (Z.eqb_spec mo 12); cbn [fst snd]; lia. }
    destruct (IH (fst (next_month y mo)) (snd (next_month y mo)) (d - max_day y mo) ltac:(lia) ltac:(lia) ltac:(lia) ltac:(lia_div))
      as [y' [mo' [d' [E [D O]]]]].
    exists y', mo', d'. split; [exact E|]. split; [|exact O]. rewrite D.
    pose proof (days_next y mo Hm) as N.
    unfold days_of in N |- *. lia.
Qed.

Definition dur_nonneg (u : dur) : Prop :=
  u_neg u = false /\ 0 <= u_y u /\ 0 <= u_mo u /\ 0 <= u_d u /\ 0 <= u_h u /\ 0 <= u_mi u /\ 0 <= u_s u.
Definition dur_val (u : dur) : dur_value :=
  mkDV (12 * u_y u + u_mo u) ((((u_d u * 24 + u_h u) * 60 + u_mi u) * 60 + u_s u) # 1).

Definition is_ref (r : Z * Z) : Prop := 1 <= fst r /\ 1 <= snd r <= 12.

Lemma add_duration_timeline : forall r u, is_ref r -> dur_nonneg u ->
  in_range (add_duration r u) /\ add_to_ref r (dur_val u) == (secs_of (add_duration r u) # 1).
Proof.
  intros [ry rm] [ng y mo d h mi s] [Hry Hrm] [Hn [Hy [Hmo [Hd [Hh [Hmi Hs]]]]]].
  cbn [fst snd u_neg u_y u_mo u_d u_h u_mi u_s] in *. unfold add_duration, add_to_ref, dur_val.
  cbn [fst snd u_y u_mo u_d u_h u_mi u_s v_months v_seconds].
  unfold modulo3, fquot3, fquot. replace (13 - 1) with 12 by lia. rewrite !Z.add_0_l.
  cbv zeta. rewrite month_fix_floor, (trunc_fix_floor s 60), (trunc_fix_floor _ 60), (trunc_fix_floor _ 24) by lia.
  set (tm := rm + mo - 1). set (tmi := mi + s / 60). set (th := h + tmi / 60). set (dt := 1 + d + th / 24).
  assert (Hdt : 1 <= dt) by (unfold dt, th, tmi; lia_div).
  unfold roll. rewrite Z.abs_eq by lia.
  destruct (roll_up (Z.to_nat (dt / 28) + 4) (ry + y + tm / 12) (tm mod 12 + 1) dt ltac:(unfold tm; lia_div) ltac:(lia_div) Hdt ltac:(lia_div))
    as [y' [mo' [d' [E [D O]]]]].
  rewrite E. split.
  - constructor; cbn [n_y n_mo n_d n_h n_mi n_s]; [exact O|lia_div|lia_div|lia_div].
  - unfold secs_of. cbn [n_y n_mo n_d n_h n_mi n_s]. rewrite D. unfold days_of.
    assert (Ey : (ry * 12 + (rm - 1) + (12 * y + mo)) / 12 = ry + y + tm / 12) by (unfold tm; lia_div).
    assert (Em : (ry * 12 + (rm - 1) + (12 * y + mo)) mod 12 + 1 = tm mod 12 + 1) by (unfold tm; lia_div).
    rewrite Ey, Em. unfold Qeq, Qplus. cbn [Qnum Qden Pos.mul]. unfold dt, th, tmi. lia_div.
Qed.

(** the default (1, 1) makes this hold for every index; the model's own default (0, 0) is never reached below 4 *)
Lemma ref_dates_ok : forall i, is_ref (nth i ref_dates (1, 1)).
Proof. intros [|[|[|[|[|i]]]]]; unfold is_ref; cbn [nth ref_dates fst snd]; lia. Qed.

Lemma q_cmp_int : forall a b x y, x == (a # 1) -> y == (b # 1) -> q_cmp x y = cmp_to_Z (a ?= b).
Proof. intros a b x y Hx Hy. unfold q_cmp. rewrite Hx, Hy. unfold Qcompare. cbn [Qnum Qden]. rewrite !Z.mul_1_r. reflexivity. Qed.

(** one reference date: the model's field comparison = the Spec's comparison of the instants *)
Lemma ref_compare : forall r a b, is_ref r -> dur_nonneg a -> dur_nonneg b ->
  fields_cmp (add_duration r a) (add_duration r b) = q_cmp (add_to_ref r (dur_val a)) (add_to_ref r (dur_val b)).
Proof.
  intros r a b Hr Ha Hb. destruct (add_duration_timeline r a Hr Ha) as [Ra Ea]. destruct (add_duration_timeline r b Hr Hb) as [Rb Eb].
  rewrite (q_cmp_int _ _ _ _ Ea Eb). unfold fields_cmp.
  apply lex_cmp_secs; assumption.
Qed.

Lemma dur_compare_order : forall a b, dur_nonneg a -> dur_nonneg b ->
  dur_compare a b true = dur_order_v (dur_val a) (dur_val b).
Proof.
  intros a b Ha Hb. rewrite dur_compare_spec, dur_order_shape. cbv zeta beta.
  assert (R : forall i, (i < 4)%nat -> nth i ref_dates (0, 0) = nth i ref_dates (1, 1)).
  { intros [|[|[|[|i]]]] L; try reflexivity. lia. }
  assert (C : forall i, (i < 4)%nat ->
     fields_cmp (add_duration (nth i ref_dates (0, 0)) a) (add_duration (nth i ref_dates (0, 0)) b) =
     q_cmp (add_to_ref (nth i ref_dates (0, 0)) (dur_val a)) (add_to_ref (nth i ref_dates (0, 0)) (dur_val b))).
  { intros i L. rewrite (R i L). apply ref_compare; [apply ref_dates_ok|exact Ha|exact Hb]. }
  rewrite (C 0%nat), (C 1%nat), (C 2%nat), (C 3%nat) by lia.
  destruct (fields_cmp (dur_normalize a) (dur_normalize b) =? EQUAL) eqn:Sh; [|reflexivity].
  (* the EQUAL shortcut: identical fields, hence identical values *)
  destruct Ha as [Na Ha]. destruct Hb as [Nb Hb]. unfold dur_normalize in Sh. rewrite Na, Nb in Sh. cbn [negb] in Sh.
  unfold fields_cmp in Sh. cbn [n_y n_mo n_d n_h n_mi n_s] in Sh.
  apply Z.eqb_eq, lex_cmp_equal in Sh; [|reflexivity]. injection Sh as E1 E2 E3 E4 E5 E6.
  unfold dur_val. rewrite E1, E2, E3, E4, E5, E6.
  unfold agree4, q_cmp. assert (Rfl : forall x : Q, Qcompare x x = Eq) by (intros x; apply Qeq_alt; reflexivity).
  rewrite !Rfl. reflexivity.
Qed.
