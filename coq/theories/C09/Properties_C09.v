(** Property C09 -- Schema datatypes: lexical, value-space, facet and canonical-form correctness.
    This file contains the property theorems, each followed by [Print Assumptions], and a few closed examples; the
    lemmas they rest on are in Proofs09*.v.  Models: Model09*.v (following the C++); specifications: Spec09*.v.
    [fix10] is the defect switch of finding F10: [true] = with fixes/C09-decimal-lone-dot.patch, [false] = without it. *)
From Coq Require Import ZArith QArith.
From XV Require Import C09.Spec09 C09.Model09 C09.Proofs09a C09.Proofs09b C09.Proofs09c C09.Proofs09d C09.Proofs09e.
Local Open Scope N_scope.

(** (repaired code) XMLBigDecimal accepts a string iff, with leading and trailing whitespace removed, it is in the
    lexical space of xs:decimal (Part 2, 3.2.3.1) *)
Theorem T09_decimal_lex : forall s, (exists d, dec_parse true s = Ok d) <-> dec_lex (trim_ws s) = true.
Proof.
  intros s. rewrite <- (dec_ok_spec true s). unfold dec_ok. split.
  - intros [d ->]. reflexivity.
  - destruct (dec_parse true s) as [d|e]; [eauto|discriminate].
Qed.
Print Assumptions T09_decimal_lex.

(** finding F10 on the faithful model (fix10 = false): ".", "-.", "+." are accepted although they are not in the
    lexical space of xs:decimal *)
Theorem T09_decimal_lex_refuted :
  dec_ok false [ch_dot] = true /\ dec_ok false [ch_minus; ch_dot] = true /\ dec_ok false [ch_plus; ch_dot] = true /\
  dec_lex (ws_collapse [ch_dot]) = false /\ dec_lex (ws_collapse [ch_minus; ch_dot]) = false /\
  dec_lex (ws_collapse [ch_plus; ch_dot]) = false.
Proof. exact f10_refuted. Qed.
Print Assumptions T09_decimal_lex_refuted.

(** ... and that class is the whole difference: with fix10 = false the code accepts exactly the lexical space plus the
    literals "optional sign, lone '.'", none of which is in the lexical space *)
Theorem T09_decimal_f10_class : forall s,
  ((exists d, dec_parse false s = Ok d) <-> dec_lex (trim_ws s) = true \/ lone_dot (trim_ws s) = true) /\
  (lone_dot (trim_ws s) = true -> dec_lex (trim_ws s) = false).
Proof.
  intros s. split.
  - rewrite <- orb_true_iff, <- (dec_ok_spec false s). unfold dec_ok. split.
    + intros [d ->]. reflexivity.
    + destruct (dec_parse false s) as [d|e]; [eauto|discriminate].
  - unfold lone_dot, dec_lex. apply lone_dot_not_lex.
Qed.
Print Assumptions T09_decimal_f10_class.

(** the fields (fSign, fIntVal, fTotalDigits, fScale) are normalised and denote the rational value of the literal *)
Theorem T09_decimal_value : forall fix10 s d, dec_parse fix10 s = Ok d ->
  dec_norm d /\ (dec_denote d == dec_value (trim_ws s))%Q.
Proof. exact parse_norm_value. Qed.
Print Assumptions T09_decimal_value.

(** compare (XMLBigDecimal::toCompare on two parsed literals) is the order of the values *)
Theorem T09_decimal_order : forall fix10 s1 s2 a b, dec_parse fix10 s1 = Ok a -> dec_parse fix10 s2 = Ok b ->
  dec_cmp a b = dec_order (trim_ws s1) (trim_ws s2).
Proof. exact dec_compare_is_order. Qed.
Print Assumptions T09_decimal_order.

(** hence equal values compare equal whatever their lexical form ... *)
Theorem T09_decimal_order_equal : forall fix10 s1 s2 a b, dec_parse fix10 s1 = Ok a -> dec_parse fix10 s2 = Ok b ->
  (dec_cmp a b = 0%Z <-> (dec_value (trim_ws s1) == dec_value (trim_ws s2))%Q).
Proof.
  intros. rewrite (dec_compare_is_order fix10 s1 s2 a b) by assumption. unfold dec_order.
  rewrite Qeq_alt. destruct (dec_value (trim_ws s1) ?= dec_value (trim_ws s2))%Q; cbn; split; intros; try reflexivity; discriminate.
Qed.
Print Assumptions T09_decimal_order_equal.

(** ... and compare is antisymmetric, total (never indeterminate) and transitive *)
Theorem T09_decimal_order_antisym : forall a b, dec_norm a -> dec_norm b -> dec_cmp a b = (- dec_cmp b a)%Z.
Proof.
  intros a b Na Nb. rewrite !dec_cmp_correct by assumption. rewrite <- (Qcompare_antisym (dec_denote b) (dec_denote a)).
  destruct (dec_denote b ?= dec_denote a)%Q; reflexivity.
Qed.
Print Assumptions T09_decimal_order_antisym.

Theorem T09_decimal_order_total : forall a b, dec_norm a -> dec_norm b ->
  dec_cmp a b = (-1)%Z \/ dec_cmp a b = 0%Z \/ dec_cmp a b = 1%Z.
Proof.
  intros a b Na Nb. rewrite dec_cmp_correct by assumption. destruct (dec_denote a ?= dec_denote b)%Q; cbn; auto.
Qed.
Print Assumptions T09_decimal_order_total.

Theorem T09_decimal_order_trans : forall a b c, dec_norm a -> dec_norm b -> dec_norm c ->
  (dec_cmp a b <= 0)%Z -> (dec_cmp b c <= 0)%Z ->
  (dec_cmp a c <= 0)%Z /\ (dec_cmp a b = (-1)%Z \/ dec_cmp b c = (-1)%Z -> dec_cmp a c = (-1)%Z).
Proof. exact dec_compare_trans. Qed.
Print Assumptions T09_decimal_order_trans.

Example T09_nonvacuous_parse :
  dec_parse true [0x20; 0x2B; 0x30; 0x31; 0x2E; 0x35; 0x30; 0x0A] = Ok (mkDec 1 [0x31; 0x35] 2 1).   (* " +01.50\n" *)
Proof. vm_compute. reflexivity. Qed.
Example T09_nonvacuous_order :
  (exists a b, dec_parse true [0x31; 0x2E; 0x30] = Ok a /\ dec_parse true [0x2B; 0x30; 0x31] = Ok b /\ dec_cmp a b = 0%Z) /\
  (exists a b, dec_parse true [0x2D; 0x2E; 0x35] = Ok a /\ dec_parse true [0x2D; 0x30; 0x2E; 0x34; 0x39] = Ok b /\ dec_cmp a b = (-1)%Z).
Proof. split; eexists; eexists; (split; [vm_compute; reflexivity|split; [vm_compute; reflexivity|vm_compute; reflexivity]]). Qed.
Example T09_nonvacuous_errors :
  dec_parse true [0x31; 0x2E; 0x2E] = Err E_2ManyDecPoint /\ dec_parse true [0x31; 0x65; 0x35] = Err E_Inv_chars /\
  dec_parse true [0x20] = Err E_WSString /\ dec_parse true [] = Err E_emptyString /\ dec_parse true [0x2E] = Err E_Inv_chars.
Proof. vm_compute. repeat split; reflexivity. Qed.

From XV Require Import C09.Spec09b C09.Model09b C09.Spec09c C09.Model09c C09.Proofs09f.
Local Open Scope N_scope.

Theorem T09_base64_table : b64_table_ok = true.
Proof. exact b64_table_entries. Qed.
Print Assumptions T09_base64_table.

Theorem T09_hex_table : hex_table_ok = true.
Proof.
  unfold hex_table_ok. rewrite hex_table_entries. apply forallb_forall. intros c _.
  rewrite hex_isHex_spec. destruct (hex_digit c); reflexivity.
Qed.
Print Assumptions T09_hex_table.

(** finding F12 (narrowing of UTF-16 units to bytes) on the faithful model, and its absence in the repaired one *)
Theorem T09_base64_narrowing_refuted :
  b64_decode true false false [0x141; 0x41; 0x41; 0x41] = Some ([0; 0; 0], [0x41; 0x41; 0x41; 0x41]) /\
  b64_lex [0x141; 0x41; 0x41; 0x41] = false /\
  b64_decode true false false [0x41; 0x41; 0x41; 0x41; 0x100; 0x21; 0x21] = Some ([0; 0; 0], [0x41; 0x41; 0x41; 0x41]) /\
  b64_lex [0x41; 0x41; 0x41; 0x41; 0x100; 0x21; 0x21] = false /\
  b64_decode true true false [0x141; 0x41; 0x41; 0x41] = None /\
  b64_decode true true false [0x41; 0x41; 0x41; 0x41; 0x100; 0x21; 0x21] = None.
Proof. exact b64_narrowing_refuted. Qed.
Print Assumptions T09_base64_narrowing_refuted.

(** finding F26: byte 0xFF indexes one past a 255-entry base64Inverse.  The table translated from Base64.cpp has 256 entries, and
    the faithful model rejects byte 0xFF with either setting of the defect switch; a shorter table fails this obligation. *)
Theorem T09_base64_table_refuted :
  N.of_nat (length base64Inverse) = 256 /\
  b64_decode true false false [0xFF; 0x41; 0x41; 0x41] = None /\
  b64_lex [0xFF; 0x41; 0x41; 0x41] = false /\ b64_decode true false true [0xFF; 0x41; 0x41; 0x41] = None.
Proof. exact b64_table_refuted. Qed.
Print Assumptions T09_base64_table_refuted.

(** findings F11 (second = 60) and F29 ('.' without fraction digit before a time zone) on the faithful dateTime model *)
Theorem T09_datetime_second60_refuted :
  dt_ok false lit_sec60 = true /\ dt_lex lit_sec60 = false /\ dt_ok true lit_sec60 = false.
Proof. exact dt_second60_refuted. Qed.
Print Assumptions T09_datetime_second60_refuted.

Theorem T09_datetime_emptyfraction_refuted : dt_ok true lit_emptyfrac = true /\ dt_lex lit_emptyfrac = false.
Proof. exact dt_emptyfraction_refuted. Qed.
Print Assumptions T09_datetime_emptyfraction_refuted.

Theorem T09_datetime_maxday : forall y m, (0 <= y)%Z -> max_day y m = days_in_month y m.
Proof. intros y m _. apply max_day_all_years. Qed.
Print Assumptions T09_datetime_maxday.

Theorem T09_boolean_lex : forall s, bool_check s = None <-> bool_lex s = true.
Proof. intros s. unfold bool_check. destruct (bool_lex s); split; intros; try reflexivity; discriminate. Qed.
Print Assumptions T09_boolean_lex.

From XV Require Import C09.Spec09d C09.Model09d C09.Spec09e C09.Model09e C09.Proofs09h C09.Proofs09i.
Local Open Scope N_scope.

(** SchemaValidator::normalizeWhiteSpace, called once per chunk of character data (text, CDATA sections, character
    references) with its state carried in fTrailing / fSeenNonWhiteSpace, computes the whiteSpace facet of 4.3.6 on the
    WHOLE value, for every chunking *)
Theorem T09_ws_chunks : forall m chunks, nws_run m chunks = ws_apply m (concat chunks).
Proof. intros [] chunks; [reflexivity|apply nws_replace_correct|apply nws_collapse_correct]. Qed.
Print Assumptions T09_ws_chunks.

(** inheritFacet + boundsCheck over a restriction chain (abstract ordered value space, all four bound facets): if every
    step is a valid restriction of its base, the validator of the last step accepts exactly the values that satisfy the
    bounds of every step; so a derived type never accepts what its base rejects *)
Theorem T09_facet_inherit : forall (V : Type) (cmp : V -> V -> comparison) chain v,
  chain_tight V cmp (mkB None None None None) chain ->
  bounds_accept V cmp (merged_bounds V chain) v = chain_ok V cmp chain v.
Proof. exact facet_inherit. Qed.
Print Assumptions T09_facet_inherit.

Theorem T09_facet_inherit_subset : forall (V : Type) (cmp : V -> V -> comparison) chain this v,
  chain_tight V cmp (mkB None None None None) (chain ++ [this]) ->
  bounds_accept V cmp (merged_bounds V (chain ++ [this])) v = true ->
  bounds_accept V cmp (merged_bounds V chain) v = true.
Proof. exact derived_subset_of_base. Qed.
Print Assumptions T09_facet_inherit_subset.

(** XMLDateTime::normalize: for a valid dateTime (year >= 2, hour 24 allowed) and an offset up to 14:59, the local
    time is shifted by exactly the offset and month/day/hour/minute end up in range ... *)
Theorem T09_datetime_normalize_fields : forall negate tzh tzm v,
  (negate = 1 \/ negate = -1)%Z -> (0 <= tzh <= 14)%Z -> (0 <= tzm <= 59)%Z -> (2 <= n_y v)%Z -> (1 <= n_mo v <= 12)%Z ->
  (1 <= n_d v <= max_day (n_y v) (n_mo v))%Z -> (0 <= n_h v <= 24)%Z -> (0 <= n_mi v <= 59)%Z ->
  let r := normalize negate tzh tzm v in
  (secs_of r = secs_of v + negate * (tzh * 60 + tzm) * 60 /\
   1 <= n_mo r <= 12 /\ 1 <= n_d r <= max_day (n_y r) (n_mo r) /\ 0 <= n_h r <= 23 /\ 0 <= n_mi r <= 59 /\ n_s r = n_s v /\ 1 <= n_y r)%Z.
Proof. exact normalize_timeline. Qed.
Print Assumptions T09_datetime_normalize_fields.

(** ... hence the instant on the Spec's timeline is preserved: the literal's fields with its zone and the normalised
    fields read as UTC denote the same rational number of seconds *)
Theorem T09_datetime_normalize : forall negate tzh tzm v frac,
  (negate = 1 \/ negate = -1)%Z -> (0 <= tzh <= 14)%Z -> (0 <= tzm <= 59)%Z -> (2 <= n_y v)%Z -> (1 <= n_mo v <= 12)%Z ->
  (1 <= n_d v <= max_day (n_y v) (n_mo v))%Z -> (0 <= n_h v <= 24)%Z -> (0 <= n_mi v <= 59)%Z ->
  Qeq (timeline (fields_of (normalize negate tzh tzm v) frac (Some 0%Z)))
      (timeline (fields_of v frac (Some (- negate * (tzh * 60 + tzm))%Z))).
Proof.
  intros negate tzh tzm v frac Hn Hh Hm Hy Hmo Hd Hhr Hmi.
  destruct (normalize_timeline negate tzh tzm v Hn Hh Hm Hy Hmo Hd Hhr Hmi) as [E _].
  unfold timeline. rewrite !local_seconds_secs_of. cbn [f_zone f_frac fields_of]. rewrite E.
  replace (secs_of v + negate * (tzh * 60 + tzm) * 60 - 60 * 0)%Z with (secs_of v - 60 * (- negate * (tzh * 60 + tzm)))%Z by lia.
  apply Qeq_refl.
Qed.
Print Assumptions T09_datetime_normalize.

Example T09_nonvacuous_normalize :       (* 2001-11-30T23:30:00-02:00  ->  2001-12-01T01:30:00Z *)
  normalize 1 2 0 (mkN 2001 11 30 23 30 0) = mkN 2001 12 1 1 30 0 /\
  normalize 1 14 0 (mkN 2001 12 31 23 30 0) = mkN 2002 1 1 13 30 0 /\
  normalize (-1) 14 0 (mkN 2000 3 1 0 30 0) = mkN 2000 2 29 10 30 0.
Proof. vm_compute. repeat split; reflexivity. Qed.

From Coq Require Import String.
From XV Require Import C09.Proofs09j C09.Proofs09k.
Local Open Scope string_scope.
Local Open Scope N_scope.

(** compareOrder (field by field, then the fraction) on in-range values = comparison of the instants *)
Theorem T09_datetime_compare_fields : forall a fa b fb, in_range a -> in_range b ->
  all_digits fa = true -> all_digits fb = true -> compare_order a fa b fb = q_cmp (tl a fa) (tl b fb).
Proof. exact compare_order_spec. Qed.
Print Assumptions T09_datetime_compare_fields.

(** XMLDateTime::compare on two parsed (validated, normalised) values is the order relation of 3.2.7.4 on their
    timelines: EQUAL iff same instant, LESS/GREATER, and for a zoned against an unzoned value INDETERMINATE exactly
    inside the +-14 h window -- outside finding F30 (the two values are exactly 14 h apart), F31 (hour 24) and F32
    (year 0001/negative years), which [dtp_ok] and the hypothesis exclude *)
Theorem T09_datetime_order : forall a b, dtp_ok a -> dtp_ok b ->
  (p_zoned a <> p_zoned b ->
     ~ Qeq (timeline (spec_fields a)) (timeline (spec_fields b) + h14) /\
     ~ Qeq (timeline (spec_fields a)) (timeline (spec_fields b) - h14)) ->
  dt_compare a b = dt_order_f (spec_fields a) (spec_fields b).
Proof. exact dt_compare_spec. Qed.
Print Assumptions T09_datetime_order.

(** parse + validateDateTime + normalize deliver such values (years >= 2, hour not 24) *)
Theorem T09_datetime_parse_ok : forall b v p, dt_parse true b = Some v -> dt_parse_norm true b = Some p ->
  (2 <= dt_year v)%Z -> n_h (p_n p) <> 24%Z -> dtp_ok p.
Proof. exact parse_norm_ok. Qed.
Print Assumptions T09_datetime_parse_ok.

(** the excluded classes are genuine: findings F30, F31, F32 on the faithful model against the Spec *)
Theorem T09_datetime_f30_refuted :
  dtv_compare true (s2l "2000-01-01T12:00:00") (s2l "2000-01-01T12:00:00+14:00") = 0%Z /\
  dt_order (s2l "2000-01-01T12:00:00") (s2l "2000-01-01T12:00:00+14:00") = 2%Z /\
  dtv_compare true (s2l "1999-12-31T22:00:00Z") (s2l "2000-01-01T12:00:00") = 0%Z /\
  dt_order (s2l "1999-12-31T22:00:00Z") (s2l "2000-01-01T12:00:00") = 2%Z.
Proof. exact f30_refuted. Qed.
Print Assumptions T09_datetime_f30_refuted.
Theorem T09_datetime_f31_refuted :
  dtv_compare true (s2l "2000-01-01T24:00:00") (s2l "2000-01-02T00:00:00") = (-1)%Z /\
  dt_order (s2l "2000-01-01T24:00:00") (s2l "2000-01-02T00:00:00") = 0%Z /\
  dt_canon true (s2l "2000-01-01T24:00:00") = Some (s2l "2000-01-01T00:00:00") /\
  dt_canon_of (s2l "2000-01-01T24:00:00") (s2l "2000-01-01T00:00:00") = false.
Proof. exact f31_refuted. Qed.
Print Assumptions T09_datetime_f31_refuted.
Theorem T09_datetime_f32_refuted :
  dt_canon true (s2l "0001-01-01T05:00:00+14:00") = Some (s2l "0000-12-31T15:00:00Z") /\
  dt_lex (s2l "0000-12-31T15:00:00Z") = false /\ dt_canon true (s2l "0000-12-31T15:00:00Z") = None.
Proof. exact f32_refuted. Qed.
Print Assumptions T09_datetime_f32_refuted.
Example T09_nonvacuous_datetime_order :
  match dt_parse_norm true (s2l "2001-11-30T23:30:00.5-02:00"), dt_parse_norm true (s2l "2001-12-01T01:30:00.50Z") with
  | Some a, Some b => dt_compare a b = 0%Z /\ p_n a = mkN 2001 12 1 1 30 0
  | _, _ => False
  end.
Proof. vm_compute. split; reflexivity. Qed.

From XV Require Import C09.Spec09f C09.Model09f C09.Proofs09l C09.Proofs09n C09.Proofs09o.
Local Open Scope N_scope.

(** boundsCheck accepts exactly the values inside the bounds, for every combination of present/absent
    minInclusive, minExclusive, maxInclusive, maxExclusive (the record [f] ranges over all 16) *)
Theorem T09_bounds : forall f d, dec_norm d ->
  opt_norm (f_maxE f) -> opt_norm (f_maxI f) -> opt_norm (f_minI f) -> opt_norm (f_minE f) ->
  (bounds_check f d = None <-> bounds_spec f d = true).
Proof. exact bounds_check_spec. Qed.
Print Assumptions T09_bounds.

(** hexBinary: accepted iff in the lexical space, for every string of code units; the length facet counts octets;
    the canonical form is canonical, value preserving and idempotent *)
Theorem T09_hex : forall s, hex_ok s = hex_lex s.
Proof. exact hex_ok_lex. Qed.
Print Assumptions T09_hex.
Theorem T09_hex_length : forall s, hex_length s = match hex_value s with Some v => Some (length v) | None => None end.
Proof.
  intros s. unfold hex_length. rewrite hex_ok_lex. unfold hex_lex.
  destruct (hex_value s) as [v|] eqn:E; [|reflexivity]. rewrite (hex_value_length s v E). reflexivity.
Qed.
Print Assumptions T09_hex_length.
Theorem T09_hex_canon : forall s c, hex_canon s = Some c ->
  hex_is_canonical c = true /\ hex_value c = hex_value s /\ hex_canon c = Some c.
Proof.
  intros s c H. unfold hex_canon in H. rewrite hex_ok_lex in H. unfold hex_lex in H.
  destruct (hex_value s) as [v|] eqn:E; [|discriminate]. inversion H; subst c.
  destruct (hex_canon_value s v E) as [V [U I]].
  unfold hex_is_canonical, hex_canon. rewrite hex_ok_lex. unfold hex_lex. rewrite V, U, I. repeat split; reflexivity.
Qed.
Print Assumptions T09_hex_canon.

(** base64Binary (Conf_Schema, fix12 = fix12b = true): for every non-empty string, decode succeeds iff the string
    is in the lexical space of the errata grammar; the octets are the Spec's and the canonical data is the literal
    without its spaces *)
Theorem T09_base64 : forall s, s <> [] ->
  match b64_decode true true true s with
  | Some (v, q) => b64_value s = Some v /\ despace false s = Some q
  | None => b64_value s = None
  end.
Proof. exact b64_decode_spec. Qed.
Print Assumptions T09_base64.
Theorem T09_base64_lex : forall s, s <> [] ->
  ((exists v q, b64_decode true true true s = Some (v, q)) <-> b64_lex s = true).
Proof.
  intros s Hne. pose proof (b64_decode_spec s Hne) as D. unfold b64_lex. split.
  - intros [v [q E]]. rewrite E in D. destruct D as [D _]. rewrite D. reflexivity.
  - intros L. destruct (b64_decode true true true s) as [[v q]|]; [eauto|]. rewrite D in L. discriminate.
Qed.
Print Assumptions T09_base64_lex.

(** list: every item valid and the length facets count items; union: some member accepts; lists of unions *)
Theorem T09_list : forall item len_ok s,
  list_check item len_ok (ws_collapse s) = true <->
  Forall (fun t => item t = true) (tokens (ws_collapse s)) /\ len_ok (length (tokens (ws_collapse s))) = true.
Proof. exact list_check_forall. Qed.
Print Assumptions T09_list.
Theorem T09_list_items : forall l, Forall (fun t => t <> [] /\ forallb (fun c => negb (c =? ch_space)) t = true) (tokens l).
Proof. intros. apply tokens_go_items. reflexivity. Qed.
Print Assumptions T09_list_items.
Theorem T09_union : forall members s, union_check members s = true <-> exists m, In m members /\ m s = true.
Proof. exact union_check_exists. Qed.
Print Assumptions T09_union.
Theorem T09_list_of_union : forall members len_ok s,
  list_check (union_check members) len_ok (ws_collapse s) = true <->
  Forall (fun t => exists m, In m members /\ m t = true) (tokens (ws_collapse s)) /\ len_ok (length (tokens (ws_collapse s))) = true.
Proof.
  intros. rewrite list_check_forall. split; intros [F L]; split; try exact L;
    (eapply Forall_impl; [|exact F]); intros t Ht; apply union_check_exists; exact Ht.
Qed.
Print Assumptions T09_list_of_union.

From XV Require Import C09.Proofs09p.
Local Open Scope N_scope.

(** XMLAbstractDoubleFloat::init accepts a string iff, trimmed, it is in the lexical space of xs:double/xs:float
    (decimal mantissa, optional E/e + integer exponent, or INF, -INF, NaN) -- or it is '+.' / '-.' (finding F33).
    strtod's "whole string consumed" is modelled by its grammar over the filtered alphabet; values are not modelled *)
Theorem T09_float_lex : forall s, float_init s = float_lex (trim_ws s) || f33 (trim_ws s).
Proof. exact float_init_spec. Qed.
Print Assumptions T09_float_lex.
Theorem T09_float_lex_guarded : forall s, f33 (trim_ws s) = false -> float_init s = float_lex (trim_ws s).
Proof. intros s F. rewrite float_init_spec, F, Bool.orb_false_r. reflexivity. Qed.
Print Assumptions T09_float_lex_guarded.
Theorem T09_float_f33_refuted :
  float_init [ch_minus; ch_dot] = true /\ float_lex [ch_minus; ch_dot] = false /\
  float_init [ch_plus; ch_dot] = true /\ float_lex [ch_plus; ch_dot] = false /\ float_init [ch_dot] = false.
Proof. exact f33_refuted. Qed.
Print Assumptions T09_float_f33_refuted.
(** special values: compareValues agrees with the order of 3.2.4.1 whenever one operand is special, except that a
    finite left operand against NaN yields -2 instead of "incomparable" (finding F34) *)
Theorem T09_float_special : forall a b, ~ (a = K_Finite /\ b = K_NaN) -> float_cmp_special a b = special_order a b.
Proof. intros [] [] H; try reflexivity. exfalso. apply H. split; reflexivity. Qed.
Print Assumptions T09_float_special.
Theorem T09_float_f34_refuted : float_cmp_special K_Finite K_NaN = Some (-2)%Z /\ special_order K_Finite K_NaN = Some 2%Z.
Proof. exact f34_refuted. Qed.
Print Assumptions T09_float_f34_refuted.

(** XMLBigDecimal::getCanonicalRepresentation: the result is a canonical literal (3.2.3.2) of the lexical space, denotes
    the value of the input, and is its own canonical representation *)
Theorem T09_decimal_canon : forall fix10 s d, dec_parse_raw fix10 s = Ok d ->
  let c := dec_canon_of d in
  dec_is_canonical c = true /\ dec_lex c = true /\ Qeq (dec_value c) (dec_value (trim_ws s)) /\ dec_canon true c = Some c.
Proof. exact dec_canon_spec. Qed.
Print Assumptions T09_decimal_canon.

(** equal values have equal normalised fields (hence equal canonical forms) *)
Theorem T09_decimal_unique : forall a b, dec_norm a -> dec_norm b -> dec_cmp a b = 0%Z -> a = b.
Proof. exact cmp_zero_eq. Qed.
Print Assumptions T09_decimal_unique.

(** totalDigits / fractionDigits: the tests `fTotalDigits > totalDigits || fScale > totalDigits` and
    `fScale > fractionDigits` of checkContent decide the definitions of 4.3.11 / 4.3.12 (E2-44) on the value:
    expressible as i * 10^-n with |i| < 10^totalDigits and n <= totalDigits, resp. n <= fractionDigits *)
Theorem T09_decimal_digits : forall d td fd, dec_norm d ->
  (((td <? d_total d)%nat || (td <? d_scale d)%nat = false) <-> total_digits_ok (dec_denote d) td) /\
  ((fd <? d_scale d)%nat = false <-> fraction_digits_ok (dec_denote d) fd).
Proof.
  intros d td fd Nd. rewrite (total_digits_spec d td Nd), (fraction_digits_spec d fd Nd).
  rewrite Bool.orb_false_iff, !Nat.ltb_ge. tauto.
Qed.
Print Assumptions T09_decimal_digits.
Theorem T09_decimal_scale_minimal : forall d i n, dec_norm d -> Qeq (dec_denote d) (i # pow10 n) ->
  (d_scale d <= n)%nat /\ i = (d_sign d * dval (d_digits d) * P10 (n - d_scale d))%Z.
Proof. exact scale_minimal. Qed.
Print Assumptions T09_decimal_scale_minimal.

From XV Require Import C09.Proofs09s.

(** validateDateTime (seconds <= 59) accepts exactly the field ranges of 3.2.7; maxDayInMonthFor = days of the month *)
Theorem T09_datetime_valid : forall v, (0 <= dt_day v)%Z -> (0 <= dt_hour v)%Z -> (0 <= dt_min v)%Z -> (0 <= dt_sec v)%Z ->
  (0 <= dt_tzh v)%Z -> (0 <= dt_tzm v)%Z -> (dt_validate true v = true <-> fields_valid v).
Proof.
  intros v D H M S T1 T2. rewrite (validate_fields v D T1 T2).
  split; [intros [F _]; exact F|intros F; split; [exact F|repeat split; assumption]].
Qed.
Print Assumptions T09_datetime_valid.
Theorem T09_datetime_maxday_all : forall y m, max_day y m = days_in_month y m.
Proof. exact max_day_all_years. Qed.
Print Assumptions T09_datetime_maxday_all.
(** every dateTime literal the parser accepts has fields in range (soundness half of the lexical theorem) *)
Theorem T09_datetime_lex_fields_partial : forall b v, dt_parse true b = Some v -> fields_valid v.
Proof.
  intros b v H. destruct (dt_parse_inv _ _ _ H) as [V [D [T1 T2]]]. apply (validate_fields v D T1 T2) in V. apply V.
Qed.
Print Assumptions T09_datetime_lex_fields_partial.

From XV Require Import C09.Spec09g C09.Model09g C09.Proofs09t.

(** XMLDateTime::parseDate (getDate with indexOf/parseInt, parseTimeZone/getTimeZone, validateDateTime) accepts a string
    iff it is in the lexical space of xs:date:  '-'? yyyy '-' mm '-' dd zzzzzz?  with at least four year digits, no
    leading zero beyond four, year 0000 excluded, month 01-12, day valid for the month and year, zone 'Z' or
    (+|-)hh:mm up to 14:00 -- for every string whose year has at most 9 digits (the implementation keeps it in a C int) *)
Theorem T09_date_lex : forall b, (year_digits b <= 9)%nat -> date_ok true b = date_lex b.
Proof. exact date_ok_lex. Qed.
Print Assumptions T09_date_lex.
(** the time-zone part alone (shared with the other date/time types) *)
Theorem T09_timezone_lex : forall pre z,
  match date_zone (pre ++ z) (length pre) with
  | Some (h, m) => (0 <= h <= 99 /\ 0 <= m <= 99)%Z /\ tz_lex z = ((h <? 14) && (m <=? 59) || (h =? 14) && (m =? 0))%Z
  | None => tz_lex z = false
  end.
Proof. exact date_zone_spec. Qed.
Print Assumptions T09_timezone_lex.

From XV Require Import C09.Spec09h C09.Model09h C09.Proofs09u.

(** XMLDateTime::compare(d1, d2, strict) on durations: EQUAL when the (normalised) fields coincide, otherwise the
    comparisons after adding both durations to the four reference dateTimes of 3.2.6.2, determinate iff all four
    agree -- the same combination as the Spec order [dur_order_v] applies to the timeline comparisons *)
Theorem T09_duration_combine : forall a b,
  dur_compare a b true =
  if (fields_cmp (dur_normalize a) (dur_normalize b) =? EQUAL)%Z then EQUAL
  else let c i := let r := nth i ref_dates (0, 0)%Z in fields_cmp (add_duration r a) (add_duration r b) in
       agree4 (c 0%nat) (c 1%nat) (c 2%nat) (c 3%nat).
Proof. exact dur_compare_spec. Qed.
Print Assumptions T09_duration_combine.
Theorem T09_duration_order_shape : forall x y,
  dur_order_v x y =
  let c i := let r := nth i ref_dates (0, 0)%Z in q_cmp (add_to_ref r x) (add_to_ref r y) in
  agree4 (c 0%nat) (c 1%nat) (c 2%nat) (c 3%nat).
Proof. exact dur_order_shape. Qed.
Print Assumptions T09_duration_order_shape.
(** the indeterminate windows on model and Spec (P2M vs P59D..P62D incomparable, P63D greater, P1Y = P12M, ...) *)
Theorem T09_duration_windows :
  durv_compare (s2l "P2M") (s2l "P62D") = (-1)%Z /\ durv_compare (s2l "P62D") (s2l "P2M") = (-1)%Z /\ dur_order (s2l "P2M") (s2l "P62D") = 2%Z /\
  durv_compare (s2l "P2M") (s2l "P63D") = (-1)%Z /\ durv_compare (s2l "P63D") (s2l "P2M") = 1%Z /\ dur_order (s2l "P2M") (s2l "P63D") = (-1)%Z /\
  dur_order (s2l "P2M") (s2l "P59D") = 2%Z /\ dur_order (s2l "P2M") (s2l "P58D") = 1%Z /\
  dur_order (s2l "P1Y") (s2l "P12M") = 0%Z /\ durv_compare (s2l "P1Y") (s2l "P12M") = 0%Z /\
  dur_order (s2l "P1D") (s2l "PT24H") = 0%Z /\ dur_order (s2l "P1Y") (s2l "P365D") = 2%Z /\ dur_order (s2l "P1Y") (s2l "P367D") = (-1)%Z.
Proof. vm_compute. repeat split; reflexivity. Qed.
Print Assumptions T09_duration_windows.
Theorem T09_duration_f35_refuted :
  dur_ok (s2l "PY") = true /\ dur_lex (s2l "PY") = false /\ dur_ok (s2l "PT.5S") = true /\ dur_lex (s2l "PT.5S") = false /\
  dur_ok (s2l "P1YM") = true /\ dur_lex (s2l "P1YM") = false /\ dur_ok (s2l "PT0.5S") = true /\ dur_lex (s2l "PT0.5S") = true.
Proof. exact f35_refuted. Qed.
Print Assumptions T09_duration_f35_refuted.
Theorem T09_duration_f36_refuted : durv_compare (s2l "PT0.5S") (s2l "PT0.6S") = 0%Z /\ dur_order (s2l "PT0.5S") (s2l "PT0.6S") = (-1)%Z.
Proof. exact f36_refuted. Qed.
Print Assumptions T09_duration_f36_refuted.
Theorem T09_duration_f37_refuted : durv_compare (s2l "-P1M") (s2l "-P30D") = 0%Z /\ dur_order (s2l "-P1M") (s2l "-P30D") = 2%Z.
Proof. exact f37_refuted. Qed.
Print Assumptions T09_duration_f37_refuted.

From XV Require Import C09.Proofs09v.
(** addDuration on a reference dateTime lands on the instant the Spec computes (reference + months, then + seconds) and
    leaves a valid, in-range dateTime *)
Theorem T09_duration_add : forall r u, is_ref r -> dur_nonneg u ->
  in_range (add_duration r u) /\ Qeq (add_to_ref r (dur_val u)) (secs_of (add_duration r u) # 1).
Proof. exact add_duration_timeline. Qed.
Print Assumptions T09_duration_add.
(** XMLDateTime::compare(d1, d2, strict) on durations with non-negative integral fields IS the partial order of 3.2.6.2 on
    the values (months, seconds): determinate iff the four reference comparisons agree.  Negative durations (F37) and
    fractional seconds (F36) are excluded by [dur_nonneg] / [dur_val] *)
Theorem T09_duration_order : forall a b, dur_nonneg a -> dur_nonneg b ->
  dur_compare a b true = dur_order_v (dur_val a) (dur_val b).
Proof. exact dur_compare_order. Qed.
Print Assumptions T09_duration_order.

From XV Require Import C09.Spec09i C09.Model09i C09.Spec09j C09.Model09j C09.Proofs09w C09.Proofs09x.
Local Open Scope N_scope.

(** enumeration on a list type (ListDatatypeValidator::checkContent + valueSpaceCheck): a value is accepted iff some
    enumeration member has the same number of items and is item-wise equal in the item type's value space -- in
    particular no proper prefix, proper extension or permutation of a member passes unless it is itself a member *)
Theorem T09_list_enum : forall (item_cmp : list N -> list N -> Z) (item_eq : list N -> list N -> bool),
  (forall x y, (item_cmp x y =? 0)%Z = item_eq x y) -> forall content enums,
  Forall (fun t => item_eq t t = true) (tokens content) ->
  list_enum_check item_cmp content enums = list_enum_valid item_eq (map tokens enums) (tokens content).
Proof. exact list_enum_check_spec. Qed.
Print Assumptions T09_list_enum.
Theorem T09_list_enum_length : forall (item_eq : list N -> list N -> bool) a b, items_eq item_eq a b = true -> length a = length b.
Proof. exact items_eq_length. Qed.
Print Assumptions T09_list_enum_length.
(** finding F38: union equality through ANY member type (1 = true for int|boolean) against the Spec's union equality *)
Theorem T09_union_eq_refuted :
  union_compare [mv_int; mv_bool] [0x31] C09.Spec09b.s_true = 0%Z /\ union_eq [sm_int; sm_bool] [0x31] C09.Spec09b.s_true = false /\
  union_enum_check [mv_int; mv_bool] C09.Spec09b.s_true [[0x31]] = true.
Proof. exact union_eq_refuted. Qed.
Print Assumptions T09_union_eq_refuted.

(** getDateCanonicalRepresentation: from the normalised (UTC) fields of a date (year >= 2) it computes a valid calendar
    date and a recoverable zone between -11:59 and +12:00 that denote the SAME starting instant (value preservation,
    including the day / month / year roll-over when the UTC time is 12:00 or later) *)
Theorem T09_date_canon : forall n, in_range n -> (2 <= n_y n)%Z -> n_s n = 0%Z ->
  let '((y, mo, d), z) := date_canon_fields n in
  (date_start_secs y mo d z = secs_of n /\ -719 <= z <= 720 /\ Proofs09j.date_ok y mo d)%Z.
Proof. exact date_canon_fields_spec. Qed.
Print Assumptions T09_date_canon.

(** with fixes/C09-double-compare-nan.patch the comparison of special values is the order of 3.2.4.1 without exception;
    with fixes/C09-double-sign-dot.patch the witnesses of F33 are rejected and ordinary zeros still accepted *)
Theorem T09_float_special_fixed : forall a b, float_cmp_special_f true a b = special_order a b.
Proof. intros [] []; reflexivity. Qed.
Print Assumptions T09_float_special_fixed.
Theorem T09_float_f33_fixed :
  float_init_f true [ch_minus; ch_dot] = false /\ float_init_f true [ch_plus; ch_dot] = false /\
  float_init_f true [ch_minus; ch_dot; ch_0] = true /\ float_init_f true [ch_plus; ch_0; ch_dot] = true /\ float_init_f true [ch_0] = true.
Proof. vm_compute. repeat split; reflexivity. Qed.
Print Assumptions T09_float_f33_fixed.

From XV Require Import C09.Spec09k C09.Model09k C09.Proofs09y.
(** XMLAbstractDoubleFloat::getCanonicalRepresentation (Model09k) against 3.2.4.2 (Spec09k), on the decimal-scientific model
    (mantissa * 10^exponent as a rational).  Finding F40 (fix40 = false): 0.001 |-> 0.01E-1, which is not canonical (the digit in front of the
    point is 0) and is not a fixed point (0.01E-1 |-> 0.1E-2) *)
Theorem T09_float_canon_f40_refuted :
  exists l c c', float_lex l = true /\ float_canon true false l = Some c /\ float_is_canonical c = false /\
                 float_canon true false c = Some c' /\ c' <> c.
Proof. exact float_canon_f40_refuted. Qed.
Print Assumptions T09_float_canon_f40_refuted.
(** the repaired code (fixes/C09-double-canonical-leading-zeros.patch) on the witnesses: 1.0E-3, canonical, of the same
    value, and a fixed point *)
Theorem T09_float_canon_f40_fixed_witness :
  float_canon true true lit_0_001 = Some lit_1_0Em3 /\ float_canon_of lit_0_001 lit_1_0Em3 = true /\
  float_canon true true lit_0_01Em1 = Some lit_1_0Em3 /\ float_canon true true lit_1_0Em3 = Some lit_1_0Em3.
Proof. repeat split; vm_compute; reflexivity. Qed.
Print Assumptions T09_float_canon_f40_fixed_witness.
(** PARTIAL (the invariant behind F40, for all inputs): for every normalised non-zero decimal (= every mantissa that
    parseDecimal accepts with sign <> 0) and every exponent, the repaired normaliser writes a digit other than 0 in front
    of the point.  Missing for the full canonical-form theorem: value preservation and the shape of the assembled text
    (exponent via binToText, trailing zeros) -- both are left to the correspondence check (Spec float_canon_of). *)
Theorem T09_float_canon_lead_nonzero_partial : forall d e, dec_norm d -> d_digits d <> [] ->
  exists c r, fst (fcanon_parts true d e) = c :: r /\ is_digit c = true /\ (c =? ch_0) = false.
Proof. exact fcanon_lead_nonzero. Qed.
Print Assumptions T09_float_canon_lead_nonzero_partial.
Example T09_float_canon_lead_nonvacuous :
  exists d, dec_parse_raw true lit_0_001 = Ok d /\ d_digits d <> [] /\ fst (fcanon_parts true d 0%Z) = [0x31%N].
Proof. exact fcanon_lead_nonvacuous. Qed.
