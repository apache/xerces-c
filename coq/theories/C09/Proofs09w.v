(** C09 lemmas, part w: the enumeration facet of a list type (ListDatatypeValidator::checkContent / valueSpaceCheck)
    accepts exactly the lists that are, item by item and with the same length, equal to an enumeration member in the
    item type's value space; finding F38 (union equality through any member type) on a witness. *)
From Coq Require Import ZArith Lia.
From XV Require Import C09.Spec09 C09.Spec09b C09.Spec09d C09.Spec09f C09.Spec09i C09.Model09 C09.Model09b C09.Model09f C09.Model09i C09.Proofs09p.
Local Open Scope N_scope.

Section ListEnum.
  Variable item_cmp : list N -> list N -> Z.
  Variable item_eq : list N -> list N -> bool.
  Hypothesis cmp_eq : forall x y, (item_cmp x y =? 0)%Z = item_eq x y.

  Lemma value_space_check_spec : forall ts e, value_space_check item_cmp ts e = items_eq item_eq ts e.
  Proof.
    unfold value_space_check. induction ts as [|x ts IH]; intros [|y e]; cbn [length Nat.eqb negb pairwise0 items_eq]; try reflexivity.
    specialize (IH e). destruct (length ts =? length e)%nat eqn:L; cbn [negb] in *.
    - rewrite cmp_eq, IH. reflexivity.
    - rewrite <- IH. rewrite Bool.andb_false_r. reflexivity.
  Qed.

  Lemma items_eq_refl : forall ts, Forall (fun t => item_eq t t = true) ts -> items_eq item_eq ts ts = true.
  Proof. induction 1; cbn [items_eq]; [reflexivity|]. rewrite H, IHForall. reflexivity. Qed.

  Lemma list_enum_check_spec : forall content enums,
    Forall (fun t => item_eq t t = true) (tokens content) ->
    list_enum_check item_cmp content enums = list_enum_valid item_eq (map tokens enums) (tokens content).
  Proof.
    intros content enums R. unfold list_enum_check, list_enum_valid. induction enums as [|e r IH]; [reflexivity|].
    cbn [existsb map]. rewrite IH, value_space_check_spec. f_equal.
    destruct (leqb e content) eqn:E; [|reflexivity]. apply leqb_eq in E. subst e. cbn [orb]. symmetry. apply items_eq_refl. exact R.
  Qed.

  (** in particular a proper prefix or a proper extension of a member is never accepted through it *)
  Lemma items_eq_length : forall a b, items_eq item_eq a b = true -> length a = length b.
  Proof. induction a as [|x a IH]; intros [|y b] H; cbn [items_eq] in H; try discriminate; [reflexivity|].
    apply andb_prop in H. destruct H as [_ H]. cbn [length]. f_equal. apply IH. exact H. Qed.
End ListEnum.

(** finding F38 on the model: union equality through any member type vs the Spec's union equality *)
Definition mv_int : mval := mkMval (fun s => integer_lex s) (fun a b => if integer_lex a && integer_lex b then Some (integer_value a - integer_value b)%Z else None).
Definition mv_bool : mval := mkMval bool_lex (fun a b => Some (C09.Model09b.bool_cmp a b)).
Definition sm_int : member := mkMember integer_lex (fun a b => (integer_value a =? integer_value b)%Z).
Definition sm_bool : member := mkMember bool_lex (fun a b => match bool_value a, bool_value b with Some x, Some y => Bool.eqb x y | _, _ => false end).
Lemma union_eq_refuted :
  union_compare [mv_int; mv_bool] [0x31] C09.Spec09b.s_true = 0%Z /\ union_eq [sm_int; sm_bool] [0x31] C09.Spec09b.s_true = false /\
  union_enum_check [mv_int; mv_bool] C09.Spec09b.s_true [[0x31]] = true.
Proof. vm_compute. repeat split; reflexivity. Qed.
