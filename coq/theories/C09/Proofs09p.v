(** C09 lemmas, part p: XMLAbstractDoubleFloat::init (with strtod's "whole string consumed" modelled by its grammar)
    accepts exactly the lexical space of xs:double / xs:float plus the two literals '+.' and '-.' (finding F33). *)
From Coq Require Import NArith Lia.
From XV Require Import C09.Spec09 C09.Spec09d C09.Spec09f C09.Model09 C09.Model09f C09.Proofs09a C09.Proofs09b C09.Proofs09c.
Local Open Scope N_scope.

Lemma leqb_eq : forall a b, leqb a b = true -> a = b.
Proof.
  induction a as [|x a IH]; intros [|y b] H; try discriminate; [reflexivity|].
  cbn [leqb] in H. apply andb_prop in H. destruct H as [H1 H2]. apply N.eqb_eq in H1. subst. f_equal. apply IH. exact H2.
Qed.

Definition f33 (t : list N) : bool := leqb t [ch_plus; ch_dot] || leqb t [ch_minus; ch_dot].

(** strings accepted by the scan loop of normalizeZero have the shape of an unsigned decimal, and contain no
    exponent character *)
Lemma nz_scan_facts : forall z d, nz_scan d z = true ->
  (if d then all_digits z = true else udec_shape z = true) /\
  forallb (fun c => negb (is_e c)) z = true.
Proof.
  induction z as [|c r IH]; intros d H; [destruct d; split; reflexivity|].
  cbn [nz_scan] in H. destruct (N.eqb_spec c ch_dot) as [Ed|Ed]; cbn [negb andb] in H.
  - subst c. destruct d; [discriminate|]. destruct (IH true H) as [A B]. split.
    + unfold udec_shape. cbn [split_dot]. cbn [N.eqb ch_dot Pos.eqb]. cbn [all_digits forallb andb]. exact A.
    + cbn [forallb]. rewrite B. reflexivity.
  - destruct (N.eqb_spec c ch_0) as [E0|E0]; cbn [negb] in H; [|discriminate]. subst c.
    destruct (IH d H) as [A B]. split.
    + destruct d.
      * rewrite all_digits_cons, A. reflexivity.
      * change (ch_0 :: r) with ([ch_0] ++ r). rewrite udec_shape_zeros by reflexivity. exact A.
    + cbn [forallb]. rewrite B. reflexivity.
Qed.

Lemma split_exp_none : forall t, forallb (fun c => negb (is_e c)) t = true -> split_exp t = (t, None).
Proof.
  induction t as [|c r IH]; intros H; [reflexivity|]. cbn [forallb] in H. apply andb_prop in H. destruct H as [H1 H2].
  cbn [split_exp]. apply Bool.negb_true_iff in H1. rewrite H1, (IH H2). reflexivity.
Qed.

Lemma num_lex_no_e : forall t, forallb (fun c => negb (is_e c)) t = true -> float_num_lex t = dec_lex t.
Proof. intros t H. unfold float_num_lex. rewrite (split_exp_none t H). reflexivity. Qed.

(** the rewritten-to-zero strings: in the lexical space unless the part after the sign is a lone '.' *)
Lemma zero_shape_lex : forall z, z <> [] -> nz_scan false z = true -> udec_lex z = negb (lone_dot_u z).
Proof.
  intros z Hne H. destruct (nz_scan_facts z false H) as [Sh _].
  rewrite (shape_lex z Hne) in Sh. destruct (lone_dot_u z) eqn:L.
  - rewrite (lone_dot_not_lex z L). reflexivity.
  - rewrite Bool.orb_false_r in Sh. exact Sh.
Qed.

(** characters of the lexical space pass the filter in front of strtod *)
Lemma digits_ok : forall l, all_digits l = true -> forallb float_char_ok l = true.
Proof.
  induction l as [|c r IH]; intros H; [reflexivity|]. apply all_digits_cons_inv in H. destruct H as [H1 H2].
  cbn [forallb]. unfold float_char_ok at 1. rewrite H1. cbn [orb]. exact (IH H2).
Qed.
Lemma udec_chars : forall u, udec_lex u = true -> forallb float_char_ok u = true.
Proof.
  intros u H. rewrite udec_lex_shape in H. apply andb_prop in H. destruct H as [Sh _]. unfold udec_shape in Sh.
  destruct (split_dot u) as [ip [fp|]] eqn:E; apply split_dot_inv in E; subst u.
  - apply andb_prop in Sh. destruct Sh as [S1 S2]. rewrite forallb_app, (digits_ok ip S1). cbn [forallb].
    rewrite (digits_ok fp S2). unfold float_char_ok. cbn. reflexivity.
  - rewrite app_nil_r. exact (digits_ok ip Sh).
Qed.
Lemma signed_forall : forall (ok : N -> bool) l, ok ch_minus = true -> ok ch_plus = true ->
  forallb ok (snd (strip_sign l)) = true -> forallb ok l = true.
Proof.
  intros ok l Hm Hp H. unfold strip_sign in H. destruct l as [|c r]; [reflexivity|].
  destruct (N.eqb_spec c ch_minus) as [E|E]; [subst; cbn [snd] in H; cbn [forallb]; rewrite Hm, H; reflexivity|].
  destruct (N.eqb_spec c ch_plus) as [E'|E']; [subst; cbn [snd] in H; cbn [forallb]; rewrite Hp, H; reflexivity|].
  exact H.
Qed.

Lemma dec_chars : forall m, dec_lex m = true -> forallb float_char_ok m = true.
Proof. intros m H. apply signed_forall; [reflexivity|reflexivity|]. apply udec_chars. exact H. Qed.
Lemma int_chars : forall e, integer_lex e = true -> forallb float_char_ok e = true.
Proof.
  intros e H. unfold integer_lex in H. apply andb_prop in H. destruct H as [H _].
  apply signed_forall; [reflexivity|reflexivity|]. apply digits_ok. exact H.
Qed.
Lemma split_exp_inv : forall l m o, split_exp l = (m, o) ->
  l = m ++ match o with Some e => (match skipn (length m) l with c :: _ => c | [] => 0 end) :: e | None => [] end /\
  match o with Some _ => is_e (match skipn (length m) l with c :: _ => c | [] => 0 end) = true | None => True end.
Proof.
  induction l as [|c r IH]; intros m o H; cbn [split_exp] in H.
  - inversion H. split; reflexivity.
  - destruct (is_e c) eqn:E.
    + inversion H; subst. cbn [length skipn app]. split; [reflexivity|exact E].
    + destruct (split_exp r) as [a b] eqn:Sp. destruct (IH a b eq_refl) as [I1 I2]. inversion H; subst.
      cbn [length skipn app]. split; [f_equal; exact I1|exact I2].
Qed.
Lemma num_lex_chars : forall t, float_num_lex t = true -> forallb float_char_ok t = true.
Proof.
  intros t H. unfold float_num_lex in H. destruct (split_exp t) as [m [e|]] eqn:S; destruct (split_exp_inv t _ _ S) as [I1 I2].
  - apply andb_prop in H. destruct H as [H1 H2]. rewrite I1, forallb_app, (dec_chars m H1). cbn [forallb].
    rewrite (int_chars e H2). unfold float_char_ok at 1. rewrite I2. rewrite !Bool.orb_true_r. reflexivity.
  - rewrite app_nil_r in I1. rewrite I1. exact (dec_chars m H).
Qed.

Lemma f33_scan : forall t, f33 t = true -> exists sg, t = [sg; ch_dot] /\ (sg = ch_plus \/ sg = ch_minus).
Proof.
  intros t H. unfold f33 in H. apply Bool.orb_true_iff in H. destruct H as [H|H]; apply leqb_eq in H; subst; eauto.
Qed.

(** what init does with the string normalizeZero hands it *)
Definition accepts (u : list N) : bool :=
  if leqb u s_NINF || leqb u s_INF || leqb u s_NaN then true else forallb float_char_ok u && float_num_lex u.

Lemma accepts_lex : forall t, accepts t = float_lex t.
Proof.
  intros t. unfold accepts, float_lex.
  destruct (leqb t s_NINF); destruct (leqb t s_INF); destruct (leqb t s_NaN); cbn [orb]; try reflexivity.
  destruct (float_num_lex t) eqn:N; [rewrite (num_lex_chars t N)|rewrite Bool.andb_false_r]; reflexivity.
Qed.

(** normalizeZero on anything but "0", "-0", a lone sign and a lone '.': the part after the sign is scanned and, if it
    consists of '0's and at most one '.', the string is replaced by a zero of that sign *)
Lemma normalize_zero_scan : forall c r, let t := c :: r in
  leqb t s_nzero || leqb t s_zero = false -> t <> [ch_dot] -> snd (strip_sign t) <> [] ->
  normalize_zero t =
  Some (if nz_scan false (snd (strip_sign t)) then (if fst (strip_sign t) then s_nzero else s_zero) else t).
Proof.
  intros c r t Hz Hd Hu. unfold normalize_zero. fold t. unfold t at 1. fold t. rewrite Hz. unfold strip_sign, t in *.
  destruct (c =? ch_minus); [|destruct (c =? ch_plus)]; cbn [fst snd] in *.
  - destruct r as [|x r]; [contradiction|]. destruct (nz_scan false (x :: r)); reflexivity.
  - destruct r as [|x r]; [contradiction|]. destruct (nz_scan false (x :: r)); reflexivity.
  - destruct (N.eqb_spec c ch_dot) as [E|E]; [|destruct (nz_scan false (c :: r)); reflexivity].
    subst c. destruct r as [|x r]; [contradiction|]. change (nz_scan false (ch_dot :: x :: r)) with (nz_scan true (x :: r)).
    destruct (nz_scan true (x :: r)); reflexivity.
Qed.

(** a sign followed by a lone '.' is one of the two literals of F33 *)
Lemma signed_lone_dot : forall t, snd (strip_sign t) = [ch_dot] -> t <> [ch_dot] -> f33 t = true.
Proof.
  intros [|c r] H Hn; [discriminate|]. unfold strip_sign in H.
  destruct (N.eqb_spec c ch_minus); [|destruct (N.eqb_spec c ch_plus)]; cbn [snd] in H; subst; try reflexivity. contradiction.
Qed.

Lemma init_body : forall c r,
  match normalize_zero (c :: r) with None => false | Some u => accepts u end = float_lex (c :: r) || f33 (c :: r).
Proof.
  intros c r. set (t := c :: r).
  destruct (leqb t s_nzero || leqb t s_zero) eqn:Z0.
  { apply Bool.orb_true_iff in Z0. destruct Z0 as [Z0|Z0]; apply leqb_eq in Z0; rewrite Z0; reflexivity. }
  destruct (list_eq_dec N.eq_dec t [ch_dot]) as [Ed|Ed]; [rewrite Ed; reflexivity|].
  destruct (snd (strip_sign t)) as [|x u'] eqn:Eu.
  { (* a lone sign *)
    unfold t, strip_sign in Eu. destruct (N.eqb_spec c ch_minus); [|destruct (N.eqb_spec c ch_plus)];
      cbn [snd] in Eu; try discriminate; subst; reflexivity. }
  unfold t. rewrite normalize_zero_scan by (fold t; try rewrite Eu; try assumption; discriminate). fold t. rewrite Eu.
  destruct (nz_scan false (x :: u')) eqn:Sc.
  - (* rewritten to a zero, which init accepts; the string itself is a decimal unless the scanned part is a lone '.' *)
    replace (accepts _) with true by (destruct (fst (strip_sign t)); reflexivity). symmetry.
    destruct (nz_scan_facts _ _ Sc) as [_ NoE]. rewrite <- Eu in NoE.
    apply signed_forall in NoE; [|reflexivity|reflexivity].
    unfold float_lex. rewrite (num_lex_no_e t NoE). unfold dec_lex. rewrite Eu, (zero_shape_lex (x :: u') ltac:(discriminate) Sc).
    destruct (lone_dot_u (x :: u')) eqn:L; [|rewrite !Bool.orb_true_r; reflexivity].
    destruct u'; [|destruct x; discriminate]. apply N.eqb_eq in L. subst x.
    rewrite (signed_lone_dot t Eu Ed). apply Bool.orb_true_r.
  - (* left alone *)
    rewrite accepts_lex. destruct (f33 t) eqn:F; [|rewrite Bool.orb_false_r; reflexivity]. exfalso.
    destruct (f33_scan t F) as [sg [E [Es|Es]]]; rewrite E, Es in Eu; inversion Eu; subst; discriminate.
Qed.

Lemma float_init_spec : forall s, float_init s = float_lex (trim_ws s) || f33 (trim_ws s).
Proof.
  intros s. unfold float_init. destruct s as [|c0 s0]; [reflexivity|].
  destruct (trim_ws (c0 :: s0)) as [|c r]; [reflexivity|]. apply init_body.
Qed.

Lemma f33_not_lex : forall t, f33 t = true -> float_lex t = false.
Proof. intros t F. destruct (f33_scan t F) as [sg [E [Sc|Sc]]]; subst; vm_compute; reflexivity. Qed.

Lemma f33_refuted :
  float_init [ch_minus; ch_dot] = true /\ float_lex [ch_minus; ch_dot] = false /\
  float_init [ch_plus; ch_dot] = true /\ float_lex [ch_plus; ch_dot] = false /\ float_init [ch_dot] = false.
Proof. vm_compute. repeat split; reflexivity. Qed.

Lemma f34_refuted : float_cmp_special K_Finite K_NaN = Some (-2)%Z /\ special_order K_Finite K_NaN = Some 2%Z.
Proof. split; reflexivity. Qed.

