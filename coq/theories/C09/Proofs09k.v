(** C09 lemmas, part k: what dt_parse / dt_parse_norm deliver (fields validated and in range), so that
    T09_datetime_order applies to parsed literals; the findings F30, F31, F32 on the faithful model. *)
From Coq Require Import ZArith QArith Lia ZifyBool.
From XV Require Import C09.Spec09 C09.Spec09c C09.Spec09e C09.Model09c C09.Model09e C09.Proofs09c C09.Proofs09d C09.Proofs09f C09.Proofs09i C09.Proofs09j C09.Proofs09s.
Local Open Scope Z_scope.

Lemma parse_uint_bound : forall k b s acc v j, parse_uint b s k acc = Some v ->
  0 <= acc < P10 j -> (j + k <= 9)%nat -> 0 <= v < P10 (j + k).
Proof.
  induction k as [|k IH]; intros b s acc v j H A J; cbn [parse_uint] in H.
  - inversion H; subst. replace (j + 0)%nat with j by lia. exact A.
  - destruct (is_digit (at_ b s)) eqn:D; cbn [negb] in H; [|discriminate].
    pose proof (digit_val_range _ D) as R.
    assert (B : 0 <= acc * 10 + digit_val (at_ b s) < P10 (S j)) by (rewrite P10_S; lia).
    assert (M : P10 (S j) <= P10 9) by (apply P10_le; lia).
    assert (P9 : P10 9 = 1000000000) by reflexivity.
    rewrite Z.mod_small in H by lia.
    replace (j + S k)%nat with (S j + k)%nat by lia. apply (IH b (S s) _ v (S j) H B). lia.
Qed.

Lemma parse_int_small : forall b s e v, parse_int b s e = Some v -> (e - s <= 9)%nat -> 0 <= v < P10 (e - s).
Proof.
  intros b s e v H L. unfold parse_int in H. destruct (parse_uint b s (e - s) 0) as [u|] eqn:E; [|discriminate].
  pose proof (parse_uint_bound _ _ _ _ _ 0%nat E ltac:(rewrite P10_0; lia) ltac:(lia)) as B. cbn [Nat.add] in B.
  assert (M : P10 (e - s) <= P10 9) by (apply P10_le; lia). assert (P9 : P10 9 = 1000000000) by reflexivity.
  inversion H; subst. unfold to_int32. destruct (Z.ltb_spec u 2147483648); lia.
Qed.

Lemma parse_int_nonneg : forall b s e v, parse_int b s e = Some v -> (e - s <= 9)%nat -> 0 <= v.
Proof. intros b s e v H L. apply (parse_int_small b s e v H L). Qed.

(** parseDateTime builds its result only in its local [finish], which hands it out only if validateDateTime accepts it;
    so on every path that returns a value the value is validated.  The day and the zone fields are read by parseInt
    from two characters (or are 0), so they are not negative -- the other fields get their lower bounds from
    validateDateTime itself.  The script walks all paths of the option-valued code and discards those that return nothing. *)
Lemma dt_parse_inv : forall fx b v, dt_parse fx b = Some v ->
  dt_validate fx v = true /\ 0 <= dt_day v /\ 0 <= dt_tzh v /\ 0 <= dt_tzm v.
Proof.
  intros fx b v H. unfold dt_parse, bind in H.
  repeat match type of H with
  | context [match ?x with _ => _ end] => destruct x eqn:?; try discriminate
  | context [if ?x then _ else _] => destruct x eqn:?; try discriminate
  end; inversion H; subst; cbn [dt_day dt_tzh dt_tzm]; (split; [assumption|]).
  all: repeat split; try (clear; lia);
    match goal with E : parse_int _ _ _ = Some ?z |- 0 <= ?z => apply (parse_int_nonneg _ _ _ _ E) end;
    try (clear; lia).
  (* left: the zone's minutes, read from four past the sign up to the end of the buffer, which is six past the sign *)
  all: match goal with Z : negb (_ =? length _)%nat || _ = false |- _ => clear - Z end; lia.
Qed.

Lemma frac_digits_all : forall b fs, all_digits (frac_digits b fs) = true.
Proof. intros. unfold frac_digits. destruct (at_ b fs =? ch_dot)%N; [apply span_digits_spec|reflexivity]. Qed.

(** parse + validate + normalize give a normalised in-range value, outside F31 (hour 24 kept) and F32 / negative
    years (stated for years >= 2) *)
Lemma parse_norm_ok : forall b v p, dt_parse true b = Some v -> dt_parse_norm true b = Some p ->
  2 <= dt_year v -> n_h (p_n p) <> 24 -> dtp_ok p.
Proof.
  intros b v p Hp Hn Hy H24. destruct (dt_parse_inv _ _ _ Hp) as [V [D0 [T0 T1]]].
  unfold dt_parse_norm in Hn. rewrite Hp in Hn.
  destruct (index_of b _ _ ch_minus) as [ysep|]; [|discriminate].
  apply (validate_fields v D0 T0 T1) in V. destruct V as [[_ [R1 [R2 [Vh [Vmi [Vs Vtz]]]]]] [H0 [M0 S0]]].
  rewrite <- max_day_all_years in R2.
  set (n := mkN (dt_year v) (dt_month v) (dt_day v) (dt_hour v) (dt_min v) (dt_sec v)) in *.
  assert (R : 0 <= dt_hour v <= 24 /\ 0 <= dt_min v <= 59 /\ 0 <= dt_sec v <= 59 /\ dt_tzh v <= 14 /\ dt_tzm v <= 59) by lia.
  destruct R as [R3 [R4 [R5 [R6 R7]]]].
  assert (Norm : forall negate, (negate = 1 \/ negate = -1) -> in_range (normalize negate (dt_tzh v) (dt_tzm v) n)).
  { intros negate Hneg.
    destruct (normalize_timeline negate (dt_tzh v) (dt_tzm v) n Hneg ltac:(lia) ltac:(lia) Hy R1 R2 R3 R4) as [_ [M [D [H [MI [Sc Y]]]]]].
    constructor; [repeat split; lia|lia|lia|]. rewrite Sc. exact R5. }
  destruct (utc_kind b (ysep + 15) =? 2) eqn:K2; [|destruct (utc_kind b (ysep + 15) =? 3) eqn:K3];
    inversion Hn; subst p; constructor; cbn [p_n p_zoned p_frac]; try apply frac_digits_all.
  - (* zone '+': normalised, in range *) apply Norm. auto.
  - (* ... and zoned *) intros Zd. apply Z.eqb_eq in K2. rewrite K2 in Zd. discriminate.
  - (* zone '-' *) apply Norm. auto.
  - intros Zd. apply Z.eqb_eq in K3. rewrite K3 in Zd. discriminate.
  - (* 'Z' or no zone: the validated fields as they are; the hour is not 24 by hypothesis *)
    cbn [p_n] in H24. unfold n in *. cbn [n_h] in H24.
    constructor; cbn [n_y n_mo n_d n_h n_mi n_s]; [repeat split; lia|lia|lia|lia].
  - intros _. exact Hy.
Qed.

(* String comes in only here: importing it earlier would hide List.length *)
From Coq Require Import String Ascii.
Fixpoint s2l (s : string) : list N :=
  match s with EmptyString => [] | String c r => N_of_ascii c :: s2l r end.

Lemma f30_refuted :
  dtv_compare true (s2l "2000-01-01T12:00:00") (s2l "2000-01-01T12:00:00+14:00") = 0 /\
  dt_order (s2l "2000-01-01T12:00:00") (s2l "2000-01-01T12:00:00+14:00") = 2 /\
  dtv_compare true (s2l "1999-12-31T22:00:00Z") (s2l "2000-01-01T12:00:00") = 0 /\
  dt_order (s2l "1999-12-31T22:00:00Z") (s2l "2000-01-01T12:00:00") = 2.
Proof. vm_compute. repeat split; reflexivity. Qed.

Lemma f31_refuted :
  dtv_compare true (s2l "2000-01-01T24:00:00") (s2l "2000-01-02T00:00:00") = -1 /\
  dt_order (s2l "2000-01-01T24:00:00") (s2l "2000-01-02T00:00:00") = 0 /\
  dt_canon true (s2l "2000-01-01T24:00:00") = Some (s2l "2000-01-01T00:00:00") /\
  dt_canon_of (s2l "2000-01-01T24:00:00") (s2l "2000-01-01T00:00:00") = false.
Proof. vm_compute. repeat split; reflexivity. Qed.

Lemma f32_refuted :
  dt_canon true (s2l "0001-01-01T05:00:00+14:00") = Some (s2l "0000-12-31T15:00:00Z") /\
  dt_lex (s2l "0000-12-31T15:00:00Z") = false /\ dt_canon true (s2l "0000-12-31T15:00:00Z") = None.
Proof. vm_compute. repeat split; reflexivity. Qed.
