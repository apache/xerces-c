(** C09 lemmas, part b: XMLBigDecimal::parseDecimal accepts exactly the lexical space of xs:decimal
    (fix10 = true); with fix10 = false the accepted strings differ from it exactly by the literals without any digit. *)
From Coq Require Import ZArith Lia.
From XV Require Import C09.Spec09 C09.Model09 C09.Proofs09a.
Local Open Scope N_scope.

Lemma digit_not_dot : forall c, is_digit c = true -> (c =? ch_dot) = false.
Proof. intros c H. unfold is_digit, ch_dot in *. apply andb_prop in H. destruct H as [H1 H2].
  apply N.leb_le in H1. apply N.eqb_neq. lia. Qed.

Lemma zero_is_digit : forall c, (c =? ch_0) = true -> is_digit c = true.
Proof. intros c H. apply N.eqb_eq in H. subst c. reflexivity. Qed.

Lemma digit_not_sign : forall c, is_digit c = true -> (c =? ch_minus) = false /\ (c =? ch_plus) = false.
Proof. intros c H. unfold is_digit in H. apply andb_prop in H. destruct H as [H _]. apply N.leb_le in H.
  split; apply N.eqb_neq; unfold ch_minus, ch_plus; lia. Qed.

Lemma scan_true_spec : forall l,
  if all_digits l then dec_scan l true = Ok (l, 0%nat) else exists e, dec_scan l true = Err e.
Proof.
  induction l as [|c r IH]; [reflexivity|].
  cbn [all_digits forallb dec_scan]. fold (all_digits r).
  destruct (c =? ch_dot) eqn:Ed.
  - assert (is_digit c = false) as ->.
    { destruct (is_digit c) eqn:D; [|reflexivity]. rewrite (digit_not_dot c D) in Ed. discriminate. }
    cbn [andb]. eexists; reflexivity.
  - destruct (is_digit c) eqn:D; cbn [andb negb].
    + destruct (all_digits r).
      * rewrite IH. reflexivity.
      * destruct IH as [e ->]. eexists; reflexivity.
    + eexists; reflexivity.
Qed.

Definition udec_shape (l : list N) : bool :=
  match split_dot l with
  | (ip, None) => all_digits ip
  | (ip, Some fp) => all_digits ip && all_digits fp
  end.
Definition udec_digits (l : list N) : list N * nat :=
  match split_dot l with
  | (ip, None) => (ip, 0%nat)
  | (ip, Some fp) => (ip ++ fp, length fp)
  end.

Lemma scan_false_spec : forall l,
  if udec_shape l then dec_scan l false = Ok (udec_digits l) else exists e, dec_scan l false = Err e.
Proof.
  induction l as [|c r IH]; [reflexivity|].
  unfold udec_shape, udec_digits in *. cbn [split_dot dec_scan].
  destruct (c =? ch_dot) eqn:Ed.
  - cbn [all_digits forallb andb app]. fold (all_digits r).
    pose proof (scan_true_spec r) as T. destruct (all_digits r).
    + rewrite T. reflexivity.
    + destruct T as [e ->]. eexists; reflexivity.
  - destruct (split_dot r) as [a [fp|]] eqn:Es.
    + cbn [all_digits forallb]. fold (all_digits a).
      destruct (is_digit c) eqn:D; cbn [andb negb].
      * destruct (all_digits a && all_digits fp).
        -- rewrite IH. reflexivity.
        -- destruct IH as [e ->]. eexists; reflexivity.
      * eexists; reflexivity.
    + cbn [all_digits forallb]. fold (all_digits a).
      destruct (is_digit c) eqn:D; cbn [andb negb].
      * destruct (all_digits a).
        -- rewrite IH. reflexivity.
        -- destruct IH as [e ->]. eexists; reflexivity.
      * eexists; reflexivity.
Qed.

Lemma udec_lex_shape : forall l, udec_lex l = udec_shape l && negb (nilb (fst (udec_digits l))).
Proof.
  intros l. unfold udec_lex, udec_shape, udec_digits. destruct (split_dot l) as [ip [fp|]]; cbn [fst].
  - f_equal. destruct ip, fp; reflexivity.
  - reflexivity.
Qed.

Definition is0 (c : N) : bool := c =? ch_0.

Lemma drop_zeros_split : forall r, exists zs, r = zs ++ drop_zeros r /\ forallb is0 zs = true /\
  (length (drop_zeros r) = length r <-> zs = []).
Proof.
  induction r as [|c r IH].
  - exists []. repeat split; auto.
  - cbn [drop_zeros]. destruct (c =? ch_0) eqn:E.
    + destruct IH as [zs [H1 [H2 H3]]]. exists (c :: zs). split; [|split].
      * cbn [app]. f_equal. exact H1.
      * cbn [forallb]. unfold is0 at 1. rewrite E. exact H2.
      * split; [|discriminate]. intros HL. exfalso.
        assert (length (drop_zeros r) <= length r)%nat.
        { rewrite H1 at 2. rewrite app_length. lia. }
        cbn [length] in HL. lia.
    + exists []. repeat split; auto.
Qed.

Lemma split_dot_zeros : forall zs l, forallb is0 zs = true ->
  split_dot (zs ++ l) = (zs ++ fst (split_dot l), snd (split_dot l)).
Proof.
  induction zs as [|z zs IH]; intros l H.
  - cbn [app]. destruct (split_dot l); reflexivity.
  - cbn [forallb] in H. apply andb_prop in H. destruct H as [Hz H].
    cbn [app split_dot]. rewrite (digit_not_dot z (zero_is_digit z Hz)). rewrite (IH l H). reflexivity.
Qed.

Lemma zeros_all_digits : forall zs, forallb is0 zs = true -> all_digits zs = true.
Proof.
  induction zs as [|z zs IH]; intros H; [reflexivity|].
  cbn [forallb] in H. apply andb_prop in H. destruct H as [Hz H].
  cbn [all_digits forallb]. rewrite (zero_is_digit z Hz). exact (IH H).
Qed.

Lemma all_digits_app : forall a b, all_digits (a ++ b) = all_digits a && all_digits b.
Proof. intros. unfold all_digits. apply forallb_app. Qed.

Lemma udec_shape_zeros : forall zs l, forallb is0 zs = true -> udec_shape (zs ++ l) = udec_shape l.
Proof.
  intros zs l H. unfold udec_shape. rewrite (split_dot_zeros zs l H).
  destruct (split_dot l) as [ip [fp|]]; cbn [fst snd]; rewrite all_digits_app, (zeros_all_digits zs H); reflexivity.
Qed.

Lemma udec_lex_zeros : forall zs l, forallb is0 zs = true ->
  udec_lex (zs ++ l) = udec_shape l && (negb (nilb zs) || negb (nilb (fst (udec_digits l)))).
Proof.
  intros zs l H. rewrite udec_lex_shape, (udec_shape_zeros zs l H). f_equal.
  unfold udec_digits. rewrite (split_dot_zeros zs l H).
  destruct (split_dot l) as [ip [fp|]]; cbn [fst snd]; destruct zs; cbn [app nilb negb orb]; reflexivity.
Qed.

Definition body_ok (fix10 : bool) (b : list N) : bool :=
  match dec_parse_body fix10 b with Ok _ => true | Err _ => false end.

Lemma unsigned_ok : forall fix10 r sign, r <> [] ->
  match dec_parse_unsigned fix10 sign r with Ok _ => true | Err _ => false end
  = if fix10 then udec_lex r else udec_shape r.
Proof.
  intros fix10 r sign Hr.
  destruct (drop_zeros_split r) as [zs [E [Hz HL]]].
  assert (Hlex : udec_lex r = udec_shape (drop_zeros r) && (negb (nilb zs) || negb (nilb (fst (udec_digits (drop_zeros r)))))).
  { rewrite E at 1. apply udec_lex_zeros. exact Hz. }
  assert (Hsh : udec_shape r = udec_shape (drop_zeros r)).
  { rewrite E at 1. apply udec_shape_zeros. exact Hz. }
  rewrite Hlex, Hsh. unfold dec_parse_unsigned. cbv zeta.
  destruct (drop_zeros r) as [|c r'] eqn:Er'.
  - (* nothing but zeros *)
    destruct zs; [rewrite app_nil_r in E; subst r; contradiction|].
    destruct fix10; reflexivity.
  - pose proof (scan_false_spec (c :: r')) as Sc.
    destruct (udec_shape (c :: r')).
    + rewrite Sc. destruct (udec_digits (c :: r')) as [ds fract]. cbn [fst].
      destruct fix10; cbn [andb].
      * destruct (nilb ds) eqn:Nd; cbn [andb negb orb].
        -- destruct (Nat.eqb_spec (length (c :: r')) (length r)) as [L|L].
           ++ apply HL in L. subst zs. reflexivity.
           ++ destruct zs; [exfalso; apply L; apply HL; reflexivity|].
              cbn [nilb negb orb]. destruct (strip_tz (rev ds) fract). reflexivity.
        -- rewrite orb_true_r. destruct (strip_tz (rev ds) fract). reflexivity.
      * destruct (strip_tz (rev ds) fract). reflexivity.
    + destruct Sc as [e ->]. destruct fix10; reflexivity.
Qed.

Lemma split_dot_inv : forall l ip o, split_dot l = (ip, o) ->
  l = ip ++ match o with Some fp => ch_dot :: fp | None => [] end.
Proof.
  induction l as [|c r IH]; intros ip o H; cbn [split_dot] in H.
  - inversion H. reflexivity.
  - destruct (c =? ch_dot) eqn:E.
    + inversion H. subst. apply N.eqb_eq in E. subst c. reflexivity.
    + destruct (split_dot r) as [a b]. inversion H. subst. cbn [app]. f_equal. apply IH. reflexivity.
Qed.

(** the literals of finding F10: an optional sign followed by a lone '.' *)
Definition lone_dot_u (r : list N) : bool := match r with [c] => c =? ch_dot | _ => false end.
Definition lone_dot (b : list N) : bool := lone_dot_u (snd (strip_sign b)).

Lemma shape_lex : forall r, r <> [] -> udec_shape r = udec_lex r || lone_dot_u r.
Proof.
  intros r Hr. rewrite udec_lex_shape. unfold udec_shape, udec_digits.
  destruct (split_dot r) as [ip [fp|]] eqn:Es; cbn [fst].
  - apply split_dot_inv in Es. destruct ip as [|i ip].
    + destruct fp as [|f fp].
      * subst r. reflexivity.
      * cbn [app nilb negb]. rewrite andb_true_r. subst r. cbn [app lone_dot_u]. rewrite orb_false_r. reflexivity.
    + cbn [app nilb negb]. rewrite andb_true_r. subst r. cbn [app lone_dot_u].
      destruct (ip ++ ch_dot :: fp) eqn:X; [destruct ip; discriminate|]. rewrite orb_false_r. reflexivity.
  - pose proof Es as Es'. apply split_dot_inv in Es. rewrite app_nil_r in Es. subst ip.
    destruct r as [|c r]; [contradiction|]. cbn [nilb negb]. rewrite andb_true_r.
    cbn [lone_dot_u]. destruct r.
    + cbn [split_dot] in Es'. destruct (c =? ch_dot); [discriminate|]. rewrite orb_false_r. reflexivity.
    + rewrite orb_false_r. reflexivity.
Qed.

Lemma lone_dot_not_lex : forall r, lone_dot_u r = true -> udec_lex r = false.
Proof.
  intros r H. destruct r as [|c [|d r]]; try discriminate. cbn [lone_dot_u] in H.
  apply N.eqb_eq in H. subst c. reflexivity.
Qed.

(** parseDecimal's three branches on the first character are the Spec's sign stripping; a sign needs something after it *)
Lemma parse_body_sign : forall fix10 b, b <> [] ->
  dec_parse_body fix10 b =
  let (neg, u) := strip_sign b in
  match u with [] => Err E_Inv_chars | _ => dec_parse_unsigned fix10 (if neg then -1 else 1)%Z u end.
Proof.
  intros fix10 [|c r] H; [contradiction|]. unfold dec_parse_body, strip_sign.
  destruct (c =? ch_minus); [reflexivity|]. destruct (c =? ch_plus); reflexivity.
Qed.

Lemma body_ok_spec : forall fix10 b,
  body_ok fix10 b = if fix10 then dec_lex b else dec_lex b || lone_dot b.
Proof.
  intros fix10 b. unfold body_ok, dec_lex, lone_dot.
  destruct b as [|c r]; [destruct fix10; reflexivity|]. rewrite parse_body_sign by discriminate.
  destruct (strip_sign (c :: r)) as [neg [|x u]]; cbn [snd]; [destruct fix10; reflexivity|].
  rewrite unsigned_ok by discriminate. destruct fix10; [reflexivity|]. apply shape_lex. discriminate.
Qed.

Lemma trim_ws_allws : forall s, drop_ws s = [] -> trim_ws s = [].
Proof. intros s H. unfold trim_ws. rewrite H. reflexivity. Qed.

Lemma dec_ok_spec : forall fix10 s,
  dec_ok fix10 s = if fix10 then dec_lex (trim_ws s) else dec_lex (trim_ws s) || lone_dot (trim_ws s).
Proof.
  intros fix10 s. unfold dec_ok, dec_parse, dec_parse_raw.
  destruct s as [|c s]; [destruct fix10; reflexivity|].
  destruct (drop_ws (c :: s)) eqn:Ed.
  - rewrite (trim_ws_allws _ Ed). destruct fix10; reflexivity.
  - exact (body_ok_spec fix10 (trim_ws (c :: s))).
Qed.

