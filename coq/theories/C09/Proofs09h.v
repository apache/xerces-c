(** C09 lemmas, part h: SchemaValidator::normalizeWhiteSpace over chunked character data, and facet inheritance over
    restriction chains (AbstractNumericFacetValidator::inheritFacet + boundsCheck on an abstract ordered value space; that each
    step is a valid restriction of its base is what the schema loader checks, and is assumed). *)
From Coq Require Import Lia.
From XV Require Import C09.Spec09 C09.Spec09d C09.Model09 C09.Model09d.
Local Open Scope N_scope.

(** the two states of the COLLAPSE loop differ only in the space owed in front of the next character *)
Lemma nws_loop_cons : forall c r inws seen,
  nws_loop inws seen (c :: r) =
  if is_ws c then nws_loop true seen r
  else let (o, st) := nws_loop false true r in ((if inws && seen then [ch_space] else []) ++ c :: o, st).
Proof.
  intros c r inws seen. cbn [nws_loop]. destruct inws; destruct (is_ws c); reflexivity.
Qed.

Lemma nws_loop_spec : forall l inws seen rest,
  ws_collapse_go seen (inws && seen) (l ++ rest) =
  fst (nws_loop inws seen l) ++
  ws_collapse_go (snd (snd (nws_loop inws seen l))) (fst (snd (nws_loop inws seen l)) && snd (snd (nws_loop inws seen l))) rest.
Proof.
  induction l as [|c r IH]; intros inws seen rest; [reflexivity|].
  rewrite nws_loop_cons. cbn [app ws_collapse_go]. destruct (is_ws c).
  - (* whitespace: pending := started *) rewrite <- IH. reflexivity.
  - specialize (IH false true rest). destruct (nws_loop false true r) as [o st]. cbn [fst snd andb] in *.
    rewrite IH. destruct (inws && seen); reflexivity.
Qed.

Lemma last_ws_cons : forall c x r, last_ws (c :: x :: r) = last_ws (x :: r).
Proof.
  intros. unfold last_ws. cbn [rev]. destruct (rev r ++ [x]) eqn:E.
  - destruct (rev r); discriminate.
  - reflexivity.
Qed.

Lemma nws_loop_final : forall l inws seen,
  fst (snd (nws_loop inws seen l)) = match l with [] => inws | _ => last_ws l end.
Proof.
  induction l as [|c r IH]; intros inws seen; [reflexivity|].
  assert (G : forall b s, fst (snd (nws_loop b s r)) = match r with [] => b | _ => last_ws r end) by (intros; apply IH).
  assert (L : last_ws (c :: r) = match r with [] => is_ws c | _ => last_ws r end).
  { destruct r; [reflexivity|apply last_ws_cons]. }
  rewrite L, nws_loop_cons. destruct (is_ws c).
  - rewrite G. destruct r; reflexivity.
  - specialize (G false true). destruct (nws_loop false true r) as [o st]. cbn [snd] in *. rewrite G. destruct r; reflexivity.
Qed.

Lemma nws_chunk_spec : forall st chunk rest,
  ws_collapse_go (snd st) (fst st && snd st) (chunk ++ rest) =
  fst (nws_chunk st chunk) ++
  ws_collapse_go (snd (snd (nws_chunk st chunk))) (fst (snd (nws_chunk st chunk)) && snd (snd (nws_chunk st chunk))) rest.
Proof.
  intros [tr seen] chunk rest. destruct chunk as [|c r]; [reflexivity|].
  unfold nws_chunk. cbn [fst snd].
  pose proof (nws_loop_spec (c :: r) tr seen rest) as Sc.
  pose proof (nws_loop_final (c :: r) tr seen) as F.
  destruct (nws_loop tr seen (c :: r)) as [o [iw sn]]. cbn [fst snd] in *. subst iw. exact Sc.
Qed.

Lemma nws_chunks_spec : forall chunks st,
  nws_chunks st chunks = ws_collapse_go (snd st) (fst st && snd st) (concat chunks).
Proof.
  induction chunks as [|c r IH]; intros st; [reflexivity|].
  cbn [nws_chunks concat]. rewrite (nws_chunk_spec st c (concat r)).
  destruct (nws_chunk st c) as [o st']. cbn [fst snd]. rewrite IH. reflexivity.
Qed.

Lemma nws_collapse_correct : forall chunks, nws_collapse chunks = ws_collapse (concat chunks).
Proof. intros. unfold nws_collapse. rewrite nws_chunks_spec. reflexivity. Qed.

Lemma nws_replace_correct : forall chunks, nws_replace chunks = ws_replace (concat chunks).
Proof.
  induction chunks as [|c r IH]; [reflexivity|].
  unfold nws_replace, ws_replace in *. cbn [flat_map concat]. rewrite map_app, IH. reflexivity.
Qed.

Section Inherit.
  Variable V : Type.
  Variable cmp : V -> V -> comparison.
  Notation B := (bounds V).

  Definition min_part (b : B) (v : V) : bool :=
    opt_ok (minI b) (fun m => Spec09d.leb V cmp m v) && opt_ok (minE b) (fun m => Spec09d.ltb V cmp m v).
  Definition max_part (b : B) (v : V) : bool :=
    opt_ok (maxI b) (fun m => Spec09d.leb V cmp v m) && opt_ok (maxE b) (fun m => Spec09d.ltb V cmp v m).

  Lemma step_ok_parts : forall b v, step_ok V cmp b v = min_part b v && max_part b v.
  Proof. intros. unfold step_ok, min_part, max_part. rewrite <- !andb_assoc. reflexivity. Qed.

  (** [this] is a valid restriction of the (merged) base: whatever passes the bounds written on [this] also passes
      the base bounds that [this] replaces *)
  Definition tightens (this base : B) : Prop :=
    forall v, (min_part this v = true -> min_part base v = true) /\ (max_part this v = true -> max_part base v = true).

  (** one side of inheritFacet (the lower or the upper bounds): the pair written on [this] replaces the pair of the base
      as a whole, and if it is at least as tight the result tests both *)
  Lemma inherit_pair : forall (ti te : V -> bool) (ai ae bi be : option V),
    (opt_ok ai ti && opt_ok ae te = true -> opt_ok bi ti && opt_ok be te = true) ->
    let has := match ai, ae with None, None => false | _, _ => true end in
    opt_ok (if has then ai else bi) ti && opt_ok (if has then ae else be) te =
    (opt_ok ai ti && opt_ok ae te) && (opt_ok bi ti && opt_ok be te).
  Proof.
    intros ti te ai ae bi be T. destruct ai as [a|]; destruct ae as [b|]; cbv zeta; try reflexivity;
      (destruct (opt_ok _ ti && opt_ok _ te) eqn:E; [rewrite (T eq_refl)|]; reflexivity).
  Qed.

  Lemma inherit_min : forall this base v, tightens this base ->
    min_part (inherit_bounds V this base) v = min_part this v && min_part base v.
  Proof. intros this base v T. apply inherit_pair. exact (proj1 (T v)). Qed.

  Lemma inherit_max : forall this base v, tightens this base ->
    max_part (inherit_bounds V this base) v = max_part this v && max_part base v.
  Proof. intros this base v T. apply inherit_pair. exact (proj2 (T v)). Qed.

  Lemma inherit_step : forall this base v, tightens this base ->
    step_ok V cmp (inherit_bounds V this base) v = step_ok V cmp this v && step_ok V cmp base v.
  Proof.
    intros. rewrite !step_ok_parts, inherit_min, inherit_max by assumption.
    destruct (min_part this v), (min_part base v), (max_part this v), (max_part base v); reflexivity.
  Qed.

  (** every step of the chain is a valid restriction of what precedes it *)
  Fixpoint chain_tight (acc : B) (chain : list B) : Prop :=
    match chain with
    | [] => True
    | this :: r => tightens this acc /\ chain_tight (inherit_bounds V this acc) r
    end.

  Lemma merged_from : forall chain acc v, chain_tight acc chain ->
    step_ok V cmp (fold_left (fun base this => inherit_bounds V this base) chain acc) v =
    step_ok V cmp acc v && chain_ok V cmp chain v.
  Proof.
    induction chain as [|this r IH]; intros acc v T; cbn [fold_left chain_ok forallb].
    - rewrite andb_true_r. reflexivity.
    - destruct T as [T1 T2]. rewrite (IH _ v T2), (inherit_step this acc v T1).
      unfold chain_ok. destruct (step_ok V cmp this v), (step_ok V cmp acc v); reflexivity.
  Qed.

  Lemma facet_inherit : forall chain v, chain_tight (mkB None None None None) chain ->
    bounds_accept V cmp (merged_bounds V chain) v = chain_ok V cmp chain v.
  Proof. intros chain v T. unfold bounds_accept, merged_bounds. rewrite (merged_from chain _ v T). reflexivity. Qed.

  Lemma derived_subset_of_base : forall chain this v, chain_tight (mkB None None None None) (chain ++ [this]) ->
    bounds_accept V cmp (merged_bounds V (chain ++ [this])) v = true ->
    bounds_accept V cmp (merged_bounds V chain) v = true.
  Proof.
    intros chain this v T H. rewrite facet_inherit in H by exact T.
    assert (T' : chain_tight (mkB None None None None) chain).
    { clear H. revert T. generalize (mkB (V:=V) None None None None). induction chain as [|c r IH]; intros acc T; [exact I|].
      destruct T as [T1 T2]. split; [exact T1|exact (IH _ T2)]. }
    rewrite facet_inherit by exact T'. unfold chain_ok in *. rewrite forallb_app in H. apply andb_prop in H. apply H.
  Qed.
End Inherit.
