(** C09 lemmas, part l: AbstractNumericValidator::boundsCheck on decimals against the four bound facets. *)
From Coq Require Import ZArith QArith Lia.
From XV Require Import C09.Spec09 C09.Model09 C09.Proofs09c C09.Proofs09d C09.Proofs09e.
Local Open Scope Z_scope.

Definition bounds_spec (f : dfacets) (d : dec) : bool :=
  opt_ok (f_maxE f) (fun m => Qltb (dec_denote d) (dec_denote m)) &&
  opt_ok (f_maxI f) (fun m => Qleb (dec_denote d) (dec_denote m)) &&
  opt_ok (f_minI f) (fun m => Qleb (dec_denote m) (dec_denote d)) &&
  opt_ok (f_minE f) (fun m => Qltb (dec_denote m) (dec_denote d)).

Definition opt_norm (o : option dec) : Prop := match o with Some m => dec_norm m | None => True end.

Lemma orelse_none : forall a b, orelse a b = None <-> a = None /\ b = None.
Proof. intros [e|] b; cbn [orelse]; [split; [discriminate|intros [X _]; discriminate]|split; [auto|intros [_ X]; exact X]]. Qed.

(** one bound facet: the C++ test [bad] on toCompare's answer rejects exactly when the facet [spec] fails on the values *)
Lemma facet_test : forall (o : option dec) d (bad : Z -> bool) (spec : Q -> Q -> bool) (e : derr),
  dec_norm d -> opt_norm o -> (forall x y, bad (cmp_to_Z (Qcompare x y)) = negb (spec x y)) ->
  (match o with Some m => if bad (dec_cmp d m) then Some e else None | None => None end = None
   <-> opt_ok o (fun m => spec (dec_denote d) (dec_denote m)) = true).
Proof.
  intros [m|] d bad spec e Nd No Hb; cbn [opt_ok]; [|split; reflexivity].
  rewrite (dec_cmp_correct d m Nd No), Hb. destruct (spec _ _); cbn [negb]; split; intros; try reflexivity; discriminate.
Qed.

Lemma bounds_check_spec : forall f d, dec_norm d ->
  opt_norm (f_maxE f) -> opt_norm (f_maxI f) -> opt_norm (f_minI f) -> opt_norm (f_minE f) ->
  (bounds_check f d = None <-> bounds_spec f d = true).
Proof.
  intros f d Nd N1 N2 N3 N4. unfold bounds_check, bounds_spec. rewrite !orelse_none, !Bool.andb_true_iff, !and_assoc.
  rewrite (facet_test _ d (fun z => negb (z =? -1)) Qltb _ Nd N1),
          (facet_test _ d (fun z => z =? 1) Qleb _ Nd N2),
          (facet_test _ d (fun z => z =? -1) (fun x y => Qleb y x) _ Nd N3),
          (facet_test _ d (fun z => negb (z =? 1)) (fun x y => Qltb y x) _ Nd N4); [reflexivity| | | |];
    intros x y; unfold Qltb, Qleb; rewrite <- ?(Qcompare_antisym x y); destruct (Qcompare x y); reflexivity.
Qed.

(** the error code follows the order of the tests in the C++: maxExclusive, maxInclusive, minInclusive, minExclusive *)
Lemma bounds_check_first_error : forall f d m, f_maxE f = Some m -> dec_cmp d m <> -1 -> bounds_check f d = Some E_exceed_maxExcl.
Proof.
  intros f d m E H. unfold bounds_check, orelse. rewrite E. destruct (Z.eqb_spec (dec_cmp d m) (-1)); [contradiction|reflexivity].
Qed.
