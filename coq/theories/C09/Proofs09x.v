(** C09 lemmas, part x: getDateCanonicalRepresentation -- the date and the recoverable time zone computed from the
    normalised (UTC) fields denote the same starting instant, the zone lies between -11:59 and +12:00, and the date is
    a valid calendar date. *)
From Coq Require Import ZArith Lia.
From XV Require Import C09.Spec09 C09.Spec09c C09.Spec09e C09.Model09c C09.Model09e C09.Model09j C09.Proofs09i C09.Proofs09j.
Local Open Scope Z_scope.

(** seconds of the local midnight of a date minus its zone offset = the instant the date starts at *)
Definition date_start_secs (y mo d z : Z) : Z := days_of y mo d * 86400 - 60 * z.

Lemma date_canon_fields_spec : forall n, in_range n -> 2 <= n_y n -> n_s n = 0 ->
  let '((y, mo, d), z) := date_canon_fields n in
  date_start_secs y mo d z = secs_of n /\ -719 <= z <= 720 /\ date_ok y mo d.
Proof.
  intros [y mo d h mi s] [[Hy [Hmo Hd]] Hh Hmi Hs] Hy2 Hs0. cbn [n_y n_mo n_d n_h n_mi n_s] in *. subst s.
  unfold date_canon_fields. cbn [n_y n_mo n_d n_h n_mi n_s].
  destruct (Z.ltb_spec h 12) as [L|G].
  - unfold date_start_secs, secs_of. cbn [n_y n_mo n_d n_h n_mi n_s]. repeat split; try lia.
  - destruct (norm_days 4 y mo (d + 1)) as [[y' mo'] d'] eqn:ND.
    pose proof (max_day_range y mo) as R.
    destruct (norm_days_spec y mo (d + 1) y' mo' d' Hy2 Hmo ltac:(lia) ND) as [D [M1 [M2 M3]]].
    unfold date_start_secs, secs_of. cbn [n_y n_mo n_d n_h n_mi n_s].
    destruct (Z.eqb_spec mi 0) as [E|E]; rewrite D; unfold days_of; repeat split; lia.
Qed.
