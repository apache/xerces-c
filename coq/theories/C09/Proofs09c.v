(** C09 lemmas, part c: arithmetic of digit strings; XMLString::compareString on two digit strings compares the
    fractions they denote (the step XMLBigDecimal::toCompare falls back on). *)
From Coq Require Import ZArith QArith Lia.
From XV Require Import C09.Spec09 C09.Model09 C09.Proofs09a C09.Proofs09b.
Local Open Scope Z_scope.

Definition P10 (n : nat) : Z := Zpos (pow10 n).

Lemma P10_0 : P10 0 = 1. Proof. reflexivity. Qed.
Lemma P10_S : forall n, P10 (S n) = 10 * P10 n. Proof. intros. unfold P10. cbn [pow10]. lia. Qed.
Lemma P10_pos : forall n, 0 < P10 n. Proof. intros. unfold P10. lia. Qed.
Lemma P10_add : forall m n, P10 (m + n) = P10 m * P10 n.
Proof. induction m as [|m IH]; intros n; cbn [Nat.add]; [rewrite P10_0; lia|]. rewrite !P10_S, IH. ring. Qed.
Lemma P10_le : forall m n, (m <= n)%nat -> P10 m <= P10 n.
Proof.
  intros m n H. replace n with (m + (n - m))%nat by lia. rewrite P10_add.
  pose proof (P10_pos m). pose proof (P10_pos (n - m)). nia.
Qed.

Lemma digit_val_range : forall c, is_digit c = true -> 0 <= digit_val c <= 9.
Proof. intros c H. unfold is_digit in H. apply andb_prop in H. destruct H as [H1 H2].
  apply N.leb_le in H1. apply N.leb_le in H2. unfold digit_val. lia. Qed.
Lemma digit_val_nonzero : forall c, is_digit c = true -> (c =? ch_0)%N = false -> 1 <= digit_val c.
Proof. intros c H Hz. unfold is_digit in H. apply andb_prop in H. destruct H as [H1 H2].
  apply N.leb_le in H1. apply N.eqb_neq in Hz. unfold digit_val, ch_0 in *. lia. Qed.
Lemma digit_val_lt : forall x y, (x < y)%N -> digit_val x + 1 <= digit_val y.
Proof. intros. unfold digit_val. lia. Qed.

Lemma dval_acc_spec : forall l acc, dval_acc acc l = acc * P10 (length l) + dval l.
Proof.
  unfold dval. induction l as [|c r IH]; intros acc; cbn [dval_acc length].
  - rewrite P10_0. lia.
  - rewrite IH. rewrite (IH (0 * 10 + digit_val c)). rewrite P10_S. ring.
Qed.

Lemma dval_cons : forall c l, dval (c :: l) = digit_val c * P10 (length l) + dval l.
Proof. intros. unfold dval at 1. cbn [dval_acc]. rewrite dval_acc_spec. ring. Qed.

Lemma dval_nil : dval [] = 0. Proof. reflexivity. Qed.

Lemma dval_app : forall a b, dval (a ++ b) = dval a * P10 (length b) + dval b.
Proof.
  induction a as [|c a IH]; intros b; cbn [app].
  - rewrite dval_nil. lia.
  - rewrite !dval_cons, IH, app_length, P10_add. ring.
Qed.

Lemma all_digits_cons : forall c l, all_digits (c :: l) = is_digit c && all_digits l.
Proof. reflexivity. Qed.
Lemma all_digits_cons_inv : forall c l, all_digits (c :: l) = true -> is_digit c = true /\ all_digits l = true.
Proof. intros c l H. apply andb_prop. exact H. Qed.

Lemma dval_bounds : forall l, all_digits l = true -> 0 <= dval l < P10 (length l).
Proof.
  induction l as [|c r IH]; intros H.
  - cbn [length]. rewrite dval_nil, P10_0. lia.
  - apply all_digits_cons_inv in H. destruct H as [Hc Hr].
    rewrite dval_cons. cbn [length]. rewrite P10_S. pose proof (digit_val_range c Hc). specialize (IH Hr).
    pose proof (P10_pos (length r)). nia.
Qed.

Lemma dval_lead : forall c r, all_digits (c :: r) = true -> (c =? ch_0)%N = false -> P10 (length r) <= dval (c :: r).
Proof.
  intros c r H Hz. apply all_digits_cons_inv in H. destruct H as [Hc Hr].
  rewrite dval_cons. pose proof (digit_val_nonzero c Hc Hz). pose proof (dval_bounds r Hr).
  pose proof (P10_pos (length r)). nia.
Qed.

Lemma last_is_snoc : forall l x c, last_is (l ++ [x]) c = (x =? c)%N.
Proof. intros. unfold last_is. rewrite rev_app_distr. reflexivity. Qed.

Lemma snoc_cases : forall (l : list N), l = [] \/ exists l' x, l = l' ++ [x].
Proof. intros l. destruct (rev l) as [|x t] eqn:E.
  - left. apply (f_equal (@rev N)) in E. rewrite rev_involutive in E. exact E.
  - right. exists (rev t), x. apply (f_equal (@rev N)) in E. rewrite rev_involutive in E. exact E. Qed.

Lemma dval_last_mod : forall l, all_digits l = true -> l <> [] -> last_is l ch_0 = false -> dval l mod 10 <> 0.
Proof.
  intros l H Hn Hl. destruct (snoc_cases l) as [->|[l' [x ->]]]; [contradiction|].
  rewrite last_is_snoc in Hl. rewrite all_digits_app in H. apply andb_prop in H. destruct H as [_ H2].
  apply all_digits_cons_inv in H2. destruct H2 as [Hx _].
  rewrite dval_app. cbn [length]. rewrite P10_S, P10_0. unfold dval at 2. cbn [dval_acc].
  pose proof (digit_val_nonzero x Hx Hl). pose proof (digit_val_range x Hx).
  replace (dval l' * (10 * 1) + (0 * 10 + digit_val x)) with (digit_val x + dval l' * 10) by ring.
  rewrite Z.mod_add by lia. rewrite Z.mod_small by lia. lia.
Qed.

Lemma dval_pos_trail : forall l, all_digits l = true -> l <> [] -> last_is l ch_0 = false -> 0 < dval l.
Proof.
  intros l H Hn Hl. pose proof (dval_last_mod l H Hn Hl) as M. pose proof (dval_bounds l H).
  destruct (Z.eq_dec (dval l) 0) as [E|E]; [rewrite E in M; contradiction M; reflexivity|lia].
Qed.

Lemma last_is_cons : forall c x y l, last_is (c :: x :: l) y = last_is (x :: l) y.
Proof.
  intros. destruct (snoc_cases (x :: l)) as [E|[l' [z E]]]; [discriminate|].
  rewrite E. rewrite app_comm_cons. rewrite !last_is_snoc. reflexivity.
Qed.

Lemma cmpZ_lt : forall x y, x < y -> cmp_to_Z (x ?= y) = -1.
Proof. intros. apply Z.compare_lt_iff in H. rewrite H. reflexivity. Qed.
Lemma cmpZ_gt : forall x y, y < x -> cmp_to_Z (x ?= y) = 1.
Proof. intros. apply Z.compare_gt_iff in H. rewrite H. reflexivity. Qed.
Lemma cmpZ_eq : forall x y, x = y -> cmp_to_Z (x ?= y) = 0.
Proof. intros. apply Z.compare_eq_iff in H. rewrite H. reflexivity. Qed.

(** two numbers written as (whole part, remainder below the unit) over units A and B, brought to the common unit:
    the smaller whole part wins whatever the remainders *)
Lemma cross_lt : forall a b r1 r2 A B, a < b -> 0 <= r1 < A -> 0 <= r2 < B ->
  (a * A + r1) * B < (b * B + r2) * A.
Proof.
  intros a b r1 r2 A B L H1 H2.
  assert (r1 * B < A * B) by (apply Z.mul_lt_mono_pos_r; lia).
  assert ((a + 1) * (A * B) <= b * (A * B)) by (apply Z.mul_le_mono_nonneg_r; nia).
  assert (0 <= r2 * A) by nia. nia.
Qed.

(** XMLString::compareString on two digit strings = comparison of the fractions 0.a and 0.b *)
Lemma str_cmp_frac : forall a b, all_digits a = true -> all_digits b = true ->
  ((length a < length b)%nat -> last_is b ch_0 = false) ->
  ((length b < length a)%nat -> last_is a ch_0 = false) ->
  Z.sgn (str_cmp a b) = cmp_to_Z (dval a * P10 (length b) ?= dval b * P10 (length a)).
Proof.
  induction a as [|x a IH]; intros b Ha Hb Hab Hba.
  - destruct b as [|y b].
    + reflexivity.
    + cbn [str_cmp]. rewrite all_digits_cons in Hb. pose proof Hb as Hb'. apply andb_prop in Hb. destruct Hb as [Hy Hb].
      assert (0 < dval (y :: b)). { apply dval_pos_trail; [exact Hb'|discriminate|]. apply Hab. cbn [length]. lia. }
      unfold is_digit in Hy. apply andb_prop in Hy. destruct Hy as [Hy _]. apply N.leb_le in Hy.
      rewrite dval_nil. cbn [length]. rewrite P10_0.
      rewrite cmpZ_lt by lia. apply Z.sgn_neg. lia.
  - destruct b as [|y b].
    + cbn [str_cmp]. pose proof Ha as Ha'. apply all_digits_cons_inv in Ha. destruct Ha as [Hx Ha].
      assert (0 < dval (x :: a)). { apply dval_pos_trail; [exact Ha'|discriminate|]. apply Hba. cbn [length]. lia. }
      unfold is_digit in Hx. apply andb_prop in Hx. destruct Hx as [Hx _]. apply N.leb_le in Hx.
      rewrite dval_nil. cbn [length]. rewrite P10_0.
      rewrite cmpZ_gt by lia. apply Z.sgn_pos. lia.
    + cbn [str_cmp]. rewrite all_digits_cons in Ha, Hb.
      apply andb_prop in Ha. destruct Ha as [Hx Ha]. apply andb_prop in Hb. destruct Hb as [Hy Hb].
      rewrite !dval_cons. cbn [length]. rewrite !P10_S.
      pose proof (dval_bounds a Ha) as Ba. pose proof (dval_bounds b Hb) as Bb.
      pose proof (P10_pos (length a)) as Pa. pose proof (P10_pos (length b)) as Pb.
      pose proof (digit_val_range x Hx) as Rx. pose proof (digit_val_range y Hy) as Ry.
      set (A := P10 (length a)) in *. set (B := P10 (length b)) in *.
      set (da := dval a) in *. set (db := dval b) in *.
      (* equal heads cancel; different heads decide by cross_lt *)
      destruct (N.eqb_spec x y) as [E|E].
      * subst y. rewrite IH; [|exact Ha|exact Hb| |].
        -- fold A B da db. f_equal.
           destruct (Z.compare_spec (da * B) (db * A)) as [C|C|C]; symmetry.
           ++ apply Z.compare_eq_iff. nia.
           ++ apply Z.compare_lt_iff. nia.
           ++ apply Z.compare_gt_iff. nia.
        -- intros L. destruct b as [|b0 b]; [cbn [length] in L; lia|]. rewrite <- (last_is_cons x). apply Hab. cbn [length] in *. lia.
        -- intros L. destruct a as [|a0 a]; [cbn [length] in L; lia|]. rewrite <- (last_is_cons x). apply Hba. cbn [length] in *. lia.
      * destruct (N.lt_total x y) as [L|[L|L]]; [|contradiction|].
        -- pose proof (digit_val_lt x y L).
           rewrite cmpZ_lt by (pose proof (cross_lt (digit_val x) (digit_val y) da db A B); lia). apply Z.sgn_neg. lia.
        -- pose proof (digit_val_lt y x L).
           rewrite cmpZ_gt by (pose proof (cross_lt (digit_val y) (digit_val x) db da B A); lia). apply Z.sgn_pos. lia.
Qed.
