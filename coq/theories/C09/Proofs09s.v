(** C09 lemmas, part s: XMLDateTime::validateDateTime (repaired: seconds <= 59) accepts exactly the field ranges of
    Part 2 section 3.2.7 -- the "fields in range" half of the dateTime lexical theorem; the character-level half
    (which strings yield which fields) is tied to the Spec recogniser by the correspondence check only, not proved. *)
From Coq Require Import ZArith Lia ZifyBool.
From XV Require Import C09.Spec09 C09.Spec09c C09.Model09c C09.Proofs09f.
Local Open Scope Z_scope.

(** the field constraints of 3.2.7.1 on parsed (non-negative) fields *)
Definition fields_valid (v : dtv) : Prop :=
  dt_year v <> 0 /\ 1 <= dt_month v <= 12 /\ 1 <= dt_day v <= days_in_month (dt_year v) (dt_month v) /\
  (dt_hour v <= 23 \/ (dt_hour v = 24 /\ dt_min v = 0 /\ dt_sec v = 0 /\ dt_ms_nz v = false)) /\
  dt_min v <= 59 /\ dt_sec v <= 59 /\
  (dt_tzh v < 14 /\ dt_tzm v <= 59 \/ dt_tzh v = 14 /\ dt_tzm v = 0).

Lemma validate_fields : forall v, 0 <= dt_day v -> 0 <= dt_tzh v -> 0 <= dt_tzm v ->
  (dt_validate true v = true <-> fields_valid v /\ 0 <= dt_hour v /\ 0 <= dt_min v /\ 0 <= dt_sec v).
Proof.
  intros [y mo d h mi s ms tzh tzm]. unfold dt_validate, fields_valid.
  cbn [dt_year dt_month dt_day dt_hour dt_min dt_sec dt_ms_nz dt_tzh dt_tzm]. intros D T1 T2.
  rewrite max_day_all_years, (Z.abs_eq _ T1), (Z.abs_eq _ T2). generalize (days_in_month y mo) as dm. intros dm.
  (* field by field: each test of validateDateTime against the range of its own field *)
  assert (Ey : negb (y =? 0) = true <-> y <> 0) by lia.
  assert (Emo : negb ((mo <? 1) || (12 <? mo)) = true <-> 1 <= mo <= 12) by lia.
  assert (Ed : negb ((dm <? d) || (d =? 0)) = true <-> 1 <= d <= dm) by lia.
  assert (Eh : negb ((h <? 0) || (24 <? h) || (h =? 24) && (negb (mi =? 0) || negb (s =? 0) || ms)) = true <->
               (h <= 23 \/ h = 24 /\ mi = 0 /\ s = 0 /\ ms = false) /\ 0 <= h) by (clear; destruct ms; lia).
  assert (Emi : negb ((mi <? 0) || (59 <? mi)) = true <-> mi <= 59 /\ 0 <= mi) by (clear; lia).
  assert (Es : negb ((s <? 0) || (59 <? s)) = true <-> s <= 59 /\ 0 <= s) by (clear; lia).
  assert (Etz : negb ((14 <? tzh) || (tzh =? 14) && negb (tzm =? 0)) = true /\ negb (59 <? tzm) = true <->
                tzh < 14 /\ tzm <= 59 \/ tzh = 14 /\ tzm = 0) by (clear; lia).
  rewrite <- !Bool.andb_assoc, !Bool.andb_true_iff, Ey, Emo, Ed, Eh, Emi, Es, Etz. split.
  - intros [Hy [[Hmo1 Hmo2] [[Hd1 Hd2] [[Hh Hh0] [[Hmi Hmi0] [[Hs Hs0] Htz]]]]]]. repeat split; assumption.
  - intros [[Hy [[Hmo1 Hmo2] [[Hd1 Hd2] [Hh [Hmi [Hs Htz]]]]]] [Hh0 [Hmi0 Hs0]]]. repeat split; assumption.
Qed.

(** finding F11: with fix11 = false, second = 60 passes validateDateTime *)
Lemma validate_f11 : dt_validate false (mkDT 2000 1 1 0 0 60 false 0 0) = true /\ dt_validate true (mkDT 2000 1 1 0 0 60 false 0 0) = false.
Proof. split; reflexivity. Qed.

