(** C09 lemmas, part t: xs:date -- XMLDateTime::parseDate (index based: indexOf, parseInt, getTimeZone,
    validateDateTime) accepts exactly the lexical space of 3.2.9.1 with its field constraints, for every string of
    code units whose year has at most 9 digits. *)
From Coq Require Import ZArith Lia ZifyBool.
From XV Require Import C09.Spec09 C09.Spec09c C09.Spec09g C09.Model09 C09.Model09c C09.Model09g C09.Proofs09b C09.Proofs09c C09.Proofs09f C09.Proofs09s.
Local Open Scope N_scope.
(* The lia calls of this file are about lengths and digit values only.  ZifyBool (needed for validate_date only) makes lia
   split on every boolean hypothesis and boolean goal in sight; that is switched off here and on again at the end. *)
Ltac Zify.zify_post_hook ::= idtac.

Lemma at_app : forall (pre l : list N) j, at_ (pre ++ l) (length pre + j) = at_ l j.
Proof. intros. unfold at_. rewrite app_nth2 by lia. f_equal. lia. Qed.
Lemma at_app0 : forall (pre l : list N), at_ (pre ++ l) (length pre) = at_ l 0.
Proof. intros. rewrite <- (Nat.add_0_r (length pre)) at 1. apply at_app. Qed.
Lemma at_head : forall (pre : list N) c l, at_ (pre ++ c :: l) (length pre) = c.
Proof. intros. apply at_app0. Qed.
(** one step of a scan that has reached index [length pre]: the character read joins the prefix *)
Lemma snoc_step : forall (pre : list N) c l, pre ++ c :: l = (pre ++ [c]) ++ l /\ S (length pre) = length (pre ++ [c]).
Proof. intros. rewrite <- app_assoc, app_length. split; [reflexivity|cbn [length]; lia]. Qed.

(** parseInt over a run of digits that sits at offset [length pre] *)
Lemma parse_uint_digits : forall ds pre rest acc, all_digits ds = true ->
  parse_uint (pre ++ ds ++ rest) (length pre) (length ds) acc =
  Some (fold_left (fun a c => ((a * 10 + digit_val c) mod 4294967296)%Z) ds acc).
Proof.
  induction ds as [|c r IH]; intros pre rest acc H; [reflexivity|].
  apply all_digits_cons_inv in H. destruct H as [Hc Hr].
  cbn [length parse_uint fold_left app]. rewrite at_head, Hc. cbn [negb].
  destruct (snoc_step pre c (r ++ rest)) as [-> ->].
  apply IH. exact Hr.
Qed.

(** ... and it fails as soon as the range contains a non-digit *)
Lemma parse_uint_bad : forall ds pre x rest k acc, all_digits ds = true -> is_digit x = false -> (length ds < k)%nat ->
  parse_uint (pre ++ ds ++ x :: rest) (length pre) k acc = None.
Proof.
  induction ds as [|c r IH]; intros pre x rest k acc H Hx L.
  - destruct k; [cbn in L; lia|]. cbn [parse_uint app]. rewrite at_head, Hx. reflexivity.
  - apply all_digits_cons_inv in H. destruct H as [Hc Hr].
    destruct k; [cbn in L; lia|]. cbn [parse_uint app]. rewrite at_head, Hc. cbn [negb].
    destruct (snoc_step pre c (r ++ x :: rest)) as [-> ->].
    apply IH; [exact Hr|exact Hx|cbn [length] in L; lia].
Qed.

(** indexOf over a run of digits followed by the separator *)
Lemma index_of_digits : forall ds pre rest k, all_digits ds = true -> (length ds < k)%nat ->
  index_of (pre ++ ds ++ ch_minus :: rest) (length pre) k ch_minus = Some (length pre + length ds)%nat.
Proof.
  induction ds as [|c r IH]; intros pre rest k H L.
  - destruct k; [cbn in L; lia|]. cbn [index_of app]. rewrite at_head. cbn. f_equal. lia.
  - apply all_digits_cons_inv in H. destruct H as [Hc Hr].
    destruct k; [cbn in L; lia|]. cbn [index_of app]. rewrite at_head.
    destruct (digit_not_sign c Hc) as [Nm _].
    destruct (snoc_step pre c (r ++ ch_minus :: rest)) as [-> ->].
    rewrite Nm. rewrite IH by (try exact Hr; cbn [length] in L; lia). rewrite app_length. cbn [length]. f_equal. lia.
Qed.

Lemma parse_int_two : forall b s,
  parse_int b s (s + 2) =
  if is_digit (at_ b s) && is_digit (at_ b (S s)) then Some (digit_val (at_ b s) * 10 + digit_val (at_ b (S s)))%Z else None.
Proof.
  intros b s. unfold parse_int. replace (s + 2 - s)%nat with 2%nat by lia. cbn [parse_uint].
  destruct (is_digit (at_ b s)) eqn:D1; cbn [negb andb]; [|reflexivity].
  destruct (is_digit (at_ b (S s))) eqn:D2; cbn [negb]; [|reflexivity].
  pose proof (digit_val_range _ D1). pose proof (digit_val_range _ D2).
  f_equal. unfold to_int32. rewrite (Z.mod_small (0 * 10 + digit_val (at_ b s))), Z.mod_small by lia.
  destruct (Z.ltb_spec ((0 * 10 + digit_val (at_ b s)) * 10 + digit_val (at_ b (S s))) 2147483648); lia.
Qed.

Lemma fold_is_dval : forall ds acc, all_digits ds = true -> (0 <= acc)%Z ->
  (acc * P10 (length ds) + dval ds < 4294967296)%Z ->
  fold_left (fun a c => ((a * 10 + digit_val c) mod 4294967296)%Z) ds acc = (acc * P10 (length ds) + dval ds)%Z.
Proof.
  induction ds as [|c r IH]; intros acc H A B; cbn [fold_left length].
  - rewrite P10_0, dval_nil. lia.
  - apply all_digits_cons_inv in H. destruct H as [Hc Hr].
    pose proof (digit_val_range c Hc) as R. pose proof (dval_bounds r Hr) as Br. pose proof (P10_pos (length r)) as Pp.
    cbn [length] in B. rewrite P10_S, dval_cons in B.
    assert (S1 : (acc * 10 + digit_val c < 4294967296)%Z) by nia.
    rewrite Z.mod_small by lia. rewrite IH; [rewrite P10_S, dval_cons; ring|exact Hr|lia|].
    replace ((acc * 10 + digit_val c) * P10 (length r) + dval r)%Z with (acc * (10 * P10 (length r)) + (digit_val c * P10 (length r) + dval r))%Z by ring. exact B.
Qed.

(** parseInt on a run of at most nine digits reads its decimal value (no wrap-around in a C int) *)
Lemma parse_int_digits : forall ds pre rest, all_digits ds = true -> (length ds <= 9)%nat ->
  parse_int (pre ++ ds ++ rest) (length pre) (length pre + length ds) = Some (dval ds).
Proof.
  intros ds pre rest Hd H9. unfold parse_int. replace (length pre + length ds - length pre)%nat with (length ds) by lia.
  rewrite (parse_uint_digits ds pre rest 0%Z Hd).
  pose proof (dval_bounds _ Hd) as Bd. assert (P9 : (P10 (length ds) <= P10 9)%Z) by (apply P10_le; exact H9).
  assert (P9v : P10 9 = 1000000000%Z) by reflexivity.
  rewrite fold_is_dval by (try exact Hd; lia). unfold to_int32.
  destruct (Z.ltb_spec (0 * P10 (length ds) + dval ds) 2147483648); f_equal; lia.
Qed.

Definition isSome {A} (o : option A) : bool := match o with Some _ => true | None => false end.

(** the Spec's conditions on what follows the year *)
Definition date_rest_spec (year : Z) (l2 : list N) : bool :=
  match field ch_minus l2 with
  | Some (mo, l3) =>
    match field ch_minus l3 with
    | Some (d, l4) => ((1 <=? mo) && (mo <=? 12) && (1 <=? d) && (d <=? days_in_month year mo))%Z && tz_lex l4
    | None => false end
  | None => false end.

Lemma validate_date : forall year mo d tzh tzm, (0 <= d -> 0 <= tzh -> 0 <= tzm ->
  dt_validate true (mkDT year mo d 0 0 0 false tzh tzm) =
  negb (year =? 0) && ((1 <=? mo) && (mo <=? 12) && (1 <=? d) && (d <=? days_in_month year mo)) &&
  ((tzh <? 14) && (tzm <=? 59) || (tzh =? 14) && (tzm =? 0)))%Z.
Proof.
  intros year mo d tzh tzm D T1 T2. apply Bool.eq_iff_eq_true.
  rewrite (validate_fields (mkDT year mo d 0 0 0 false tzh tzm) D T1 T2). unfold fields_valid.
  cbn [dt_year dt_month dt_day dt_hour dt_min dt_sec dt_ms_nz dt_tzh dt_tzm].
  generalize (days_in_month year mo) as dm. intros dm. clear. lia.
Qed.

(** a zone that is not 'Z' has six characters *)
Lemma tz_lex_len : forall c z, (c =? 0x5A) = false -> tz_lex (c :: z) = true -> length z = 5%nat.
Proof.
  intros c [|a z] Hc H; [cbn [tz_lex] in H; congruence|].
  apply andb_prop in H. destruct H as [_ H]. unfold field, expect, two_digits in H.
  destruct z as [|b [|c3 [|d [|e [|f z']]]]]; cbn [length]; try reflexivity; exfalso;
    repeat match type of H with context [if ?x then _ else _] => destruct x end; discriminate.
Qed.

(** getTimeZone against zzzzzz of the Spec *)
Lemma date_zone_spec : forall pre z,
  match date_zone (pre ++ z) (length pre) with
  | Some (h, m) => (0 <= h <= 99 /\ 0 <= m <= 99)%Z /\ tz_lex z = ((h <? 14) && (m <=? 59) || (h =? 14) && (m =? 0))%Z
  | None => tz_lex z = false
  end.
Proof.
  intros pre z. unfold date_zone, bind. rewrite app_length.
  destruct z as [|c z].
  { (* no zone *) cbn [length]. destruct (Nat.ltb_spec (length pre) (length pre + 0)); [lia|]. split; [lia|reflexivity]. }
  cbn [length]. destruct (Nat.ltb_spec (length pre) (length pre + S (length z))); [|lia].
  rewrite at_app0. change (at_ (c :: z) 0) with c.
  destruct (N.eqb_spec c 0x5A) as [Ez|Ez].
  - subst c. cbn [orb negb]. destruct z as [|x z].
    + (* "Z" *) cbn [length]. destruct (Nat.eqb_spec (S (length pre)) (length pre + 1)); [|lia]. cbn [negb]. split; [lia|reflexivity].
    + (* 'Z' followed by more *)
      cbn [length]. destruct (Nat.eqb_spec (S (length pre)) (length pre + S (S (length z)))); [lia|]. cbn [negb]. reflexivity.
  - cbn [orb]. destruct ((c =? ch_plus) || (c =? ch_minus)) eqn:Sg; cbn [orb negb].
    2:{ (* neither 'Z' nor a sign *) unfold tz_lex. destruct z; [apply N.eqb_neq; exact Ez|]. rewrite Sg. reflexivity. }
    destruct (Nat.eqb_spec (length pre + 6) (length pre + S (length z))) as [L6|L6]; cbn [negb orb].
    2:{ (* a sign, but not six characters *)
        destruct (tz_lex (c :: z)) eqn:T; [|reflexivity]. apply tz_lex_len in T; [lia|apply N.eqb_neq; exact Ez]. }
    (* sign h h : m m *)
    destruct z as [|a [|b [|c3 [|d [|e [|f z']]]]]]; cbn [length] in L6; try lia.
    assert (P : forall bb, parse_int bb (length pre + 4) (length pre + 6) = parse_int bb (length pre + 4) (length pre + 4 + 2)) by (intros; f_equal; lia).
    rewrite P, !parse_int_two.
    replace (S (length pre + 1)) with (length pre + 2)%nat by lia. replace (S (length pre + 4)) with (length pre + 5)%nat by lia.
    rewrite !at_app. unfold at_. cbn [nth].
    unfold tz_lex, two_digits, field, expect. rewrite Sg. cbn [andb].
    destruct (c3 =? 58) eqn:E58; cbn [negb].
    + destruct (is_digit a) eqn:Da; destruct (is_digit b) eqn:Db; cbn [andb]; rewrite ?E58, ?Da, ?Db; cbn [andb]; try reflexivity.
      destruct (is_digit d) eqn:Dd; destruct (is_digit e) eqn:De; cbn [andb]; unfold two_digits; rewrite ?Dd, ?De; cbn [andb]; try reflexivity.
      pose proof (digit_val_range a Da). pose proof (digit_val_range b Db). pose proof (digit_val_range d Dd). pose proof (digit_val_range e De).
      split; [lia|reflexivity].
    + destruct (is_digit a && is_digit b); rewrite ?E58; reflexivity.
Qed.

Lemma isSome_if : forall (A : Type) (c : bool) (x : A), isSome (if c then Some x else None) = c.
Proof. intros A [] x; reflexivity. Qed.

Lemma rest_spec_len : forall y l3, date_rest_spec y (ch_minus :: l3) = true -> (5 <= length l3)%nat.
Proof.
  intros y l3 H. unfold date_rest_spec, field, expect, two_digits in H. cbn [N.eqb ch_minus Pos.eqb] in H.
  destruct l3 as [|a [|b [|c [|d [|e z]]]]]; cbn [length]; try lia; exfalso;
    repeat match type of H with context [if ?x then _ else _] => destruct x end; discriminate.
Qed.

(** a date needs five characters after the separator that ends the year, in the Spec (rest_spec_len) and in the code:
    the second digit of the day is read five places after the separator, and a read
    beyond the end of the buffer sees the terminator, which is no digit *)
Lemma date_rest_len : forall b ysep year, isSome (date_rest true b ysep year) = true -> (ysep + 5 < length b)%nat.
Proof.
  intros b ysep year H. unfold date_rest, bind in H.
  destruct (length b <? ysep + 3)%nat; [discriminate|]. destruct (parse_int b (ysep + 1) (ysep + 1 + 2)); [|discriminate].
  destruct (negb (at_ b (ysep + 3) =? ch_minus)); [discriminate|].
  destruct (parse_int b (ysep + 4) (ysep + 4 + 2)) eqn:P; [|discriminate]. rewrite parse_int_two in P.
  destruct (Nat.lt_ge_cases (ysep + 5) (length b)) as [L|G]; [exact L|].
  unfold at_ in P. rewrite (nth_overflow b 0 (n := S (ysep + 4))), Bool.andb_false_r in P by lia. discriminate.
Qed.

Lemma date_rest_ok : forall sgn yd l3 year,
  isSome (date_rest true (sgn ++ yd ++ ch_minus :: l3) (length sgn + length yd) year) =
  negb (year =? 0)%Z && date_rest_spec year (ch_minus :: l3).
Proof.
  intros sgn yd l3 year. rewrite app_assoc, <- app_length. generalize (sgn ++ yd) as pre. intros pre. destruct (Nat.lt_ge_cases (length l3) 5) as [Sh|Lg].
  { (* too short for a month and a day, on both sides *)
    destruct (isSome (date_rest true (pre ++ ch_minus :: l3) (length pre) year)) eqn:M.
    - apply date_rest_len in M. rewrite app_length in M. cbn [length] in M. lia.
    - destruct (date_rest_spec year (ch_minus :: l3)) eqn:R; [apply rest_spec_len in R; lia|]. rewrite Bool.andb_false_r. reflexivity. }
  unfold date_rest, bind. rewrite !parse_int_two, app_length. cbn [length].
  replace (S (length pre + 1)) with (length pre + 2)%nat by lia. replace (S (length pre + 4)) with (length pre + 5)%nat by lia.
  rewrite !at_app. unfold date_rest_spec, field, expect. cbn [N.eqb ch_minus Pos.eqb].
  destruct l3 as [|m1 [|m2 [|s2 [|d1 [|d2 z]]]]]; cbn [length] in Lg |- *; try lia.
  destruct (Nat.ltb_spec (length pre + S (S (S (S (S (S (length z))))))) (length pre + 3)); [lia|].
  unfold at_. cbn [nth]. unfold two_digits.
  destruct (is_digit m1) eqn:M1; destruct (is_digit m2) eqn:M2; cbn [andb]; try (rewrite Bool.andb_false_r; reflexivity).
  destruct (s2 =? ch_minus) eqn:S2; cbn [negb]; [|rewrite Bool.andb_false_r; reflexivity].
  destruct (is_digit d1) eqn:D1; destruct (is_digit d2) eqn:D2; cbn [andb]; try (rewrite Bool.andb_false_r; reflexivity).
  pose proof (digit_val_range d1 D1) as Rd1. pose proof (digit_val_range d2 D2) as Rd2.
  pose proof (date_zone_spec (pre ++ [ch_minus; m1; m2; s2; d1; d2]) z) as Zn.
  rewrite <- app_assoc in Zn. cbn [app] in Zn. rewrite app_length in Zn. cbn [length] in Zn.
  change (45 :: m1 :: m2 :: s2 :: d1 :: d2 :: z) with (ch_minus :: m1 :: m2 :: s2 :: d1 :: d2 :: z).
  destruct (date_zone (pre ++ ch_minus :: m1 :: m2 :: s2 :: d1 :: d2 :: z) (length pre + 6)) as [[h m]|].
  - destruct Zn as [[Rh Rm] Tz]. cbn [fst snd]. rewrite isSome_if, validate_date by (clear - Rd1 Rd2 Rh Rm; lia). rewrite Tz.
    destruct (year =? 0)%Z; reflexivity.
  - rewrite Zn. rewrite !Bool.andb_false_r. reflexivity.
Qed.

Lemma index_of_ge : forall k b s c p, index_of b s k c = Some p -> (s <= p)%nat.
Proof.
  induction k as [|k IH]; intros b s c p H; [discriminate|]. cbn [index_of] in H.
  destruct (at_ b s =? c); [inversion H; lia|]. apply IH in H. lia.
Qed.

Lemma index_of_skip : forall ds pre x rest k p, all_digits ds = true -> x <> ch_minus ->
  index_of (pre ++ ds ++ x :: rest) (length pre) k ch_minus = Some p -> (length pre + length ds < p)%nat.
Proof.
  induction ds as [|c r IH]; intros pre x rest k p H Hx E.
  - destruct k; [discriminate|]. cbn [index_of app] in E. rewrite at_head in E.
    destruct (N.eqb_spec x ch_minus); [contradiction|]. apply index_of_ge in E. cbn [length]. lia.
  - apply all_digits_cons_inv in H. destruct H as [Hc Hr].
    destruct k; [discriminate|]. cbn [index_of app] in E. rewrite at_head in E.
    destruct (digit_not_sign c Hc) as [Nm _]. rewrite Nm in E.
    destruct (snoc_step pre c (r ++ x :: rest)) as [S1 S2]. rewrite S1, S2 in E.
    apply IH in E; [|exact Hr|exact Hx]. rewrite app_length in E. cbn [length] in *. lia.
Qed.

Lemma index_of_digits_none : forall ds pre k, all_digits ds = true ->
  index_of (pre ++ ds) (length pre) k ch_minus = None.
Proof.
  induction ds as [|c r IH]; intros pre k H.
  - rewrite app_nil_r. revert pre. induction k as [|k IHk]; intros pre; [reflexivity|]. cbn [index_of].
    unfold at_. rewrite nth_overflow by lia. cbn. 
    assert (G : forall s, (length pre <= s)%nat -> index_of pre s k ch_minus = None).
    { clear. induction k as [|k IHk]; intros s Hs; [reflexivity|]. cbn [index_of]. unfold at_. rewrite nth_overflow by lia. cbn. apply IHk. lia. }
    apply G. lia.
  - apply all_digits_cons_inv in H. destruct H as [Hc Hr].
    destruct k; [reflexivity|]. cbn [index_of app]. rewrite at_head.
    destruct (digit_not_sign c Hc) as [Nm _]. rewrite Nm.
    destruct (snoc_step pre c (r)) as [-> ->].
    apply IH. exact Hr.
Qed.

(** the code's test "more than four year digits and a leading 0" is the negation of the Spec's "exactly four or no leading 0" *)
Lemma lead_zero_test : forall n (z : bool), (4 <= n)%nat -> (4 <? n)%nat && z = negb ((n =? 4)%nat || negb z).
Proof. intros n z H. destruct (Nat.ltb_spec 4 n); destruct (Nat.eqb_spec n 4); try lia; destruct z; reflexivity. Qed.

Definition date_body (neg : bool) (b : list N) : option dtv :=
  let fEnd := length b in
  if (fEnd <? 10)%nat then None else
  let start := if neg then 1%nat else 0%nat in
  bind (index_of b start (fEnd - start) ch_minus) (fun ysep =>
  let ylen := (ysep - start)%nat in
  if (ylen <? 4)%nat then None else
  if (4 <? ylen)%nat && (at_ b start =? ch_0) then None else
  bind (parse_int b start ysep) (fun yv =>
  date_rest true b ysep (if neg then -1 * yv else yv)%Z)).

Definition year_spec (neg : bool) (yd l2 : list N) : bool :=
  (4 <=? length yd)%nat && ((length yd =? 4)%nat || negb (first_is yd ch_0)) && negb (dval yd =? 0)%Z &&
  date_rest_spec (if neg then - dval yd else dval yd)%Z l2.

Lemma date_body_spec : forall (sgn l1 : list N) (neg : bool), length sgn = (if neg then 1 else 0)%nat ->
  (length (fst (span_digits l1)) <= 9)%nat ->
  isSome (date_body neg (sgn ++ l1)) = year_spec neg (fst (span_digits l1)) (snd (span_digits l1)).
Proof.
  intros sgn l1 neg Hs H9. destruct (span_digits_spec l1) as [E [Dy Hd]].
  set (yd := fst (span_digits l1)) in *. set (l2 := snd (span_digits l1)) in *. clearbody yd l2. subst l1.
  unfold date_body, year_spec, bind. rewrite <- Hs. rewrite !app_length.
  destruct (Nat.ltb_spec (length sgn + (length yd + length l2)) 10) as [Short|Long].
  - (* fewer than 10 characters: not in the lexical space either *)
    cbn [isSome]. symmetry. destruct (Nat.leb_spec 4 (length yd)); [|reflexivity]. cbn [andb].
    destruct (date_rest_spec _ l2) eqn:R; [|rewrite !Bool.andb_false_r; reflexivity]. exfalso.
    unfold date_rest_spec, field, expect in R. destruct l2 as [|x l3]; [discriminate|].
    destruct (N.eqb_spec x ch_minus); [|discriminate]. subst x.
    assert (R' : date_rest_spec (if neg then - dval yd else dval yd)%Z (ch_minus :: l3) = true) by exact R.
    apply rest_spec_len in R'. cbn [length] in Short. lia.
  - replace (length sgn + (length yd + length l2) - length sgn)%nat with (length yd + length l2)%nat by lia.
    destruct l2 as [|x l3].
    + (* nothing after the digits *)
      rewrite app_nil_r. rewrite (index_of_digits_none yd sgn _ Dy). cbn [isSome]. unfold date_rest_spec, field, expect. rewrite !Bool.andb_false_r. reflexivity.
    + destruct (N.eqb_spec x ch_minus) as [Ex|Ex].
      * (* the separator follows the digits *)
        subst x. rewrite (index_of_digits yd sgn l3 _ Dy) by (cbn [length]; lia).
        replace (length sgn + length yd - length sgn)%nat with (length yd) by lia.
        destruct (Nat.ltb_spec (length yd) 4) as [Y4|Y4].
        { cbn [isSome]. destruct (Nat.leb_spec 4 (length yd)); [lia|reflexivity]. }
        destruct (Nat.leb_spec 4 (length yd)); [|lia]. cbn [andb].
        rewrite at_app0. destruct yd as [|y0 yd']; [cbn in Y4; lia|]. cbn [app]. unfold at_ at 1. cbn [nth first_is].
        rewrite (lead_zero_test _ (y0 =? ch_0) Y4). destruct ((length (y0 :: yd') =? 4)%nat || negb (y0 =? ch_0)); cbn [negb andb isSome]; [|reflexivity].
        change (sgn ++ y0 :: yd' ++ ch_minus :: l3) with (sgn ++ (y0 :: yd') ++ ch_minus :: l3).
        rewrite (parse_int_digits (y0 :: yd') sgn (ch_minus :: l3) Dy H9).
        rewrite date_rest_ok.
        replace (-1 * dval (y0 :: yd'))%Z with (- dval (y0 :: yd'))%Z by lia.
        destruct neg; [|reflexivity]. f_equal. destruct (Z.eqb_spec (dval (y0 :: yd')) 0); destruct (Z.eqb_spec (- dval (y0 :: yd')) 0); try lia; reflexivity.
      * (* some other character follows the digits: whatever '-' is found later, the year range contains a non-digit *)
        assert (RHS : date_rest_spec (if neg then - dval yd else dval yd)%Z (x :: l3) = false).
        { unfold date_rest_spec, field, expect. destruct (N.eqb_spec x ch_minus); [contradiction|reflexivity]. }
        rewrite RHS, Bool.andb_false_r.
        destruct (index_of (sgn ++ yd ++ x :: l3) (length sgn) (length yd + length (x :: l3)) ch_minus) as [p|] eqn:I; [|reflexivity].
        pose proof (index_of_skip yd sgn x l3 _ p Dy Ex I) as Far.
        destruct (p - length sgn <? 4)%nat; [reflexivity|].
        destruct ((4 <? p - length sgn)%nat && (at_ (sgn ++ yd ++ x :: l3) (length sgn) =? ch_0)); [reflexivity|].
        unfold parse_int. rewrite (parse_uint_bad yd sgn x l3 (p - length sgn) 0%Z Dy Hd) by lia. reflexivity.
Qed.

Definition year_digits (b : list N) : nat :=
  length (fst (span_digits (match b with c :: r => if c =? ch_minus then r else b | [] => [] end))).

Lemma date_ok_lex : forall b, (year_digits b <= 9)%nat -> date_ok true b = date_lex b.
Proof.
  intros b H. unfold date_ok. destruct b as [|c0 b0]; [reflexivity|].
  change (date_parse true (c0 :: b0)) with (date_body (c0 =? ch_minus) (c0 :: b0)).
  unfold date_lex, year_digits in *. destruct (N.eqb_spec c0 ch_minus) as [E|E].
  - subst c0. pose proof (date_body_spec [ch_minus] b0 true eq_refl H) as Sc. cbn [app] in Sc.
    fold (isSome (date_body true (ch_minus :: b0))). rewrite Sc. unfold year_spec.
    destruct (span_digits b0) as [yd l2]. cbn [fst snd]. reflexivity.
  - pose proof (date_body_spec [] (c0 :: b0) false eq_refl H) as Sc. cbn [app] in Sc.
    fold (isSome (date_body false (c0 :: b0))). rewrite Sc. unfold year_spec.
    destruct (span_digits (c0 :: b0)) as [yd l2]. cbn [fst snd]. reflexivity.
Qed.

Ltac Zify.zify_post_hook ::= ZifyBool.elim_bool_cstr.
