(** Lemmas for C16, part a: list/number helpers, the joint store/load step invariant, primitives. *)
From XV Require Import Base.XDefs C16.Model16 C16.Spec16.
From Coq Require Import Arith Lia.
Local Open Scope nat_scope.

Lemma firstn_app_exact : forall (A : Type) (a b : list A), firstn (length a) (a ++ b) = a.
Proof. induction a as [|x a IH]; intros b; cbn [length firstn app]; [destruct b; reflexivity|]. now rewrite IH. Qed.
Lemma skipn_app_exact : forall (A : Type) (a b : list A), skipn (length a) (a ++ b) = b.
Proof. induction a as [|x a IH]; intros b; cbn [length skipn app]; [reflexivity|]. apply IH. Qed.

Lemma app_eq_len : forall (A : Type) (a c b d : list A), length a = length c -> a ++ b = c ++ d -> a = c /\ b = d.
Proof.
  induction a as [|x a IH]; intros [|y c] b d Hl He; cbn in *; try discriminate.
  - split; [reflexivity|exact He].
  - injection He as -> He. destruct (IH c b d) as [-> ->]; [lia|exact He|]. split; reflexivity.
Qed.

Lemma app_prefix_split : forall (A : Type) (a c b d : list A), length a <= length c -> c ++ d = a ++ b ->
  exists x, c = a ++ x /\ b = x ++ d.
Proof.
  induction a as [|y a IH]; intros c b d Hl He; cbn in *.
  - exists c. split; [reflexivity|]. symmetry. exact He.
  - destruct c as [|z c]; cbn in *; [lia|]. injection He as -> He.
    destruct (IH c b d) as [x [-> ->]]; [lia|exact He|]. exists x. split; reflexivity.
Qed.

Lemma skipn_firstn_glue : forall (A : Type) (l : list A) n m, n <= m -> skipn n (firstn m l) ++ skipn m l = skipn n l.
Proof.
  induction l as [|x l IH]; intros n m H.
  - now rewrite firstn_nil, !skipn_nil.
  - destruct n as [|n].
    + cbn [skipn]. apply firstn_skipn.
    + destruct m as [|m]; [lia|]. cbn [firstn skipn]. apply IH. lia.
Qed.

Lemma firstn_firstn_le : forall (A : Type) (l : list A) n m, n <= m -> firstn n (firstn m l) = firstn n l.
Proof. intros. rewrite firstn_firstn. now rewrite Nat.min_l. Qed.

Lemma zeros_length : forall n, length (zeros n) = n.
Proof. intros. apply repeat_length. Qed.

Lemma le_bytes_length : forall k v, length (le_bytes k v) = k.
Proof. induction k as [|k IH]; intros v; cbn [le_bytes length]; [reflexivity|]. now rewrite IH. Qed.

Lemma firstn_le : forall k v x, firstn k (le_bytes k v ++ x) = le_bytes k v.
Proof. intros k v x. pose proof (firstn_app_exact _ (le_bytes k v) x) as H. rewrite le_bytes_length in H. exact H. Qed.
Lemma skipn_le : forall k v x, skipn k (le_bytes k v ++ x) = x.
Proof. intros k v x. pose proof (skipn_app_exact _ (le_bytes k v) x) as H. rewrite le_bytes_length in H. exact H. Qed.
Lemma skipn_zeros : forall n (x : list N), skipn n (zeros n ++ x) = x.
Proof. intros n x. pose proof (skipn_app_exact _ (zeros n) x) as H. rewrite zeros_length in H. exact H. Qed.

Lemma le_val_bytes : forall k v, (v < 256 ^ N.of_nat k)%N -> le_val (le_bytes k v) = v.
Proof.
  induction k as [|k IH]; intros v H.
  - cbn [le_bytes le_val]. change (256 ^ N.of_nat 0)%N with 1%N in H. lia.
  - cbn [le_bytes le_val]. rewrite IH.
    + pose proof (N.div_mod v 256). lia.
    + rewrite Nat2N.inj_succ, N.pow_succ_r' in H. apply N.div_lt_upper_bound; lia.
Qed.

Lemma le_bytes_bytes : forall k v, bytes (le_bytes k v).
Proof.
  induction k as [|k IH]; intros v; cbn [le_bytes]; constructor.
  - unfold is_byte. pose proof (N.mod_upper_bound v 256). lia.
  - apply IH.
Qed.

Lemma pk_bound_pow : forall k, pk_bound k = (256 ^ N.of_nat (pk_size k))%N.
Proof. destruct k; vm_compute; reflexivity. Qed.

Lemma chars_bytes_length : forall cs, length (chars_bytes cs) = 2 * length cs.
Proof.
  unfold chars_bytes. induction cs as [|c cs IH]; [reflexivity|].
  cbn [flat_map]. rewrite app_length, le_bytes_length, IH. cbn [length]. lia.
Qed.

Lemma bytes_chars_cons : forall c rest,
  bytes_chars (le_bytes 2 c ++ rest) = (c mod 256 + 256 * ((c / 256) mod 256))%N :: bytes_chars rest.
Proof. intros. reflexivity. Qed.

Lemma bytes_chars_bytes : forall cs, Forall (fun c => (c < 65536)%N) cs -> bytes_chars (chars_bytes cs) = cs.
Proof.
  unfold chars_bytes. induction cs as [|c cs IH]; intros H; [reflexivity|].
  inversion H as [|? ? Hc Hr]; subst.
  cbn [flat_map]. rewrite bytes_chars_cons, (IH Hr). f_equal.
  set (q := (c / 256)%N). assert (Hq : (q < 256)%N) by (apply N.div_lt_upper_bound; lia).
  rewrite (N.mod_small q 256) by lia. pose proof (N.div_mod c 256) as Hd. fold q in Hd. lia.
Qed.

Definition L (w : wst) : list N := w_out w ++ w_buf w.        (* logical stream written so far *)
Definition R (r : rst) : list N := r_cur r ++ r_inp r.        (* logical stream still to be read *)

Section Engine.
Variable bs : nat.
Hypothesis Hbs : 0 < bs.

Definition inv_w (w : wst) : Prop := length (w_buf w) <= bs /\ exists k, length (w_out w) = k * bs.
Definition inv_r (r : rst) : Prop := length (r_cur r) <= bs /\ exists k, length (r_inp r) = k * bs.

(** buffer offsets of the two sides agree, or the storing side stands at the start of a fresh buffer while the
    loading side stands at the end of the consumed one *)
Definition psync (pw pr : nat) : Prop := pw = pr \/ (pw = 0 /\ pr = bs).

(** a store action and the matching load action: whatever the store action appends to the logical stream ([e]) is
    consumed exactly by the load action, which returns [a]; the invariants and the offset agreement are kept *)
Definition step_ok {A : Type} (wf : wst -> res wst serr) (rf : rst -> res (A * rst) serr) (a : A) : Prop :=
  forall w, inv_w w -> exists w' e, wf w = Ok w' /\ inv_w w' /\ L w' = L w ++ e /\
    forall r T, inv_r r -> psync (length (w_buf w)) (bs - length (r_cur r)) -> R r = e ++ T ->
      exists r', rf r = Ok (a, r') /\ R r' = T /\ inv_r r' /\ psync (length (w_buf w')) (bs - length (r_cur r')).

Lemma step_then : forall (A B : Type) wf (rf : rst -> res (A * rst) serr) a (rf' : rst -> res (B * rst) serr) b,
  step_ok wf rf a -> (forall r r1, rf r = Ok (a, r1) -> rf' r = Ok (b, r1)) -> step_ok wf rf' b.
Proof.
  intros A B wf rf a rf' b St Hrf w Hw. destruct (St w Hw) as [w' [e [E1 [E2 [E3 E4]]]]].
  exists w', e. split; [exact E1|]. split; [exact E2|]. split; [exact E3|].
  intros r T Hr Hps HR. destruct (E4 r T Hr Hps HR) as [r' [F1 F]]. exists r'. split; [exact (Hrf r r' F1)|exact F].
Qed.

(** two store actions in a row, read by a reader that delivers [c] once [rf1] has delivered [a] and [rf2] then [b] *)
Lemma step_seq : forall (A B C : Type) wf1 (rf1 : rst -> res (A * rst) serr) a wf2 (rf2 : rst -> res (B * rst) serr) b
    (rf : rst -> res (C * rst) serr) c,
  step_ok wf1 rf1 a -> step_ok wf2 rf2 b ->
  (forall r r1 r2, rf1 r = Ok (a, r1) -> rf2 r1 = Ok (b, r2) -> rf r = Ok (c, r2)) ->
  step_ok (fun w => bind (wf1 w) wf2) rf c.
Proof.
  intros A B C wf1 rf1 a wf2 rf2 b rf c S1 S2 Hrf w Hw.
  destruct (S1 w Hw) as [w1 [e1 [E1 [E2 [E3 E4]]]]]. destruct (S2 w1 E2) as [w2 [e2 [G1 [G2 [G3 G4]]]]].
  exists w2, (e1 ++ e2). split; [rewrite E1; exact G1|]. split; [exact G2|]. split; [rewrite G3, E3; now rewrite app_assoc|].
  intros r T Hr Hps HR. rewrite <- app_assoc in HR.
  destruct (E4 r (e2 ++ T) Hr Hps HR) as [r1 [F1 [F2 [F3 F4]]]]. destruct (G4 r1 T F3 F4 F2) as [r2 [K1 K]].
  exists r2. split; [exact (Hrf r r1 r2 F1 K1)|exact K].
Qed.

Lemma align_adj_0 : forall size, 0 < size -> align_adj 0 size = 0.
Proof. intros size H. unfold align_adj. rewrite Nat.mod_0_l by lia. reflexivity. Qed.

(** no padding at the start of a buffer, aligned or not *)
Lemma prim_adj_0 : forall (al : bool) size, 0 < size -> (if al then align_adj 0 size else 0) = 0.
Proof. intros al size H. destruct al; [apply align_adj_0; exact H|reflexivity]. Qed.

Lemma fill_ok : forall r k, length (r_inp r) = k * bs -> 0 < k ->
  r_fill bs r = Ok (mkR (firstn bs (r_inp r)) (skipn bs (r_inp r))).
Proof.
  intros r k Hk Hpos. unfold r_fill. destruct (length (r_inp r) <? bs) eqn:C; [|reflexivity].
  apply Nat.ltb_lt in C. nia.
Qed.

(** the loading side starts a new buffer for a primitive: the value is at the head of the undelivered input *)
Lemma r_prim_fresh : forall size (al : bool) v r T k,
  0 < size <= bs -> (v < 256 ^ N.of_nat size)%N -> length (r_cur r) <= bs ->
  (bs <? (bs - length (r_cur r)) + ((if al then align_adj (bs - length (r_cur r)) size else 0) + size)) = true ->
  r_inp r = le_bytes size v ++ T -> length (r_inp r) = k * bs ->
  exists r', r_prim bs size al r = Ok (v, r') /\ R r' = T /\ inv_r r' /\ bs - length (r_cur r') = size.
Proof.
  intros size al v r T k Hs Hv Hc Hdec Hin Hk.
  assert (Hkpos : 0 < k).
  { destruct k; [|lia]. rewrite Hin, app_length, le_bytes_length in Hk. lia. }
  unfold r_prim. rewrite Hdec. rewrite (fill_ok r k Hk Hkpos). cbn [bind r_cur r_inp].
  assert (Hlen : length (firstn bs (r_inp r)) = bs) by (rewrite firstn_length; nia).
  rewrite Hlen, Nat.sub_diag.
  rewrite (prim_adj_0 al size) by lia. cbn [skipn].
  exists (mkR (skipn size (firstn bs (r_inp r))) (skipn bs (r_inp r))). split; [|split; [|split]].
  - rewrite firstn_firstn_le by lia. rewrite Hin, firstn_le, le_val_bytes by exact Hv. reflexivity.
  - unfold R. cbn [r_cur r_inp]. rewrite skipn_firstn_glue by lia. rewrite Hin. apply skipn_le.
  - split; cbn [r_cur r_inp].
    + rewrite skipn_length, Hlen. lia.
    + exists (k - 1). rewrite skipn_length, Hk. nia.
  - cbn [r_cur]. rewrite skipn_length, Hlen. lia.
Qed.

Lemma step_prim : forall size al v, 0 < size <= bs -> (v < 256 ^ N.of_nat size)%N ->
  step_ok (fun w => Ok (w_prim bs size al v w)) (r_prim bs size al) v.
Proof.
  intros size al v Hs Hv w [Hb [k Hk]]. unfold w_prim.
  set (pos := length (w_buf w)) in *.
  set (adj := if al then align_adj pos size else 0).
  destruct (bs <? pos + (adj + size)) eqn:C.
  - (* flush first *)
    cbn [w_flush w_buf w_out length].
    rewrite (prim_adj_0 al size) by lia. cbn [zeros repeat app].
    exists (mkW (w_out w ++ w_buf w ++ zeros (bs - pos)) (le_bytes size v)), (zeros (bs - pos) ++ le_bytes size v).
    split; [reflexivity|]. split; [|split].
    + split; cbn [w_buf w_out]; [rewrite le_bytes_length; lia|].
      exists (k + 1). rewrite !app_length, zeros_length, Hk. fold pos. nia.
    + unfold L. cbn [w_buf w_out]. now rewrite <- !app_assoc.
    + intros r T [Hc [k' Hk']] Hps HR. cbn [w_buf]. rewrite le_bytes_length.
      apply Nat.ltb_lt in C.
      assert (Hpr : pos = bs - length (r_cur r)).
      { destruct Hps as [E|[E0 E1]]; [exact E|]. exfalso.
        (* a storing side at offset 0 does not flush: nothing is padded there and [size <= bs] *)
        assert (adj = 0) by (unfold adj; rewrite E0; apply prim_adj_0; lia). lia. }
      unfold R in HR. rewrite <- app_assoc in HR.
      destruct (app_eq_len _ (r_cur r) (zeros (bs - pos)) (r_inp r) (le_bytes size v ++ T)) as [_ Hin];
        [rewrite zeros_length; lia|exact HR|].
      destruct (r_prim_fresh size al v r T k' Hs Hv Hc) as [r' [E1 [E2 [E3 E4]]]]; [|exact Hin|exact Hk'|].
      * apply Nat.ltb_lt. rewrite <- Hpr. fold adj. exact C.
      * exists r'. split; [exact E1|]. split; [exact E2|]. split; [exact E3|]. left. symmetry. exact E4.
  - (* fits *)
    apply Nat.ltb_ge in C. fold pos. fold adj.
    exists (mkW (w_out w) (w_buf w ++ zeros adj ++ le_bytes size v)), (zeros adj ++ le_bytes size v).
    split; [reflexivity|]. split; [|split].
    + split; cbn [w_buf w_out]; [rewrite !app_length, zeros_length, le_bytes_length; fold pos; lia|exists k; exact Hk].
    + unfold L. cbn [w_buf w_out]. now rewrite <- !app_assoc.
    + intros r T [Hc [k' Hk']] Hps HR. cbn [w_buf]. rewrite !app_length, zeros_length, le_bytes_length. fold pos.
      destruct Hps as [E|[E0 E1]].
      * (* same offset: the value is inside the current buffer *)
        unfold R in HR.
        destruct (app_prefix_split _ (zeros adj ++ le_bytes size v) (r_cur r) T (r_inp r)) as [x [Hx HT]];
          [rewrite app_length, zeros_length, le_bytes_length; lia|exact HR|].
        unfold r_prim. rewrite <- E. fold adj.
        assert (Cf : (bs <? pos + (adj + size)) = false) by (apply Nat.ltb_ge; exact C).
        rewrite Cf. cbn [bind]. rewrite <- E. fold adj.
        assert (Hsk : skipn adj (r_cur r) = le_bytes size v ++ x).
        { rewrite Hx, <- app_assoc. apply skipn_zeros. }
        exists (mkR x (r_inp r)). rewrite Hsk, firstn_le, skipn_le, le_val_bytes by exact Hv.
        split; [reflexivity|].
        assert (Hlx : length (r_cur r) = adj + size + length x).
        { rewrite Hx, !app_length, zeros_length, le_bytes_length. lia. }
        split; [|split].
        -- unfold R. cbn [r_cur r_inp]. symmetry. exact HT.
        -- split; cbn [r_cur r_inp]; [lia|exists k'; exact Hk'].
        -- cbn [r_cur]. left. lia.
      * (* store side at offset 0 of a fresh buffer, load side at the end of the consumed one *)
        assert (Hadj : adj = 0) by (unfold adj; rewrite E0; apply prim_adj_0; lia).
        rewrite Hadj in *. cbn [zeros repeat app] in HR.
        assert (Hcur : r_cur r = []) by (destruct (r_cur r); [reflexivity|cbn [length] in *; lia]).
        unfold R in HR. rewrite Hcur in HR. cbn [app] in HR.
        destruct (r_prim_fresh size al v r T k' Hs Hv Hc) as [r' [F1 [F2 [F3 F4]]]]; [|exact HR|exact Hk'|].
        -- apply Nat.ltb_lt. rewrite Hcur. cbn [length]. lia.
        -- exists r'. split; [exact F1|]. split; [exact F2|]. split; [exact F3|]. left. lia.
Qed.

End Engine.

Arguments step_then [bs A B wf rf a rf' b] _ _.
Arguments step_seq [bs A B C wf1 rf1 a wf2 rf2 b rf c] _ _ _.
