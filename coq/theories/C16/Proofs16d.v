(** Lemmas for C16, part d: the object-reference layer (store pool / load pool). *)
From XV Require Import Base.XDefs C16.ModelObj16.
From Coq Require Import Arith Lia.
Local Open Scope nat_scope.

Lemma find_id_app : forall f sp x n a,
  find_id f n (sp ++ x) a = match find_id f n sp a with Some id => Some id | None => find_id f (n + length sp) x a end.
Proof.
  induction sp as [|k sp IH]; intros x n a; cbn [app find_id length].
  - now rewrite Nat.add_0_r.
  - destruct (match f k with Some y => a =? y | None => false end); [reflexivity|].
    rewrite IH. now rewrite Nat.add_succ_r.
Qed.

Lemma find_id_bound : forall f sp n a id, find_id f n sp a = Some id -> n < id <= n + length sp.
Proof.
  induction sp as [|k sp IH]; intros n a id H; cbn [find_id length] in *; [discriminate|].
  destruct (match f k with Some y => a =? y | None => false end).
  - injection H as <-. lia.
  - apply IH in H. lia.
Qed.

Lemma find_id_hit : forall f sp n a id, find_id f n sp a = Some id ->
  exists k, nth_error sp (id - n - 1) = Some k /\ f k = Some a.
Proof.
  induction sp as [|k sp IH]; intros n a id H; cbn [find_id] in *; [discriminate|].
  destruct (match f k with Some y => a =? y | None => false end) eqn:E.
  - injection H as <-. exists k. replace (S n - n - 1) with 0 by lia. split; [reflexivity|].
    destruct (f k) as [y|]; [apply Nat.eqb_eq in E; subst y; reflexivity|discriminate].
  - pose proof (find_id_bound _ _ _ _ _ H) as Hb. destruct (IH _ _ _ H) as [k' [E1 E2]]. exists k'. split; [|exact E2].
    replace (id - n - 1) with (S (id - S n - 1)) by lia. exact E1.
Qed.

Lemma addr_id_inj : forall sp a b id, addr_id sp a = Some id -> addr_id sp b = Some id -> a = b.
Proof.
  intros sp a b id Ha Hb. destruct (find_id_hit _ _ _ _ _ Ha) as [k [E1 E2]]. destruct (find_id_hit _ _ _ _ _ Hb) as [k' [F1 F2]].
  rewrite E1 in F1. injection F1 as <-. rewrite E2 in F2. now injection F2.
Qed.

Lemma addr_id_stable : forall sp x a id, addr_id sp a = Some id -> addr_id (sp ++ x) a = Some id.
Proof. intros sp x a id H. unfold addr_id in *. rewrite find_id_app, H. reflexivity. Qed.

Lemma addr_id_new_obj : forall sp a c, addr_id sp a = None -> addr_id (sp ++ [KObj a c]) a = Some (length sp + 1).
Proof. intros sp a c H. unfold addr_id in *. rewrite find_id_app, H. cbn [find_id key_addr]. rewrite Nat.eqb_refl. f_equal. lia. Qed.
Lemma addr_id_new_tmpl : forall sp a, addr_id sp a = None -> addr_id (sp ++ [KTmpl a]) a = Some (length sp + 1).
Proof. intros sp a H. unfold addr_id in *. rewrite find_id_app, H. cbn [find_id key_addr]. rewrite Nat.eqb_refl. f_equal. lia. Qed.
Lemma addr_id_new_cls_obj : forall sp a c, addr_id sp a = None -> addr_id (sp ++ [KCls c; KObj a c]) a = Some (length sp + 2).
Proof. intros sp a c H. unfold addr_id in *. rewrite find_id_app, H. cbn [find_id key_addr]. rewrite Nat.eqb_refl. f_equal. lia. Qed.

Definition pool_addrs (sp : list key) : list nat := flat_map (fun k => match key_addr k with Some a => [a] | None => [] end) sp.
Definition ev_addrs (evs : list ev) : list nat := flat_map (fun e => match ev_addr e with Some a => [a] | None => [] end) evs.

(** the entry an event of its own address stands for *)
Definition key_of_ev (k : key) (e : ev) : Prop :=
  match k, e with KObj a c, EObj a' c' => a = a' /\ c = c' | KTmpl a, ETmpl a' => a = a' | _, _ => False end.

Lemma key_of_ev_addr : forall k e, key_of_ev k e -> ev_addr e = key_addr k.
Proof. intros [a c|a|c] [q|a' c'|a']; cbn; intros H; try contradiction; [destruct H as [<- _]|subst a']; reflexivity. Qed.

(** an event only appends to the pool: at most a class record and the entry of its own address *)
Lemma store_ev_ext : forall sp e t sp1, store_ev sp e = (t, sp1) ->
  exists x, sp1 = sp ++ x /\ forall k, In k x -> key_addr k = None \/ key_of_ev k e.
Proof.
  assert (Hnil : forall sp e, exists x : list key, sp = sp ++ x /\ forall k, In k x -> key_addr k = None \/ key_of_ev k e).
  { intros sp e. exists []. split; [now rewrite app_nil_r|intros k []]. }
  intros sp e t sp1 H. destruct e as [q|a c|a]; cbn [store_ev] in H.
  - injection H as _ <-. apply Hnil.
  - destruct (addr_id sp a); [injection H as _ <-; apply Hnil|].
    destruct (cls_id sp c); injection H as _ <-; eexists; (split; [reflexivity|]).
    + intros k [<-|[]]. right. split; reflexivity.
    + intros k [<-|[<-|[]]]; [left; reflexivity|right; split; reflexivity].
  - destruct (addr_id sp a); injection H as _ <-; [apply Hnil|].
    eexists. split; [reflexivity|]. intros k [<-|[]]. right. reflexivity.
Qed.

Lemma store_all_ext : forall evs sp ts sp', store_all sp evs = (ts, sp') -> exists x, sp' = sp ++ x.
Proof.
  induction evs as [|e evs IH]; intros sp ts sp' H; cbn [store_all] in H.
  - injection H as _ <-. exists []. now rewrite app_nil_r.
  - destruct (store_ev sp e) as [t sp1] eqn:E1. destruct (store_all sp1 evs) as [ts2 sp2] eqn:E2. injection H as _ <-.
    destruct (store_ev_ext _ _ _ _ E1) as [x [-> _]]. destruct (IH _ _ _ E2) as [y ->]. exists (x ++ y). now rewrite app_assoc.
Qed.

Lemma load_ref : forall sp a id q, addr_id sp a = Some id -> load_ev (map ent sp) q (TRef id) = Ok (Some id, map ent sp).
Proof.
  intros sp a id q Ea. pose proof (find_id_bound _ _ _ _ _ Ea) as Hb. cbn [load_ev].
  destruct id as [|id']; [lia|]. rewrite map_length.
  destruct (length sp <? S id') eqn:C; [apply Nat.ltb_lt in C; lia|reflexivity].
Qed.

(** the load side, run on the tag the store side produced, performs the matching pool update and returns the id the
    store side assigned *)
Lemma load_ev_store_ev : forall sp e t sp1, store_ev sp e = (t, sp1) ->
  load_ev (map ent sp) (rq_ev e) t = Ok (ref_of sp1 e, map ent sp1).
Proof.
  intros sp e t sp1 H. destruct e as [q|a c|a]; cbn [store_ev rq_ev] in *.
  - injection H as <- <-. reflexivity.
  - unfold ref_of. cbn [ev_addr]. destruct (addr_id sp a) as [id|] eqn:Ea.
    + injection H as <- <-. rewrite Ea. exact (load_ref sp a id _ Ea).
    + destruct (cls_id sp c) as [idx|] eqn:Ec; injection H as <- <-.
      * pose proof (find_id_bound _ _ _ _ _ Ec) as Hb. cbn [load_ev]. rewrite map_length.
        assert (C : ((idx =? 0) || (length sp <? idx)) = false).
        { apply Bool.orb_false_iff. split; [apply Nat.eqb_neq; lia|apply Nat.ltb_ge; lia]. }
        rewrite C, (addr_id_new_obj sp a c Ea), map_app. reflexivity.
      * cbn [load_ev]. rewrite Nat.eqb_refl, map_length, (addr_id_new_cls_obj sp a c Ea), map_app. reflexivity.
  - unfold ref_of. cbn [ev_addr]. destruct (addr_id sp a) as [id|] eqn:Ea; injection H as <- <-.
    + rewrite Ea. exact (load_ref sp a id _ Ea).
    + cbn [load_ev]. rewrite map_length, (addr_id_new_tmpl sp a Ea), map_app. reflexivity.
Qed.

Lemma store_ev_has : forall sp e t sp1 a, store_ev sp e = (t, sp1) -> ev_addr e = Some a -> exists id, addr_id sp1 a = Some id.
Proof.
  intros sp e t sp1 a H Ha. destruct e as [q|a' c|a']; cbn [ev_addr] in Ha; [discriminate| |]; injection Ha as ->; cbn [store_ev] in H.
  - destruct (addr_id sp a) as [id|] eqn:Ea; [injection H as _ <-; eauto|].
    destruct (cls_id sp c); injection H as _ <-; eexists; [apply addr_id_new_obj|apply addr_id_new_cls_obj]; exact Ea.
  - destruct (addr_id sp a) as [id|] eqn:Ea; injection H as _ <-; [eauto|eexists; apply addr_id_new_tmpl; exact Ea].
Qed.

Lemma objgraph_run : forall evs sp ts sp', store_all sp evs = (ts, sp') ->
  load_all (map ent sp) (map rq_ev evs) ts = Ok (map (ref_of sp') evs, map ent sp').
Proof.
  induction evs as [|e evs IH]; intros sp ts sp' H; cbn [store_all] in H.
  - injection H as <- <-. reflexivity.
  - destruct (store_ev sp e) as [t sp1] eqn:E1. destruct (store_all sp1 evs) as [ts2 sp2] eqn:E2. injection H as <- <-.
    cbn [map load_all]. rewrite (load_ev_store_ev _ _ _ _ E1). rewrite (IH _ _ _ E2).
    destruct (store_all_ext _ _ _ _ E2) as [x ->].
    unfold ref_of. destruct (ev_addr e) as [a|] eqn:Ea; [|reflexivity].
    destruct (store_ev_has _ _ _ _ _ E1 Ea) as [id Hid]. rewrite Hid, (addr_id_stable _ x _ _ Hid). reflexivity.
Qed.

Lemma store_all_has : forall evs sp ts sp' e a, store_all sp evs = (ts, sp') -> In e evs -> ev_addr e = Some a ->
  exists id, addr_id sp' a = Some id.
Proof.
  induction evs as [|e0 evs IH]; intros sp ts sp' e a H Hin Ha; [destruct Hin|]. cbn [store_all] in H.
  destruct (store_ev sp e0) as [t sp1] eqn:E1. destruct (store_all sp1 evs) as [ts2 sp2] eqn:E2. injection H as _ <-.
  destruct Hin as [->|Hin].
  - destruct (store_ev_has _ _ _ _ _ E1 Ha) as [id Hid]. destruct (store_all_ext _ _ _ _ E2) as [x ->].
    exists id. apply addr_id_stable. exact Hid.
  - exact (IH _ _ _ _ _ E2 Hin Ha).
Qed.

Lemma store_all_keys : forall evs sp ts sp' k, store_all sp evs = (ts, sp') -> In k sp' -> key_addr k <> None ->
  In k sp \/ exists e, In e evs /\ key_of_ev k e.
Proof.
  induction evs as [|e0 evs IH]; intros sp ts sp' k H Hin Hk; cbn [store_all] in H.
  - injection H as _ <-. left. exact Hin.
  - destruct (store_ev sp e0) as [t sp1] eqn:E1. destruct (store_all sp1 evs) as [ts2 sp2] eqn:E2. injection H as _ <-.
    destruct (IH _ _ _ _ E2 Hin Hk) as [Hin1|[e [He Hke]]]; [|right; exists e; split; [right; exact He|exact Hke]].
    destruct (store_ev_ext _ _ _ _ E1) as [x [-> Hx]]. apply in_app_or in Hin1. destruct Hin1 as [Hs|Hn]; [left; exact Hs|].
    destruct (Hx k Hn) as [Hnone|K]; [contradiction|]. right. exists e0. split; [left; reflexivity|exact K].
Qed.

(** each address is used with one kind and one dynamic class throughout the run *)
Definition consistent (evs : list ev) : Prop :=
  forall e1 e2 a, In e1 evs -> In e2 evs -> ev_addr e1 = Some a -> ev_addr e2 = Some a -> e1 = e2.

Lemma consistent_fun : forall (f : nat -> ev) evs, (forall e a, In e evs -> ev_addr e = Some a -> e = f a) -> consistent evs.
Proof. intros f evs H e1 e2 a H1 H2 Ha Hb. rewrite (H e1 a H1 Ha), (H e2 a H2 Hb). reflexivity. Qed.

Lemma find_addr_ren : forall rho sp n a,
  (forall k b, In k sp -> key_addr k = Some b -> rho b = rho a -> b = a) ->
  find_id key_addr n (map (ren_key rho) sp) (rho a) = find_id key_addr n sp a.
Proof.
  induction sp as [|k sp IH]; intros n a Hinj; [reflexivity|]. cbn [map find_id].
  assert (Hk : (match key_addr (ren_key rho k) with Some y => rho a =? y | None => false end) =
               (match key_addr k with Some y => a =? y | None => false end)).
  { replace (key_addr (ren_key rho k)) with (option_map rho (key_addr k)) by (destruct k; reflexivity).
    destruct (key_addr k) as [b|] eqn:Kb; cbn [option_map]; [|reflexivity].
    destruct (a =? b) eqn:E; [apply Nat.eqb_eq in E; subst; apply Nat.eqb_refl|].
    apply Nat.eqb_neq. intros E'. apply Nat.eqb_neq in E. apply E. symmetry.
    apply (Hinj k b); [left; reflexivity|exact Kb|now symmetry]. }
  rewrite Hk. destruct (match key_addr k with Some y => a =? y | None => false end); [reflexivity|].
  apply IH. intros k' b Hin. apply Hinj. right. exact Hin.
Qed.

Lemma find_cls_ren : forall rho sp n c, find_id key_cls n (map (ren_key rho) sp) c = find_id key_cls n sp c.
Proof.
  induction sp as [|k sp IH]; intros n c; [reflexivity|]. cbn [map find_id].
  replace (key_cls (ren_key rho k)) with (key_cls k) by (destruct k; reflexivity). now rewrite IH.
Qed.

Lemma store_all_ren : forall rho evs sp ts sp',
  (forall x y, In x (pool_addrs sp ++ ev_addrs evs) -> In y (pool_addrs sp ++ ev_addrs evs) -> rho x = rho y -> x = y) ->
  store_all sp evs = (ts, sp') ->
  store_all (map (ren_key rho) sp) (map (ren_ev rho) evs) = (ts, map (ren_key rho) sp').
Proof.
  intros rho. induction evs as [|e evs IH]; intros sp ts sp' Hinj H; cbn [store_all map] in *.
  - injection H as <- <-. reflexivity.
  - destruct (store_ev sp e) as [t sp1] eqn:E1. destruct (store_all sp1 evs) as [ts2 sp2] eqn:E2. injection H as <- <-.
    assert (Hlook : forall a, ev_addr e = Some a -> addr_id (map (ren_key rho) sp) (rho a) = addr_id sp a).
    { intros a Ha. apply find_addr_ren. intros k b Hin Hk Hr. apply Hinj; [| |exact Hr].
      - apply in_or_app. left. apply in_flat_map. exists k. split; [exact Hin|rewrite Hk; left; reflexivity].
      - apply in_or_app. right. unfold ev_addrs. cbn [flat_map]. rewrite Ha. left. reflexivity. }
    assert (E1' : store_ev (map (ren_key rho) sp) (ren_ev rho e) = (t, map (ren_key rho) sp1)).
    { destruct e as [q|a c|a]; cbn [store_ev ren_ev] in *.
      - injection E1 as <- <-. reflexivity.
      - rewrite (Hlook a eq_refl). unfold cls_id. rewrite find_cls_ren. fold (cls_id sp c).
        destruct (addr_id sp a); [injection E1 as <- <-; reflexivity|].
        destruct (cls_id sp c); injection E1 as <- <-; rewrite map_app; reflexivity.
      - rewrite (Hlook a eq_refl). destruct (addr_id sp a); injection E1 as <- <-; [reflexivity|rewrite map_app; reflexivity]. }
    rewrite E1'. rewrite (IH sp1 ts2 sp2); [reflexivity| |exact E2].
    (* injectivity is kept: the new pool addresses are addresses of e *)
    assert (Hsub : incl (pool_addrs sp1 ++ ev_addrs evs) (pool_addrs sp ++ ev_addrs (e :: evs))).
    { intros x Hx. unfold ev_addrs. cbn [flat_map]. apply in_app_or in Hx. apply in_or_app. destruct Hx as [Hx|Hx].
      - destruct (store_ev_ext _ _ _ _ E1) as [z [-> Hz]]. unfold pool_addrs in Hx. rewrite flat_map_app in Hx.
        apply in_app_or in Hx. destruct Hx as [Hx|Hx]; [left; exact Hx|right].
        apply in_flat_map in Hx. destruct Hx as [k [Hk Hx]]. destruct (Hz k Hk) as [Hnone|K]; [rewrite Hnone in Hx; destruct Hx|].
        rewrite (key_of_ev_addr k e K). apply in_or_app. left. exact Hx.
      - right. apply in_or_app. right. exact Hx. }
    intros x y Hx Hy. apply Hinj; apply Hsub; assumption.
Qed.
