(** Lemmas for C16, part c: raw blocks spanning buffers, then operation sequences; the witness of the refutation of the
    round trip for the code as found (finding F26). *)
From XV Require Import Base.XDefs C16.Model16 C16.Spec16 C16.Proofs16a.
From Coq Require Import Arith Lia.
Local Open Scope nat_scope.

Lemma len_ok_prefix : forall m data r T, (m <= N.of_nat (length data))%N -> R r = data ++ T -> len_ok m r = true.
Proof.
  intros m data r T Hm HR. unfold len_ok. apply N.leb_le. rewrite <- app_length. change (r_cur r ++ r_inp r) with (R r).
  rewrite HR, app_length. lia.
Qed.

(** a request list that starts with a primitive and is answered has read that primitive first *)
Lemma r_ops_prim_inv : forall stale bs k qs r v os r', r_ops stale bs (QPrim k :: qs) r = Ok (OPrim k v :: os, r') ->
  exists r1, r_prim bs (pk_size k) (pk_al k) r = Ok (v, r1).
Proof.
  intros stale bs k qs r v os r' H. cbn [r_ops r_op] in H.
  destruct (r_prim bs (pk_size k) (pk_al k) r) as [[v' r1]|]; cbn [bind] in H; [|discriminate].
  destruct (r_ops stale bs qs r1) as [[os' r2]|]; cbn [bind] in H; [|discriminate].
  injection H as <- _ _. exists r1. reflexivity.
Qed.

(** a string with buffer length is read as the buffer length followed by what [r_str] reads without it *)
Lemma r_str_buf : forall stale bs r bl r1 dl cs r2, r_prim bs 8 true r = Ok (bl, r1) -> (bl =? noData)%N = false ->
  r_str stale bs false r1 = Ok (Some (dl, cs), r2) -> r_str stale bs true r = Ok (Some (bl, cs), r2).
Proof.
  intros stale bs r bl r1 dl cs r2 E1 Hbn E2. unfold r_str in *. rewrite E1. cbn [bind]. rewrite Hbn.
  (* the length field, its noData test, the length check and the block, in the order [r_str] makes them *)
  destruct (r_prim bs 8 true r1) as [[dl' r1']|]; [cbn [bind] in *|discriminate].
  destruct (dl' =? noData)%N; [discriminate|]. cbn [bind] in E2.
  destruct (len_ok (2 * dl') r1'); [|discriminate].
  destruct (r_raw stale bs (N.to_nat (2 * dl')) r1') as [[bts r3]|]; [|discriminate].
  cbn [bind] in *. injection E2 as _ <- <-. reflexivity.
Qed.

Section Raw.
Variable bs : nat.
Hypothesis Hbs : 0 < bs.

Lemma mod_step : forall n, bs <= n -> n mod bs = (n - bs) mod bs.
Proof. intros n H. replace n with ((n - bs) + 1 * bs) at 1 by lia. apply Nat.mod_add. lia. Qed.

(** offset of the loading side after a chunked read of [n] remaining bytes *)
Definition rpos (n : nat) : nat := match n mod bs with 0 => bs | m => m end.

Lemma psync_rpos : forall m, psync bs (m mod bs) (rpos m).
Proof. intros m. unfold rpos, psync. destruct (m mod bs); [right; split; reflexivity|left; reflexivity]. Qed.

Lemma w_chunks_ok : forall f data w, length data < f -> w_buf w = [] -> (exists k, length (w_out w) = k * bs) ->
  exists w', w_chunks bs f data w = Ok w' /\ inv_w bs w' /\ L w' = L w ++ data /\ length (w_buf w') = length data mod bs.
Proof.
  induction f as [|f IH]; intros data w Hf Hb [k Hk]; [lia|].
  cbn [w_chunks]. destruct (bs <=? length data) eqn:C.
  - apply Nat.leb_le in C.
    assert (Hfl : length (firstn bs data) = bs) by (rewrite firstn_length; lia).
    destruct (IH (skipn bs data) (w_flush bs (mkW (w_out w) (firstn bs data)))) as [w' [E1 [E2 [E3 E4]]]].
    + rewrite skipn_length. lia.
    + reflexivity.
    + cbn [w_flush w_out w_buf]. exists (k + 1). rewrite !app_length, zeros_length, Hfl, Hk. lia.
    + exists w'. split; [exact E1|]. split; [exact E2|]. split.
      * rewrite E3. unfold L. cbn [w_flush w_out w_buf]. rewrite Hfl, Nat.sub_diag, Hb. cbn [zeros repeat].
        rewrite !app_nil_r. rewrite <- app_assoc. now rewrite firstn_skipn.
      * rewrite E4, skipn_length. symmetry. apply mod_step. exact C.
  - apply Nat.leb_gt in C. exists (mkW (w_out w) data). split; [reflexivity|]. split; [|split].
    + split; cbn [w_buf w_out]; [lia|exists k; exact Hk].
    + unfold L. cbn [w_buf w_out]. now rewrite Hb, app_nil_r.
    + cbn [w_buf]. symmetry. apply Nat.mod_small. exact C.
Qed.

Lemma r_chunks_ok : forall f data acc r T, length data < f -> r_cur r = [] -> r_inp r = data ++ T ->
  (exists k, length (r_inp r) = k * bs) ->
  exists r', r_chunks false bs f (length data) acc r = Ok (acc ++ data, r') /\ R r' = T /\ inv_r bs r' /\
             bs - length (r_cur r') = rpos (length data).
Proof.
  induction f as [|f IH]; intros data acc r T Hf Hc Hin [k Hk]; [lia|].
  cbn [r_chunks]. destruct (bs <=? length data) eqn:C.
  - (* a whole buffer is taken, the rest by the induction hypothesis *)
    apply Nat.leb_le in C.
    assert (Hkpos : 0 < k) by (destruct k; [rewrite Hin, app_length in Hk; lia|lia]).
    rewrite (fill_ok bs Hbs r k Hk Hkpos). cbn [bind r_cur r_inp].
    set (d1 := firstn bs data). set (d2 := skipn bs data).
    assert (Hd : data = d1 ++ d2) by (symmetry; apply firstn_skipn).
    assert (Hl1 : length d1 = bs) by (unfold d1; rewrite firstn_length; lia).
    assert (Hf1 : firstn bs (r_inp r) = d1).
    { rewrite Hin, Hd, <- app_assoc. rewrite <- Hl1 at 1. apply firstn_app_exact. }
    assert (Hs1 : skipn bs (r_inp r) = d2 ++ T).
    { rewrite Hin, Hd, <- app_assoc. rewrite <- Hl1 at 1. apply skipn_app_exact. }
    rewrite Hf1, Hs1.
    destruct (IH d2 (acc ++ d1) (mkR [] (d2 ++ T)) T) as [r' [E1 [E2 [E3 E4]]]].
    + unfold d2. rewrite skipn_length. lia.
    + reflexivity.
    + reflexivity.
    + exists (k - 1). cbn [r_inp]. rewrite <- Hs1, skipn_length, Hk. nia.
    + exists r'. replace (length data - bs) with (length d2) by (unfold d2; rewrite skipn_length; reflexivity).
      split; [rewrite E1, <- app_assoc, <- Hd; reflexivity|]. split; [exact E2|]. split; [exact E3|].
      rewrite E4. unfold rpos, d2. rewrite skipn_length. now rewrite <- mod_step.
  - apply Nat.leb_gt in C. destruct data as [|d0 dt].
    + (* nothing left: the buffer just consumed stays empty *)
      cbn [length]. exists r. split; [now rewrite app_nil_r|]. split; [|split].
      * unfold R. now rewrite Hc, Hin.
      * split; [rewrite Hc; cbn; lia|exists k; exact Hk].
      * rewrite Hc. cbn [length]. unfold rpos. rewrite Nat.mod_0_l by lia. lia.
    + (* a partial tail from a fresh buffer *)
      cbn [length] in C |- *.
      assert (Hkpos : 0 < k) by (destruct k; [rewrite Hin, app_length in Hk; cbn [length] in Hk; lia|lia]).
      rewrite (fill_ok bs Hbs r k Hk Hkpos). cbn [bind r_cur r_inp].
      assert (Hlen : length (firstn bs (r_inp r)) = bs) by (rewrite firstn_length; nia).
      change (S (length dt)) with (length (d0 :: dt)).
      exists (mkR (skipn (length (d0 :: dt)) (firstn bs (r_inp r))) (skipn bs (r_inp r))).
      split; [|split; [|split]].
      * rewrite firstn_firstn_le by (cbn [length]; lia). rewrite Hin, firstn_app_exact. reflexivity.
      * unfold R. cbn [r_cur r_inp]. rewrite skipn_firstn_glue by (cbn [length]; lia). rewrite Hin. apply skipn_app_exact.
      * split; cbn [r_cur r_inp]; [rewrite skipn_length; lia|exists (k - 1); rewrite skipn_length, Hk; nia].
      * cbn [r_cur]. rewrite skipn_length, Hlen. unfold rpos. rewrite Nat.mod_small by (cbn [length]; lia). cbn [length]. lia.
Qed.

(** a raw block on each side alone, with the buffer offset it ends at *)
Definition wpos (p n : nat) : nat := if n <=? bs - p then p + n else (n - (bs - p)) mod bs.
Definition rposn (p n : nat) : nat := if n <=? bs - p then p + n else rpos (n - (bs - p)).

Lemma w_raw_ok : forall data w, inv_w bs w -> exists w', w_raw bs data w = Ok w' /\ inv_w bs w' /\ L w' = L w ++ data /\
  length (w_buf w') = wpos (length (w_buf w)) (length data).
Proof.
  intros data w [Hb [k Hk]]. unfold wpos. destruct data as [|d0 dt].
  - exists w. cbn [w_raw length Nat.leb]. rewrite app_nil_r, Nat.add_0_r. repeat split; [exact Hb|exists k; exact Hk].
  - set (data := d0 :: dt). set (pos := length (w_buf w)) in *. unfold w_raw. fold data. fold pos.
    destruct (length data <=? bs - pos) eqn:C.
    + apply Nat.leb_le in C. exists (mkW (w_out w) (w_buf w ++ data)). split; [reflexivity|]. split; [|split].
      * split; cbn [w_buf w_out]; [rewrite app_length; fold pos; lia|exists k; exact Hk].
      * unfold L. cbn [w_buf w_out]. now rewrite app_assoc.
      * cbn [w_buf]. apply app_length.
    + apply Nat.leb_gt in C. set (avail := bs - pos) in *.
      assert (Hfa : length (firstn avail data) = avail) by (rewrite firstn_length; lia).
      destruct (w_chunks_ok (S (length data)) (skipn avail data) (w_flush bs (mkW (w_out w) (w_buf w ++ firstn avail data))))
        as [w' [E1 [E2 [E3 E4]]]].
      * rewrite skipn_length. lia.
      * reflexivity.
      * cbn [w_flush w_out w_buf]. exists (k + 1). rewrite !app_length, zeros_length, Hfa, Hk. fold pos. unfold avail. lia.
      * exists w'. split; [exact E1|]. split; [exact E2|]. split; [|rewrite E4, skipn_length; reflexivity].
        rewrite E3. unfold L. cbn [w_flush w_out w_buf]. rewrite app_length, Hfa. fold pos.
        replace (bs - (pos + avail)) with 0 by (unfold avail; lia). cbn [zeros repeat]. rewrite !app_nil_r.
        rewrite <- !app_assoc. now rewrite firstn_skipn.
Qed.

Lemma r_raw_ok : forall data r T, inv_r bs r -> R r = data ++ T ->
  exists r', r_raw false bs (length data) r = Ok (data, r') /\ R r' = T /\ inv_r bs r' /\
             bs - length (r_cur r') = rposn (bs - length (r_cur r)) (length data).
Proof.
  intros data r T [Hc [k Hk]] HR. unfold rposn. replace (bs - (bs - length (r_cur r))) with (length (r_cur r)) by lia.
  destruct data as [|d0 dt].
  - exists r. cbn [r_raw length Nat.leb]. rewrite Nat.add_0_r. repeat split; [exact HR|exact Hc|exists k; exact Hk].
  - set (data := d0 :: dt) in *. unfold r_raw. change (length data) with (S (length dt)) at 1. unfold R in HR.
    destruct (length data <=? length (r_cur r)) eqn:C.
    + apply Nat.leb_le in C.
      destruct (app_prefix_split _ data (r_cur r) T (r_inp r)) as [x [Hx HT]]; [exact C|exact HR|].
      assert (Hlx : length (r_cur r) = length data + length x) by (rewrite Hx; apply app_length).
      exists (mkR x (r_inp r)). rewrite Hx at 1 2. rewrite firstn_app_exact, skipn_app_exact.
      split; [reflexivity|]. split; [unfold R; cbn [r_cur r_inp]; symmetry; exact HT|].
      split; [split; cbn [r_cur r_inp]; [lia|exists k; exact Hk]|]. cbn [r_cur]. lia.
    + apply Nat.leb_gt in C.
      destruct (app_prefix_split _ (r_cur r) data (r_inp r) T) as [d2 [Hd2 Hi2]]; [lia|symmetry; exact HR|].
      assert (Hl2 : length data - length (r_cur r) = length d2).
      { assert (length data = length (r_cur r) + length d2) by (rewrite Hd2 at 1; apply app_length). lia. }
      rewrite Hl2.
      destruct (r_chunks_ok (S (length data)) d2 (r_cur r) (mkR [] (r_inp r)) T) as [r' [F1 [F2 [F3 F4]]]];
        [lia|reflexivity|exact Hi2|exists k; exact Hk|].
      exists r'. split; [rewrite F1, <- Hd2; reflexivity|]. split; [exact F2|]. split; [exact F3|exact F4].
Qed.

Lemma psync_raw : forall pw pr n, 0 < n -> psync bs pw pr -> psync bs (wpos pw n) (rposn pr n).
Proof.
  intros pw pr n Hn [<-|[-> ->]]; unfold wpos, rposn.
  - destruct (n <=? bs - pw); [left; reflexivity|apply psync_rpos].
  - rewrite Nat.sub_0_r, Nat.sub_diag, Nat.sub_0_r. destruct (n <=? 0) eqn:C0; [apply Nat.leb_le in C0; lia|].
    destruct (n <=? bs) eqn:C; [apply Nat.leb_le in C|apply Nat.leb_gt in C].
    + left. unfold rpos. destruct (Nat.eq_dec n bs) as [->|Ne]; [rewrite Nat.mod_same by lia; reflexivity|].
      rewrite Nat.mod_small by lia. destruct n; [lia|reflexivity].
    + rewrite <- mod_step by lia. apply psync_rpos.
Qed.

(** write(bytes, n) / read(bytes, n) as a step, with the reader's length check in front ([guard]: any test that passes
    when the block is there) *)
Lemma step_raw_guarded : forall (B : Type) data (guard : rst -> bool) (g : list N -> B),
  (forall r T, R r = data ++ T -> guard r = true) ->
  step_ok bs (w_raw bs data)
    (fun r => if guard r then bind (r_raw false bs (length data) r) (fun '(d, r') => Ok (g d, r')) else Err E_ReadLT) (g data).
Proof.
  intros B data guard g Hg w Hw. destruct (w_raw_ok data w Hw) as [w' [E1 [E2 [E3 E4]]]].
  exists w', data. split; [exact E1|]. split; [exact E2|]. split; [exact E3|].
  intros r T Hr Hps HR. destruct (r_raw_ok data r T Hr HR) as [r' [F1 [F2 [F3 F4]]]].
  exists r'. rewrite (Hg r T HR), F1. split; [reflexivity|]. split; [exact F2|]. split; [exact F3|]. rewrite E4, F4.
  destruct data as [|d0 dt]; [|apply psync_raw; [cbn [length]; lia|exact Hps]].
  unfold wpos, rposn. cbn [length Nat.leb]. rewrite !Nat.add_0_r. exact Hps.
Qed.

End Raw.

Section Main.
Variable bs : nat.
Hypothesis Hbs8 : 8 <= bs.
Let Hbs : 0 < bs := Nat.lt_le_trans 0 8 bs (Nat.lt_0_succ 7) Hbs8.

Lemma pk_size_bounds : forall k, 0 < pk_size k <= bs.
Proof. destruct k; cbn [pk_size]; lia. Qed.

Lemma noData_prim : (noData < 256 ^ N.of_nat 8)%N.
Proof. vm_compute. reflexivity. Qed.

Lemma len_prim : forall n, len_fits n -> (N.of_nat n < 256 ^ N.of_nat 8)%N /\ (N.of_nat n =? noData)%N = false.
Proof.
  intros n H. unfold len_fits in H. pose proof noData_prim. split; [lia|]. apply N.eqb_neq. lia.
Qed.

(** a length field followed by that many bytes, read by a reader [rf] that, having read the length, checks it against
    what is left ([m] bytes needed) and reads the block *)
Lemma step_counted : forall (B : Type) n m data (g : list N -> B) (rf : rst -> res (B * rst) serr),
  (n < 256 ^ N.of_nat 8)%N -> (m <= N.of_nat (length data))%N ->
  (forall r r1, r_prim bs 8 true r = Ok (n, r1) ->
     rf r = if len_ok m r1 then bind (r_raw false bs (length data) r1) (fun '(d, r') => Ok (g d, r')) else Err E_ReadLT) ->
  step_ok bs (fun w => w_raw bs data (w_prim bs 8 true n w)) rf (g data).
Proof.
  intros B n m data g rf Hn Hm Hrf.
  refine (step_seq (step_prim bs Hbs 8 true n (conj (Nat.lt_0_succ 7) Hbs8) Hn)
            (step_raw_guarded bs Hbs B data (len_ok m) g (fun r T => len_ok_prefix m data r T Hm)) _).
  intros r r1 r2 E1 E2. rewrite (Hrf r r1 E1). exact E2.
Qed.

(** a null string of any of the three kinds: the noDataFollowed marker alone *)
Lemma step_null : forall o, o = OStr None \/ o = OStrB None \/ o = OStr8 None ->
  step_ok bs (w_op bs o) (r_op false bs (rq_of o)) o.
Proof.
  intros o H. pose proof (step_prim bs Hbs 8 true noData (conj (Nat.lt_0_succ 7) Hbs8) noData_prim) as St.
  destruct H as [-> | [-> | ->]]; refine (step_then St _); intros r r1 E; cbn [rq_of r_op].
  all: unfold r_str, r_str8; rewrite E; cbn [bind]; rewrite N.eqb_refl; reflexivity.
Qed.

(** XMLCh string: length, then the code units as byte pairs *)
Lemma step_str : forall cs, Forall (fun c => (c < 65536)%N) cs -> len_fits (length cs) ->
  step_ok bs (w_op bs (OStr (Some cs))) (r_str false bs false) (Some (N.of_nat (length cs), cs)).
Proof.
  intros cs Hcs Hlen. destruct (len_prim _ Hlen) as [Hlv Hnd].
  rewrite <- (bytes_chars_bytes cs Hcs) at 3.
  apply (step_counted _ _ (2 * N.of_nat (length cs)) (chars_bytes cs) (fun d => Some (N.of_nat (length cs), bytes_chars d)) _ Hlv).
  - rewrite chars_bytes_length. lia.
  - intros r r1 E. unfold r_str. rewrite E. cbn [bind]. rewrite Hnd. cbn [bind].
    replace (N.to_nat (2 * N.of_nat (length cs))) with (length (chars_bytes cs)) by (rewrite chars_bytes_length; lia).
    destruct (len_ok (2 * N.of_nat (length cs)) r1); [|reflexivity].
    destruct (r_raw false bs (length (chars_bytes cs)) r1) as [[d r']|]; reflexivity.
Qed.

Lemma step_op : forall o, op_ok o -> step_ok bs (w_op bs o) (r_op false bs (rq_of o)) o.
Proof.
  intros o Hok. destruct o as [k v|data|[cs|]|[[bl cs]|]|[cs|]]; cbn [op_ok] in Hok.
  - (* primitive *)
    rewrite pk_bound_pow in Hok.
    apply (step_then (step_prim bs Hbs (pk_size k) (pk_al k) v (pk_size_bounds k) Hok)).
    intros r r1 E. cbn [rq_of r_op]. rewrite E. reflexivity.
  - (* raw block *)
    exact (step_raw_guarded bs Hbs op data (fun _ => true) ORaw (fun _ _ _ => eq_refl)).
  - refine (step_then (step_str cs (proj1 Hok) (proj2 Hok)) _).
    intros r r1 E. cbn [rq_of r_op]. rewrite E. reflexivity.
  - exact (step_null _ (or_introl eq_refl)).
  - (* XMLCh string with buffer length: the buffer length, then as without *)
    destruct Hok as [Hcs [Hlen Hbl]].
    assert (Hblv : (bl < 256 ^ N.of_nat 8)%N) by (pose proof noData_prim; lia).
    assert (Hbn : (bl =? noData)%N = false) by (apply N.eqb_neq; lia).
    refine (step_seq (step_prim bs Hbs 8 true bl (conj (Nat.lt_0_succ 7) Hbs8) Hblv) (step_str cs Hcs Hlen) _).
    intros r r1 r2 E1 E2. cbn [rq_of r_op]. rewrite (r_str_buf _ _ _ _ _ _ _ _ E1 Hbn E2). reflexivity.
  - exact (step_null _ (or_intror (or_introl eq_refl))).
  - (* XMLByte string *)
    destruct Hok as [Hcs Hlen]. destruct (len_prim _ Hlen) as [Hlv Hnd].
    apply (step_counted op _ (N.of_nat (length cs)) cs (fun d => OStr8 (Some d)) _ Hlv (N.le_refl _)).
    intros r r1 E. cbn [rq_of r_op]. unfold r_str8. rewrite E. cbn [bind]. rewrite Hnd, Nat2N.id.
    destruct (len_ok (N.of_nat (length cs)) r1); [|reflexivity].
    destruct (r_raw false bs (length cs) r1) as [[d r']|]; reflexivity.
  - exact (step_null _ (or_intror (or_intror eq_refl))).
Qed.

Lemma ops_ok : forall ops, Forall op_ok ops ->
  step_ok bs (w_ops bs ops) (r_ops false bs (map rq_of ops)) ops.
Proof.
  induction ops as [|o ops IH]; intros Hok.
  - intros w Hw. exists w, []. split; [reflexivity|]. split; [exact Hw|]. split; [now rewrite app_nil_r|].
    intros r T Hr Hps HR. exists r. split; [reflexivity|]. split; [exact HR|]. split; [exact Hr|exact Hps].
  - inversion Hok as [|? ? Ho Hoks]; subst.
    refine (step_seq (step_op o Ho) (IH Hoks) _).
    intros r r1 r2 E1 E2. cbn [map r_ops]. rewrite E1. cbn [bind]. rewrite E2. reflexivity.
Qed.

End Main.

(** deserializeGrammars compares the stamp before anything else is read, whatever the buffer size *)
Lemma level_rejected : forall bs level stream r0 stamp r1 stale qs,
  r_init bs stream = Ok r0 -> r_prim bs 4 true r0 = Ok (stamp, r1) -> stamp <> level ->
  pool_load stale bs level qs stream = Err E_LevelMismatch.
Proof.
  intros bs level stream r0 stamp r1 stale qs H0 H1 Hne. unfold pool_load. rewrite H0. cbn [bind]. rewrite H1. cbn [bind].
  apply N.eqb_neq in Hne. rewrite Hne. reflexivity.
Qed.

(** the code as found: a raw read that ends exactly at a buffer boundary leaves the loading side in the buffer it
    has just consumed; the next value read back is not the value written *)
Definition f26_witness : list op :=
  [OPrim K1 1; ORaw (map N.of_nat (seq 1 31)); OPrim K4 0xDEADBEEF]%N.
