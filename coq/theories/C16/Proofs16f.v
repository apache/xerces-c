(** Truncated streams: every reader of the loading engine is prefix-stable.  Run on a prefix of the stream it either
    stops with XSer_InStream_Read_LT_Req (fillBuffer got fewer than fBufSize bytes) or returns exactly what it returns on
    the whole stream (the cut fell into bytes that are never read) - never different items. *)
From XV Require Import Base.XDefs C16.Model16.
From Coq Require Import Arith List Lia.
Import ListNotations.
Local Open Scope nat_scope.

(** the same engine state over a stream cut after [n] more bytes *)
Definition trunc (n : nat) (r : rst) : rst := mkR (r_cur r) (firstn n (r_inp r)).

Definition stable {A : Type} (f : rst -> res (A * rst) serr) : Prop :=
  forall r n, match f (trunc n r) with
              | Ok (x, rt) => exists r' n', f r = Ok (x, r') /\ rt = trunc n' r'
              | Err e => e = E_ReadLT \/ f r = Err e
              end.

Lemma fill_stable : forall bs r n,
  match r_fill bs (trunc n r) with
  | Ok rt => exists r', r_fill bs r = Ok r' /\ rt = trunc (n - bs) r'
  | Err e => e = E_ReadLT
  end.
Proof.
  intros bs r n. unfold r_fill, trunc; cbn [r_inp r_cur].
  destruct (Nat.ltb_spec (length (firstn n (r_inp r))) bs) as [H|H]; [reflexivity|].
  rewrite firstn_length in H.
  assert (Hl : bs <= length (r_inp r)) by lia.
  assert (Hn : bs <= n) by lia.
  destruct (Nat.ltb_spec (length (r_inp r)) bs) as [H2|H2]; [lia|].
  eexists; split; [reflexivity|]. cbn [r_cur r_inp]. f_equal.
  - rewrite firstn_firstn. f_equal. lia.
  - apply skipn_firstn_comm.
Qed.

Lemma len_ok_trunc : forall x n r, len_ok x (trunc n r) = true -> len_ok x r = true.
Proof.
  intros x n r. unfold len_ok, trunc; cbn [r_cur r_inp]. rewrite !N.leb_le. intros H.
  rewrite firstn_length in H. lia.
Qed.

(** stability is kept by everything the readers are put together from *)
Lemma stable_ret : forall (A : Type) (x : A), stable (fun r => Ok (x, r)).
Proof. intros A x r n. exists r, n. split; reflexivity. Qed.

Lemma stable_bind : forall (A B : Type) (f : rst -> res (A * rst) serr) (k : A * rst -> res (B * rst) serr),
  stable f -> (forall x, stable (fun r => k (x, r))) -> stable (fun r => bind (f r) k).
Proof.
  intros A B f k Hf Hk r n. cbv beta. pose proof (Hf r n) as H. destruct (f (trunc n r)) as [[x rt]|e]; cbn [bind].
  - destruct H as (r' & n' & -> & ->). exact (Hk x r' n').
  - destruct H as [-> | ->]; [left|right]; reflexivity.
Qed.

Lemma stable_map : forall (A B : Type) (f : rst -> res (A * rst) serr) (g : A -> B),
  stable f -> stable (fun r => bind (f r) (fun '(x, r1) => Ok (g x, r1))).
Proof. intros A B f g Hf. apply stable_bind; [exact Hf|]. intros x. apply stable_ret. Qed.

Lemma stable_err : forall (A : Type) e, stable (fun _ => @Err (A * rst) serr e).
Proof. intros A e r n. right. reflexivity. Qed.

Lemma stable_fill : forall (A : Type) bs (k : rst -> res (A * rst) serr), stable k -> stable (fun r => bind (r_fill bs r) k).
Proof.
  intros A bs k Hk r n. cbv beta. pose proof (fill_stable bs r n) as H. destruct (r_fill bs (trunc n r)) as [rt|e]; cbn [bind].
  - destruct H as (r' & -> & ->). exact (Hk r' (n - bs)).
  - left. exact H.
Qed.

Lemma stable_guard : forall (A : Type) x (f : rst -> res (A * rst) serr),
  stable f -> stable (fun r => if len_ok x r then f r else Err E_ReadLT).
Proof.
  intros A x f Hf r n. cbv beta. destruct (len_ok x (trunc n r)) eqn:E; [|left; reflexivity].
  rewrite (len_ok_trunc _ _ _ E). exact (Hf r n).
Qed.

Lemma r_prim_stable : forall bs size al, stable (r_prim bs size al).
Proof.
  intros bs size al r n. unfold r_prim. cbv zeta. change (r_cur (trunc n r)) with (r_cur r).
  match goal with |- context [if ?c then r_fill _ _ else _] => destruct c end.
  - refine (stable_fill _ bs _ _ r n). intros r1 n1. eexists _, _. split; reflexivity.
  - eexists _, _. split; reflexivity.
Qed.

Lemma r_chunks_stable : forall stale bs fuel rem acc, stable (r_chunks stale bs fuel rem acc).
Proof.
  intros stale bs fuel. induction fuel as [|f IH]; intros rem acc r n; cbn [r_chunks].
  - right. reflexivity.
  - destruct (bs <=? rem).
    + refine (stable_fill _ bs _ _ r n). intros r1 n1. destruct stale.
      * exact (IH (rem - bs) (acc ++ r_cur r1) r1 n1).
      * exact (IH (rem - bs) (acc ++ r_cur r1) (mkR [] (r_inp r1)) n1).
    + destruct rem as [|k]; [eexists _, _; split; reflexivity|].
      refine (stable_fill _ bs _ _ r n). intros r1 n1. eexists _, _. split; reflexivity.
Qed.

Lemma r_raw_stable : forall stale bs k, stable (r_raw stale bs k).
Proof.
  intros stale bs k r n. unfold r_raw. destruct k as [|k]; [eexists _, _; split; reflexivity|].
  cbv zeta. change (r_cur (trunc n r)) with (r_cur r).
  destruct (S k <=? length (r_cur r)); [eexists _, _; split; reflexivity|].
  exact (r_chunks_stable stale bs (S (S k)) (S k - length (r_cur r)) (r_cur r) (mkR [] (r_inp r)) n).
Qed.

Lemma r_str_stable : forall stale bs withbuf, stable (r_str stale bs withbuf).
Proof.
  intros stale bs withbuf. unfold r_str. apply stable_bind; [apply r_prim_stable|]. intros tmp. cbv beta iota.
  destruct (tmp =? noData)%N; [apply stable_ret|].
  assert (H : forall dl, stable (fun r => if len_ok (2 * dl) r
                then bind (r_raw stale bs (N.to_nat (2 * dl)) r) (fun '(bts, r3) => Ok (Some (tmp, bytes_chars bts), r3))
                else Err E_ReadLT)).
  { intros dl. apply stable_guard. apply (stable_map _ _ _ (fun bts => Some (tmp, bytes_chars bts))). apply r_raw_stable. }
  destruct withbuf; [apply stable_bind; [apply r_prim_stable|exact H]|exact (H tmp)].
Qed.

Lemma r_str8_stable : forall stale bs, stable (r_str8 stale bs).
Proof.
  intros stale bs. unfold r_str8. apply stable_bind; [apply r_prim_stable|]. intros tmp. cbv beta iota.
  destruct (tmp =? noData)%N; [apply stable_ret|].
  apply stable_guard. apply stable_map. apply r_raw_stable.
Qed.

Lemma r_op_stable : forall stale bs q, stable (r_op stale bs q).
Proof.
  intros stale bs q. destruct q; cbn [r_op]; apply stable_map.
  - apply r_prim_stable.
  - apply r_raw_stable.
  - apply r_str_stable.
  - apply r_str_stable.
  - apply r_str8_stable.
Qed.

Lemma r_ops_stable : forall stale bs qs, stable (r_ops stale bs qs).
Proof.
  intros stale bs qs. induction qs as [|q t IH]; cbn [r_ops]; [apply stable_ret|].
  apply stable_bind; [apply r_op_stable|]. intros o. apply (stable_map _ _ _ (cons o)). exact IH.
Qed.

(** whole runs (the constructor fills the first buffer): the stream cut anywhere *)
Lemma stable_cut : forall (A : Type) bs (k : rst -> res (A * rst) serr), stable k -> forall stream n,
  match bind (r_fill bs (mkR [] (firstn n stream))) k with
  | Ok (x, _) => exists r', bind (r_fill bs (mkR [] stream)) k = Ok (x, r')
  | Err e => e = E_ReadLT \/ bind (r_fill bs (mkR [] stream)) k = Err e
  end.
Proof.
  intros A bs k Hk stream n. pose proof (stable_fill _ bs _ Hk (mkR [] stream) n) as H. cbv beta in H.
  change (trunc n (mkR [] stream)) with (mkR [] (firstn n stream)) in H.
  destruct (bind (r_fill bs (mkR [] (firstn n stream))) k) as [[x rt]|e]; [|exact H].
  destruct H as (r' & _ & H & _). exists r'. exact H.
Qed.
