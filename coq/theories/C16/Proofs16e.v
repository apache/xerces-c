(** Tables of obligations: an obligation evaluated over a whole generated table holds of each entry;
    field coverage: the boolean obligation means what it says. *)
From XV Require Import Base.XDefs C16.Model16 C16.ModelFields16.
From Coq Require Import Bool.
Local Open Scope N_scope.

Lemma forallb_nth_error {A : Type} {f : A -> bool} {l : list A} (H : forallb f l = true) (n : nat) {x : A} :
  nth_error l n = Some x -> f x = true.
Proof. intros E. rewrite forallb_forall in H. exact (H x (nth_error_In l n E)). Qed.

(** the search for a concrete subclass need only be evaluated for the classes whose own body is not symmetric *)
Lemma class_obligation_where_needed : forall cs l,
  forallb (class_obligation cs) (filter (fun c => negb (class_ok cs c)) l) = true -> forallb (class_obligation cs) l = true.
Proof.
  intros cs l H. rewrite forallb_forall in *. intros c Hc. destruct (class_ok cs c) eqn:E.
  - unfold class_obligation. rewrite E. reflexivity.
  - apply H. apply filter_In. split; [exact Hc|]. rewrite E. reflexivity.
Qed.

Lemma fields_ok_spec : forall t c, fields_ok t c = true <->
  (forall f, In f (snd c) -> (fm_store f = true /\ fm_load f = true) \/ listed t (fst c) (fm_name f) = true).
Proof.
  intros t c. unfold fields_ok. rewrite forallb_forall. split; intros H f Hf; specialize (H f Hf).
  - apply orb_true_iff in H. destruct H as [H|H]; [left|right; exact H]. unfold transferred in H. apply andb_true_iff in H. exact H.
  - apply orb_true_iff. destruct H as [[H1 H2]|H]; [left|right; exact H]. unfold transferred. rewrite H1, H2. reflexivity.
Qed.

Lemma fields_all_spec : forall t fs, forallb (fields_ok t) fs = true ->
  forall c f, In c fs -> In f (snd c) ->
    (fm_store f = true /\ fm_load f = true) \/ listed t (fst c) (fm_name f) = true.
Proof.
  intros t fs H c f Hc Hf. rewrite forallb_forall in H. apply (proj1 (fields_ok_spec t c) (H c Hc) f Hf).
Qed.

(** a member that is neither transferred nor listed breaks the obligation of its class *)
Lemma fields_ok_detects : forall t c f, In f (snd c) -> transferred f = false -> listed t (fst c) (fm_name f) = false ->
  fields_ok t c = false.
Proof.
  intros t c f Hf Ht Hl. destruct (fields_ok t c) eqn:E; [|reflexivity].
  destruct (proj1 (fields_ok_spec t c) E f Hf) as [[H1 H2]|H].
  - unfold transferred in Ht. rewrite H1, H2 in Ht. discriminate.
  - rewrite H in Hl. discriminate.
Qed.
