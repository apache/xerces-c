(** Property C16 -- A serialised grammar pool restores to a behaviourally identical pool.
    The property theorems, each followed by [Print Assumptions]; the lemmas they are put together from are in
    Proofs16*.v, the generated obligations in Gen/GenSerializeObl.v and Gen/GenSerFieldsObl.v.
    Models: Model16.v; per-class action lists: Gen/GenSerialize.v (regenerated from /repo). *)
From XV Require Import Base.XDefs C16.Model16 C16.Spec16 C16.Proofs16a C16.Proofs16c C16.ModelObj16 C16.Proofs16d C16.Containers16 C16.Helpers16
  Gen.GenSerialize Gen.GenSerializeObl C16.ModelFields16 C16.Fields16 C16.Proofs16e C16.Proofs16f Gen.GenSerFields Gen.GenSerFieldsObl.
Local Open Scope nat_scope.

(** XSerializeEngine is a faithful typed byte channel (repaired read(), see F26): for every buffer size >= 8 and
    every sequence of operations - primitives of 1/2/4/8 bytes at whatever alignment the preceding items leave
    (bool, XMLByte, char, XMLCh, short, int, unsigned, float, long, unsigned long, double: the wire form of each is
    its little-endian byte string), writeSize/Int64/UInt64 (unaligned), raw blocks of any length (every residue of
    the buffer size, including the F26 class where the remainder is an exact multiple of it), XMLCh strings with
    and without buffer length, XMLByte strings, null strings - the loading engine run over the bytes produced by
    the storing engine returns exactly the items written (for strings: bufferLen, dataLen and the characters);
    alignment padding and buffer switches are decided identically on both sides, and what is left of the stream is
    the zero padding of the last block only (at most one buffer). *)
Theorem T16_engine_roundtrip : forall bs, 8 <= bs -> forall ops, Forall op_ok ops ->
  exists stream r', w_all bs ops = Ok stream /\ r_all false bs (map rq_of ops) stream = Ok (ops, r') /\
                    R r' = zeros (length (R r')) /\ length (R r') <= bs.
Proof.
  intros bs Hbs8 ops Hok. assert (Hbs : 0 < bs) by lia.
  assert (Hw0 : inv_w bs w_init) by (split; cbn; [lia|exists 0; reflexivity]).
  destruct (ops_ok bs Hbs8 ops Hok w_init Hw0) as [w' [e [E1 [[Hbuf [k Hk]] [E3 E4]]]]].
  unfold L in E3. cbn [w_init w_out w_buf app] in E3.
  set (pad := zeros (bs - length (w_buf w'))).
  assert (Hst : w_final bs w' = e ++ pad) by (unfold w_final; cbn [w_flush w_out]; rewrite app_assoc, E3; reflexivity).
  assert (Hlen : length (w_final bs w') = (k + 1) * bs).
  { unfold w_final. cbn [w_flush w_out]. rewrite !app_length, zeros_length, Hk. lia. }
  exists (w_final bs w'). unfold w_all, r_all, r_init. rewrite E1. cbn [bind].
  assert (Hk1 : 0 < k + 1) by lia.
  pose proof (fill_ok bs Hbs (mkR [] (w_final bs w')) (k + 1) Hlen Hk1) as Hfill. rewrite Hfill. cbn [bind r_inp].
  set (r0 := mkR (firstn bs (w_final bs w')) (skipn bs (w_final bs w'))).
  assert (Hf : length (firstn bs (w_final bs w')) = bs) by (rewrite firstn_length, Hlen; nia).
  destruct (E4 r0 pad) as [r' [F1 [F2 [F3 F4]]]].
  - split; cbn [r0 r_cur r_inp]; [lia|]. exists k. rewrite skipn_length, Hlen. nia.
  - cbn [w_init w_buf length r0 r_cur]. rewrite Hf. left. lia.
  - unfold R, r0. cbn [r_cur r_inp]. rewrite firstn_skipn. exact Hst.
  - exists r'. split; [reflexivity|]. split; [exact F1|]. rewrite F2. unfold pad. rewrite zeros_length.
    split; [reflexivity|lia].
Qed.
Print Assumptions T16_engine_roundtrip.

(** the code as found does NOT have the property (finding F26): with a 16-byte buffer, a byte, a 31-byte block and
    an int are read back as a byte, the block and a wrong int *)
Theorem T16_raw_stale_refuted : exists stream back r,
  Forall op_ok f26_witness /\ w_all 16 f26_witness = Ok stream /\
  r_all true 16 (map rq_of f26_witness) stream = Ok (back, r) /\ spec_roundtrip f26_witness back = false.
Proof.
  eexists. eexists. eexists. split; [|split; [|split]].
  - unfold f26_witness. repeat constructor; try (vm_compute; reflexivity).
  - vm_compute. reflexivity.
  - vm_compute. reflexivity.
  - vm_compute. reflexivity.
Qed.
Print Assumptions T16_raw_stale_refuted.

(** every class whose serialize() body the translator read completely issues, after inlining its base-class
    calls, the same sequence of wire-level actions in its store branch and in its load branch (same length, same
    order, same width/kind at every position, same template container kind, same static class of object
    references, same base-class call position); one lemma per class is in Gen/GenSerializeObl.v *)
Theorem T16_symmetric : forallb (class_obligation ser_classes) ser_parsed = true.
Proof. exact T16_sym_all. Qed.
Print Assumptions T16_symmetric.

(** object references (store pool / load pool).  For every finite sequence of reference events - null pointers,
    objects (address, dynamic class) and template containers, with arbitrary sharing, cycles included since a cycle
    is just a later event naming an earlier address - the load side run on the tags the store side issued succeeds,
    rebuilds a pool that mirrors the store pool entry by entry, and returns for each event the id the store side
    assigned to its address; the ids travel through the byte channel of T16_engine_roundtrip as unsigned ints. *)
Theorem T16_objgraph : forall evs ts sp', store_all [] evs = (ts, sp') ->
  load_all [] (map rq_ev evs) ts = Ok (map (ref_of sp') evs, map ent sp').
Proof. intros evs ts sp'. exact (objgraph_run evs [] ts sp'). Qed.
Print Assumptions T16_objgraph.

(** ... hence the loaded graph is isomorphic to the stored one: every non-null pointer is loaded as a non-null
    reference, two references are equal after load iff they were equal before (shared sub-objects stay shared,
    distinct objects stay distinct), and null stays null *)
Theorem T16_objgraph_sharing : forall evs ts sp' e1 e2 a b, store_all [] evs = (ts, sp') -> In e1 evs -> In e2 evs ->
  ev_addr e1 = Some a -> ev_addr e2 = Some b ->
  (exists i, ref_of sp' e1 = Some i) /\ (ref_of sp' e1 = ref_of sp' e2 <-> a = b).
Proof.
  intros evs ts sp' e1 e2 a b H H1 H2 Ha Hb.
  destruct (store_all_has _ _ _ _ _ _ H H1 Ha) as [i Hi]. destruct (store_all_has _ _ _ _ _ _ H H2 Hb) as [j Hj].
  unfold ref_of. rewrite Ha, Hb. split; [eauto|]. split.
  - intros E. rewrite Hi in E. symmetry in E. exact (addr_id_inj _ _ _ _ Hi E).
  - intros ->. reflexivity.
Qed.
Print Assumptions T16_objgraph_sharing.

Theorem T16_objgraph_null : forall sp' e evs ts, store_all [] evs = (ts, sp') -> In e evs ->
  (ref_of sp' e = None <-> ev_addr e = None).
Proof.
  intros sp' e evs ts H Hin. unfold ref_of. destruct (ev_addr e) as [a|] eqn:Ea.
  - destruct (store_all_has _ _ _ _ _ _ H Hin Ea) as [i Hi]. rewrite Hi. split; discriminate.
  - split; reflexivity.
Qed.
Print Assumptions T16_objgraph_null.

(** the class record selects the stored dynamic class: the load-pool entry behind the reference of an object event
    is an object of that event's class (each address being used with one class throughout the run) *)
Theorem T16_objgraph_class : forall evs ts sp' a c, consistent evs -> store_all [] evs = (ts, sp') -> In (EObj a c) evs ->
  exists id, ref_of sp' (EObj a c) = Some id /\ nth_error (map ent sp') (id - 1) = Some (LObj c).
Proof.
  intros evs ts sp' a c Hc H Hin.
  destruct (store_all_has _ _ _ _ _ _ H Hin eq_refl) as [id Hid]. exists id. split; [exact Hid|].
  destruct (find_id_hit _ _ _ _ _ Hid) as [k [E1 E2]]. rewrite PeanoNat.Nat.sub_0_r in E1.
  rewrite nth_error_map, E1. cbn [option_map]. f_equal.
  assert (Hk : key_addr k <> None) by (rewrite E2; discriminate).
  destruct (store_all_keys _ _ _ _ _ H (nth_error_In _ _ E1) Hk) as [[]|[e [He Hke]]].
  destruct k as [a' c'|a'|c']; cbn [key_addr] in E2; try discriminate; injection E2 as ->.
  - destruct e as [q|a2 c2|a2]; cbn [key_of_ev] in Hke; try contradiction. destruct Hke as [<- <-].
    pose proof (Hc _ _ a He Hin eq_refl eq_refl) as E. injection E as ->. reflexivity.
  - destruct e as [q|a2 c2|a2]; cbn [key_of_ev] in Hke; try contradiction. subst a2.
    pose proof (Hc _ _ a He Hin eq_refl eq_refl) as E. discriminate.
Qed.
Print Assumptions T16_objgraph_class.

(** store (load (store g)) = store g: presenting the loaded graph (addresses = load-pool ids) to a fresh storing
    engine yields exactly the same tag sequence - ids are assigned deterministically by first occurrence.  (Bytes
    of a real second serialisation can still differ where a container enumerates in address order; the check
    compares lengths there.) *)
Theorem T16_reserialize : forall evs ts sp', store_all [] evs = (ts, sp') -> fst (store_all [] (reload sp' evs)) = ts.
Proof.
  intros evs ts sp' H. unfold reload.
  assert (Hr : store_all (map (ren_key (the_id sp')) []) (map (ren_ev (the_id sp')) evs) = (ts, map (ren_key (the_id sp')) sp')).
  2: { cbn [map] in Hr. rewrite Hr. reflexivity. }
  apply store_all_ren; [|exact H].
  cbn [pool_addrs flat_map app]. intros x y Hx Hy E.
  unfold ev_addrs in Hx, Hy. apply in_flat_map in Hx, Hy. destruct Hx as [e1 [H1 Hx]]. destruct Hy as [e2 [H2 Hy]].
  destruct (ev_addr e1) as [a|] eqn:Ea; [|destruct Hx]. destruct Hx as [<-|[]].
  destruct (ev_addr e2) as [b|] eqn:Eb; [|destruct Hy]. destruct Hy as [<-|[]].
  destruct (store_all_has _ _ _ _ _ _ H H1 Ea) as [i Hi]. destruct (store_all_has _ _ _ _ _ _ H H2 Eb) as [j Hj].
  unfold the_id in E. rewrite Hi, Hj in E. subst j. exact (addr_id_inj _ _ _ _ Hi Hj).
Qed.
Print Assumptions T16_reserialize.

(** the container helpers of XTemplateSerializer.cpp, body by body (28 storeObject/loadObject overload pairs,
    one lemma each in Gen/GenSerializeObl.v): both overloads transfer the same items - tag, hash modulus, count, and
    per entry the same fields in the same order - and a key that is stored explicitly is read back into the very
    argument position of the insertion call that corresponds to its position in the enumerator's key tuple *)
Theorem T16_containers_symmetric : forallb container_ok ser_containers = true.
Proof. exact T16_tmpl_all. Qed.
Print Assumptions T16_containers_symmetric.

(** every container kind stored by a serialize() body or by another container has such a pair *)
Theorem T16_containers_covered : tmpl_covered ser_parsed ser_containers = true.
Proof. exact T16_tmpl_covered. Qed.
Print Assumptions T16_containers_covered.

(** every loadObject re-inserts its entries under exactly the reviewed key expressions (Containers16.v): callee,
    argument expressions in order, and the definitions of the key variables *)
Theorem T16_container_keys : inserts_ok pinned_container_inserts ser_container_inserts = true.
Proof. exact T16_tmpl_inserts. Qed.
Print Assumptions T16_container_keys.

(** the static store<X>/load<X> helper pairs, body by body (storeDV/loadDV, storeIC/loadIC, storeElementDecl/
    loadElementDecl, storeClusive/loadClusive, storeGrammar/loadGrammar): every control-flow path of the store body
    (null / built-in by name / type id + object ...) writes a sequence that some path of the load body reads item by
    item; every helper called from a serialize() body or a container has such a pair; and the decision conditions
    of both bodies are exactly the reviewed ones (Helpers16.v) - e.g. storeDV decides "built-in" by identity with the
    registry entry, not by name *)
Theorem T16_helpers_symmetric : forallb helper_ok ser_helpers = true.
Proof. exact T16_helper_all. Qed.
Print Assumptions T16_helpers_symmetric.
Theorem T16_helpers_covered : helpers_covered (ser_parsed ++ ser_containers) ser_helpers = true.
Proof. exact T16_helper_covered. Qed.
Print Assumptions T16_helpers_covered.
Theorem T16_helper_decisions : inserts_ok pinned_helper_conds ser_helper_conds = true.
Proof. exact T16_helper_conds. Qed.
Print Assumptions T16_helper_decisions.

(** Field coverage (regenerated from the headers and the serialize() bodies of /repo on every run, one obligation per
    class in Gen/GenSerFieldsObl.v): every non-static data member declared in the header of a serialisable class occurs
    in the store direction AND in the load direction of that class's serialize(), or is listed with its reason in the
    reviewed table Fields16.v (derived / cache / scratch members), or is one of the members of the defect list
    known_field_gaps (finding F62: XMLDateTime::fMilliSecond, fHasTime - the check replays the witness while
    Gen reports the gap open).  A member added to a header, or dropped from both branches of serialize() (which
    T16_symmetric cannot see), breaks the obligation of its class.  "Occurs" is by identifier in the statements of the
    direction (trusted reading of the translator); the table is precise (no stale entries). *)
Theorem T16_fields_covered : forall c f, In c ser_fields -> In f (snd c) ->
  (fm_store f = true /\ fm_load f = true) \/ listed (transient_fields ++ known_field_gaps) (fst c) (fm_name f) = true.
Proof. exact (fields_all_spec (transient_fields ++ known_field_gaps) ser_fields T16_fields_all). Qed.
Print Assumptions T16_fields_covered.
Theorem T16_fields_table_is_precise : transient_precise transient_fields ser_fields = true.
Proof. exact T16_fields_table_precise. Qed.
Print Assumptions T16_fields_table_is_precise.
(** enum-typed members travel as a 4-byte integer and are cast back to their declared enum type (so that, with
    T16_engine_roundtrip, the loaded value is the stored enumerator) *)
Theorem T16_enum_fields : forallb (fun e => snd e) ser_enum_fields = true.
Proof. exact T16_enum_fields_all. Qed.
Print Assumptions T16_enum_fields.

(** deserializeGrammars compares the level stamp before anything else is read *)
Theorem T16_level : forall bs level stream r0 stamp r1 stale qs, 8 <= bs ->
  r_init bs stream = Ok r0 -> r_prim bs 4 true r0 = Ok (stamp, r1) -> stamp <> level ->
  pool_load stale bs level qs stream = Err E_LevelMismatch.
Proof. intros bs level stream r0 stamp r1 stale qs _. apply level_rejected. Qed.
Print Assumptions T16_level.

(** a pool stored by a build of another level is refused by this build's loader (ser_level is regenerated from
    configure.ac), whatever the pool contains and however the stream is cut into buffers *)
Theorem T16_level_foreign_pool : forall bs stamp locked body qs, 8 <= bs -> (stamp < 4294967296)%N -> stamp <> ser_level ->
  Forall op_ok body ->
  exists stream, pool_store bs stamp locked body = Ok stream /\ pool_load false bs ser_level qs stream = Err E_LevelMismatch.
Proof.
  intros bs stamp locked body qs Hbs8 Hs. generalize ser_level. intros level Hne Hok.
  set (lk := if locked then 1%N else 0%N).
  assert (Hok' : Forall op_ok (OPrim K4 stamp :: OPrim K1 lk :: body)).
  { constructor; [exact Hs|]. constructor; [|exact Hok]. cbn [op_ok pk_bound]. unfold lk. destruct locked; lia. }
  destruct (T16_engine_roundtrip bs Hbs8 _ Hok') as [stream [r' [E1 [E2 _]]]].
  exists stream. split; [exact E1|].
  unfold r_all in E2. destruct (r_init bs stream) as [r0|] eqn:E0; [cbn [bind] in E2|discriminate].
  destruct (r_ops_prim_inv false bs K4 _ r0 stamp _ r' E2) as [r1 Ep].
  exact (level_rejected bs level stream r0 _ r1 false qs E0 Ep Hne).
Qed.
Print Assumptions T16_level_foreign_pool.

(** Truncated streams.  For every buffer size, every sequence of read requests, every stream and every cut point: the
    loading engine run on the first n bytes of the stream either stops with XSer_InStream_Read_LT_Req (fillBuffer obtained
    fewer than fBufSize bytes) or returns exactly the items it returns on the whole stream (the cut fell into bytes no
    request reads, e.g. nothing was cut) - it never returns different items.  (An error other than Read_LT is one the
    whole stream produces as well.)  Holds for the code as found and as repaired (any [stale]). *)
Theorem T16_truncated_rejects : forall stale bs qs stream n,
  match r_all stale bs qs (firstn n stream) with
  | Ok (ops, _) => exists r', r_all stale bs qs stream = Ok (ops, r')
  | Err e => e = E_ReadLT \/ r_all stale bs qs stream = Err e
  end.
Proof. intros stale bs qs stream n. exact (stable_cut _ bs _ (r_ops_stable stale bs qs) stream n). Qed.
Print Assumptions T16_truncated_rejects.
(** the same through deserializeGrammars' header: a truncated pool stream is rejected (Read_LT, or the level mismatch of
    the whole stream) or loads exactly the items of the whole stream *)
Theorem T16_pool_truncated_rejects : forall stale bs level qs stream n,
  match pool_load stale bs level qs (firstn n stream) with
  | Ok (lk, ops, _) => exists r', pool_load stale bs level qs stream = Ok (lk, ops, r')
  | Err e => e = E_ReadLT \/ pool_load stale bs level qs stream = Err e
  end.
Proof.
  intros stale bs level qs stream n.
  assert (Hk : stable (fun r0 => bind (r_prim bs 4 true r0) (fun '(stamp, r1) =>
                 if (stamp =? level)%N
                 then bind (r_prim bs 1 true r1) (fun '(lk, r2) =>
                      bind (r_ops stale bs qs r2) (fun '(os, r3) => Ok (negb (lk =? 0)%N, os, r3)))
                 else Err E_LevelMismatch))).
  { apply stable_bind; [apply r_prim_stable|]. intros stamp. cbv beta iota.
    destruct (stamp =? level)%N; [|apply stable_err].
    apply stable_bind; [apply r_prim_stable|]. intros lk. apply (stable_map _ _ _ (pair (negb (lk =? 0)%N))). apply r_ops_stable. }
  generalize (stable_cut _ bs _ Hk stream n). unfold pool_load, r_init.
  destruct (bind (r_fill bs (mkR [] (firstn n stream))) _) as [[[lk ops] rt]|e]; intros H; exact H.
Qed.
Print Assumptions T16_pool_truncated_rejects.

Example T16_nonvacuous_truncated :   (* cut inside the second buffer: rejected; cut = whole length: read *)
  let ops := [OPrim K1 1; OStr (Some [0x41; 0x42; 0x43; 0x44; 0x45; 0x46; 0x47; 0x48; 0x49]); OPrim K4 9]%N in
  (exists s, w_all 8 ops = Ok s /\ length s = 40 /\
     r_all false 8 (map rq_of ops) (firstn 39 s) = Err E_ReadLT /\ r_all false 8 (map rq_of ops) (firstn 9 s) = Err E_ReadLT /\
     r_all false 8 (map rq_of ops) (firstn 0 s) = Err E_ReadLT /\
     exists r, r_all false 8 (map rq_of ops) (firstn 40 s) = Ok (ops, r)).
Proof. cbv zeta. eexists. split; [vm_compute; reflexivity|]. repeat split; try (vm_compute; reflexivity). eexists. vm_compute. reflexivity. Qed.
Example T16_nonvacuous_ops :
  Forall op_ok [OPrim K4 7; OStr (Some [0x41; 0x20AC]); OStr None; ORaw [1; 2; 3]; OPrim KS 5; OPrim K8 0xFFFFFFFFFFFFFFFF;
                OStrB (Some (16, [0x41; 0xD800])); OStrB None; OStr8 (Some [0x51; 0x4E]); OPrim K2 0xFFFF; OPrim K1 1]%N.
Proof. repeat constructor; vm_compute; reflexivity. Qed.
Example T16_nonvacuous_straddle :   (* a string whose bytes span three 8-byte buffers, then an aligned int *)
  w_all 8 [OPrim K1 1; OStr (Some [0x41; 0x42; 0x43; 0x44; 0x45; 0x46; 0x47; 0x48; 0x49]); OPrim K4 9]%N =
  Ok [1;0;0;0;0;0;0;0; 9;0;0;0;0;0;0;0; 0x41;0;0x42;0;0x43;0;0x44;0; 0x45;0;0x46;0;0x47;0;0x48;0; 0x49;0;0;0;9;0;0;0]%N.
Proof. vm_compute. reflexivity. Qed.
Example T16_nonvacuous_level : pool_load false 8 ser_level [] [8;0;0;0;0;0;0;0]%N = Err E_LevelMismatch.
Proof. vm_compute. reflexivity. Qed.
Example T16_nonvacuous_asymmetry_detected :   (* a field dropped from the load branch breaks the obligation *)
  class_ok [(1, true, [APrim W4; AStr false; AObj 2], [APrim W4; AObj 2])] (1, true, [APrim W4; AStr false; AObj 2], [APrim W4; AObj 2]) = false
  /\ compatible [APrim W4; APrim W1] [APrim W1; APrim W4] = false /\ compatible [APrim W4] [APrim W8] = false.
Proof. vm_compute. repeat split; reflexivity. Qed.
Example T16_nonvacuous_rekeyed_container :   (* the stored scope key not used as third insertion key; a changed key expression *)
  container_ok (1, true, [ATag; ABrOpen; APrim WS; ALoopOpen; AKey W4 3; AObj 2; ALoopClose; ABrAlt; ABrClose],
                         [ATag; ABrOpen; APrim WS; ALoopOpen; AKey W4 0; AObj 2; ALoopClose; ABrAlt; ABrClose]) = false /\
  inserts_ok [(5, [[1; 2; 3]])]%N [(5, [[1; 2; 4]])]%N = false /\ inserts_ok [(5, [[1; 2; 3]])]%N [(5, [[1; 3; 2]])]%N = false.
Proof. vm_compute. repeat split; reflexivity. Qed.
Example T16_nonvacuous_objgraph :   (* shared object, second object of the same class, null, shared container, cycle back to 10 *)
  let evs := [EObj 10 3; EObj 11 3; ENull (QObj 3); EObj 10 3; ETmpl 50; EObj 12 4; ETmpl 50; EObj 10 3] in
  store_all [] evs = ([TNewClass 3; TClassRef 1; TNull; TRef 2; TTmpl; TNewClass 4; TRef 4; TRef 2],
                      [KCls 3; KObj 10 3; KObj 11 3; KTmpl 50; KCls 4; KObj 12 4]) /\
  load_all [] (map rq_ev evs) (fst (store_all [] evs)) =
    Ok ([Some 2; Some 3; None; Some 2; Some 4; Some 6; Some 4; Some 2], [LCls 3; LObj 3; LObj 3; LTmpl; LCls 4; LObj 4]) /\
  load_all [] [QObj 4] [TNewClass 3] = Err E_NameDif /\ load_all [] [QObj 3] [TRef 1] = Err E_UppBnd /\
  consistent evs.
Proof.
  cbv zeta. split; [vm_compute; reflexivity|]. split; [vm_compute; reflexivity|]. split; [reflexivity|]. split; [reflexivity|].
  apply (consistent_fun (fun a => if Nat.eqb a 10 then EObj 10 3 else if Nat.eqb a 11 then EObj 11 3 else if Nat.eqb a 50 then ETmpl 50 else EObj 12 4)).
  intros e a H Ha. cbn [In] in H.
  repeat (destruct H as [<-|H]; [cbn [ev_addr] in Ha; try discriminate; injection Ha as <-; reflexivity|]). contradiction.
Qed.
Example T16_nonvacuous_helper :   (* a store path nobody reads; a changed decision text *)
  helper_ok (1, [[APrim W4; AStr false]; [APrim W4; APrim W4; AObj 2]], [[APrim W4; AStr false]; [APrim W4]]) = false /\
  helper_ok (1, [[APrim W4; AStr false]; [APrim W4]], [[APrim W4; AStr false]; [APrim W4]; [APrim W4; APrim W4]]) = true /\
  inserts_ok [(7, [[1; 2]; [3]])]%N [(7, [[1; 9]; [3]])]%N = false.
Proof. vm_compute. repeat split; reflexivity. Qed.
Example T16_nonvacuous_fields :   (* a member dropped from both branches / a new header member is detected; a listed one is not *)
  fields_ok [(7, 30)]%N (7%N, [(10%N, true, true); (20%N, false, false); (30%N, false, true)]) = false /\
  fields_ok [(7, 30); (0, 20)]%N (7%N, [(10%N, true, true); (20%N, false, false); (30%N, false, true)]) = true /\
  transient_precise [(7, 10)]%N [(7%N, [(10%N, true, true)])] = false /\ length ser_fields = length ser_classes.
Proof. vm_compute. repeat split; reflexivity. Qed.
