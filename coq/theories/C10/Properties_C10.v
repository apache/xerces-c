(** Property C10 -- identity constraints (unique, key, keyref) are enforced in the value space.
    Property theorems (proved from the lemmas of Proofs10*.v, or by [vm_compute] on a witness),
    [Print Assumptions], and non-vacuity examples.
    Spec10.v: XSD Structures 3.11.4 / 3.11.5 over element trees with an abstract value type.
    Model10.v: XPathMatcher, SelectorMatcher, FieldMatcher, ValueStore, ValueStoreCache, IdentityConstraintHandler.
    The matcher theorems hold for all trees and paths (Proofs10d); the [_bounded] theorems over the universe of
    Proofs10b are instances of them.  No theorem relates the whole-document run_doc to doc_viols (DESIGN.md's T10_scope): see
    checks/meta/C10.json. *)
From Coq Require Import NArith List Bool Arith Lia.
From XV Require Import C10.Spec10 C10.Model10 C10.Values10 C10.Proofs10a C10.Proofs10b C10.Proofs10d C10.Proofs10h C10.Parse10 C10.Proofs10i.
Import ListNotations.

(** *** T10_store: duplicate detection of the value store = clause 4.1 / 4.2.2, for any value type whose equality
    is symmetric and transitive, any number of tuples in any order *)

Theorem T10_store_reports_exact : forall (V : Type) (veq : V -> V -> bool),
  (forall x y, veq x y = veq y x) ->
  (forall x y z, veq x y = true -> veq y z = true -> veq x z = true) ->
  forall l : list (otuple V), store_dups V veq l [] = dups_spec V veq l [].
Proof. intros V veq Hsym Htr l. apply (store_dups_spec V veq Hsym Htr). reflexivity. Qed.
Print Assumptions T10_store_reports_exact.

Theorem T10_store : forall (V : Type) (veq : V -> V -> bool),
  (forall x y, veq x y = veq y x) ->
  (forall x y z, veq x y = true -> veq y z = true -> veq x z = true) ->
  forall l : list (list V), forallb negb (store_dups V veq (map (map Some) l) []) = no_dup_eq V veq l.
Proof.
  intros V veq Hsym Htr l. rewrite (store_dups_none V veq Hsym Htr), no_dup_o_map.
  replace (forallb _ (map (map Some) l)) with true; [reflexivity|]. symmetry. apply forallb_forall. reflexivity.
Qed.
Print Assumptions T10_store.

Theorem T10_store_table : forall (V : Type) (veq : V -> V -> bool),
  (forall x y, veq x y = veq y x) ->
  (forall x y z, veq x y = true -> veq y z = true -> veq x z = true) ->
  forall l acc x, contains V veq (table V veq l acc) x = contains V veq acc x || existsb (otuple_eq V veq x) l.
Proof. exact table_contains. Qed.
Print Assumptions T10_store_table.

(** ValueStore::addValue step: the field completing a tuple triggers exactly one lookup + put; earlier fields nothing *)
Theorem T10_store_add_completes : forall (V : Type) (veq : V -> V -> bool) (vhash : V -> list N) f v (vs : vstore V),
  nth_error (vs_vals V vs) f = Some None -> S (vs_count V vs) = length (vs_vals V vs) ->
  vs_add V veq vhash f v vs =
  Some (mkVS V (vs_ic V vs) (upd_nth f (Some v) (vs_vals V vs)) (length (vs_vals V vs))
             (put_tupleH V veq vhash (upd_nth f (Some v) (vs_vals V vs)) (vs_tuples V vs)),
        containsH V veq vhash (vs_tuples V vs) (upd_nth f (Some v) (vs_vals V vs))).
Proof.
  intros V veq vhash f v vs H1 H2. unfold vs_add. rewrite H1, upd_nth_length, H2, Nat.eqb_refl. reflexivity.
Qed.
Print Assumptions T10_store_add_completes.

Theorem T10_store_add_partial : forall (V : Type) (veq : V -> V -> bool) (vhash : V -> list N) f v (vs : vstore V),
  nth_error (vs_vals V vs) f = Some None -> S (vs_count V vs) < length (vs_vals V vs) ->
  vs_add V veq vhash f v vs =
  Some (mkVS V (vs_ic V vs) (upd_nth f (Some v) (vs_vals V vs)) (S (vs_count V vs)) (vs_tuples V vs), false).
Proof.
  intros V veq vhash f v vs H1 H2. unfold vs_add. rewrite H1, upd_nth_length.
  destruct (Nat.eqb_spec (S (vs_count V vs)) (length (vs_vals V vs))) as [E|E]; [lia|reflexivity].
Qed.
Print Assumptions T10_store_add_partial.

(** *** value space: lexically different forms of equal values are equal, different values are not *)
Definition lex (s : list N) := s.
Example value_space_examples :
  let v := value_of [] in
  ceq (v TDec [49;46;48]%N) (v TDec [49;46;48;48]%N) = true /\            (* 1.0 = 1.00 *)
  ceq (v TInt [43;49]%N) (v TInt [49]%N) = true /\                         (* +1 = 1 *)
  ceq (v TInt [49]%N) (v TDec [48;49;46;48]%N) = true /\                   (* integer 1 = decimal 01.0 *)
  ceq (v TStr [49]%N) (v TInt [49]%N) = false /\                           (* string "1" <> integer 1 *)
  ceq (v TTok [32;97;32;32;98]%N) (v TTok [97;32;98]%N) = true /\          (* token " a  b" = "a b" *)
  ceq (v TStr [32;97]%N) (v TStr [97]%N) = false /\                        (* string " a" <> "a" *)
  ceq (v TDec [45;48;46;48]%N) (v TDec [48]%N) = true.                     (* -0.0 = 0 *)
Proof. vm_compute. repeat split; reflexivity. Qed.

(** on non-empty values ICValueHasher::isDuplicateOf (ceq) is the value-space equality of the specification *)
Theorem T10_ceq_value_space : forall a b, kind_of (cv_ty a) <> TNone -> kind_of (cv_ty b) <> TNone -> cv_raw a <> [] -> cv_raw b <> [] ->
  ceq a b = spec_veq a b.
Proof.
  intros a b Ha Hb Ra Rb. rewrite (ceq_typed a b Ha Hb). unfold spec_veq.
  destruct (cv_raw a); [contradiction|]. destruct (cv_raw b); [contradiction|]. reflexivity.
Qed.
Print Assumptions T10_ceq_value_space.

(** *** hash buckets (RefHashTableOf<FieldValueMap, ICValueHasher>): when equal values have equal hash keys the bucketed
    lookup / insertion of the model is the plain search the theorems above talk about ... *)
Theorem T10_hash_transparent : forall (V : Type) (veq : V -> V -> bool),
  (forall x y, veq x y = veq y x) ->
  (forall x y z, veq x y = true -> veq y z = true -> veq x z = true) ->
  forall vhash : V -> list N, (forall x y, veq x y = true -> vhash x = vhash y) ->
  (forall tuples t, containsH V veq vhash tuples t = contains V veq tuples t) /\
  (forall t tuples, put_tupleH V veq vhash t tuples = put_tuple V veq t tuples).
Proof. intros V veq Hsym Htr vhash H. split; [exact (containsH_is_contains V veq vhash H)|exact (put_tupleH_is_put_tuple V veq vhash H)]. Qed.
Print Assumptions T10_hash_transparent.

(** ... and hash_respects_eq holds for the modelled types: values identified by ICValueHasher::isDuplicateOf, and
    values equal in the value space, have the same hash key (canonical form w.r.t. the most generic base type),
    whatever their derivation depth (integer vs int vs a user restriction, decimal vs long, token vs NCName ...) *)
Theorem T10_hash_respects_eq : forall a b, kind_of (cv_ty a) <> TNone -> kind_of (cv_ty b) <> TNone ->
  ceq a b = true -> chash a = chash b.
Proof.
  intros a b Ha Hb H. rewrite (ceq_typed a b Ha Hb) in H. rewrite (chash_typed a Ha), (chash_typed b Hb).
  destruct (is_nil_list (cv_raw a)), (is_nil_list (cv_raw b)); cbn in H; try discriminate.
  - unfold vtype_eqb in H. apply N.eqb_eq in H. rewrite H. reflexivity.
  - apply andb_true_iff in H as [H1 H2]. apply N.eqb_eq in H1. apply leqb_eq in H2. rewrite H1, H2. reflexivity.
Qed.
Print Assumptions T10_hash_respects_eq.
Theorem T10_hash_respects_value_space : forall a b, kind_of (cv_ty a) <> TNone -> kind_of (cv_ty b) <> TNone ->
  cv_raw a <> [] -> cv_raw b <> [] -> spec_veq a b = true -> chash a = chash b.
Proof.
  intros a b Ha Hb Ra Rb H. apply T10_hash_respects_eq; try assumption. rewrite T10_ceq_value_space; assumption.
Qed.
Print Assumptions T10_hash_respects_value_space.
Example hash_examples :
  let v := value_of [] in
  chash (v TInt [43;49]%N) = chash (v (TDer TInt 2) [48;49]%N) /\            (* integer +1, int 01 *)
  chash (v TDec [49;46;48]%N) = chash (v (TDer TInt 1) [49]%N) /\            (* decimal 1.0, long 1 *)
  chash (v (TDer TTok 10) [32;97]%N) = chash (v TTok [97;32]%N) /\           (* NCName " a", token "a " *)
  chash (v TInt [49]%N) <> chash (v TStr [49]%N).
Proof. vm_compute. repeat split; try reflexivity. discriminate. Qed.

(** *** T10_keyref_order: the keyref verdict is the set-level statement of clause 4.3, hence independent of the
    document order of keys and references and of the number of (equal) tuples *)
Theorem T10_keyref_sets : forall (V : Type) (veq : V -> V -> bool),
  (forall x, veq x x = true) -> (forall x y, veq x y = veq y x) ->
  (forall x y z, veq x y = true -> veq y z = true -> veq x z = true) ->
  forall keys refs, keyref_missing V veq keys refs = [] <->
                    (forall r, In r refs -> exists k, In k keys /\ otuple_eq V veq r k = true).
Proof. exact keyref_verdict_sets. Qed.
Print Assumptions T10_keyref_sets.

Theorem T10_keyref_order : forall (V : Type) (veq : V -> V -> bool),
  (forall x, veq x x = true) -> (forall x y, veq x y = veq y x) ->
  (forall x y z, veq x y = true -> veq y z = true -> veq x z = true) ->
  forall keys keys' refs refs',
  (forall x, In x keys <-> In x keys') -> (forall x, In x refs <-> In x refs') ->
  (keyref_missing V veq keys refs = [] <-> keyref_missing V veq keys' refs' = []).
Proof.
  intros V veq Hrefl Hsym Htr keys keys' refs refs' HK HR. rewrite !(T10_keyref_sets V veq Hrefl Hsym Htr).
  split; intros H r Hr; apply HR in Hr; destruct (H r Hr) as [k [A B]]; exists k; (split; [apply HK; exact A|exact B]).
Qed.
Print Assumptions T10_keyref_order.

(** non-vacuity: a key after its references, duplicates among the references, permuted *)
Example keyref_order_example :
  keyref_missing nat Nat.eqb [[Some 1]; [Some 2]] [[Some 2]; [Some 2]; [Some 1]] = [] /\
  keyref_missing nat Nat.eqb [[Some 2]; [Some 1]; [Some 2]] [[Some 1]; [Some 2]] = [] /\
  keyref_missing nat Nat.eqb [[Some 1]] [[Some 2]; [Some 1]; [Some 2]] = [[Some 2]].
Proof. vm_compute. auto. Qed.

(** *** the XPath matcher *)

(** F14: the streaming matcher keeps one position per location path.  Selector .//a/a/b (a = 1, b = 100) on the
    context element c(0) with the chain a/a/a/b: the specification selects the b, the matcher does not. *)
Definition f14_path : spath := mkSpath true [NTName 1; NTName 1; NTName 100] None.
Definition f14_leaf : tree nat := Node 100%N [] true false 0 [].
Definition f14_tree : tree nat := Node 0%N [] false false 0 [Node 1%N [] false false 0 [Node 1%N [] false false 0
                                  [Node 1%N [] false false 0 [f14_leaf]]]].
Theorem T10_xpath_refuted :
  exists (p : spath) (t : tree nat), sel_eval nat [p] t <> matcher_selects nat false false (compile_path p) t.
Proof. exists f14_path, f14_tree. vm_compute. discriminate. Qed.
Print Assumptions T10_xpath_refuted.

(** the same witness is handled by the repaired (set-of-positions) matcher: the defect switch of F14 *)
Example f14_fixed : matcher_selects nat true false (compile_path f14_path) f14_tree = sel_eval nat [f14_path] f14_tree.
Proof. vm_compute. reflexivity. Qed.

(** F26: the step after ".//" is tested against the context element itself *)
Theorem T10_xpath_context_refuted :
  exists (p : spath) (t : tree nat), sel_eval nat [p] t = [] /\ matcher_selects nat false false (compile_path p) t = [[]].
Proof. exists (mkSpath true [NTName 0] None), (Node 0%N [] false false 0 [Node 1%N [] false false 0 []]). vm_compute. auto. Qed.
Print Assumptions T10_xpath_context_refuted.

(** T10_xpath_child_only (unbounded): for every tree and every list of child steps (no ".//"), the streaming matcher
    as written (startElement/endElement driven over the tree, SelectorMatcher's value-scope trigger) selects exactly
    the specification's node set, in the same order *)
Theorem T10_xpath_child_only : forall (V : Type) (steps : list ntest) (t : tree V),
  matcher_selects V false false (compile_path (mkSpath false steps None)) t = sel_path V (mkSpath false steps None) t.
Proof. exact matcher_child_only_exact. Qed.
Print Assumptions T10_xpath_child_only.
Example child_only_nontrivial :
  sel_path nat (mkSpath false [NTName 1; NTAny] None)
           (Node 0%N [] false false 0 [Node 1%N [] false false 0 [Node 2%N [] false false 0 []; Node 3%N [] false false 0 []];
                                       Node 2%N [] false false 0 [Node 2%N [] false false 0 []]]) = [[0; 0]; [0; 1]].
Proof. vm_compute. reflexivity. Qed.

(** T10_fixed_matcher (unbounded, ".//" paths): the repaired set-of-positions matcher (fixed = true) -- the defect switch
    that attributes failing inputs to F14/F26 -- selects exactly the specification's node set for every tree and every
    path  .//s1/.../sn  (n >= 1).  (Proofs10d.fixed_matcher_exact also covers  s1/.../sn, where the faithful matcher is
    already exact, T10_xpath_child_only.) *)
Theorem T10_fixed_matcher : forall (V : Type) (s1 : ntest) (r0 : list ntest) (t : tree V) (x : addr),
  In x (matcher_selects V true false (compile_path (mkSpath true (s1 :: r0) None)) t) <->
  In x (sel_path V (mkSpath true (s1 :: r0) None) t).
Proof. intros V. exact (fixed_matcher_exact V true). Qed.
Print Assumptions T10_fixed_matcher.

(** T10_xpath_sound (unbounded): the streaming matcher as written never starts a value scope at an element outside the
    specification's node set, for every tree and every path .//s1/.../sn -- provided the context element is not itself
    matched by s1 (exactly the class of finding F26, see T10_xpath_context_refuted).  Together with T10_xpath_refuted
    (F14: it can miss nodes) this pins the matcher's behaviour on ".//" paths: a subset, not always the whole set. *)
Theorem T10_xpath_sound : forall (V : Type) (s1 : ntest) (r0 : list ntest) (t : tree V) (x : addr),
  ntest_ok s1 (t_name t) = false ->
  In x (matcher_selects V false false (compile_path (mkSpath true (s1 :: r0) None)) t) ->
  In x (sel_path V (mkSpath true (s1 :: r0) None) t).
Proof. exact matcher_sound_desc. Qed.
Print Assumptions T10_xpath_sound.
Example sound_nontrivial :
  let t := Node 0%N [] false false 0 [Node 1%N [] false false 0 [Node 100%N [] true false 0 []; Node 1%N [] false false 0 [Node 100%N [] true false 0 []]]] in
  ntest_ok (NTName 1) (t_name t) = false /\
  matcher_selects nat false false (compile_path (mkSpath true [NTName 1; NTName 100] None)) t = [[0; 0]] /\
  sel_path nat (mkSpath true [NTName 1; NTName 100] None) t = [[0; 0]; [0; 1; 0]].     (* sound, a strict subset here *)
Proof. vm_compute. auto. Qed.

(** bounded-exhaustive statements, instances of the theorems for all trees and paths: over all 484 trees of
    [universe] and all 39 step lists of 1..3 steps over {name 1, name 2, *}: *)
Theorem T10_xpath_child_only_bounded : check_child_only = true.
Proof.
  apply forallb_forall. intros t _. apply forallb_forall. intros st _. cbv zeta.
  rewrite matcher_child_only_exact. apply same_set_iff. reflexivity.
Qed.
Print Assumptions T10_xpath_child_only_bounded.
Theorem T10_xpath_desc_simple_bounded : check_desc_one_step = true.
Proof.
  apply forallb_forall. intros t _. apply forallb_forall. intros s _. cbv zeta. unfold ctx_guard. cbn [negb orb].
  destruct (ntest_ok s (t_name t)) eqn:G; [reflexivity|]. apply same_set_iff. intros x. apply matcher_one_step_exact, G.
Qed.
Print Assumptions T10_xpath_desc_simple_bounded.
Theorem T10_xpath_sound_bounded : check_sound = true.
Proof.
  apply forallb_forall. intros t _. apply forallb_forall. intros st Hin. cbv zeta.
  destruct (step_lists_nonempty st Hin) as [s [r ->]]. unfold ctx_guard. cbn [negb orb].
  destruct (ntest_ok s (t_name t)) eqn:G; [reflexivity|]. apply subset_incl. intros x. apply matcher_sound_desc, G.
Qed.
Print Assumptions T10_xpath_sound_bounded.
Theorem T10_fixed_matcher_bounded : check_fixed = true.
Proof.
  apply forallb_forall. intros t _. apply forallb_forall. intros st Hin. apply forallb_forall. intros d _. cbv zeta.
  destruct (step_lists_nonempty st Hin) as [s [r ->]]. apply same_set_iff. intros x. apply fixed_matcher_exact.
Qed.
Print Assumptions T10_fixed_matcher_bounded.
Example universe_nontrivial : length universe = 484 /\ length step_lists = 39.
Proof. vm_compute. auto. Qed.

(** *** reporting gate (F13, repaired by 55dbcfa): with the gate off nothing is ever reported *)
Example gate_off_reports_nothing :
  let dup := Node 0%N [] false false (value_of [] TNone []) [Node 1%N [(0%N, value_of [] TStr [97%N])] false false (value_of [] TNone []) [];
                                                              Node 1%N [(0%N, value_of [] TStr [97%N])] false false (value_of [] TNone []) []] in
  let sch := [(0%N, mkIC KKey 0 9999 [mkSpath false [NTName 1] None] [[mkSpath false [] (Some (NTName 0))]])] in
  model_doc false false false sch dup = [] /\ model_doc false false true sch dup = [E_DuplicateKey] /\ spec_doc sch dup = [V_DupKey].
Proof. vm_compute. auto. Qed.

(** *** multi-field key-sequences: one value scope of ValueStore (startValueScope, addValue per field in ANY document order
    of the field nodes, endValueScope).  [fv] gives per field the value of its single node or None (absent);
    [ord] is the order in which the present fields are handed over. *)

(** general form: fValues ends up as [fv]; the table is consulted and extended exactly once, by the completing field, and
    only when every field is present; all other addValue calls report nothing *)
Theorem T10_scope_tuple : forall (V : Type) (veq : V -> V -> bool) (vhash : V -> list N) (fv : otuple V) ord T ic,
  NoDup ord -> (forall f, In f ord <-> exists v, nth_error fv f = Some (Some v)) ->
  let complete := (0 <? length ord) && (length ord =? length fv) in
  adds_run V veq vhash ord fv (mkVS V ic (repeat None (length fv)) 0 T) =
  Some (mkVS V ic fv (length ord) (if complete then put_tupleH V veq vhash fv T else T),
        expected_flags (length ord) (if complete then containsH V veq vhash T fv else false)).
Proof.
  intros V veq vhash fv ord T ic ND PR complete.
  pose proof (adds_run_inv V veq vhash fv ord [] T ic ND) as H. cbn [app length] in H.
  unfold restrict at 1 in H. rewrite restrict_nil in H. cbn zeta in H. cbn [Nat.add] in H.
  rewrite H.
  - rewrite restrict_all; [reflexivity|].
    intros f v Hf. apply in_or_app. left. apply in_rev. rewrite rev_involutive. apply PR. exists v. exact Hf.
  - intros f _ [].
  - intros f Hin. apply PR. exact Hin.
  - apply nodup_bound; [exact ND|]. intros f Hin. apply PR in Hin as [v Hv]. exact (present_lt V fv f _ Hv).
Qed.
Print Assumptions T10_scope_tuple.

(** every field present (any number of fields, any order): one lookup of the whole tuple, then it is stored *)
Theorem T10_scope_complete : forall (V : Type) (veq : V -> V -> bool) (vhash : V -> list N) (tu : list V) ord T ic,
  tu <> [] -> NoDup ord -> (forall f, In f ord <-> f < length tu) ->
  adds_run V veq vhash ord (map Some tu) (mkVS V ic (repeat None (length tu)) 0 T) =
  Some (mkVS V ic (map Some tu) (length tu) (put_tupleH V veq vhash (map Some tu) T),
        repeat false (length tu - 1) ++ [containsH V veq vhash T (map Some tu)]).
Proof.
  intros V veq vhash tu ord T ic NE ND PR.
  assert (L : length ord = length tu).
  { apply Nat.le_antisymm; [apply nodup_bound; [exact ND|intros f Hin; apply PR, Hin]|].
    rewrite <- (seq_length (length tu) 0). apply NoDup_incl_length; [apply seq_NoDup|]. intros f Hin. apply PR. apply in_seq in Hin. lia. }
  pose proof (T10_scope_tuple V veq vhash (map Some tu) ord T ic ND) as H. rewrite map_length in H. cbn zeta in H.
  rewrite H.
  - rewrite L, Nat.eqb_refl. destruct tu as [|x tu]; [contradiction|]. cbn [length Nat.ltb Nat.leb andb expected_flags].
    cbn [Nat.sub]. rewrite ?Nat.sub_0_r. reflexivity.
  - intros f. rewrite PR. split.
    + intros Hf. destruct (nth_error tu f) as [v|] eqn:E.
      * exists v. rewrite nth_error_map, E. reflexivity.
      * apply nth_error_None in E. lia.
    + intros [v Hv]. apply present_lt in Hv. rewrite map_length in Hv. exact Hv.
Qed.
Print Assumptions T10_scope_complete.

(** some field absent: nothing is looked up or stored (a unique with an absent field is not in the qualified node set) and
    fewer values than fields are counted -- which is what endValueScope turns into IC_AbsentKeyValue /
    IC_KeyNotEnoughValues for a key (T10_scope_end) *)
Theorem T10_scope_incomplete : forall (V : Type) (veq : V -> V -> bool) (vhash : V -> list N) (fv : otuple V) ord T ic a,
  nth_error fv a = Some None ->
  NoDup ord -> (forall f, In f ord <-> exists v, nth_error fv f = Some (Some v)) ->
  adds_run V veq vhash ord fv (mkVS V ic (repeat None (length fv)) 0 T) =
  Some (mkVS V ic fv (length ord) T, expected_flags (length ord) false) /\ length ord < length fv.
Proof.
  intros V veq vhash fv ord T ic a Ha ND PR.
  assert (L : length ord < length fv).
  { assert (Na : ~ In a ord). { intros Hin. apply PR in Hin as [v Hv]. rewrite Ha in Hv. discriminate. }
    apply (nodup_bound (a :: ord)); [constructor; assumption|].
    intros g [<-|Hin]; [exact (present_lt V fv a _ Ha)|]. apply PR in Hin as [v Hv]. exact (present_lt V fv g _ Hv). }
  split; [|exact L].
  rewrite (T10_scope_tuple V veq vhash fv ord T ic ND PR).
  assert (E : (length ord =? length fv) = false) by (apply Nat.eqb_neq; lia).
  rewrite E, andb_false_r. reflexivity.
Qed.
Print Assumptions T10_scope_incomplete.

Theorem T10_scope_end : forall (V : Type) (report : bool) (ics : list mic) icx depth sid (s : st V),
  lookup2 icx depth (s_ic2vs V s) = Some sid ->
  s_errs V (end_value_scope V report ics icx depth s) =
  (if report then rev (end_scope_codes (m_k (ic_at ics icx)) (vs_count V (store_at V s sid))
                                       (length (m_flds (ic_at ics icx)))) else []) ++ s_errs V s.
Proof.
  intros V report ics icx depth sid s H. unfold end_value_scope. rewrite H. unfold end_scope_codes, emit.
  destruct (m_k (ic_at ics icx)); destruct (vs_count V (store_at V s sid) =? 0);
    destruct (vs_count V (store_at V s sid) =? length (m_flds (ic_at ics icx))); destruct report; reflexivity.
Qed.
Print Assumptions T10_scope_end.
Theorem T10_scope_end_codes :
  (forall n, 0 < n -> end_scope_codes KKey n n = []) /\
  (forall c n, c < n -> exists e, end_scope_codes KKey c n = [e]) /\
  (forall c n, end_scope_codes KUnique c n = [] /\ end_scope_codes KKeyRef c n = []).
Proof.
  unfold end_scope_codes. split; [|split; [|split; reflexivity]].
  - intros n H. destruct (Nat.eqb_spec n 0); [lia|]. rewrite Nat.eqb_refl. reflexivity.
  - intros c n H. destruct (c =? 0); [eauto|]. destruct (Nat.eqb_spec c n); [lia|eauto].
Qed.
Example scope_examples :
  (* two fields handed over in reverse order; second node repeats the tuple: reported by the completing field only *)
  adds_run nat Nat.eqb (fun _ => []) [1; 0] [Some 7; Some 8] (mkVS nat 0 [None; None] 0 [[Some 7; Some 8]])
  = Some (mkVS nat 0 [Some 7; Some 8] 2 [[Some 7; Some 8]], [false; true]) /\
  adds_run nat Nat.eqb (fun _ => []) [1] [None; Some 8] (mkVS nat 0 [None; None] 0 [[Some 7; Some 8]])
  = Some (mkVS nat 0 [None; Some 8] 1 [[Some 7; Some 8]], [false]) /\
  end_scope_codes KKey 1 2 = [E_KeyNotEnoughValues] /\ end_scope_codes KKey 0 2 = [E_AbsentKeyValue].
Proof. vm_compute. auto. Qed.

(** *** key tables handed upwards (ValueStore::append in ValueStoreCache::transplant / ::endElement): the merged table
    is the union of both tables modulo value equality -- nothing lost, nothing invented.  (Structures 3.11.5 additionally
    DROPS key-sequences that occur in two child scopes: the union keeps them, which is finding F29, T10_cache_merge_refuted.) *)
Theorem T10_cache_merge_union : forall (V : Type) (veq : V -> V -> bool),
  (forall x y, veq x y = veq y x) -> (forall x y z, veq x y = true -> veq y z = true -> veq x z = true) ->
  forall vhash : V -> list N, (forall x y, veq x y = true -> vhash x = vhash y) ->
  forall src dst x,
  containsH V veq vhash (append_tuples V veq vhash dst src) x = true <->
  containsH V veq vhash dst x = true \/ containsH V veq vhash src x = true.
Proof.
  intros V veq Hsym Htr vhash H src dst x. rewrite (append_contains V veq Hsym Htr vhash H), orb_true_iff.
  rewrite (containsH_is_contains V veq vhash H src x). reflexivity.
Qed.
Print Assumptions T10_cache_merge_union.
(** F29 on the model of the whole document: key 'a' in two child scopes, keyref on the ancestor accepted; the specification
    demands the violation *)
Definition f29_leaf (nm : N) : tree cval := Node nm [] true false (value_of [] TStr [97%N]) [].
Definition f29_tree : tree cval :=
  let e := value_of [] TNone [] in
  Node 0%N [] false false e [Node 1%N [] false false e [f29_leaf 100]; Node 1%N [] false false e [f29_leaf 100]; f29_leaf 101].
Definition f29_schema : schema :=
  [(1%N, mkIC KKey 0 9999 [mkSpath false [NTName 100] None] [[mkSpath false [] None]]);
   (0%N, mkIC KKeyRef 1 0 [mkSpath false [NTName 101] None] [[mkSpath false [] None]])].
Theorem T10_cache_merge_refuted :
  model_doc false false true f29_schema f29_tree = [] /\ spec_doc f29_schema f29_tree = [V_KeyRefNotFound].
Proof. vm_compute. auto. Qed.
Print Assumptions T10_cache_merge_refuted.

(** *** the XPath reader (XPathScanner::scanExpression + XercesXPath::parseExpression, Parse10.v) *)
(** what the model needs of the tables regenerated from XercesXPath.cpp / XMLChar.cpp on every run *)
Theorem T10_xpath_tables : tables_ok = true.
Proof. exact xp_tables_ok. Qed.
Print Assumptions T10_xpath_tables.

(** token level, all expressions of the grammar (any number of union members, steps, '.', '*', NCName:*, QNames, child:: /
    attribute:: / '@', leading './/'): parseExpression raises no error and yields exactly the location paths denoted, given
    that the prefixes are declared -- for the repaired reader (fxns = true) unconditionally, for the code as written outside
    the class of F35 (first step NCName:* followed by a further step).  PARTIAL: the character level (scanExpression produces
    xpath_toks from xpath_text for every placement of white space) is covered by the correspondence, not by a theorem. *)
Theorem T10_xpath_parse_partial : forall (bound : list N -> bool) (fxns : bool) (l : list apath) paths0 i0,
  l <> [] -> forallb (apath_wf bound) l = true -> (fxns = false -> forallb (fun p => negb (ns_first p)) l = true) ->
  parse bound fxns (xpath_toks l) i0 true [] paths0 = POk (fold_left add_path (map expect_path l) paths0).
Proof.
  intros bound fxns. induction l as [|p r IH]; intros paths0 i0 NE W G; [contradiction|].
  cbn [forallb] in W. apply andb_true_iff in W as [Wp Wr].
  assert (Gp : fxns = false -> ns_first p = false).
  { intros F. specialize (G F). cbn [forallb] in G. apply andb_true_iff in G as [G _]. apply negb_true_iff in G. exact G. }
  assert (Gr : fxns = false -> forallb (fun p => negb (ns_first p)) r = true).
  { intros F. specialize (G F). cbn [forallb] in G. apply andb_true_iff in G as [_ G]. exact G. }
  pose proof (steps_nonempty bound p Wp) as RN.
  destruct r as [|p2 r].
  - cbn [xpath_toks map fold_left]. rewrite <- (app_nil_r (path_toks p)).
    rewrite (parse_path bound fxns p [] i0 [] paths0 Wp I Gp). cbn [parse]. unfold finish, expect_path.
    destruct ((if ap_desc p then [XSelf; XDesc] else []) ++ map seg_step (ap_segs p)); [contradiction|reflexivity].
  - change (xpath_toks (p :: p2 :: r)) with (path_toks p ++ KUnion :: xpath_toks (p2 :: r)).
    rewrite (parse_path bound fxns p (KUnion :: xpath_toks (p2 :: r)) i0 [] paths0 Wp I Gp).
    cbn [parse]. unfold expect_path at 1.
    destruct ((if ap_desc p then [XSelf; XDesc] else []) ++ map seg_step (ap_segs p)) as [|s0 raw] eqn:ER; [contradiction|].
    rewrite IH; [|discriminate|exact Wr|exact Gr].
    cbn [map fold_left]. f_equal. f_equal. f_equal. unfold expect_path. rewrite ER. reflexivity.
Qed.
Print Assumptions T10_xpath_parse_partial.
Example xpath_parse_nontrivial :
  let b := f35_bound in
  let l := [mkAP true [AChild true (ANName (Some [116%N]) [97%N]); ASelf; AAttr false ANAny];
            mkAP false [ASelf; AChild false ANAny]; mkAP false [AChild false ANAny]] in
  forallb (apath_wf b) l = true /\ forallb (fun p => negb (ns_first p)) l = true /\
  xpath_of_string b false false (xpath_text [32%N; 9%N] l) = POk (expect_xpath l) /\ length (expect_xpath l) = 2.
Proof. vm_compute. auto. Qed.

(** F35: the code as written rejects the grammatical selector  t:*/a  (XPath_NoSelectionOfRoot); the repaired reader reads it *)
Theorem T10_xpath_parse_refuted :
  forallb (apath_wf f35_bound) f35_xpath = true /\
  parse f35_bound false (xpath_toks f35_xpath) true true [] [] = PErr X_NoSelectionOfRoot /\
  xpath_of_string f35_bound false true (xpath_text [] f35_xpath) = PErr X_NoSelectionOfRoot /\
  xpath_of_string f35_bound true true (xpath_text [32%N] f35_xpath) = POk (expect_xpath f35_xpath).
Proof. exact f35_refuted. Qed.
Print Assumptions T10_xpath_parse_refuted.
(** the reader is lenient outside the grammar: a period followed by white space and a name is silently dropped (". a" is read
    as "a"), and an attribute step may be followed by further steps ("@a/b") *)
Example xpath_reader_lenient :
  xpath_of_string f35_bound false false [46; 32; 97]%N = POk [[XSelf; XChild (XNName None [97%N])]] /\
  xpath_of_string f35_bound false false [64; 97; 47; 98]%N = POk [[XSelf; XAttr (XNName None [97%N]); XChild (XNName None [98%N])]].
Proof. vm_compute. auto. Qed.
