(** The value store: [store_dups], [table], [dups_spec], [keyref_missing] restate, over the plain
    list search [contains] / [put_tuple], what addValue and endDocumentFragment do with the completed tuples of successive
    scopes.  The model goes through the hashed [containsH] / [put_tupleH] (the same functions when equal values
    have equal hash keys); no lemma composes the two with [vs_add].  Last: [ceq] / [chash] of Values10 on typed values. *)
From Coq Require Import NArith List Bool Arith.
From XV Require Import C10.Spec10 C10.Model10 C10.Values10.
Import ListNotations.

Section STORE.
Variable V : Type.
Variable veq : V -> V -> bool.
Hypothesis veq_refl : forall x, veq x x = true.
Hypothesis veq_sym : forall x y, veq x y = veq y x.
Hypothesis veq_trans : forall x y z, veq x y = true -> veq y z = true -> veq x z = true.

Notation teq := (otuple_eq V veq).
Notation contains := (contains V veq).
Notation put_tuple := (put_tuple V veq).

Lemma oveq_refl : forall a, oveq V veq a a = true.
Proof. destruct a; cbn; auto. Qed.
Lemma oveq_sym : forall a b, oveq V veq a b = oveq V veq b a.
Proof. destruct a, b; cbn; auto. Qed.
Lemma oveq_trans : forall a b c, oveq V veq a b = true -> oveq V veq b c = true -> oveq V veq a c = true.
Proof. destruct a, b, c; cbn; try discriminate; auto. apply veq_trans. Qed.

Lemma teq_refl : forall a, teq a a = true.
Proof. induction a as [|x a IH]; cbn; [reflexivity|]. rewrite oveq_refl, IH. reflexivity. Qed.
Lemma teq_sym : forall a b, teq a b = teq b a.
Proof. induction a as [|x a IH]; destruct b as [|y b]; cbn; try reflexivity. rewrite oveq_sym, IH. reflexivity. Qed.
Lemma teq_trans : forall a b c, teq a b = true -> teq b c = true -> teq a c = true.
Proof.
  induction a as [|x a IH]; destruct b as [|y b]; destruct c as [|z c]; cbn; try discriminate; auto.
  intros H1 H2. apply andb_true_iff in H1 as [A1 A2]. apply andb_true_iff in H2 as [B1 B2].
  rewrite (oveq_trans _ _ _ A1 B1), (IH _ _ A2 B2). reflexivity.
Qed.

(** equal tuples are interchangeable as arguments of the equality *)
Lemma teq_congr : forall t a x, teq t a = true -> teq x t = teq x a.
Proof.
  intros t a x H. destruct (teq x t) eqn:E1.
  - symmetry. eapply teq_trans; eauto.
  - destruct (teq x a) eqn:E2; [|reflexivity].
    rewrite teq_sym in H. rewrite (teq_trans _ _ _ E2 H) in E1. discriminate.
Qed.

(** RefHashTableOf::put followed by a lookup: the table behaves as a set modulo value equality *)
Lemma contains_put : forall acc t x, contains (put_tuple t acc) x = contains acc x || teq x t.
Proof.
  unfold Model10.contains. induction acc as [|a acc IH]; intros t x; cbn.
  - rewrite orb_false_r. reflexivity.
  - destruct (teq t a) eqn:E; cbn.
    + rewrite (teq_congr t a x E). destruct (teq x a); cbn; [reflexivity|]. rewrite orb_false_r. reflexivity.
    + rewrite IH. rewrite orb_assoc. reflexivity.
Qed.

(** what ValueStore::addValue does with the completed tuples of successive value scopes: one duplicate report
    per tuple that is already contained, then the tuple is put into the table *)
Fixpoint store_dups (l : list (otuple V)) (acc : list (otuple V)) : list bool :=
  match l with [] => [] | t :: r => contains acc t :: store_dups r (put_tuple t acc) end.
Definition table (l acc : list (otuple V)) : list (otuple V) := fold_left (fun a t => put_tuple t a) l acc.

(** specification of the reports: the i-th tuple is reported iff an earlier tuple is equal to it *)
Fixpoint dups_spec (l seen : list (otuple V)) : list bool :=
  match l with [] => [] | t :: r => existsb (teq t) seen :: dups_spec r (seen ++ [t]) end.

Lemma store_dups_spec : forall l acc seen,
  (forall x, contains acc x = existsb (teq x) seen) -> store_dups l acc = dups_spec l seen.
Proof.
  induction l as [|t r IH]; intros acc seen H; cbn; [reflexivity|].
  rewrite H. f_equal. apply IH. intros x. rewrite contains_put, H, existsb_app. cbn. rewrite orb_false_r. reflexivity.
Qed.

Lemma table_contains : forall l acc x, contains (table l acc) x = contains acc x || existsb (teq x) l.
Proof.
  unfold table. induction l as [|t r IH]; intros acc x; cbn [fold_left existsb]; [rewrite orb_false_r; reflexivity|].
  rewrite IH, contains_put. rewrite <- orb_assoc. reflexivity.
Qed.

(** no report at all iff the tuples are pairwise different: clause 4.1 / 4.2.2 of the specification *)
Fixpoint no_dup_o (l : list (otuple V)) : bool :=
  match l with [] => true | x :: r => negb (existsb (teq x) r) && no_dup_o r end.

Lemma store_dups_none : forall l acc,
  forallb negb (store_dups l acc) = forallb (fun t => negb (contains acc t)) l && no_dup_o l.
Proof.
  induction l as [|t r IH]; intros acc; cbn; [reflexivity|].
  rewrite IH.
  assert (E : forallb (fun x => negb (contains (put_tuple t acc) x)) r
              = forallb (fun x => negb (contains acc x)) r && negb (existsb (teq t) r)).
  { clear IH. induction r as [|y r IHr]; cbn; [reflexivity|].
    rewrite IHr, contains_put, (teq_sym y t).
    destruct (contains acc y), (teq t y), (forallb (fun x => negb (contains acc x)) r), (existsb (teq t) r); reflexivity. }
  rewrite E.
  destruct (contains acc t), (forallb (fun x => negb (contains acc x)) r), (existsb (teq t) r), (no_dup_o r); reflexivity.
Qed.

Lemma teq_map_some : forall a b : list V, teq (map Some a) (map Some b) = tuple_eq V veq a b.
Proof. induction a as [|x a IH]; destruct b as [|y b]; cbn; try reflexivity. rewrite IH. reflexivity. Qed.

Lemma no_dup_o_map : forall l : list (list V), no_dup_o (map (map Some) l) = no_dup_eq V veq l.
Proof.
  induction l as [|x r IH]; cbn; [reflexivity|]. rewrite IH.
  assert (E : existsb (teq (map Some x)) (map (map Some) r) = existsb (tuple_eq V veq x) r).
  { clear IH. induction r as [|y r IHr]; cbn; [reflexivity|]. rewrite teq_map_some, IHr. reflexivity. }
  rewrite E. reflexivity.
Qed.

(** *** keyref resolution (ValueStore::endDocumentFragment): the verdict only depends on the *sets* of
    key-sequences, so it is independent of the document order of keys and references and of how often a tuple occurs *)
Definition keyref_missing (keys refs : list (otuple V)) : list (otuple V) :=
  filter (fun t => negb (contains (table keys []) t)) (table refs []).

Lemma in_table : forall l acc x, In x (table l acc) -> In x acc \/ In x l.
Proof.
  unfold table. induction l as [|t r IH]; intros acc x H; cbn [fold_left] in H; [auto|].
  apply IH in H as [H|H]; [|right; right; exact H].
  assert (G : forall a, In x (put_tuple t a) -> In x a \/ x = t).
  { clear. induction a as [|y a IHa]; cbn; intros H.
    - destruct H as [H|[]]; auto.
    - destruct (teq t y); cbn in H; destruct H as [H|H]; auto. apply IHa in H as [H|H]; auto. }
  apply G in H as [H|H]; [left; exact H|right; left; symmetry; exact H].
Qed.

Lemma table_covers : forall l acc x, In x l -> contains (table l acc) x = true.
Proof.
  intros l acc x H. rewrite table_contains. apply orb_true_iff. right. apply existsb_exists. exists x.
  split; [exact H|apply teq_refl].
Qed.

Lemma filter_nil_iff : forall (A : Type) (f : A -> bool) l, filter f l = [] <-> forall x, In x l -> f x = false.
Proof.
  induction l as [|a l IH]; cbn [filter]; [split; [intros _ x []|reflexivity]|].
  destruct (f a) eqn:E; split; intros H.
  - discriminate.
  - rewrite (H a (or_introl eq_refl)) in E. discriminate.
  - intros x [<-|I]; [exact E|exact (proj1 IH H x I)].
  - apply IH. intros x I. apply H. right. exact I.
Qed.

Theorem keyref_verdict_sets : forall keys refs,
  keyref_missing keys refs = [] <-> (forall r, In r refs -> exists k, In k keys /\ teq r k = true).
Proof.
  intros keys refs. unfold keyref_missing. rewrite filter_nil_iff. split.
  - intros H r Hr. pose proof (table_covers refs [] r Hr) as C. apply existsb_exists in C as [r' [In' E]].
    specialize (H r' In'). apply negb_false_iff in H. rewrite table_contains in H.
    apply existsb_exists in H as [k [Ink Ek]]. exists k. split; [exact Ink|]. eapply teq_trans; eauto.
  - intros H x X. apply in_table in X as [[]|X]. destruct (H x X) as [k [Ink Ek]].
    apply negb_false_iff. rewrite table_contains. apply existsb_exists. exists k. auto.
Qed.

(** *** hash buckets are transparent when equal values have equal hash keys (hash_respects_eq) *)
Variable vhash : V -> list N.
Hypothesis hash_respects_eq : forall x y, veq x y = true -> vhash x = vhash y.

Lemma nl_eqb_refl : forall a, nl_eqb a a = true.
Proof. induction a as [|x a IH]; cbn; [reflexivity|]. rewrite N.eqb_refl, IH. reflexivity. Qed.
Lemma nll_eqb_refl : forall a, nll_eqb a a = true.
Proof. induction a as [|x a IH]; cbn; [reflexivity|]. rewrite nl_eqb_refl, IH. reflexivity. Qed.

Lemma thash_eq : forall a b, teq a b = true -> thash V vhash a = thash V vhash b.
Proof.
  unfold thash. induction a as [|x a IH]; destruct b as [|y b]; cbn; try discriminate; [reflexivity|].
  intros H. apply andb_true_iff in H as [H1 H2]. rewrite (IH _ H2). f_equal.
  destruct x, y; cbn in *; try discriminate; [apply hash_respects_eq; exact H1|reflexivity].
Qed.

Lemma same_bucket_of_eq : forall a b, teq a b = true -> same_bucket V vhash a b = true.
Proof. intros a b H. unfold same_bucket. rewrite (thash_eq a b H). apply nll_eqb_refl. Qed.

Lemma bucket_test : forall t x, same_bucket V vhash t x && teq t x = teq t x.
Proof. intros t x. destruct (teq t x) eqn:E; [rewrite (same_bucket_of_eq t x E); reflexivity|apply andb_false_r]. Qed.

Theorem containsH_is_contains : forall tuples t, containsH V veq vhash tuples t = contains tuples t.
Proof.
  unfold containsH, Model10.contains. induction tuples as [|x r IH]; intros t; cbn; [reflexivity|].
  rewrite bucket_test, IH. reflexivity.
Qed.

Theorem put_tupleH_is_put_tuple : forall t tuples, put_tupleH V veq vhash t tuples = put_tuple t tuples.
Proof.
  induction tuples as [|x r IH]; cbn; [reflexivity|]. rewrite bucket_test, IH. reflexivity.
Qed.

End STORE.

Lemma leqb_eq : forall a b, leqb a b = true -> a = b.
Proof.
  induction a as [|x a IH]; destruct b as [|y b]; cbn; try discriminate; [reflexivity|].
  intros H. apply andb_true_iff in H as [H1 H2]. apply N.eqb_eq in H1. rewrite H1, (IH _ H2). reflexivity.
Qed.

Lemma chash_typed : forall a, kind_of (cv_ty a) <> TNone ->
  chash a = if is_nil_list (cv_raw a) then [0%N; type_code (cv_ty a)] else fam (cv_ty a) :: cv_canon a.
Proof. intros a H. unfold chash. destruct (kind_of (cv_ty a)); try reflexivity. exfalso; apply H; reflexivity. Qed.

Lemma ceq_typed : forall a b, kind_of (cv_ty a) <> TNone -> kind_of (cv_ty b) <> TNone ->
  ceq a b = if is_nil_list (cv_raw a) && is_nil_list (cv_raw b) then vtype_eqb (cv_ty a) (cv_ty b)
            else if is_nil_list (cv_raw a) || is_nil_list (cv_raw b) then false
            else (fam (cv_ty a) =? fam (cv_ty b))%N && leqb (cv_canon a) (cv_canon b).
Proof.
  intros a b Ha Hb. unfold ceq.
  destruct (kind_of (cv_ty a)); try (exfalso; apply Ha; reflexivity);
  destruct (kind_of (cv_ty b)); try (exfalso; apply Hb; reflexivity); reflexivity.
Qed.
