(** Behind T10_scope_* and T10_cache_merge_union.  (1) One value scope of ValueStore: [adds_run] hands the present
    fields over in any order, [adds_run_inv] is its invariant (the tuple is looked up and stored once, by the last field,
    and only when every field has a value), [end_scope_codes] is what endValueScope reports.  (2) ValueStore::append,
    which hands key tables upwards: the merged table is the union modulo value equality. *)
From Coq Require Import NArith List Bool Arith Lia.
From XV Require Import C10.Spec10 C10.Model10 C10.Proofs10a.
Import ListNotations.

Lemma nth_error_ext : forall (A : Type) (l l' : list A), (forall i, nth_error l i = nth_error l' i) -> l = l'.
Proof.
  induction l as [|x l IH]; destruct l' as [|y l']; intros H; try reflexivity.
  - specialize (H 0). discriminate.
  - specialize (H 0). discriminate.
  - pose proof (H 0) as H0. cbn in H0. injection H0 as ->. f_equal. apply IH. intros i. exact (H (S i)).
Qed.

Lemma nth_error_upd : forall (A : Type) (l : list A) f x g,
  nth_error (upd_nth f x l) g =
  if g =? f then match nth_error l f with Some _ => Some x | None => None end else nth_error l g.
Proof.
  induction l as [|y l IH]; intros f x g.
  - destruct f, g; cbn; try reflexivity. destruct (g =? f); reflexivity.
  - destruct f as [|f], g as [|g]; cbn; try reflexivity. apply IH.
Qed.

Lemma upd_nth_length : forall (A : Type) (l : list A) i x, length (upd_nth i x l) = length l.
Proof. induction l as [|y l IH]; intros [|i] x; cbn; auto. Qed.

Lemma nodup_bound : forall (l : list nat) n, NoDup l -> (forall f, In f l -> f < n) -> length l <= n.
Proof.
  intros l n ND H. rewrite <- (seq_length n 0). apply NoDup_incl_length; [exact ND|].
  intros f Hin. apply in_seq. specialize (H f Hin). lia.
Qed.

Section SCOPE.
Variable V : Type.
Variable veq : V -> V -> bool.
Variable vhash : V -> list N.

Notation vs_add := (vs_add V veq vhash).
Notation otuple := (otuple V).
Notation containsH := (containsH V veq vhash).
Notation put_tupleH := (put_tupleH V veq vhash).

(** [fv]: the values of the fields of one selected node: [Some v] = the field selects one node with value v,
    [None] = the field selects nothing.  [restrict done fv]: the fields in [done] have been handed over *)
Fixpoint restrict_from (i : nat) (done : list nat) (fv : otuple) : otuple :=
  match fv with
  | [] => []
  | x :: r => (if existsb (Nat.eqb i) done then x else None) :: restrict_from (S i) done r
  end.
Definition restrict := restrict_from 0.

(** addValue for the fields [ord] one after the other (the document order of the field nodes, whatever it is) *)
Fixpoint adds_run (ord : list nat) (fv : otuple) (vs : vstore V) : option (vstore V * list bool) :=
  match ord with
  | [] => Some (vs, [])
  | f :: r =>
    match nth f fv None with
    | None => None
    | Some v => match vs_add f v vs with
                | None => None
                | Some (vs', d) => match adds_run r fv vs' with
                                   | None => None
                                   | Some (vs'', ds) => Some (vs'', d :: ds)
                                   end
                end
    end
  end.

Lemma restrict_from_length : forall fv i done, length (restrict_from i done fv) = length fv.
Proof. induction fv as [|x r IH]; intros i done; cbn; auto. Qed.

Lemma restrict_nil : forall fv i, restrict_from i [] fv = repeat None (length fv).
Proof. induction fv as [|x r IH]; intros i; cbn; [reflexivity|]. rewrite IH. reflexivity. Qed.

Lemma restrict_from_nth_error : forall fv i done f,
  nth_error (restrict_from i done fv) f =
  match nth_error fv f with
  | Some x => Some (if existsb (Nat.eqb (i + f)) done then x else None)
  | None => None end.
Proof.
  induction fv as [|x r IH]; intros i done f; destruct f as [|f]; cbn; try reflexivity.
  - rewrite Nat.add_0_r. reflexivity.
  - rewrite IH. replace (S i + f) with (i + S f) by lia. reflexivity.
Qed.

Lemma restrict_nth_error : forall fv done f,
  nth_error (restrict done fv) f =
  match nth_error fv f with Some x => Some (if existsb (Nat.eqb f) done then x else None) | None => None end.
Proof. intros. unfold restrict. rewrite restrict_from_nth_error. reflexivity. Qed.

Lemma mem_spec : forall f l, existsb (Nat.eqb f) l = true <-> In f l.
Proof.
  intros f l. rewrite existsb_exists. split.
  - intros [x [H E]]. apply Nat.eqb_eq in E. subst. exact H.
  - intros H. exists f. split; [exact H|apply Nat.eqb_refl].
Qed.

Lemma restrict_upd : forall fv done f v,
  nth_error fv f = Some (Some v) -> upd_nth f (Some v) (restrict done fv) = restrict (f :: done) fv.
Proof.
  intros fv done f v H. apply nth_error_ext. intros g.
  rewrite nth_error_upd, !restrict_nth_error. cbn [existsb].
  destruct (Nat.eqb_spec g f) as [->|E].
  - rewrite H. cbn. reflexivity.
  - cbn. reflexivity.
Qed.

Lemma restrict_all : forall fv done,
  (forall f v, nth_error fv f = Some (Some v) -> In f done) -> restrict done fv = fv.
Proof.
  intros fv done H. apply nth_error_ext. intros g. rewrite restrict_nth_error.
  destruct (nth_error fv g) as [[v|]|] eqn:E; try reflexivity.
  - apply H in E. apply mem_spec in E. rewrite E. reflexivity.
  - destruct (existsb _ _); reflexivity.
Qed.

(** what is reported while the fields are handed over: nothing, except the lookup made by the completing field *)
Definition expected_flags (k : nat) (last : bool) : list bool :=
  match k with O => [] | S j => repeat false j ++ [last] end.

Lemma expected_flags_cons : forall k last, 0 < k -> expected_flags (S k) last = false :: expected_flags k last.
Proof. intros [|k] last H; [lia|reflexivity]. Qed.

Lemma present_lt : forall (fv : otuple) f x, nth_error fv f = Some x -> f < length fv.
Proof. intros fv f x H. apply nth_error_Some. rewrite H. discriminate. Qed.

(** the fields [done] have been handed over, the fields [ord] are still to come *)
Lemma adds_run_inv : forall fv ord done T ic,
  NoDup ord -> (forall f, In f ord -> ~ In f done) ->
  (forall f, In f ord -> exists v, nth_error fv f = Some (Some v)) ->
  length done + length ord <= length fv ->
  let complete := (0 <? length ord) && (length done + length ord =? length fv) in
  adds_run ord fv (mkVS V ic (restrict done fv) (length done) T) =
  Some (mkVS V ic (restrict (rev ord ++ done) fv) (length done + length ord)
             (if complete then put_tupleH (restrict (rev ord ++ done) fv) T else T),
        expected_flags (length ord) (if complete then containsH T (restrict (rev ord ++ done) fv) else false)).
Proof.
  intros fv ord. induction ord as [|f r IH]; intros done T ic ND Nd PR LE complete.
  - cbn. rewrite Nat.add_0_r. reflexivity.
  - destruct (PR f (or_introl eq_refl)) as [v Hv]. inversion ND as [|? ? Nf ND']; subst.
    assert (M : existsb (Nat.eqb f) done = false).
    { destruct (existsb (Nat.eqb f) done) eqn:E; [|reflexivity]. apply mem_spec in E. destruct (Nd f (or_introl eq_refl) E). }
    cbn [length] in LE.
    cbn [adds_run]. rewrite (nth_error_nth fv f None Hv).
    unfold Model10.vs_add. cbn [vs_vals vs_count vs_ic vs_tuples].
    rewrite restrict_nth_error, Hv, M, (restrict_upd fv done f v Hv).
    unfold restrict at 1. rewrite restrict_from_length. fold (restrict (f :: done) fv).
    assert (RV : rev (f :: r) ++ done = rev r ++ f :: done).
    { cbn [rev]. rewrite <- app_assoc. reflexivity. }
    destruct r as [|g r'].
    + (* the last field *)
      cbn [adds_run length rev app]. unfold complete. cbn [length Nat.ltb Nat.leb andb].
      replace (length done + 1) with (S (length done)) by lia.
      destruct (S (length done) =? length fv); reflexivity.
    + (* not the last field: the count stays below the number of fields, nothing is looked up or stored *)
      replace (S (length done) =? length fv) with false by (symmetry; apply Nat.eqb_neq; cbn [length] in LE; lia).
      specialize (IH (f :: done) T ic ND'). cbn zeta in IH. cbn [length] in IH. cbn [length]. rewrite IH, RV.
      * replace (S (length done) + S (length r')) with (length done + S (S (length r'))) by lia.
        unfold complete. cbn [length Nat.ltb Nat.leb andb].
        rewrite (expected_flags_cons (S (length r'))) by lia. reflexivity.
      * intros h Ih [<-|Id]; [exact (Nf Ih)|exact (Nd h (or_intror Ih) Id)].
      * intros h Ih. apply PR. right. exact Ih.
      * cbn [length] in *. lia.
Qed.

(** *** endValueScope: which code a scope with [c] collected values out of [n] fields reports *)
Definition end_scope_codes (k : ickind) (c n : nat) : list ecode :=
  match k with
  | KKey => if c =? 0 then [E_AbsentKeyValue] else if c =? n then [] else [E_KeyNotEnoughValues]
  | _ => []
  end.

End SCOPE.

(** *** ValueStore::append: key tables handed upwards are merged as sets modulo value equality *)
Section MERGE.
Variable V : Type.
Variable veq : V -> V -> bool.
Hypothesis veq_sym : forall x y, veq x y = veq y x.
Hypothesis veq_trans : forall x y z, veq x y = true -> veq y z = true -> veq x z = true.
Variable vhash : V -> list N.
Hypothesis hash_respects_eq : forall x y, veq x y = true -> vhash x = vhash y.

Notation teq := (otuple_eq V veq).

Lemma contains_congr : forall d t x, contains V veq d t = true -> teq x t = true -> contains V veq d x = true.
Proof.
  intros d t x C E. unfold contains in *. apply existsb_exists in C as [y [Hin Ey]]. apply existsb_exists.
  exists y. split; [exact Hin|]. eapply teq_trans; eauto.
Qed.

Theorem append_contains : forall src dst x,
  containsH V veq vhash (append_tuples V veq vhash dst src) x =
  containsH V veq vhash dst x || existsb (teq x) src.
Proof.
  unfold append_tuples. induction src as [|t r IH]; intros dst x; cbn [fold_left existsb].
  - rewrite orb_false_r. reflexivity.
  - rewrite IH. rewrite !(containsH_is_contains V veq vhash hash_respects_eq).
    destruct (contains V veq dst t) eqn:C.
    + destruct (teq x t) eqn:E; cbn [orb]; [|reflexivity].
      rewrite (contains_congr dst t x C E). reflexivity.
    + rewrite (put_tupleH_is_put_tuple V veq vhash hash_respects_eq).
      rewrite (contains_put V veq veq_sym veq_trans). rewrite orb_assoc. reflexivity.
Qed.

End MERGE.
