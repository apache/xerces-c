(** The streaming XPath matcher (one location path of a SelectorMatcher) against the specification's node sets, for all
    trees and paths: the run with addresses relative to its element ([rrun]); a path read through its positions ([sel_at],
    [Sel]); the repaired set-of-positions matcher (defect switch of F14/F26) is exact; the matcher as written is exact
    without ".//", sound for ".//" outside the class of F26, exact for ".//" + one step.  Throughout [fx = false]:
    startElement as written (with [fixed = true] the switch [fx] is not consulted). *)
From Coq Require Import NArith List Bool Arith Lia.
From XV Require Import C10.Spec10 C10.Model10.
Import ListNotations.

Section INFRA.
Variable V : Type.

(** induction over rose trees with the hypothesis for all children *)
Section TREE_IND.
Variable P : tree V -> Prop.
Hypothesis Hnode : forall nm ats sm nl v ks, Forall P ks -> P (Node nm ats sm nl v ks).
Fixpoint tree_ind2 (t : tree V) : P t :=
  match t with
  | Node nm ats sm nl v ks =>
    Hnode nm ats sm nl v ks
          ((fix go (l : list (tree V)) : Forall P l :=
              match l with [] => Forall_nil P | k :: r => Forall_cons k (tree_ind2 k) (go r) end) ks)
  end.
End TREE_IND.

Variable fixed : bool.

(** *** the run with addresses relative to the element it starts at: the accumulator of [sel_run] only prefixes what is
    selected below ([sel_run_rel]) *)
Section REL.
Variable p : path.

Section KIDS.
Variable f : tree V -> selst -> selst * list addr.
Fixpoint rkids (i : nat) (l : list (tree V)) (st : selst) : selst * list addr :=
  match l with
  | [] => (st, [])
  | k :: rest => let '(st', out) := f k st in
                 let '(st'', out') := rkids (S i) rest st' in (st'', map (cons i) out ++ out')
  end.

Lemma rkids_const : forall (g : tree V -> list addr) l i st,
  Forall (fun k => f k st = (st, g k)) l -> rkids i l st = (st, imap (fun j k => map (cons j) (g k)) i l).
Proof.
  induction l as [|k rest IHl]; intros i st F; cbn [rkids imap]; [reflexivity|].
  inversion F as [|? ? F1 F2]; subst. rewrite F1, (IHl _ _ F2). reflexivity.
Qed.

(** bounds [Lo], [Hi] on what the children select, from bounds per child under an invariant [P] *)
Lemma rkids_bounds : forall (P : selst -> Prop) (Hi Lo : tree V -> addr -> Prop) l,
  Forall (fun k => forall st, P st -> P (fst (f k st)) /\
            (forall x, In x (snd (f k st)) -> Hi k x) /\ (forall x, Lo k x -> In x (snd (f k st)))) l ->
  forall i st, P st ->
  P (fst (rkids i l st)) /\
  (forall x, In x (snd (rkids i l st)) -> exists j k a', nth_error l j = Some k /\ x = (i + j) :: a' /\ Hi k a') /\
  (forall j k a', nth_error l j = Some k -> Lo k a' -> In ((i + j) :: a') (snd (rkids i l st))).
Proof.
  intros P Hi Lo. induction l as [|k l IHl]; intros F i st Hp.
  - cbn. split; [exact Hp|]. split; [intros x []|]. intros [|j] ? ? H; discriminate.
  - inversion F as [|? ? F1 F2]; subst. cbn [rkids]. destruct (F1 st Hp) as [P1 [H1 L1]].
    destruct (f k st) as [st' o1]. cbn [fst snd] in *.
    destruct (IHl F2 (S i) st' P1) as [P2 [H2 L2]]. destruct (rkids (S i) l st') as [st'' o2]. cbn [fst snd] in *.
    split; [exact P2|]. split.
    + intros x Hx. apply in_app_iff in Hx as [Hx|Hx].
      * apply in_map_iff in Hx as [a' [<- Hx]]. exists 0, k, a'. rewrite Nat.add_0_r. auto.
      * destruct (H2 x Hx) as [j [kid [a' [E1 [-> Ha]]]]]. exists (S j), kid, a'. rewrite Nat.add_succ_r. auto.
    + intros [|j] kid a' E Ha; apply in_app_iff.
      * inversion E; subst kid. left. rewrite Nat.add_0_r. apply in_map, L1, Ha.
      * right. rewrite Nat.add_succ_r. apply (L2 j kid a' E Ha).
Qed.
End KIDS.

Definition rnode (kids : selst -> selst * list addr) (nm : N) (ats : list (N * V)) (st : selst) : selst * list addr :=
  let '(s, ed, md) := st in
  let s1 := fst (p_start V fixed false p s nm ats) in
  let trig := sel_trigger (mat s1) md in
  let r := kids (s1, S ed, if trig then Some (S ed) else md) in
  let '(s2, ed2, md2) := fst r in
  let md3 := match md2 with Some x => if x =? ed2 then None else md2 | None => None end in
  ((fst (p_end fixed s2), pred ed2, md3), (if trig then [[]] else []) ++ snd r).

Fixpoint rrun (t : tree V) (st : selst) : selst * list addr :=
  match t with Node nm ats _ _ _ ks => rnode (rkids rrun 0 ks) nm ats st end.

Lemma sel_run_rel : forall t a st,
  sel_run V fixed false p t a st = (fst (rrun t st), map (app (rev a)) (snd (rrun t st))).
Proof.
  induction t as [nm ats sm nl v ks IH] using tree_ind2. intros a [[s ed] md]. cbn [sel_run rrun]. unfold rnode.
  set (s1 := fst (p_start V fixed false p s nm ats)). set (trig := sel_trigger (mat s1) md).
  (* the children loop of [sel_run] is [rkids] *)
  assert (E : forall l, Forall (fun t => forall a st, sel_run V fixed false p t a st =
                                          (fst (rrun t st), map (app (rev a)) (snd (rrun t st)))) l -> forall i st,
             (fix go (i : nat) (l : list (tree V)) (st : selst) {struct l} : selst * list addr :=
                match l with
                | [] => (st, [])
                | k :: rest => let '(st', out) := sel_run V fixed false p k (i :: a) st in
                               let '(st'', out') := go (S i) rest st' in (st'', out ++ out')
                end) i l st = (fst (rkids rrun i l st), map (app (rev a)) (snd (rkids rrun i l st)))).
  { induction l as [|k rest IHl]; intros F i st; [reflexivity|]. inversion F as [|? ? F1 F2]; subst.
    cbn [rkids]. rewrite F1, (IHl F2). destruct (rrun k st) as [st' out]. cbn [fst snd].
    destruct (rkids rrun (S i) rest st') as [st'' out']. cbn [fst snd]. rewrite map_app, map_map. f_equal. f_equal.
    apply map_ext. intros x. cbn [rev]. rewrite <- app_assoc. reflexivity. }
  rewrite (E ks IH). destruct (rkids rrun 0 ks (s1, S ed, if trig then Some (S ed) else md)) as [[[s2 ed2] md2] out].
  cbn [fst snd]. rewrite map_app. destruct trig; cbn [map app]; rewrite ?app_nil_r; reflexivity.
Qed.

Lemma matcher_selects_rel : forall t, matcher_selects V fixed false p t = snd (rrun t (pst0, 0, None)).
Proof.
  intros t. unfold matcher_selects. rewrite sel_run_rel. cbn [snd rev]. rewrite <- (map_id (snd _)) at 2.
  apply map_ext. reflexivity.
Qed.
End REL.

Lemma in_imap : forall (A B : Type) (f : nat -> A -> list B) (l : list A) (i0 : nat) (x : B),
  In x (imap f i0 l) <-> exists j k, nth_error l j = Some k /\ In x (f (i0 + j) k).
Proof.
  induction l as [|y l IH]; intros i0 x; cbn [imap].
  - split; [intros []|intros [j [k [H _]]]; destruct j; discriminate].
  - rewrite in_app_iff, IH. split.
    + intros [H|[j [k [H1 H2]]]].
      * exists 0, y. rewrite Nat.add_0_r. auto.
      * exists (S j), k. rewrite Nat.add_succ_r. auto.
    + intros [[|j] [k [H1 H2]]]; cbn in H1.
      * inversion H1; subst. rewrite Nat.add_0_r in H2. auto.
      * right. exists j, k. rewrite Nat.add_succ_r in H2. auto.
Qed.

Lemma imap_nil : forall (A B : Type) (f : nat -> A -> list B) l i, (forall j x, f j x = []) -> imap f i l = [].
Proof. induction l as [|x l IH]; intros i H; cbn [imap]; [reflexivity|]. rewrite H, (IH _ H). reflexivity. Qed.

Lemma imap_ext : forall (A B : Type) (f g : nat -> A -> list B) l i,
  (forall j x, f j x = g j x) -> imap f i l = imap g i l.
Proof. induction l as [|x l IH]; intros i H; cbn; [reflexivity|]. rewrite H, (IH _ H). reflexivity. Qed.

(** what the steps [r] select through a child candidate [t], relative to [t] *)
Definition sel_via (r : list ntest) (t : tree V) : list addr :=
  match r with [] => [] | s :: r' => if ntest_ok s (t_name t) then eval_steps V r' t else [] end.

Lemma eval_steps_via : forall s r (t : tree V),
  eval_steps V (s :: r) t = imap (fun j k => map (cons j) (sel_via (s :: r) k)) 0 (t_kids t).
Proof.
  intros s r t. cbn [eval_steps]. apply imap_ext. intros j k. unfold sel_via. destruct (ntest_ok s (t_name k)); reflexivity.
Qed.

Lemma in_eval_steps : forall s r (t : tree V) a,
  In a (eval_steps V (s :: r) t) <->
  exists j k a', nth_error (t_kids t) j = Some k /\ a = j :: a' /\ In a' (sel_via (s :: r) k).
Proof.
  intros s r t a. rewrite eval_steps_via, in_imap. cbn [Nat.add]. split.
  - intros [j [k [H1 H2]]]. apply in_map_iff in H2 as [a' [E H2]]. exists j, k, a'. auto.
  - intros [j [k [a' [H1 [-> H2]]]]]. exists j, k. split; [exact H1|]. apply in_map, H2.
Qed.

Lemma compile_plain : forall d steps,
  compile_path (mkSpath d steps None) = SSelf :: (if d then [SDesc] else []) ++ map SChild steps.
Proof. intros. unfold compile_path. cbn [sp_desc sp_steps sp_attr]. rewrite app_nil_r. reflexivity. Qed.

Definition desc_path (steps : list ntest) : spath := mkSpath true steps None.

Lemma desc_self_unfold : forall (t : tree V),
  desc_self V t = [] :: imap (fun j k => map (cons j) (desc_self V k)) 0 (t_kids t).
Proof.
  intros [nm ats sm nl v ks]. cbn [desc_self t_kids]. f_equal. generalize 0.
  induction ks as [|k rest IH]; intros i; [reflexivity|]. cbn [imap]. rewrite <- IH. reflexivity.
Qed.

Lemma sel_desc_char : forall s r (t : tree V) a,
  In a (sel_path V (desc_path (s :: r)) t) <->
  exists j k a', nth_error (t_kids t) j = Some k /\ a = j :: a' /\
                 (In a' (sel_via (s :: r) k) \/ In a' (sel_path V (desc_path (s :: r)) k)).
Proof.
  intros s r t a. unfold sel_path, desc_path, ctx_addrs. cbn [sp_desc sp_steps]. rewrite desc_self_unfold.
  cbn [flat_map subtree]. rewrite in_app_iff, in_flat_map. split.
  - intros [H|[d [Hd H]]].
    + apply in_map_iff in H as [e [<- He]]. apply in_eval_steps in He as [j [k [a' [H1 [-> H3]]]]]. exists j, k, a'. auto.
    + apply in_imap in Hd as [j [k [H1 H2]]]. cbn [Nat.add] in H2. apply in_map_iff in H2 as [d' [<- Hd']]. cbn [subtree] in H. rewrite H1 in H.
      destruct (subtree V k d') as [n|] eqn:E; [|destruct H]. apply in_map_iff in H as [e [<- He]].
      exists j, k, (d' ++ e). split; [exact H1|]. split; [reflexivity|]. right. apply in_flat_map. exists d'.
      split; [exact Hd'|]. rewrite E. apply in_map, He.
  - intros [j [k [a' [H1 [-> [H|H]]]]]].
    + left. apply in_map_iff. exists (j :: a'). split; [reflexivity|]. apply in_eval_steps. exists j, k, a'. auto.
    + right. apply in_flat_map in H as [d' [Hd' H]]. exists (j :: d'). split.
      * apply in_imap. exists j, k. split; [exact H1|]. apply in_map, Hd'.
      * cbn [subtree]. rewrite H1. destruct (subtree V k d'); [|destruct H]. apply in_map_iff in H as [e [<- He]].
        apply in_map_iff. exists e. auto.
Qed.

End INFRA.

Lemma skipn_cons : forall (A : Type) (l : list A) j x, nth_error l j = Some x -> skipn j l = x :: skipn (S j) l.
Proof.
  induction l as [|y l IH]; intros [|j] x H; cbn in H; try discriminate.
  - inversion H. reflexivity.
  - cbn [skipn]. rewrite (IH j x H). reflexivity.
Qed.

(** *** the set-of-positions semantics of a path, and the repaired matcher *)
Section PATH.
Variable V : Type.
Variable d : bool.
Variable s1 : ntest.
Variable r0 : list ntest.
Let steps := s1 :: r0.
Let p : path := SSelf :: (if d then [SDesc] else []) ++ map SChild steps.
Let first := if d then 2 else 1.
Let size := length p.

Lemma size_eq : size = first + length steps.
Proof. unfold size, p, first. destruct d; cbn [length app]; rewrite map_length; reflexivity. Qed.

Lemma step_at_p : forall c, step_at p c =
  if c <? first then match c with 0 => SSelf | _ => SDesc end
  else match nth_error steps (c - first) with Some nt => SChild nt | None => SSelf end.
Proof.
  assert (E : forall l j, nth j (map SChild l) SSelf = match nth_error l j with Some nt => SChild nt | None => SSelf end).
  { induction l as [|x l IH]; destruct j; cbn; auto. }
  intros c. unfold step_at, p, first. destruct d; destruct c as [|[|c]]; cbn [nth app Nat.ltb Nat.leb Nat.sub]; rewrite ?E, ?Nat.sub_0_r; reflexivity.
Qed.

Lemma step_child_iff : forall c nt, step_at p c = SChild nt <-> first <= c /\ nth_error steps (c - first) = Some nt.
Proof.
  intros c nt. rewrite step_at_p. destruct (Nat.ltb_spec c first) as [L|L].
  - split; [destruct c; discriminate|intros [H _]; lia].
  - destruct (nth_error steps (c - first)); split; intros H; try discriminate.
    + inversion H. auto.
    + destruct H as [_ H]. inversion H. reflexivity.
    + destruct H as [_ H]. discriminate.
Qed.

Lemma step_child : forall c, first <= c < size -> exists nt, step_at p c = SChild nt.
Proof.
  intros c H. destruct (nth_error steps (c - first)) as [nt|] eqn:E.
  - exists nt. apply step_child_iff. split; [apply H|exact E].
  - apply nth_error_None in E. rewrite size_eq in H. lia.
Qed.

Lemma step_lt : forall c nt, step_at p c = SChild nt -> c < size.
Proof.
  intros c nt H. apply step_child_iff in H as [L E].
  assert (c - first < length steps) by (apply nth_error_Some; rewrite E; discriminate). rewrite size_eq. lia.
Qed.

Definition suffix (c : nat) : list ntest := skipn (c - first) steps.

Lemma suffix_step : forall c nt, step_at p c = SChild nt -> suffix c = nt :: suffix (S c).
Proof.
  intros c nt H. apply step_child_iff in H as [L E]. unfold suffix. replace (S c - first) with (S (c - first)) by lia.
  apply skipn_cons, E.
Qed.

Lemma suffix_end : forall c, size <= c -> suffix c = [].
Proof. intros c H. apply skipn_all2. rewrite size_eq in H. lia. Qed.

Lemma sel_at : forall c (t : tree V) a, first <= c ->
  (In a (sel_via V (suffix c) t) <->
   exists nt, step_at p c = SChild nt /\ ntest_ok nt (t_name t) = true /\
     match a with
     | [] => S c = size
     | j :: a' => exists k, nth_error (t_kids t) j = Some k /\ In a' (sel_via V (suffix (S c)) k)
     end).
Proof.
  intros c t a L. destruct (Nat.lt_ge_cases c size) as [Lt|Ge].
  - destruct (step_child c (conj L Lt)) as [nt E]. rewrite (suffix_step c nt E). unfold sel_via at 1. split.
    + intros H. exists nt. split; [exact E|]. destruct (ntest_ok nt (t_name t)); [split; [reflexivity|]|destruct H].
      destruct (Nat.lt_ge_cases (S c) size) as [Lt'|Ge'].
      * destruct (step_child (S c)) as [n2 E2]; [lia|]. rewrite (suffix_step _ _ E2) in *.
        apply in_eval_steps in H as [j [k [a' [H1 [-> H2]]]]]. eauto.
      * rewrite (suffix_end (S c) Ge') in H. destruct H as [<-|[]]. lia.
    + intros [nt' [E' [Ok H]]]. rewrite E in E'. inversion E'; subst nt'. rewrite Ok. destruct a as [|j a'].
      * rewrite suffix_end by lia. left. reflexivity.
      * destruct H as [k [H1 H2]]. destruct (suffix (S c)) as [|n2 r2] eqn:E2; [destruct H2|].
        apply in_eval_steps. exists j, k, a'. auto.
  - rewrite (suffix_end c Ge). split; [intros []|]. intros [nt [E _]]. apply step_lt in E. lia.
Qed.

(** the positions reached from [pos] by an element named [nm], and the position set of that element *)
Definition advf (pos : list nat) (nm : N) : list nat :=
  flat_map (fun c => match step_at p c with SChild nt => if ntest_ok nt nm then [S c] else [] | _ => [] end) pos.
Definition heref (pos : list nat) (nm : N) : list nat := nodup Nat.eq_dec (advf pos nm ++ (if d then [first] else [])).

(** what is selected at or below a child candidate [t] whose parent's position set is [pos]; [first <= c]: [suffix] subtracts in
    [nat], and a position before the first step stands for no step *)
Definition Sel (pos : list nat) (t : tree V) (a' : addr) : Prop :=
  (exists c, In c pos /\ first <= c /\ In a' (sel_via V (suffix c) t)) \/ (d = true /\ In a' (sel_path V (desc_path steps) t)).

Lemma sel_path_Sel : forall (t : tree V) a,
  In a (sel_path V (mkSpath d steps None) t) <->
  exists j k a', nth_error (t_kids t) j = Some k /\ a = j :: a' /\ Sel [first] k a'.
Proof.
  intros t a.
  assert (S0 : forall k a', Sel [first] k a' <-> In a' (sel_via V steps k) \/ (d = true /\ In a' (sel_path V (desc_path steps) k))).
  { intros k a'. unfold Sel, suffix. split; (intros [H|H]; [left|right; exact H]).
    - destruct H as [c [[<-|[]] [_ H]]]. rewrite Nat.sub_diag in H. exact H.
    - exists first. rewrite Nat.sub_diag. cbn [In]. auto. }
  case_eq d; intros Ed.
  - change (mkSpath true steps None) with (desc_path steps). unfold steps. rewrite (sel_desc_char V s1 r0).
    split; intros [j [k [a' [H1 [H2 H]]]]]; exists j, k, a'; (split; [exact H1|split; [exact H2|]]).
    + apply S0. destruct H as [H|H]; auto.
    + apply S0 in H as [H|[_ H]]; auto.
  - unfold sel_path, ctx_addrs. cbn [sp_desc sp_steps flat_map subtree]. rewrite app_nil_r, map_id. unfold steps.
    rewrite in_eval_steps. split; intros [j [k [a' [H1 [H2 H]]]]]; exists j, k, a'; (split; [exact H1|split; [exact H2|]]).
    + apply S0. left. exact H.
    + apply S0 in H as [H|[Ed' _]]; [exact H|congruence].
Qed.

Lemma in_advf : forall pos nm c', In c' (advf pos nm) <->
  exists c nt, In c pos /\ step_at p c = SChild nt /\ ntest_ok nt nm = true /\ c' = S c.
Proof.
  intros pos nm c'. unfold advf. rewrite in_flat_map. split.
  - intros [c [Hc H]]. destruct (step_at p c) as [| |nt|nt] eqn:E; try destruct H.
    destruct (ntest_ok nt nm) eqn:Ok; [|destruct H]. destruct H as [H|[]]. exists c, nt. auto.
  - intros [c [nt [Hc [E [Ok Ec]]]]]. exists c. split; [exact Hc|]. rewrite E, Ok. left. auto.
Qed.

Lemma in_heref : forall pos nm c', In c' (heref pos nm) <-> In c' (advf pos nm) \/ (d = true /\ c' = first).
Proof.
  intros. unfold heref. rewrite nodup_In, in_app_iff. case d; cbn [In]; intuition congruence.
Qed.

Lemma matched_iff : forall pos (t : tree V),
  In size (advf pos (t_name t)) <-> exists c, In c pos /\ first <= c /\ In [] (sel_via V (suffix c) t).
Proof.
  intros pos t. rewrite in_advf. split.
  - intros [c [nt [Hc [E [Ok Es]]]]]. pose proof (proj1 (proj1 (step_child_iff c nt) E)) as L.
    exists c. split; [exact Hc|]. split; [exact L|]. apply sel_at; [exact L|]. exists nt. auto.
  - intros [c [Hc [L H]]]. apply sel_at in H as [nt [E [Ok Es]]]; [|exact L]. exists c, nt. auto.
Qed.

Lemma sel_down : forall pos (t : tree V) j a'',
  Sel pos t (j :: a'') <-> exists kid, nth_error (t_kids t) j = Some kid /\ Sel (heref pos (t_name t)) kid a''.
Proof.
  intros pos t j a''. unfold Sel. split.
  - intros [[c [Hc [L H]]]|[Ed H]].
    + apply sel_at in H as [nt [E [Ok [kid [H1 H]]]]]; [|exact L]. exists kid. split; [exact H1|]. left. exists (S c).
      split; [|split; [lia|exact H]]. apply in_heref. left. apply in_advf. exists c, nt. auto.
    + apply sel_desc_char in H as [j' [kid [a3 [H1 [H3 H4]]]]]. inversion H3; subst j' a3.
      exists kid. split; [exact H1|]. destruct H4 as [H4|H4]; [|right; auto].
      left. exists first. split; [apply in_heref; auto|]. split; [lia|]. unfold suffix. rewrite Nat.sub_diag. exact H4.
  - intros [kid [Hk [[c' [Hc' [L H]]]|[Ed H]]]].
    + apply in_heref in Hc' as [Hc'|[Ed ->]].
      * apply in_advf in Hc' as [c [nt [Hc [E [Ok ->]]]]]. pose proof (proj1 (proj1 (step_child_iff c nt) E)) as Lc.
        left. exists c. split; [exact Hc|]. split; [exact Lc|]. apply sel_at; [exact Lc|]. exists nt. eauto.
      * unfold suffix in H. rewrite Nat.sub_diag in H.
        right. split; [exact Ed|]. apply sel_desc_char. exists j, kid, a''. auto.
    + right. split; [exact Ed|]. apply sel_desc_char. exists j, kid, a''. auto.
Qed.

Lemma sel_nil : forall pos (t : tree V), Sel pos t [] <-> In size (advf pos (t_name t)).
Proof.
  intros pos t. rewrite matched_iff. unfold Sel. split; [|auto]. intros [H|[_ H]]; [exact H|].
  apply sel_desc_char in H as [j [k [a' [_ [H _]]]]]. discriminate.
Qed.

Lemma sel_small : forall pos pos' (t : tree V) a, (forall c, c < size -> In c pos -> In c pos') -> Sel pos t a -> Sel pos' t a.
Proof.
  intros pos pos' t a Hp [[c [Hc [H1 H]]]|H]; [|right; exact H]. left. exists c. split; [|auto]. apply Hp; [|exact Hc].
  destruct (Nat.lt_ge_cases c size) as [L|L]; [exact L|]. exfalso. rewrite (suffix_end c L) in H. destruct H.
Qed.

(** the repaired matcher's startElement computes exactly these position sets *)
Definition hit (pos : list nat) (nm : N) : bool := existsb (fun c => c =? size) (advf pos nm).
Definition matf (pos : list nat) (nm : N) : N := if hit pos nm then (if d then XP_MATCHED_D else XP_MATCHED) else 0%N.

Lemma no_vals : forall (ats : list (N * V)) (l : list nat),
  flat_map (fun c => match step_at p c with
                     | SAttr nt => if S c =? length p then attr_values V nt ats else []
                     | _ => [] end) l = [].
Proof.
  intros ats l. induction l as [|c l IH]; cbn [flat_map]; [reflexivity|]. rewrite IH, app_nil_r, step_at_p.
  destruct (c <? first); [destruct c; reflexivity|]. destruct (nth_error steps (c - first)); reflexivity.
Qed.

Lemma desc_flag : is_desc (step_at p 1) = d.
Proof. unfold p. destruct d; reflexivity. Qed.

Lemma pf_start_child : forall s nm (ats : list (N * V)) pos m0 rest,
  alt s = (pos, m0) :: rest ->
  pf_start V p s nm ats =
  (mkPstA (cur s) (stk s) (nom s) (matf pos nm) ((heref pos nm, matf pos nm) :: alt s), []).
Proof.
  intros s nm ats pos m0 rest H. unfold pf_start. rewrite H, desc_flag. fold first. fold (advf pos nm). fold (heref pos nm).
  rewrite no_vals. unfold matf, hit, size. destruct (existsb (fun c => c =? length p) (advf pos nm)); reflexivity.
Qed.

Lemma pf_start_ctx : forall s nm (ats : list (N * V)),
  alt s = [] -> pf_start V p s nm ats = (mkPstA (cur s) (stk s) (nom s) 0 [([first], 0%N)], []).
Proof.
  intros s nm ats H. unfold pf_start. rewrite H, desc_flag. fold first. rewrite no_vals. cbn [existsb]. fold size.
  replace (first =? size) with false; [reflexivity|]. symmetry. apply Nat.eqb_neq. rewrite size_eq. unfold steps. cbn [length]. lia.
Qed.

(** Without ".//" a match flag starts no second value scope inside an open one ([md] set); there the positions of a set
    are all the same [k] (child steps are matched at one depth only), and inside an open scope [k] is beyond the path. *)
Definition child_inv (pos : list nat) (ed : nat) (md : option nat) : Prop :=
  d = false ->
  exists k, (forall c, In c pos -> c = k) /\ match md with Some x => x <= ed /\ size <= k | None => True end.

Lemma hit_iff : forall pos nm, hit pos nm = true <-> In size (advf pos nm).
Proof.
  intros pos nm. unfold hit. rewrite existsb_exists. split; [intros [c [Hc E]]; apply Nat.eqb_eq in E; subst c; exact Hc|].
  intros H. exists size. split; [exact H|apply Nat.eqb_refl].
Qed.

(** inside an open scope nothing matches: no position is left *)
Lemma hit_closed : forall pos nm ed x, d = false -> child_inv pos ed (Some x) -> hit pos nm = false.
Proof.
  intros pos nm ed x Ed Hi. destruct (hit pos nm) eqn:E; [|reflexivity]. exfalso.
  apply hit_iff, in_advf in E as [c [nt [Hc [E _]]]]. destruct (Hi Ed) as [k [U [_ Hk]]].
  apply step_lt in E. rewrite (U c Hc) in E. lia.
Qed.

Lemma trig_hit : forall pos nm ed md, child_inv pos ed md -> sel_trigger (matf pos nm) md = hit pos nm.
Proof.
  intros pos nm ed md Hi. unfold matf. destruct (hit pos nm) eqn:Eh; [|destruct md; reflexivity].
  case_eq d; intros Ed; [destruct md; reflexivity|]. destruct md as [x|]; [|reflexivity].
  rewrite (hit_closed pos nm ed x Ed Hi) in Eh. discriminate.
Qed.

Lemma child_inv_down : forall pos nm ed md,
  child_inv pos ed md -> child_inv (heref pos nm) (S ed) (if hit pos nm then Some (S ed) else md).
Proof.
  intros pos nm ed md Hi Ed. destruct (Hi Ed) as [k [U Hm]]. exists (S k).
  assert (U1 : forall c, In c (heref pos nm) -> c = S k).
  { intros c Hc. apply in_heref in Hc as [Hc|[Hc _]]; [|congruence].
    apply in_advf in Hc as [c0 [? [Hc [_ [_ ->]]]]]. rewrite (U c0 Hc). reflexivity. }
  split; [exact U1|]. destruct (hit pos nm) eqn:Eh.
  - split; [lia|]. rewrite <- (U1 size); [lia|]. apply in_heref. left. apply hit_iff, Eh.
  - destruct md as [x|]; [|exact I]. lia.
Qed.

Lemma md_restored : forall pos nm ed md, d = false -> child_inv pos ed md ->
  match (if hit pos nm then Some (S ed) else md) with
  | Some x => if x =? S ed then None else (if hit pos nm then Some (S ed) else md)
  | None => None
  end = md.
Proof.
  intros pos nm ed md Ed Hi. destruct (hit pos nm) eqn:Eh.
  - rewrite Nat.eqb_refl. destruct md as [x|]; [|reflexivity]. rewrite (hit_closed pos nm ed x Ed Hi) in Eh. discriminate.
  - destruct md as [x|]; [|reflexivity]. destruct (Hi Ed) as [k [_ [Hx _]]]. destruct (Nat.eqb_spec x (S ed)); [lia|reflexivity].
Qed.

(** with ".//" the flag XP_MATCHED_D starts a value scope whatever [md] is, so [md] is followed only without ".//" *)
Definition run_inv (A : list (list nat * N)) (ed : nat) (md0 : option nat) (st : selst) : Prop :=
  let '(s', ed', md') := st in alt s' = A /\ ed' = ed /\ (d = false -> md' = md0).

Definition run_spec (t : tree V) : Prop :=
  forall pos m0 rest ed md0, child_inv pos ed md0 -> forall st, run_inv ((pos, m0) :: rest) ed md0 st ->
  run_inv ((pos, m0) :: rest) ed md0 (fst (rrun V true p t st)) /\
  (forall x, In x (snd (rrun V true p t st)) -> Sel pos t x) /\ (forall x, Sel pos t x -> In x (snd (rrun V true p t st))).

Lemma fixed_run : forall t : tree V, run_spec t.
Proof.
  intros t. induction t as [nm ats sm nl v ks IH] using tree_ind2. intros pos m0 rest ed md0 Hi0 [[s ed'] md] [Ha [-> Hmd]].
  assert (Hi : child_inv pos ed md) by (intros Ed; rewrite (Hmd Ed); exact (Hi0 Ed)).
  cbn [rrun]. unfold rnode, p_start. cbn iota. rewrite (pf_start_child s nm ats pos m0 rest Ha). cbn [fst mat].
  rewrite (trig_hit pos nm ed md Hi).
  set (q1 := mkPstA (cur s) (stk s) (nom s) (matf pos nm) ((heref pos nm, matf pos nm) :: alt s)).
  destruct (rkids_bounds V (rrun V true p) (run_inv ((heref pos nm, matf pos nm) :: alt s) (S ed) (if hit pos nm then Some (S ed) else md))
                         (Sel (heref pos nm)) (Sel (heref pos nm)) ks)
    with (i := 0) (st := (q1, S ed, if hit pos nm then Some (S ed) else md)) as [P [O1 O2]].
  { eapply Forall_impl; [|exact IH]. intros k Hk. exact (Hk _ _ _ _ _ (child_inv_down pos nm ed md Hi)). }
  { repeat split. (* run_inv of the state the children start from *) }
  destruct (rkids V (rrun V true p) 0 ks _) as [[[s2 ed2] md2] kout]. destruct P as [A [-> M]].
  cbn [fst snd] in *. unfold p_end, pf_end. rewrite A. cbn [fst pred alt]. split; [|split].
  - split; [exact Ha|]. split; [reflexivity|]. intros Ed. rewrite (M Ed), <- (Hmd Ed). exact (md_restored pos nm ed md Ed Hi).
  - intros x Hx. apply in_app_iff in Hx as [Hx|Hx].
    + destruct (hit pos nm) eqn:Eh; [|destruct Hx]. destruct Hx as [<-|[]]. apply sel_nil, hit_iff, Eh.
    + destruct (O1 x Hx) as [j [kid [a'' [E [-> S]]]]]. apply sel_down. exists kid. auto.
  - intros [|j a''] Hx; apply in_app_iff.
    + left. apply sel_nil, hit_iff in Hx. cbn [t_name] in Hx. rewrite Hx. left. reflexivity.
    + right. apply sel_down in Hx as [kid [E HS]]. exact (O2 j kid a'' E HS).
Qed.

(** T10_fixed_matcher: the repaired matcher selects exactly the specification's node set *)
Theorem fixed_exact : forall (t : tree V) x,
  In x (matcher_selects V true false p t) <-> In x (sel_path V (mkSpath d steps None) t).
Proof.
  intros [nm ats sm nl v ks] x. rewrite matcher_selects_rel, sel_path_Sel. cbn [rrun t_kids]. unfold rnode, p_start, pst0. cbn iota.
  rewrite (pf_start_ctx (mkPst 0 [] 0 0) nm ats eq_refl). cbn [fst mat]. change (sel_trigger 0 None) with false. cbn iota.
  set (q1 := mkPstA _ _ _ 0 [([first], 0%N)]).
  destruct (rkids_bounds V (rrun V true p) (run_inv [([first], 0%N)] 1 None) (Sel [first]) (Sel [first]) ks)
    with (i := 0) (st := (q1, 1, @None nat)) as [_ [O1 O2]].
  { apply Forall_forall. intros k _. apply (fixed_run k [first] 0%N [] 1 (@None nat)).
    intros _. exists first. split; [|exact I]. intros c [<-|[]]. reflexivity. }
  { repeat split. }
  destruct (rkids V (rrun V true p) 0 ks (q1, 1, None)) as [[[s2 ed2] md2] kout]. cbn [fst snd app] in *. split.
  - intros Hx. destruct (O1 x Hx) as [j [kid [a' [E [-> HS]]]]]. exists j, kid, a'. auto.
  - intros [j [kid [a' [E [-> HS]]]]]. exact (O2 j kid a' E HS).
Qed.

End PATH.

(** *** the streaming matcher as written *)
Section FAITHFUL.
Variable V : Type.

Lemma skip_stop : forall f p c fuel, f (step_at p c) = false -> skip f p c fuel = c.
Proof. intros f p c [|fuel] H; cbn [skip]; [reflexivity|]. rewrite H, andb_false_r. reflexivity. Qed.

Lemma fst_p_start_false : forall p s nm (ats : list (N * V)),
  fst (p_start V false false p s nm ats) = fst (p_start_faithful V p s nm ats).
Proof. intros. unfold p_start. destruct (p_start_faithful V p s nm ats). reflexivity. Qed.

(** startElement in the middle of a match: the element is tested against step [k] *)
Lemma pstart_mid : forall p k stk0 m0 nm (ats : list (N * V)) sk,
  (m0 = 0 \/ m0 = 13)%N -> k < length p -> step_at p k = SChild sk ->
  (S k < length p -> exists s2, step_at p (S k) = SChild s2) ->
  p_start_faithful V p (mkPst k stk0 0 m0) nm ats =
  if ntest_ok sk nm
  then (if S k =? length p then (mkPst (S k) (k :: stk0) 0 1, None) else (mkPst (S k) (k :: stk0) 0 m0, None))
  else (mkPst k (k :: stk0) 1 m0, None).
Proof.
  intros p k stk0 m0 nm ats sk Hm Hk Hs Hn. unfold p_start_faithful, mkPst. cbn [cur stk nom mat].
  assert (C1 : (N.land m0 5 =? 1)%N || (0 <? 0) = false) by (destruct Hm; subst; reflexivity). rewrite C1. cbn iota.
  assert (C2 : (if (N.land m0 5 =? 5)%N then XP_MATCHED_DP else m0) = m0) by (destruct Hm; subst; reflexivity). rewrite C2.
  rewrite (skip_stop is_self) by (rewrite Hs; reflexivity).
  rewrite (skip_stop is_desc) by (rewrite Hs; reflexivity).
  assert (E1 : (k =? length p) = false) by (apply Nat.eqb_neq; lia). rewrite E1.
  rewrite Nat.eqb_refl, Nat.ltb_irrefl. cbn [orb]. rewrite Hs.
  destruct (ntest_ok sk nm); [|reflexivity].
  destruct (Nat.eqb_spec (S k) (length p)) as [E|E]; [reflexivity|].
  destruct Hn as [s2 H2]; [lia|]. rewrite H2. reflexivity.
Qed.

(** on the context element fCurrentStep stops at the first child step, whose name test is left to the children *)
Lemma pstart_ctx : forall steps stk0 nm (ats : list (N * V)),
  p_start_faithful V (SSelf :: map SChild steps) (mkPst 0 stk0 0 0) nm ats =
  (mkPst 1 (0 :: stk0) 0 (match steps with [] => 1 | _ => 0 end), None).
Proof. intros [|s [|s2 r]] stk0 nm ats; reflexivity. Qed.

Lemma pstart_dead : forall p s nm (ats : list (N * V)),
  (N.land (mat s) 5 =? 1)%N || (0 <? nom s) = true ->
  p_start_faithful V p s nm ats = (mkPst (cur s) (cur s :: stk s) (S (nom s)) (mat s), None).
Proof. intros p s nm ats H. unfold p_start_faithful. rewrite H. reflexivity. Qed.

Lemma pend_reset : forall s, nom s = 0 -> fst (p_end_faithful s) = mkPst (hd 0 (stk s)) (tl (stk s)) 0 0.
Proof.
  intros s H. unfold p_end_faithful. rewrite H. cbn [Nat.ltb Nat.leb].
  destruct (mat s =? 0)%N; [reflexivity|]. destruct (N.land (mat s) 3 =? 3)%N; reflexivity.
Qed.

(** fMatchedDepth of an open value scope is a depth already reached *)
Definition md_ok (ed : nat) (md : option nat) : Prop := forall x, md = Some x -> x <= ed.

(** nothing below can match any more: below a failed step or below a matched element *)
Definition dead_state (s : pst) (ed : nat) (md : option nat) : Prop :=
  alt s = [] /\ (N.land (mat s) 5 =? 1)%N || (0 <? nom s) = true /\ sel_trigger (mat s) md = false /\ md_ok ed md.

Lemma dead_alt : forall s ed md, dead_state s ed md -> alt s = [].
Proof. intros s ed md D. apply D. Qed.
Lemma dead_blocked : forall s ed md, dead_state s ed md -> (N.land (mat s) 5 =? 1)%N || (0 <? nom s) = true.
Proof. intros s ed md D. apply D. Qed.
Lemma dead_no_trigger : forall s ed md, dead_state s ed md -> sel_trigger (mat s) md = false.
Proof. intros s ed md D. apply D. Qed.
Lemma dead_md_ok : forall s ed md, dead_state s ed md -> md_ok ed md.
Proof. intros s ed md D. apply D. Qed.

Lemma dead_matched : forall c stack ed x, x <= ed -> dead_state (mkPst c stack 0 XP_MATCHED) ed (Some x).
Proof.
  intros c stack ed x H. unfold dead_state, mkPst. cbn [alt mat nom]. repeat split. intros y Hy. inversion Hy; subst. exact H.
Qed.

Lemma dead_failed : forall c stack m ed md, (m = 0 \/ m = XP_MATCHED_DP)%N -> md_ok ed md -> dead_state (mkPst c stack 1 m) ed md.
Proof.
  intros c stack m ed md Hm Ho. unfold dead_state, mkPst. cbn [alt mat nom]. repeat split; [rewrite orb_true_r; reflexivity| |exact Ho].
  destruct Hm; subst m; destruct md; reflexivity.
Qed.

(** endElement leaves fMatchedDepth alone unless it is the depth of the element being closed *)
Lemma md_kept : forall ed md, md_ok ed md -> match md with Some x => if x =? S ed then None else md | None => None end = md.
Proof.
  intros ed [x|] H; [|reflexivity]. specialize (H x eq_refl). destruct (Nat.eqb_spec x (S ed)); [lia|reflexivity].
Qed.

(** the children start from the state [q1] that startElement leaves *)
Lemma rrun_start : forall p nm ats sm nl v ks s ed md q1 ov,
  p_start_faithful V p s nm ats = (q1, ov) ->
  rrun V false p (Node nm ats sm nl v ks) (s, ed, md) =
  let trig := sel_trigger (mat q1) md in
  let r := rkids V (rrun V false p) 0 ks (q1, S ed, if trig then Some (S ed) else md) in
  let '(s2, ed2, md2) := fst r in
  ((fst (p_end_faithful s2), pred ed2, match md2 with Some x => if x =? ed2 then None else md2 | None => None end),
   (if trig then [[]] else []) ++ snd r).
Proof. intros p nm ats sm nl v ks s ed md q1 ov PS. cbn [rrun]. unfold rnode. rewrite fst_p_start_false, PS. reflexivity. Qed.

Lemma dead_down : forall s ed md,
  dead_state s ed md -> dead_state (mkPst (cur s) (cur s :: stk s) (S (nom s)) (mat s)) (S ed) md.
Proof.
  intros s ed md D. unfold dead_state, mkPst. cbn [alt mat nom]. repeat split.
  - rewrite orb_true_r. reflexivity.
  - exact (dead_no_trigger s ed md D).
  - intros x E. pose proof (dead_md_ok s ed md D x E). lia.
Qed.

Lemma dead_run : forall p (t : tree V) s ed md,
  dead_state s ed md -> rrun V false p t (s, ed, md) = ((s, ed, md), []).
Proof.
  intros p t. induction t as [nm ats sm nl v ks IH] using tree_ind2. intros s ed md D.
  rewrite (rrun_start p nm ats sm nl v ks s ed md _ None (pstart_dead p s nm ats (dead_blocked s ed md D))). cbn [mat mkPst]. cbv zeta.
  rewrite (dead_no_trigger s ed md D), (rkids_const V _ (fun _ => [])).
  - rewrite imap_nil by reflexivity. cbn [fst snd app pred]. rewrite (md_kept ed md (dead_md_ok s ed md D)).
    unfold p_end_faithful, mkPst. cbn [nom stk cur mat hd tl Nat.ltb Nat.leb pred fst].
    pose proof (dead_alt s ed md D) as Ha. destruct s as [c stack n m al]. cbn in Ha. subst al. reflexivity.
  - eapply Forall_impl; [|exact IH]. intros k Hk. apply Hk, dead_down, D.
Qed.

Lemma dead_kids : forall p (l : list (tree V)) i s ed md,
  dead_state s ed md -> rkids V (rrun V false p) i l (s, ed, md) = ((s, ed, md), []).
Proof.
  intros p l i s ed md D. rewrite (rkids_const V _ (fun _ => [])).
  - rewrite imap_nil by reflexivity. reflexivity.
  - apply Forall_forall. intros k _. apply dead_run, D.
Qed.

Lemma node_dead : forall p nm ats sm nl v ks s ed md q1 ov,
  p_start_faithful V p s nm ats = (q1, ov) ->
  dead_state q1 (S ed) (if sel_trigger (mat q1) md then Some (S ed) else md) -> md_ok ed md ->
  rrun V false p (Node nm ats sm nl v ks) (s, ed, md) =
  ((fst (p_end_faithful q1), ed, if sel_trigger (mat q1) md then None else md), if sel_trigger (mat q1) md then [[]] else []).
Proof.
  intros p nm ats sm nl v ks s ed md q1 ov PS D Hm. rewrite (rrun_start p nm ats sm nl v ks s ed md q1 ov PS). cbv zeta.
  rewrite (dead_kids p ks 0 _ _ _ D). cbn [fst snd pred]. rewrite app_nil_r. f_equal. f_equal.
  destruct (sel_trigger (mat q1) md); [rewrite Nat.eqb_refl; reflexivity|apply md_kept, Hm].
Qed.

(** position [c] of a child-only path: the steps before it are matched by the ancestors *)
Lemma child_run : forall s1 r0, let p := SSelf :: map SChild (s1 :: r0) in forall (t : tree V) c stk0 ed,
  1 <= c < length p ->
  rrun V false p t (mkPst c stk0 0 0, ed, None) = ((mkPst c stk0 0 0, ed, None), sel_via V (suffix false s1 r0 c) t).
Proof.
  intros s1 r0 p t. induction t as [nm ats sm nl v ks IH] using tree_ind2. intros c stk0 ed Hc.
  destruct (step_child false s1 r0 c Hc) as [sk Hs].
  assert (PS := pstart_mid p c stk0 0 nm ats sk (or_introl eq_refl) (proj2 Hc) Hs
                  (fun H => step_child false s1 r0 (S c) (conj (le_S _ _ (proj1 Hc)) H))).
  assert (Hnone : md_ok ed None) by (intros x Hx; discriminate).
  rewrite (suffix_step false s1 r0 c sk Hs). unfold sel_via at 1. cbn [t_name].
  destruct (ntest_ok sk nm) eqn:Ok; [destruct (Nat.eqb_spec (S c) (length p)) as [Es|Es]|].
  - (* last step: the element is selected, everything below is dead *)
    rewrite (node_dead p nm ats sm nl v ks _ ed None _ None PS); [|cbn [mat mkPst]|exact Hnone].
    + rewrite (suffix_end false s1 r0 (S c)) by (change (length p <= S c); lia). reflexivity.
    + exact (dead_matched _ _ _ _ (le_n _)).
  - destruct (step_child false s1 r0 (S c)) as [n2 E2]; [split; [|change (S c < length p)]; lia|].
    rewrite (rrun_start p nm ats sm nl v ks _ ed None _ None PS). cbn [mat mkPst]. change (sel_trigger 0 None) with false. cbv zeta. cbn iota.
    rewrite (rkids_const V _ (sel_via V (suffix false s1 r0 (S c)))).
    2:{ eapply Forall_impl; [|exact IH]. intros kid Hk. apply Hk. lia. }
    cbn [fst snd app pred]. unfold p_end. rewrite pend_reset by reflexivity.
    rewrite (suffix_step false s1 r0 (S c) n2 E2), eval_steps_via. reflexivity.
  - (* the step fails: nothing below can match *)
    rewrite (node_dead p nm ats sm nl v ks _ ed None _ None PS); [reflexivity| |exact Hnone].
    apply (dead_failed _ _ 0); [left; reflexivity|]. intros x Hx. discriminate.
Qed.

Theorem matcher_child_only_exact : forall steps (t : tree V),
  matcher_selects V false false (compile_path (mkSpath false steps None)) t = sel_path V (mkSpath false steps None) t.
Proof.
  intros steps [nm ats sm nl v ks]. rewrite (compile_plain false), matcher_selects_rel. cbn [rrun app].
  unfold rnode, pst0. rewrite fst_p_start_false, pstart_ctx.
  unfold sel_path, ctx_addrs. cbn [sp_desc sp_steps flat_map subtree]. rewrite app_nil_r, map_id.
  destruct steps as [|s r].
  - cbn [map fst mat mkPst]. change (sel_trigger 1 None) with true. cbn iota.
    rewrite dead_kids.
    2:{ exact (dead_matched _ _ _ _ (le_n _)). }
    reflexivity.
  - cbn [fst mat mkPst]. change (sel_trigger 0 None) with false. cbn iota.
    rewrite (rkids_const V _ (sel_via V (s :: r))).
    2:{ apply Forall_forall. intros kid _. apply (child_run s r kid 1 [0] 1). cbn [length map]. lia. }
    rewrite eval_steps_via. reflexivity.
Qed.

End FAITHFUL.

Theorem fixed_matcher_exact : forall (V : Type) d s1 r0 (t : tree V) x,
  In x (matcher_selects V true false (compile_path (mkSpath d (s1 :: r0) None)) t) <->
  In x (sel_path V (mkSpath d (s1 :: r0) None) t).
Proof. intros. rewrite compile_plain. apply fixed_exact. Qed.

(** *** ".//" paths: the single position the matcher as written keeps is one of the position set, so what it selects is
    selected by the set-of-positions semantics *)
Section SOUND.
Variable V : Type.
Variable s1 : ntest.
Variable r0 : list ntest.
Let steps := s1 :: r0.
Let p : path := SSelf :: SDesc :: map SChild steps.
Let size := length p.
Notation Sel := (Sel V true s1 r0).
Notation advf := (advf true s1 r0).
Notation heref := (heref true s1 r0).

Lemma len_p : size = S (S (S (length r0))).
Proof. unfold size, p, steps. cbn [length map]. rewrite map_length. reflexivity. Qed.

Definition carry (m0 : N) : N := if (N.land m0 5 =? 5)%N then XP_MATCHED_DP else m0.

(** states in which an element can still be matched: searching ([c] = 2) or with the steps before [c] matched by the
    ancestors; fMatched is 0, XP_MATCHED_D = 5 (children of a selected element) or XP_MATCHED_DP = 13 (5 carried on) *)
Definition live (c : nat) (s : pst) : Prop :=
  alt s = [] /\ nom s = 0 /\ c < size /\
  ((c = 2 /\ cur s <= 1 /\ (mat s = 0 \/ mat s = 5 \/ mat s = 13)%N) \/ (3 <= c /\ cur s = c /\ (mat s = 0 \/ mat s = 13)%N)).

Lemma live_alt : forall c s, live c s -> alt s = [].
Proof. intros c s H. apply H. Qed.
Lemma live_nom : forall c s, live c s -> nom s = 0.
Proof. intros c s H. apply H. Qed.
Lemma live_lt : forall c s, live c s -> c < size.
Proof. intros c s H. apply H. Qed.
Lemma live_cases : forall c s, live c s ->
  (c = 2 /\ cur s <= 1 /\ (mat s = 0 \/ mat s = 5 \/ mat s = 13)%N) \/ (3 <= c /\ cur s = c /\ (mat s = 0 \/ mat s = 13)%N).
Proof. intros c s H. apply H. Qed.

Lemma live_search : forall c0 stack m, c0 <= 1 -> (m = 0 \/ m = XP_MATCHED_D \/ m = XP_MATCHED_DP)%N -> live 2 (mkPst c0 stack 0 m).
Proof. intros c0 stack m Hc Hm. unfold live, mkPst. cbn [alt nom cur mat]. rewrite len_p. repeat split; [lia|]. left. auto. Qed.

Lemma live_partial : forall c stack m, 3 <= c < size -> (m = 0 \/ m = XP_MATCHED_DP)%N -> live c (mkPst c stack 0 m).
Proof. intros c stack m Hc Hm. unfold live, mkPst. cbn [alt nom cur mat]. repeat split; [lia|]. right. repeat split; [lia|exact Hm]. Qed.

Lemma pstart_live : forall c s nm (ats : list (N * V)), live c s ->
  exists sk, step_at p c = SChild sk /\
  p_start_faithful V p s nm ats =
  ((if ntest_ok sk nm
    then if S c =? size then (if c =? 2 then mkPst 1 (cur s :: stk s) 0 5 else mkPst (S c) (cur s :: stk s) 0 1)
         else mkPst (S c) (cur s :: stk s) 0 (carry (mat s))
    else if c =? 2 then mkPst 1 (cur s :: stk s) 0 (carry (mat s)) else mkPst c (cur s :: stk s) 1 (mat s)), None).
Proof.
  intros c s nm ats L0. pose proof (live_alt c s L0) as Ha. pose proof (live_nom c s L0) as Hn.
  pose proof (live_lt c s L0) as Hc. pose proof (live_cases c s L0) as L. clear L0.
  destruct s as [c0 stack n m al]. cbn [alt nom cur mat stk] in *. subst al n.
  destruct (step_child true s1 r0 c) as [sk Hs]; [change (2 <= c < size); destruct L as [[-> _]|[? _]]; lia|]. exists sk. split; [exact Hs|].
  destruct L as [[-> [Hc0 Hm]]|[H3 [-> Hm]]].
  - (* searching *)
    assert (C1 : (N.land m 5 =? 1)%N || (0 <? 0) = false) by (destruct Hm as [H|[H|H]]; subst m; reflexivity).
    unfold p_start_faithful, mkPst. cbn [cur stk nom mat]. rewrite C1. cbn iota. fold (carry m). fold size.
    assert (S1 : skip is_self p c0 size = 1).
    { rewrite len_p. destruct c0 as [|[|?]]; [|apply skip_stop; reflexivity|lia]. cbn [skip]. fold size. rewrite len_p. reflexivity. }
    assert (S2 : skip is_desc p 1 size = 2).
    { rewrite len_p. cbn [skip]. fold size. rewrite len_p. reflexivity. }
    rewrite S1, S2. change (step_at p 2) with (SChild s1) in *. inversion Hs; subst sk.
    replace (2 =? size) with false by (symmetry; apply Nat.eqb_neq; lia). rewrite orb_true_r. cbn [Nat.ltb Nat.leb Nat.eqb].
    destruct (ntest_ok s1 nm); [|reflexivity]. rewrite len_p. destruct r0; reflexivity. (* S 2 = size iff r0 = [] *)
  - (* partial match *)
    fold (mkPst c stack 0 m). rewrite (pstart_mid V p c stack m nm ats sk Hm Hc Hs) by (intros; apply (step_child true s1 r0); change (2 <= S c < size); lia).
    replace (c =? 2) with false by (symmetry; apply Nat.eqb_neq; lia).
    replace (carry m) with m by (destruct Hm; subst; reflexivity).
    destruct (ntest_ok sk nm); [|reflexivity]. fold size. destruct (S c =? size); reflexivity.
Qed.

(** endElement gives back the state of before startElement, up to the match flag *)
Definition st_post (s s' : pst) : Prop :=
  alt s' = [] /\ nom s' = 0 /\ cur s' = cur s /\ stk s' = stk s /\ (mat s' = 0 \/ mat s' = mat s)%N.

Lemma stp_alt : forall s s', st_post s s' -> alt s' = [].
Proof. intros s s' H. apply H. Qed.
Lemma stp_nom : forall s s', st_post s s' -> nom s' = 0.
Proof. intros s s' H. apply H. Qed.
Lemma stp_cur : forall s s', st_post s s' -> cur s' = cur s.
Proof. intros s s' H. apply H. Qed.
Lemma stp_stk : forall s s', st_post s s' -> stk s' = stk s.
Proof. intros s s' H. apply H. Qed.
Lemma stp_mat : forall s s', st_post s s' -> (mat s' = 0 \/ mat s' = mat s)%N.
Proof. intros s s' H. apply H. Qed.
Lemma st_post_refl : forall s, alt s = [] -> nom s = 0 -> st_post s s.
Proof. intros s A B. repeat split; auto. Qed.

Lemma st_post_end : forall s0 s m, st_post s0 s -> (m = 0 \/ m = mat s)%N -> st_post s0 (mkPst (cur s) (stk s) 0 m).
Proof.
  intros s0 s m P Hm. unfold st_post, mkPst. cbn [alt nom cur stk mat]. repeat split;
    [exact (stp_cur s0 s P)|exact (stp_stk s0 s P)|]. destruct Hm as [-> | ->]; [left; reflexivity|exact (stp_mat s0 s P)].
Qed.

Definition post (s0 : pst) (ed : nat) (st : selst) : Prop :=
  let '(s', ed', md') := st in st_post s0 s' /\ ed' = ed /\ md_ok ed md'.

(** an upper bound always; for a single step ([r0] empty: only searching states are live) also a lower bound *)
Definition sound_res (pos : list nat) (t : tree V) (r : selst * list addr) : Prop :=
  (forall x, In x (snd r) -> Sel pos t x) /\ (forall x, r0 = [] /\ Sel [2] t x -> In x (snd r)).

(** a run started in a state that a live state [s0] has come to (through runs over earlier siblings) *)
Definition run_sound (t : tree V) : Prop :=
  forall c pos s0 ed, live c s0 -> In c pos -> forall st, post s0 ed st ->
  post s0 ed (fst (rrun V false p t st)) /\ sound_res pos t (rrun V false p t st).

Lemma live_post : forall c s s', live c s -> st_post s s' -> live c s'.
Proof.
  intros c s s' L P. split; [exact (stp_alt s s' P)|]. split; [exact (stp_nom s s' P)|]. split; [exact (live_lt c s L)|].
  rewrite (stp_cur s s' P). destruct (stp_mat s s' P) as [E|E]; rewrite E; [|exact (live_cases c s L)].
  destruct (live_cases c s L) as [[? [? _]]|[? [? _]]]; auto.
Qed.

Lemma md_ok_open : forall ed md (trig : bool), md_ok ed md -> md_ok (S ed) (if trig then Some (S ed) else md).
Proof. intros ed md [|] H x E; [inversion E; lia|specialize (H x E); lia]. Qed.
Lemma md_ok_close : forall ed md2, md_ok (S ed) md2 ->
  md_ok ed (match md2 with Some x => if x =? S ed then None else md2 | None => None end).
Proof.
  intros ed [x|] H y E; [|discriminate]. destruct (Nat.eqb_spec x (S ed)); [discriminate|]. inversion E; subst.
  specialize (H y eq_refl). lia.
Qed.

(** the node case of [run_sound_all] when startElement leaves a live state [q1] again, at position [c'] of the element's own
    position set; [trig]: a value scope is started at the element *)
Lemma node_live : forall nm ats sm nl v ks s0 s ed md pos q1 c' (trig : bool)
  (Hpost : st_post s0 s) (Hstart : p_start_faithful V p s nm ats = (q1, None))
  (Hlive : live c' q1) (Hstk : stk q1 = cur s :: stk s) (Htrig : sel_trigger (mat q1) md = trig) (Hmd : md_ok ed md)
  (Hpos : In c' (heref pos nm))
  (Hup : trig = true -> In size (advf pos nm)) (Hlo : r0 = [] -> In size (advf [2] nm) -> trig = true)
  (Hkids : Forall run_sound ks),
  let r := rrun V false p (Node nm ats sm nl v ks) (s, ed, md) in
  post s0 ed (fst r) /\ sound_res pos (Node nm ats sm nl v ks) r.
Proof.
  intros nm ats sm nl v ks s0 s ed md pos q1 c' trig Hpost Hstart Hlive Hstk Htrig Hmd Hpos Hup Hlo Hkids.
  rewrite (rrun_start V p nm ats sm nl v ks s ed md q1 None Hstart). cbv zeta. rewrite Htrig.
  destruct (rkids_bounds V (rrun V false p) (post q1 (S ed)) (Sel (heref pos nm)) (fun k a => r0 = [] /\ Sel [2] k a) ks)
    with (i := 0) (st := (q1, S ed, if trig then Some (S ed) else md)) as [P [O Lo]].
  { eapply Forall_impl; [|exact Hkids]. intros k Hk. exact (Hk c' (heref pos nm) q1 (S ed) Hlive Hpos). }
  { split; [exact (st_post_refl q1 (live_alt c' q1 Hlive) (live_nom c' q1 Hlive))|]. split; [reflexivity|apply md_ok_open, Hmd]. }
  destruct (rkids V (rrun V false p) 0 ks _) as [[[s2 ed2] md2] kout]. destruct P as [P2 [-> M2]].
  cbn [fst snd] in *. unfold p_end. rewrite (pend_reset s2 (stp_nom q1 s2 P2)), (stp_stk q1 s2 P2), Hstk. cbn [hd tl pred]. split; [|split].
  - split; [apply st_post_end; auto|]. split; [reflexivity|apply md_ok_close, M2].
  - intros x Hx. apply in_app_iff in Hx as [Hx|Hx].
    + destruct trig; [|destruct Hx]. destruct Hx as [<-|[]]. apply (sel_nil V true s1 r0). cbn [t_name]. auto.
    + destruct (O x Hx) as [j [kid [a'' [H1 [-> H]]]]]. apply (sel_down V true s1 r0). exists kid. cbn [t_kids t_name]. auto.
  - intros [|j a''] [E0 Hx]; apply in_app_iff.
    + left. apply (sel_nil V true s1 r0) in Hx. rewrite (Hlo E0 Hx). left. reflexivity.
    + right. apply (sel_down V true s1 r0) in Hx as [kid [H1 Hx]]. apply (Lo j kid a'' H1). split; [exact E0|].
      (* with a single step, the position after it is the end of the path *)
      apply (sel_small V true s1 r0 (heref [2] nm)); [|exact Hx]. intros c Lc Hc2.
      apply (in_heref true s1 r0) in Hc2 as [Hc2|[_ ->]]; [|left; reflexivity].
      apply (in_advf true s1 r0) in Hc2 as [c0 [? [[<-|[]] [_ [_ ->]]]]]. exfalso. revert Lc. change (3 < size -> False).
      rewrite len_p, E0. cbn [length]. lia.
Qed.

Lemma trig_carry : forall m md, (m = 0 \/ m = 13)%N -> sel_trigger m md = false.
Proof. intros m md [H|H]; subst; destruct md; reflexivity. Qed.

Lemma run_sound_all : forall t : tree V, run_sound t.
Proof.
  intros t. induction t as [nm ats sm nl v ks IH] using tree_ind2. intros c pos s0 ed L0 Hc [[s ed'] md] [P0 [-> Hm]].
  pose proof (live_post c s0 s L0 P0) as L. destruct (pstart_live c s nm ats L) as [sk [Hsk PS]].
  assert (Adv : ntest_ok sk nm = true -> In (S c) (advf pos nm)).
  { intros Ok. apply (in_advf true s1 r0). exists c, sk. auto. }
  assert (Here2 : In 2 (heref pos nm)) by (apply (in_heref true s1 r0); auto).
  pose proof (live_lt c s L) as Lc. apply live_cases in L.
  assert (Mc : (carry (mat s) = 0 \/ carry (mat s) = 13)%N).
  { destruct L as [[_ [_ [H|[H|H]]]]|[_ [_ [H|H]]]]; rewrite H; cbn; auto. }
  assert (One : r0 = [] -> c = 2 /\ S c = size).
  { intros E0. rewrite len_p, E0 in *. cbn [length] in *. destruct L as [[-> _]|[? _]]; lia. }
  destruct (ntest_ok sk nm) eqn:Ok; cbn iota in PS.
  - destruct (Nat.eqb_spec (S c) size) as [Es|Es]; [destruct (Nat.eqb_spec c 2) as [E2|E2]|]; cbn iota in PS.
    + (* the path is complete while searching: selected, and the search goes on below *)
      apply (node_live nm ats sm nl v ks s0 s ed md pos _ 2 true P0 PS).
      * (* Hlive *) apply live_search; auto.
      * (* Hstk *) reflexivity.
      * (* Htrig *) destruct md; reflexivity.
      * (* Hmd *) exact Hm.
      * (* Hpos *) exact Here2.
      * (* Hup *) intros _. rewrite <- Es. auto.
      * (* Hlo *) reflexivity.
      * (* Hkids *) exact IH.
    + (* the last step of a partial match: selected unless a scope is open; nothing below can match *)
      rewrite (node_dead V p nm ats sm nl v ks s ed md _ None PS); [|cbn [mat mkPst]|exact Hm].
      2:{ destruct md as [y|]; apply dead_matched; [specialize (Hm y eq_refl)|]; lia. }
      cbn [mat mkPst]. split; [|split].
      * split; [apply st_post_end; auto|]. split; [reflexivity|]. destruct (sel_trigger 1 md); [discriminate|exact Hm].
      * cbn [snd]. intros x Hx. destruct (sel_trigger 1 md); [|destruct Hx]. destruct Hx as [<-|[]].
        apply (sel_nil V true s1 r0). change (In size (advf pos nm)). rewrite <- Es. auto.
      * intros x [E0 _]. destruct (One E0). contradiction.
    + (* the step is matched, more steps follow *)
      apply (node_live nm ats sm nl v ks s0 s ed md pos _ (S c) false P0 PS).
      * (* Hlive *) apply live_partial; [lia|exact Mc].
      * (* Hstk *) reflexivity.
      * (* Htrig *) apply trig_carry, Mc.
      * (* Hmd *) exact Hm.
      * (* Hpos *) apply (in_heref true s1 r0). auto.
      * (* Hup *) discriminate.
      * (* Hlo *) intros E0. destruct (One E0). contradiction.
      * (* Hkids *) exact IH.
  - destruct (Nat.eqb_spec c 2) as [E2|E2]; cbn iota in PS.
    + (* no match while searching: the search goes on below *)
      apply (node_live nm ats sm nl v ks s0 s ed md pos _ 2 false P0 PS).
      * (* Hlive *) apply live_search; [lia|]. destruct Mc as [H|H]; rewrite H; auto.
      * (* Hstk *) reflexivity.
      * (* Htrig *) apply trig_carry, Mc.
      * (* Hmd *) exact Hm.
      * (* Hpos *) exact Here2.
      * (* Hup *) discriminate.
      * (* Hlo: the only position of [2] is 2, whose step the element fails *)
        intros _ H. apply (in_advf true s1 r0) in H as [c0 [nt [[<-|[]] [E [Ok' _]]]]]. rewrite E2 in Hsk.
        change (step_at p 2 = SChild nt) in E. congruence.
      * (* Hkids *) exact IH.
    + (* a step of a partial match fails: the subtree is dead *)
      assert (Hmat : (mat s = 0 \/ mat s = 13)%N) by (destruct L as [[? _]|[_ [_ H]]]; [contradiction|exact H]).
      rewrite (node_dead V p nm ats sm nl v ks s ed md _ None PS); cbn [mat mkPst]; rewrite ?(trig_carry (mat s) md Hmat); [| |exact Hm].
      2:{ apply dead_failed; [exact Hmat|]. intros x Hx. specialize (Hm x Hx). lia. }
      split; [|split].
      * split; [apply st_post_end; auto|]. split; [reflexivity|exact Hm].
      * intros x [].
      * intros x [E0 _]. destruct (One E0). contradiction.
Qed.

Lemma run_ctx : forall t : tree V,
  sound_res [2] t (rrun V false p t (pst0, 0, None)).
Proof.
  intros t. apply (run_sound_all t 2 [2] pst0 0).
  - apply live_search; auto.
  - left. reflexivity.
  - split; [repeat split; auto|]. split; [reflexivity|]. intros y Hy. discriminate.
Qed.

Theorem sound_desc : forall (t : tree V) x,
  ntest_ok s1 (t_name t) = false ->
  In x (matcher_selects V false false p t) -> In x (sel_path V (desc_path steps) t).
Proof.
  intros t x G Hx. rewrite matcher_selects_rel in Hx.
  destruct (proj1 (run_ctx t) x Hx) as [[c [[<-|[]] [_ H]]]|[_ H]]; [|exact H].
  unfold suffix, sel_via in H. cbn [Nat.sub skipn] in H. rewrite G in H. destruct H.
Qed.

(** ".//" followed by a single step: the matcher as written is exact (T10_xpath_desc_simple_bounded on the universe) *)
Theorem one_step_exact : r0 = [] -> forall (t : tree V) x,
  ntest_ok s1 (t_name t) = false ->
  (In x (matcher_selects V false false p t) <-> In x (sel_path V (desc_path steps) t)).
Proof.
  intros E0 t x G. split; [apply sound_desc, G|]. intros H. rewrite matcher_selects_rel.
  apply (proj2 (run_ctx t)). split; [exact E0|]. right. auto.
Qed.

End SOUND.

Theorem matcher_sound_desc : forall (V : Type) s1 r0 (t : tree V) x,
  ntest_ok s1 (t_name t) = false ->
  In x (matcher_selects V false false (compile_path (mkSpath true (s1 :: r0) None)) t) ->
  In x (sel_path V (mkSpath true (s1 :: r0) None) t).
Proof. intros V s1 r0 t x G H. rewrite compile_plain in H. exact (sound_desc V s1 r0 t x G H). Qed.

Theorem matcher_one_step_exact : forall (V : Type) s (t : tree V) x,
  ntest_ok s (t_name t) = false ->
  (In x (matcher_selects V false false (compile_path (mkSpath true [s] None)) t) <-> In x (sel_path V (mkSpath true [s] None) t)).
Proof. intros V s t x G. rewrite compile_plain. exact (one_step_exact V s [] eq_refl t x G). Qed.
