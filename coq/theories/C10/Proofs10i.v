(** XercesXPath::parseExpression on the tokens of the selector/field grammar: one segment, a list of segments, one
    location path are read as what they denote (the lemmas behind T10_xpath_parse_partial); and what the model needs of
    the generated tables. *)
From Coq Require Import NArith List Bool Arith String.
From XV Require Import Gen.GenC10XPath C10.Parse10.
Import ListNotations.

(** *** obligations on the tables regenerated from the source (XercesXPath.cpp / XMLChar.cpp) *)
(** the classification of the 128 ASCII characters the XPath 1.0 lexical structure (3.7) needs; the numbers are the
    CHARTYPE_* codes, Gen's xp_ct_* (0 invalid ... 25 non-ASCII) *)
Definition expected_chartype (c : N) : N :=
  (if (c =? 9) || (c =? 10) || (c =? 13) || (c =? 32) then 2
   else if c <? 32 then 0
   else if c =? 33 then 3 else if (c =? 34) || (c =? 39) then 4 else if c =? 36 then 5
   else if c =? 40 then 6 else if c =? 41 then 7 else if c =? 42 then 8 else if c =? 43 then 9
   else if c =? 44 then 10 else if c =? 45 then 11 else if c =? 46 then 12 else if c =? 47 then 13
   else if (48 <=? c) && (c <=? 57) then 14 else if c =? 58 then 15 else if c =? 60 then 16
   else if c =? 61 then 17 else if c =? 62 then 18 else if c =? 64 then 19
   else if ((65 <=? c) && (c <=? 90)) || ((97 <=? c) && (c <=? 122)) then 20
   else if c =? 91 then 21 else if c =? 93 then 22 else if c =? 95 then 23 else if c =? 124 then 24 else 1)%N.

Definition tables_ok : bool :=
  forallb (fun i => (chartype (N.of_nat i) =? expected_chartype (N.of_nat i))%N) (seq 0 128) &&
  (chartype 128 =? 25)%N && (chartype 65535 =? 25)%N &&
  forallb supported ["ATSIGN"; "AXISNAME_ATTRIBUTE"; "AXISNAME_CHILD"; "DOUBLE_COLON"; "NAMETEST_ANY"; "NAMETEST_NAMESPACE";
                     "NAMETEST_QNAME"; "OPERATOR_DOUBLE_SLASH"; "OPERATOR_SLASH"; "OPERATOR_UNION"; "PERIOD"]%string &&
  (List.length xp_schema_tokens =? 11)%nat &&
  (* NCName characters, ASCII part: Letter | '_' first; then also Digit | '.' | '-'; never ':' *)
  forallb (fun i => let c := N.of_nat i in
                    Bool.eqb (nc_first c) ((((65 <=? c) && (c <=? 90)) || ((97 <=? c) && (c <=? 122)) || (c =? 95))%N) &&
                    Bool.eqb (nc_char c) ((nc_first c || ((48 <=? c) && (c <=? 57)) || (c =? 45) || (c =? 46))%N))
          (seq 0 128).
Lemma xp_tables_ok : tables_ok = true.
Proof. vm_compute. reflexivity. Qed.

Section PARSE.
Variable bound : list N -> bool.
Variable fxns : bool.
Notation parse := (parse bound fxns).

Definition start_tok (t : tok) : bool := match t with KSlash | KDSlash | KUnion | KDColon => false | _ => true end.
(** what may follow a step: the end, '/' or '|' *)
Definition cont_ok (k : list tok) : Prop := match k with KDSlash :: _ => False | _ => True end.
Definition rest_ok (k : list tok) : Prop := match k with [] => True | KUnion :: _ => True | _ => False end.

Definition first_after (s : aseg) (first : bool) : bool :=
  match s with AChild false (ANNs _) => if fxns then false else first | _ => false end.

Lemma parse_seg : forall s k i0 first steps paths,
  seg_bound bound s = true -> cont_ok k ->
  parse (seg_toks s ++ k) i0 first steps paths = parse k false (first_after s first) (steps ++ [seg_step s]) paths.
Proof.
  intros s k i0 first steps paths B C. destruct s as [|ax n|ax n].
  - cbn [seg_toks app first_after seg_step]. destruct first; cbn [Parse10.parse]; [|reflexivity].
    destruct k as [|t k']; [reflexivity|]. destruct t; try reflexivity. contradiction.
  - destruct ax; destruct n as [|p|[p|] l]; cbn in B; cbn; rewrite ?B; try reflexivity; destruct fxns; reflexivity.
  - destruct ax; destruct n as [|p|[p|] l]; cbn in B; cbn; rewrite ?B; reflexivity.
Qed.

Lemma parse_rest_first : forall k f f' steps paths, rest_ok k ->
  parse k false f steps paths = parse k false f' steps paths.
Proof. intros k f f' steps paths R. destruct k as [|t k']; [reflexivity|]. destruct t; try contradiction. reflexivity. Qed.

Lemma seg_toks_head : forall s k, exists t r, seg_toks s ++ k = t :: r /\ start_tok t = true.
Proof.
  intros s k. destruct s as [|ax n|ax n]; [eexists; eexists; split; [reflexivity|reflexivity]| |];
    destruct ax; destruct n as [|p|pre l]; cbn; eexists; eexists; split; reflexivity.
Qed.

Lemma segs_toks_cons : forall s r, r <> [] -> segs_toks (s :: r) = seg_toks s ++ KSlash :: segs_toks r.
Proof. intros s [|x r] H; [contradiction|reflexivity]. Qed.

Lemma segs_toks_head : forall segs k, segs <> [] -> exists t r, segs_toks segs ++ k = t :: r /\ start_tok t = true.
Proof.
  intros [|s r] k H; [contradiction|]. destruct r as [|x r].
  - cbn [segs_toks]. apply seg_toks_head.
  - rewrite segs_toks_cons by discriminate. rewrite <- app_assoc. apply seg_toks_head.
Qed.

Lemma parse_segs : forall segs rest i0 first steps paths,
  segs <> [] -> forallb (seg_bound bound) segs = true -> rest_ok rest ->
  (first = true -> fxns = false -> ns_first (mkAP false segs) = false) ->
  parse (segs_toks segs ++ rest) i0 first steps paths = parse rest false false (steps ++ map seg_step segs) paths.
Proof.
  induction segs as [|s r IH]; intros rest i0 first steps paths NE B R G; [contradiction|].
  cbn [forallb] in B. apply andb_true_iff in B as [Bs Br].
  destruct r as [|x r].
  - cbn [segs_toks map]. rewrite parse_seg; [|exact Bs|destruct rest as [|t ?]; [exact I|destruct t; try contradiction; exact I]].
    apply parse_rest_first. exact R.
  - rewrite segs_toks_cons by discriminate. rewrite <- app_assoc. rewrite parse_seg; [|exact Bs|exact I].
    assert (F : first_after s first = false).
    { unfold first_after. destruct s as [|[|] [|p|pre l]|]; try reflexivity. destruct fxns eqn:Ef; [reflexivity|].
      destruct first; [|reflexivity]. specialize (G eq_refl eq_refl). cbn in G. discriminate. }
    rewrite F. cbn [app].
    destruct (segs_toks_head (x :: r) rest) as [t [q [E St]]]; [discriminate|].
    rewrite E.
    assert (X : parse (KSlash :: t :: q) false false (steps ++ [seg_step s]) paths
                = parse (t :: q) false false (steps ++ [seg_step s]) paths).
    { destruct t; try discriminate; reflexivity. }
    rewrite X, <- E. rewrite IH; [|discriminate|exact Br|exact R|intros H; discriminate].
    cbn [map]. rewrite <- app_assoc. reflexivity.
Qed.

Lemma parse_path : forall p rest i0 (steps0 : list xstep) paths,
  apath_wf bound p = true -> rest_ok rest -> (fxns = false -> ns_first p = false) ->
  parse (path_toks p ++ rest) i0 true [] paths =
  parse rest false false ((if ap_desc p then [XSelf; XDesc] else []) ++ map seg_step (ap_segs p)) paths.
Proof.
  intros [d segs] rest i0 steps0 paths W R G. unfold apath_wf in W. cbn [ap_desc ap_segs] in *.
  apply andb_true_iff in W as [W B]. apply andb_true_iff in W as [NE _].
  assert (NE' : segs <> []) by (destruct segs; [discriminate|discriminate]).
  unfold path_toks. cbn [ap_desc ap_segs]. destruct d.
  - cbn [app]. destruct (segs_toks_head segs rest NE') as [t [q [E St]]].
    assert (X : parse (KPeriod :: KDSlash :: segs_toks segs ++ rest) i0 true [] paths
                = parse (segs_toks segs ++ rest) false false [XSelf; XDesc] paths).
    { rewrite E. destruct t; try discriminate; reflexivity. }
    rewrite X. apply parse_segs; [exact NE'|exact B|exact R|intros H; discriminate].
  - cbn [app]. apply parse_segs; [exact NE'|exact B|exact R|].
    intros _ F. exact (G F).
Qed.

Lemma steps_nonempty : forall p, apath_wf bound p = true ->
  (if ap_desc p then [XSelf; XDesc] else []) ++ map seg_step (ap_segs p) <> [].
Proof.
  intros [d segs] W. unfold apath_wf in W. cbn [ap_desc ap_segs] in *. destruct d; [discriminate|].
  destruct segs; [discriminate|discriminate].
Qed.

End PARSE.

(** the faithful reader rejects a grammatical expression: first step NCName:* followed by another step (F35) *)
Definition f35_bound (p : list N) : bool := nl_eq p [116%N].
Definition f35_xpath : list apath := [mkAP false [AChild false (ANNs [116%N]); AChild false (ANName None [97%N])]].
Lemma f35_refuted :
  forallb (apath_wf f35_bound) f35_xpath = true /\
  parse f35_bound false (xpath_toks f35_xpath) true true [] [] = PErr X_NoSelectionOfRoot /\
  xpath_of_string f35_bound false true (xpath_text [] f35_xpath) = PErr X_NoSelectionOfRoot /\
  xpath_of_string f35_bound true true (xpath_text [32%N] f35_xpath) = POk (expect_xpath f35_xpath).
Proof. vm_compute. repeat split; reflexivity. Qed.
