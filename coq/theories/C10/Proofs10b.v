(** Bounded-exhaustive checks of the streaming matchers against the specification: a universe of small trees and
    paths, and the four sweeps over it as instances of the theorems of Proofs10d. *)
From Coq Require Import NArith List Bool Arith.
From XV Require Import C10.Spec10 C10.Model10 C10.Proofs10d.
Import ListNotations.

(** *** bounded-exhaustive universe: all trees over the names 1, 2 of depth <= 2 with at most two children per
    node, and all trees of depth <= 4 with at most one child per node; all paths of 1..3 steps over {1, 2, *} *)
Definition leafn (n : N) : tree nat := Node n [] false false 0 [].
Fixpoint trees (d : nat) (wide : bool) : list (tree nat) :=
  match d with
  | O => [leafn 1; leafn 2]
  | S k =>
    let sub := trees k wide in
    flat_map (fun nm => Node nm [] false false 0 [] :: map (fun a => Node nm [] false false 0 [a]) sub ++
                        (if wide then flat_map (fun a => map (fun b => Node nm [] false false 0 [a; b]) sub) sub else []))
             [1%N; 2%N]
  end.
Definition universe : list (tree nat) := trees 2 true ++ trees 4 false.
Definition tests : list ntest := [NTName 1; NTName 2; NTAny].   (* names 1, 2 are in no namespace; NTNs is covered by the unbounded theorems *)
Definition step_lists : list (list ntest) :=
  map (fun a => [a]) tests ++ flat_map (fun a => map (fun b => [a; b]) tests) tests ++
  flat_map (fun a => flat_map (fun b => map (fun c => [a; b; c]) tests) tests) tests.

Definition subset (a b : list addr) : bool := forallb (fun x => existsb (addr_eqb x) b) a.
Definition same_set (a b : list addr) : bool := subset a b && subset b a.

(** the context element is not matched by the step after ".//" (the class of finding F26) *)
Definition ctx_guard (desc : bool) (steps : list ntest) (t : tree nat) : bool :=
  negb desc || match steps with s :: _ => negb (ntest_ok s (t_name t)) | [] => true end.

Definition check_child_only : bool :=
  forallb (fun t => forallb (fun st => let p := mkSpath false st None in
                                       same_set (matcher_selects nat false false (compile_path p) t) (sel_path nat p t))
                            step_lists) universe.
Definition check_fixed : bool :=
  forallb (fun t => forallb (fun st => forallb (fun d => let p := mkSpath d st None in
                                       same_set (matcher_selects nat true false (compile_path p) t) (sel_path nat p t))
                                               [false; true]) step_lists) universe.
Definition check_sound : bool :=
  forallb (fun t => forallb (fun st => let p := mkSpath true st None in
                                       negb (ctx_guard true st t) ||
                                       subset (matcher_selects nat false false (compile_path p) t) (sel_path nat p t))
                            step_lists) universe.
Definition check_desc_one_step : bool :=
  forallb (fun t => forallb (fun s => let p := mkSpath true [s] None in
                                      negb (ctx_guard true [s] t) ||
                                      same_set (matcher_selects nat false false (compile_path p) t) (sel_path nat p t))
                            tests) universe.

Lemma subset_incl : forall a b, subset a b = true <-> incl a b.
Proof.
  intros a b. unfold subset. rewrite forallb_forall. split; intros H x Hx.
  - apply H, existsb_exists in Hx as [y [Hy E]]. unfold addr_eqb in E. destruct (list_eq_dec Nat.eq_dec x y); [subst y; exact Hy|discriminate].
  - apply existsb_exists. exists x. split; [exact (H x Hx)|]. unfold addr_eqb. destruct (list_eq_dec Nat.eq_dec x x); congruence.
Qed.

Lemma same_set_iff : forall a b, (forall x, In x a <-> In x b) -> same_set a b = true.
Proof. intros a b H. apply andb_true_iff. split; apply subset_incl; intros x; apply H. Qed.

Lemma step_lists_nonempty : forall st, In st step_lists -> exists s r, st = s :: r.
Proof.
  assert (H : forallb (fun st => match st with [] => false | _ => true end) step_lists = true) by reflexivity.
  intros [|s r] Hin; [|eauto]. apply (proj1 (forallb_forall _ _) H) in Hin. discriminate.
Qed.
