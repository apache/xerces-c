(** C02 proofs, part e: how the content, prolog and Misc loops dispatch on the head of their input; Misc around the
    root element; the entity layer without declared entities. *)
From Coq Require Import ZArith ZifyBool ZifyN ZifyNat Lia.
From XV Require Import Base.XDefs Gen.GenXMLChar Gen.GenErrs C02.Model02 C02.Model02e C02.Spec02 C02.Proofs02a C02.Proofs02d.
Local Open Scope N_scope.

(* ---- one turn of the content loop (scanContent / senseNextToken), given that the construct scanner accepts *)
Lemma content_cdata : forall f nsf stack r t rest, is_nil stack = false -> scan_cdata_body false r = SOk t rest ->
  content (S f) nsf stack (s_cdstart ++ r) = emit [EvCData t] (content f nsf stack rest).
Proof.
  intros f nsf stack r t rest Hs E.
  cbn [app s_cdstart content peek tl strip_prefix s_cdata scan_cdsection N.eqb c_lt c_slash c_bang c_lbrack Pos.eqb negb].
  rewrite Hs, E. reflexivity.
Qed.
Lemma content_comment : forall f nsf stack r t rest, scan_comment CmText false r = SOk t rest ->
  content (S f) nsf stack (s_comment ++ r) = emit [EvComment t] (content f nsf stack rest).
Proof.
  intros f nsf stack r t rest E.
  cbn [app s_comment content peek tl strip_prefix s_cdata s_dashdash N.eqb c_lt c_slash c_bang Pos.eqb negb]. rewrite E. reflexivity.
Qed.
Lemma content_pi : forall f nsf stack r ev rest, scan_pi nsf r = SOk ev rest ->
  content (S f) nsf stack (s_pi ++ r) = emit [ev] (content f nsf stack rest).
Proof.
  intros f nsf stack r ev rest E. cbn [app s_pi content peek tl N.eqb c_lt c_slash c_bang c_quest Pos.eqb negb]. rewrite E. reflexivity.
Qed.

Lemma stag_ok_inv : forall nsf n atts ws,
  name_ok n && ns_name_ok nsf n && attrs_ok atts && forallb (fun a => ns_name_ok nsf (la_name a)) atts && s_ok ws = true ->
  name_ok n = true /\ ns_name_ok nsf n = true /\ attrs_ok atts = true /\
  forallb (fun a => ns_name_ok nsf (la_name a)) atts = true /\ s_ok ws = true.
Proof. intros nsf n atts ws H. rewrite !andb_true_iff in H. tauto. Qed.
Lemma content_stag : forall f nsf stack n atts ws cl empty evs rest, name_ok n = true ->
  scan_starttag nsf (n ++ flat_map render_attr atts ++ ws ++ cl ++ rest) = SOk (n, evs, empty) rest ->
  content (S f) nsf stack (render_stag n atts ws cl ++ rest) =
    if empty then (if is_nil stack then ([EvStart n evs; EvEnd n], SOk tt rest)
                   else emit [EvStart n evs; EvEnd n] (content f nsf stack rest))
    else emit [EvStart n evs] (content f nsf (n :: stack) rest).
Proof.
  intros f nsf stack n atts ws cl empty evs rest Hn E. unfold render_stag. rewrite <- !app_assoc.
  destruct (name_ok_start n Hn) as [c [r [-> Hc]]]. cbn [app] in E. cbn [app content peek N.eqb c_lt Pos.eqb negb].
  rewrite (start_neq c c_slash Hc eq_refl), (start_neq c c_bang Hc eq_refl), (start_neq c c_quest Hc eq_refl), E. reflexivity.
Qed.
Lemma content_etag : forall f nsf n st ws rest, s_ok ws = true ->
  content (S f) nsf (n :: st) (s_etag ++ n ++ ws ++ c_gt :: rest) =
    if is_nil st then ([EvEnd n], SOk tt rest) else emit [EvEnd n] (content f nsf st rest).
Proof.
  intros f nsf n st ws rest H. cbn [app s_etag content peek tl N.eqb c_lt c_slash Pos.eqb negb].
  rewrite (scan_endtag_ok n ws rest H). reflexivity.
Qed.
Lemma content_chardata : forall f nsf stack t Y, forallb (lchar_ok lit_ok_text) t = true -> t <> [] ->
  scan_chardata (S (length (render_text t ++ c_lt :: Y))) CW false (render_text t ++ c_lt :: Y) = SOk (text_val t) (c_lt :: Y) ->
  content (S f) nsf stack (render_text t ++ c_lt :: Y) = emit [EvText (text_val t)] (content f nsf stack (c_lt :: Y)).
Proof.
  intros f nsf stack [|[c k] t] Y Hv Hne E; [contradiction|]. cbn [forallb] in Hv. apply andb_true_iff in Hv. destruct Hv as [Hp _].
  destruct (text_first (c, k) Hp) as [u [r [Eu [U0 U1]]]].
  rewrite render_text_cons in *. rewrite Eu in *. cbn [app] in *.
  cbn [content]. rewrite U0, U1. cbn [negb]. rewrite E. change (text_val ((c, k) :: t)) with (u16 c ++ text_val t).
  (* [text_ev] drops an empty text; [u16 c] has a unit *)
  destruct (units_of_u16 c (proj1 (lchar_ok_inv _ c k Hp))); reflexivity.
Qed.
Lemma item_lt : forall i X, is_text i = false -> exists Y, render_item i ++ X = c_lt :: Y.
Proof. intros [n a w|n a w [|] w2| | | | |] X H; try discriminate; eexists; reflexivity. Qed.
Lemma render_stag_len : forall n atts ws cl, (1 <= length (render_stag n atts ws cl))%nat.
Proof. intros. unfold render_stag. cbn [app length]. lia. Qed.

(* ---- Misc around the root: comments and white space (processing instructions outside the root: see the note in
        Properties_C02.v) *)
Definition misc_simple (m : lmisc) : bool := match m with MPI _ _ _ => false | _ => true end.

(* The Misc loop and the prolog loop differ in where they stop ([B]) and in the flag the prolog loop carries: the walk
   over Misc items is made once, for a loop [L] known by three facts.  Only a non-empty white-space run costs a turn. *)
Section MiscWalk.
  Variables (L : nat -> bool -> str -> list event * sres unit) (B : str).
  Hypothesis L_skip : forall f b w rest, s_ok w = true -> not_ws_head rest ->
    exists f' b', (f <= f')%nat /\ L (S f) b (w ++ rest) = L f' b' rest.
  Hypothesis L_comment : forall f b r t rest, scan_comment CmText false r = SOk t rest ->
    exists b', L (S f) b (s_comment ++ r) = emit [EvComment t] (L f b' rest).
  Hypothesis L_stop : forall f b, L (S f) b B = ([], SOk tt B).
  Hypothesis B_head : not_ws_head B.
  Lemma misc_walk : forall nsf ms w fuel b,
    forallb (misc_ok nsf) ms = true -> forallb misc_simple ms = true -> s_ok w = true ->
    (length (flat_map render_misc ms) + 2 <= fuel)%nat ->
    L fuel b (w ++ flat_map render_misc ms ++ B) = (flat_map misc_events ms, SOk tt B).
  Proof.
    intros nsf. induction ms as [|m ms IH]; intros w fuel b Hok Hs Hw Hf; (destruct fuel as [|f]; [lia|]).
    - destruct (L_skip f b w B Hw B_head) as [f' [b' [Hf' E]]]. cbn [flat_map app]. rewrite E.
      destruct f' as [|f']; [cbn [flat_map length] in Hf; lia|]. apply L_stop.
    - cbn [forallb] in Hok, Hs. apply andb_true_iff in Hok. destruct Hok as [Hm Hok]. apply andb_true_iff in Hs.
      destruct Hs as [Hsm Hs]. cbn [flat_map length] in *. rewrite app_length in Hf.
      destruct m as [s|t ws d|w2]; [|discriminate|]; cbn [render_misc misc_events misc_ok] in *.
      + unfold render_comment in *. rewrite app_length in Hf. cbn [length s_comment] in Hf. rewrite <- !app_assoc.
        destruct (L_skip f b w (s_comment ++ enc16 s ++ s_cmend ++ flat_map render_misc ms ++ B) Hw eq_refl) as [f' [b' [Hf' E]]].
        rewrite E. destruct f' as [|f']; [lia|]. apply andb_prop in Hm.
        destruct (L_comment f' b' _ _ _ (scan_comment_pending s false (flat_map render_misc ms ++ B) (proj1 Hm) (proj2 Hm))) as [b'' E'].
        rewrite E'. change (flat_map render_misc ms ++ B) with ([] ++ flat_map render_misc ms ++ B).
        rewrite (IH [] f' b'' Hok Hs eq_refl) by lia. reflexivity.
      + rewrite <- app_assoc, app_assoc. apply (IH (w ++ w2) (S f) b Hok Hs); [|lia].
        unfold s_ok in *. rewrite forallb_app, Hw. exact (s1_s _ Hm).
  Qed.
End MiscWalk.

Lemma misc_loop_ok : forall nsf ms fuel,
  forallb (misc_ok nsf) ms = true -> forallb misc_simple ms = true -> (length (flat_map render_misc ms) + 2 <= fuel)%nat ->
  misc fuel nsf (flat_map render_misc ms) = (flat_map misc_events ms, SOk tt []).
Proof.
  intros nsf ms fuel Hok Hs Hf. rewrite <- (app_nil_r (flat_map render_misc ms)).
  refine (misc_walk (fun f _ l => misc f nsf l) [] _ _ (fun _ _ => eq_refl) eq_refl nsf ms [] fuel true Hok Hs eq_refl Hf).
  - intros f b [|c w] rest Hw Hr; [exists (S f), b; split; [lia|reflexivity]|]. exists f, b. split; [lia|].
    destruct (s_ok_cons c w Hw) as [Hc _]. cbn [app misc peek is_nil]. rewrite (s_char_ws c Hc).
    apply is_s_char_spec in Hc. rewrite (eqb_false c 0), (eqb_false c c_lt) by (unfold c_lt; lia).
    change (c :: w ++ rest) with ((c :: w) ++ rest). rewrite (skip_ws_app (c :: w) rest Hw Hr). reflexivity.
  - intros f b r t rest E. exists b. cbn. rewrite E. reflexivity.
Qed.

Definition root_head (B : str) : Prop := exists c r, B = c_lt :: c :: r /\ in_ranges c name_starts = true.
Lemma prolog_loop_ok : forall nsf ms fuel first B,
  forallb (misc_ok nsf) ms = true -> forallb misc_simple ms = true -> root_head B ->
  (length (flat_map render_misc ms) + 2 <= fuel)%nat ->
  prolog fuel nsf first (flat_map render_misc ms ++ B) = (flat_map misc_events ms, SOk tt B).
Proof.
  intros nsf ms fuel first B Hok Hs [c [r [-> Hc]]] Hf.
  refine (misc_walk (fun f b l => prolog f nsf b l) (c_lt :: c :: r) _ _ _ eq_refl nsf ms [] fuel first Hok Hs eq_refl Hf).
  - intros f b [|d w] rest Hw Hr; [exists (S f), b; split; [lia|reflexivity]|]. exists f, false. split; [lia|].
    destruct (s_ok_cons d w Hw) as [Hd _]. cbn [app prolog peek]. rewrite (s_char_ws d Hd).
    apply is_s_char_spec in Hd. rewrite (eqb_false d c_lt) by (unfold c_lt; lia).
    change (d :: w ++ rest) with ((d :: w) ++ rest). rewrite (skip_ws_app (d :: w) rest Hw Hr). reflexivity.
  - intros f b r' t rest E. exists false. cbn. rewrite E. reflexivity.
  - intros f b. cbn [prolog peek]. rewrite N.eqb_refl.
    unfold check_xmldecl, s_xmldecl, s_xmldeclU, s_pi, s_comment, s_doctype, c_lt. cbn [strip_prefix]. rewrite !N.eqb_refl.
    rewrite (N.eqb_sym 63 c), (N.eqb_sym 33 c), (start_neq c 63 Hc eq_refl), (start_neq c 33 Hc eq_refl). reflexivity.
Qed.

Lemma body_root_head : forall nsf items rest, forallb (item_ok nsf) items = true -> body_ok [] items = true ->
  root_head (flat_map render_item items ++ rest).
Proof.
  intros nsf [|i items] rest Hok Hb; [discriminate|]. cbn [forallb] in Hok. apply andb_true_iff in Hok. destruct Hok as [Hi _].
  (* with no element open, [body_ok] admits only LStart / LEmpty first *)
  destruct i as [n atts ws|n atts ws sc ws2|n ws|t|s|s|t ws d]; cbn [body_ok is_nil negb andb] in Hb; try discriminate; cbn [item_ok] in Hi.
  - destruct (stag_ok_inv _ _ _ _ Hi) as [Hn _]. destruct (name_ok_start n Hn) as [c [r [-> Hc]]].
    exists c. eexists. split; [reflexivity|exact Hc].
  - apply andb_true_iff in Hi. destruct (stag_ok_inv _ _ _ _ (proj1 Hi)) as [Hn _]. destruct (name_ok_start n Hn) as [c [r [-> Hc]]].
    exists c. destruct sc; eexists; (split; [reflexivity|exact Hc]).
Qed.

Definition no_cr (s : str) : bool := forallb (fun c => negb (c =? c_cr)) s.

(* ---- the entity layer (Model02e) with no declared entity: once [declared_ref [] r = None] has switched the extra
        case off, both sides make the same case distinctions down to the recursive calls *)
Lemma declared_ref_nil : forall r, declared_ref [] r = None.
Proof. intros r. unfold declared_ref. destruct (get_name r) as [[n [|d rest]]|]; try reflexivity.
  destruct (d =? c_semi); [|reflexivity]. destruct (predefined n); reflexivity. Qed.
Ltac same_cases rw :=
  repeat first
    [ match goal with
      | |- match ?x with _ => _ end = match ?x with _ => _ end => destruct x
      | |- (if ?x then _ else _) = (if ?x then _ else _) => destruct x
      end
    | reflexivity
    | progress rw ].
Lemma eattval_nil : forall fuel q sur l, eattval fuel [] q sur l = scan_attval fuel q sur l.
Proof.
  induction fuel as [|f IH]; intros q sur l; [reflexivity|]. destruct l as [|c r]; [reflexivity|].
  cbn [eattval scan_attval]. rewrite declared_ref_nil. same_cases ltac:(rewrite ?IH).
Qed.
Lemma escan_chardata_nil : forall fuel st sur l, escan_chardata fuel [] st sur l = scan_chardata fuel st sur l.
Proof.
  induction fuel as [|f IH]; intros st sur l; [reflexivity|]. destruct l as [|c r]; [reflexivity|].
  cbn [escan_chardata scan_chardata]. rewrite declared_ref_nil. same_cases ltac:(rewrite ?IH).
Qed.
Lemma escan_attrs_nil : forall fuel nsf acc l, escan_attrs fuel nsf [] acc l = scan_attrs fuel nsf acc l.
Proof.
  induction fuel as [|f IH]; intros nsf acc l; [reflexivity|]. cbn [escan_attrs scan_attrs total_len fold_right].
  same_cases ltac:(rewrite ?Nat.add_0_r, ?eattval_nil, ?IH).
Qed.
Lemma escan_starttag_nil : forall nsf l, escan_starttag nsf [] l = scan_starttag nsf l.
Proof. intros nsf l. unfold escan_starttag, scan_starttag. same_cases ltac:(rewrite ?escan_attrs_nil). Qed.
