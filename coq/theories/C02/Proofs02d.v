(** C02 proofs, part d: character / entity references; what the attribute-value and character-data loops do on one
    rendered character; end tags and the attribute loop of a start tag. *)
From Coq Require Import ZArith ZifyBool ZifyN ZifyNat Lia.
From XV Require Import Base.XDefs Gen.GenXMLChar Gen.GenErrs C02.Model02 C02.Model02e C02.Spec02 C02.Proofs02a.
Local Open Scope N_scope.

(* ---- references.  [pair_of c] is what scanCharRef / scanEntityRef hand back for the character [c] *)
Definition pair_of (c : N) : N * N :=
  if c <? 0x10000 then (c, 0) else (0xD800 + (c - 0x10000) / 1024, 0xDC00 + (c - 0x10000) mod 1024).
Lemma pair_cons : forall c X, (let (c1, c2) := pair_of c in cons_res c1 (consopt c2 X)) = app_res (u16 c) X.
Proof.
  intros c X. unfold pair_of, u16. destruct (c <? 0x10000); rewrite !app_res_cons, app_res_nil; [reflexivity|].
  unfold consopt. rewrite (eqb_false _ 0); [reflexivity|]. intro E. apply N.eq_add_0 in E. destruct E. discriminate.
Qed.

Lemma fold_ge : forall radix ds v, radix <> 0 -> v <= fold_left (fun v d => v * radix + d) ds v.
Proof. intros radix ds. induction ds as [|d ds IH]; intros v R; cbn [fold_left]; [lia|]. specialize (IH (v * radix + d) R). nia. Qed.
(* [chr] writes a digit, [val] is its value *)
Lemma digits_ok : forall radix (D : Type) (chr val : D -> N) ds v got rest,
  (forall d, In d ds -> chr d <> 0 /\ chr d <> c_semi /\ digit_val (chr d) = Some (val d) /\ val d < radix) ->
  fold_left (fun v d => v * radix + d) (map val ds) v <= 0x10FFFF ->
  charref_digits radix v got (map chr ds ++ c_semi :: rest) = SOk (fold_left (fun v d => v * radix + d) (map val ds) v) rest.
Proof.
  intros radix D chr val. induction ds as [|d ds IH]; intros v got rest Hd Hb; [reflexivity|].
  destruct (Hd d (or_introl eq_refl)) as [C0 [C1 [C2 C3]]]. cbn [map app fold_left] in *. cbn [charref_digits].
  rewrite (eqb_false _ 0 C0), (eqb_false _ c_semi C1), C2. replace (radix <=? val d) with false by lia.
  pose proof (fold_ge radix (map val ds) (v * radix + val d)) as G.
  replace (0x10FFFF <? v * radix + val d) with false by lia. apply IH; [|exact Hb]. intros e He. apply Hd. right. exact He.
Qed.
Lemma digit_val_dec : forall d, d < 10 -> digit_val (48 + d) = Some d.
Proof. intros d H. unfold digit_val. replace ((48 <=? 48 + d) && (48 + d <=? 57)) with true by lia. rewrite N.add_comm, N.add_sub. reflexivity. Qed.
Lemma digit_val_upper : forall d, 10 <= d < 16 -> digit_val (55 + d) = Some d.
Proof.
  intros d H. unfold digit_val. replace ((48 <=? 55 + d) && (55 + d <=? 57)) with false by lia.
  replace ((65 <=? 55 + d) && (55 + d <=? 70)) with true by lia. rewrite N.add_comm, N.add_sub. reflexivity.
Qed.
Lemma digit_val_lower : forall d, 10 <= d < 16 -> digit_val (87 + d) = Some d.
Proof.
  intros d H. unfold digit_val. replace ((48 <=? 87 + d) && (87 + d <=? 57)) with false by lia.
  replace ((65 <=? 87 + d) && (87 + d <=? 70)) with false by lia.
  replace ((97 <=? 87 + d) && (87 + d <=? 102)) with true by lia. rewrite N.add_comm, N.add_sub. reflexivity.
Qed.
Lemma dec_digit : forall d, d < 10 -> dec_char d <> 0 /\ dec_char d <> c_semi /\ digit_val (dec_char d) = Some d /\ d < 10.
Proof. intros d H. unfold dec_char, c_semi. rewrite (digit_val_dec d H). repeat split; lia. Qed.
Lemma hex_digit : forall p, fst p < 16 -> hex_char p <> 0 /\ hex_char p <> c_semi /\ digit_val (hex_char p) = Some (fst p) /\ fst p < 16.
Proof.
  intros [d up] H. unfold hex_char, c_semi. cbn [fst snd] in *. destruct (N.ltb_spec d 10) as [L|L]; [|destruct up].
  - rewrite (digit_val_dec d L). repeat split; lia.
  - rewrite digit_val_upper by lia. repeat split; lia.
  - rewrite digit_val_lower by lia. repeat split; lia.
Qed.

Lemma charref_value : forall c rest, is_cp_char c = true ->
  (if 0x10000 <=? c then SOk (0xD800 + (c - 0x10000) / 1024, 0xDC00 + (c - 0x10000) mod 1024) rest
   else if c <=? 0xFFFD then (if is_xmlchar c || is_control c then SOk (c, 0) rest else SStop (Fatal EC_InvalidCharacterRef))
   else SStop (Fatal EC_InvalidCharacterRef)) = SOk (pair_of c) rest.
Proof.
  intros c rest H. unfold pair_of. rewrite N.ltb_antisym. destruct (0x10000 <=? c) eqn:E; [reflexivity|]. cbn [negb].
  assert (X : is_xmlchar c = true) by (apply (cp_char_bmp c H); lia).
  apply is_xmlchar_spec in X as X'. replace (c <=? 0xFFFD) with true by lia. rewrite X. reflexivity.
Qed.
Lemma scan_charref_dec : forall ds c rest, is_cp_char c = true -> ds <> [] -> (forall d, In d ds -> d < 10) ->
  fold_digits 10 ds = c -> scan_charref (map dec_char ds ++ c_semi :: rest) = SOk (pair_of c) rest.
Proof.
  intros [|d ds] c rest Hc Hne Hd Hv; [contradiction|]. unfold scan_charref, fold_digits in *. cbn [map app].
  pose proof (Hd d (or_introl eq_refl)) as D0.
  rewrite (eqb_false (dec_char d) 120), (eqb_false (dec_char d) 88) by (unfold dec_char; lia).
  change (dec_char d :: map dec_char ds ++ c_semi :: rest) with (map dec_char (d :: ds) ++ c_semi :: rest).
  rewrite <- (map_id (d :: ds)) in Hv. rewrite (digits_ok 10 N dec_char (fun d => d) (d :: ds) 0 false rest), Hv.
  - apply charref_value. exact Hc.
  - intros e He. apply dec_digit, Hd, He.
  - rewrite Hv. exact (cp_char_max c Hc).
Qed.
Lemma scan_charref_hex : forall ds c rest, is_cp_char c = true -> (forall d, In d ds -> fst d < 16) ->
  fold_digits 16 (map fst ds) = c -> scan_charref (120 :: map hex_char ds ++ c_semi :: rest) = SOk (pair_of c) rest.
Proof.
  intros ds c rest Hc Hd Hv. unfold scan_charref, fold_digits in *. cbn [N.eqb Pos.eqb].
  rewrite (digits_ok 16 _ hex_char fst ds 0 false rest), Hv.
  - apply charref_value. exact Hc.
  - intros e He. apply hex_digit, Hd, He.
  - rewrite Hv. exact (cp_char_max c Hc).
Qed.

Lemma entref_ok : forall c r rest, is_cp_char c = true -> ref_ok (c, r) = true -> r <> RLit ->
  exists t, render_char (c, r) = c_amp :: t /\ scan_entref (t ++ rest) = SOk (pair_of c) rest.
Proof.
  intros c r rest Hc Hr Hn. destruct r as [|ds|ds|]; [contradiction| | |]; unfold ref_ok in Hr; cbn [fst snd] in Hr.
  - rewrite !andb_true_iff, forallb_forall, N.eqb_eq in Hr. destruct Hr as [[Hne Hd] Hv].
    exists (c_hash :: map dec_char ds ++ [c_semi]). split; [reflexivity|]. cbn [app]. rewrite <- app_assoc.
    apply (scan_charref_dec ds c rest Hc); [intros ->; discriminate|intros d Hi; apply N.ltb_lt, Hd, Hi|exact Hv].
  - rewrite !andb_true_iff, forallb_forall, N.eqb_eq in Hr. destruct Hr as [[Hne Hd] Hv].
    exists (c_hash :: 120 :: map hex_char ds ++ [c_semi]). split; [reflexivity|]. cbn [app]. rewrite <- app_assoc.
    apply (scan_charref_hex ds c rest Hc); [intros d Hi; apply N.ltb_lt, Hd, Hi|exact Hv].
  - (* one of the five names, each scanned by computation *)
    unfold render_char. cbn [fst snd]. unfold ent_name in *.
    repeat (match goal with |- context [if c =? ?x then _ else _] => destruct (N.eqb_spec c x) as [->|_] end;
            [eexists; split; reflexivity|]).
    discriminate.
Qed.

Lemma render_text_cons : forall p t, render_text (p :: t) = render_char p ++ render_text t.
Proof. reflexivity. Qed.
Lemma lchar_ok_inv : forall lit c r, lchar_ok lit (c, r) = true ->
  is_cp_char c = true /\ ref_ok (c, r) = true /\ (r = RLit -> lit c = true).
Proof. intros lit c r H. unfold lchar_ok in H. cbn [fst snd] in H. apply andb_true_iff in H. destruct H as [H H3].
  apply andb_true_iff in H. destruct H as [H1 H2]. repeat split; try assumption. intros E. subst r. exact H3. Qed.
Lemma cref_cases : forall r, r = RLit \/ r <> RLit.
Proof. intros [| | |]; [left; reflexivity|right; discriminate..]. Qed.

(* ---- attribute values; fuel: one unit per loop turn (a reference one, a surrogate pair two) *)
Lemma attval_ref : forall f q c t X, q <> c_amp ->
  scan_entref (t ++ X) = SOk (pair_of c) X ->
  scan_attval (S f) q false (c_amp :: t ++ X) = app_res (u16 c) (scan_attval f q false X).
Proof.
  intros f q c t X Hq E. cbn [scan_attval]. rewrite (eqb_false c_amp q) by congruence.
  cbn [N.eqb c_amp Pos.eqb]. rewrite E. apply pair_cons.
Qed.
Lemma ws_blank : forall c, c <> 13 -> (if is_ws c then c_sp else c) = if (c =? 9) || (c =? 10) then 32 else c.
Proof.
  intros c H. destruct (is_ws c) eqn:W.
  - apply is_ws_spec in W. destruct W as [X|[X|[X|X]]]; subst c; try reflexivity. contradiction.
  - destruct (N.eqb_spec c 9) as [->|_]; [discriminate|]. destruct (N.eqb_spec c 10) as [->|_]; [discriminate|]. reflexivity.
Qed.
Lemma attval_lit : forall f q c X, (q = c_dq \/ q = c_sq) -> is_cp_char c = true -> lit_ok_att q c = true ->
  scan_attval (length (u16 c) + f) q false (u16 c ++ X) = app_res (att_char_val (c, RLit)) (scan_attval f q false X).
Proof.
  intros f q c X Hq Hc Hl. unfold att_char_val. cbn [fst snd]. unfold lit_ok_att in Hl.
  destruct (units_of_u16 c Hc) as [A B C D|h l L Hh Hl']; cbn [length Nat.add app scan_attval].
  - rewrite (eqb_false c 0 D), (eqb_false c q), (eqb_false c c_amp), (sc2_plain _ c B C A), (eqb_false c c_lt), ws_blank
      by (intro; subst c; rewrite ?N.eqb_refl, ?orb_true_r in Hl; discriminate).
    destruct ((c =? 9) || (c =? 10)); rewrite app_res_cons, app_res_nil; reflexivity.
  - replace ((c =? 9) || (c =? 10)) with false by lia. rewrite !app_res_cons, app_res_nil.
    destruct Hq; subst q;
      rewrite !(hi_above h _ Hh), !(lo_above l _ Hl'), (sc2_hi _ h Hh), (sc2_lo _ l Hl'), (hi_not_ws h Hh), (lo_not_ws l Hl') by reflexivity;
      reflexivity.
Qed.
Lemma scan_attval_ok : forall q, (q = c_dq \/ q = c_sq) -> forall v fuel rest,
  forallb (lchar_ok (lit_ok_att q)) v = true -> (length (render_text v) < fuel)%nat ->
  scan_attval fuel q false (render_text v ++ q :: rest) = SOk (att_val v) rest.
Proof.
  intros q Hq. assert (Q : q <> 0 /\ q <> c_amp) by (destruct Hq; subst q; split; discriminate).
  induction v as [|[c r] v IH]; intros fuel rest Hv Hf.
  - destruct fuel as [|f]; [inversion Hf|]. cbn [render_text flat_map app scan_attval].
    rewrite (eqb_false q 0 (proj1 Q)), N.eqb_refl. reflexivity.
  - cbn [forallb] in Hv. apply andb_true_iff in Hv. destruct Hv as [Hc Hv].
    destruct (lchar_ok_inv _ c r Hc) as [Hcp [Href Hlit]].
    rewrite render_text_cons in *.
    change (att_val ((c, r) :: v)) with (att_char_val (c, r) ++ att_val v).
    rewrite <- app_assoc. rewrite app_length in Hf. destruct (cref_cases r) as [->|Hr].
    + change (render_char (c, RLit)) with (u16 c) in *.
      replace fuel with (length (u16 c) + (fuel - length (u16 c)))%nat by lia.
      rewrite (attval_lit _ q c _ Hq Hcp (Hlit eq_refl)), (IH _ rest Hv) by lia. reflexivity.
    + destruct (entref_ok c r (render_text v ++ q :: rest) Hcp Href Hr) as [t [Et Es]]. rewrite Et in *.
      destruct fuel as [|f]; [inversion Hf|]. cbn [app length] in *.
      rewrite (attval_ref f q c t _ (proj2 Q) Es), (IH f rest Hv) by lia.
      replace (att_char_val (c, r)) with (u16 c) by (destruct r; [contradiction|reflexivity..]). reflexivity.
Qed.

Lemma chardata_ref : forall f st c t X,
  scan_entref (t ++ X) = SOk (pair_of c) X ->
  scan_chardata (S f) st false (c_amp :: t ++ X) = app_res (u16 c) (scan_chardata f CW false X).
Proof. intros f st c t X E. cbn [scan_chardata N.eqb c_amp c_lt Pos.eqb]. rewrite E. apply pair_cons. Qed.
Definition cd_next (st : cdst) (c : N) : cdst := if c =? c_rbrack then match st with CW => C1 | _ => C2 end else CW.
Lemma chardata_lit : forall f st c t X, is_cp_char c = true -> lit_ok_text c = true -> no_cdend st ((c, RLit) :: t) = true ->
  no_cdend (cd_next st c) t = true /\
  scan_chardata (length (u16 c) + f) st false (u16 c ++ X) = app_res (u16 c) (scan_chardata f (cd_next st c) false X).
Proof.
  intros f st c t X Hc Hl Hs. unfold lit_ok_text in Hl. cbn [no_cdend] in Hs. unfold cd_next.
  destruct (units_of_u16 c Hc) as [A B C D|h l L Hh Hl']; cbn [length Nat.add app scan_chardata]; rewrite !app_res_cons, app_res_nil.
  - rewrite (eqb_false c c_lt), (eqb_false c c_amp), (sc2_plain _ c B C A)
      by (intro; subst c; discriminate).
    destruct (c =? c_rbrack); [|destruct (c =? c_gt); [destruct st; [| |discriminate]|]]; (split; [exact Hs|reflexivity]).
  - replace (c =? c_rbrack) with false in * by (unfold c_rbrack; lia). replace (c =? c_gt) with false in Hs by (unfold c_gt; lia).
    split; [exact Hs|].
    rewrite !(hi_above h _ Hh), !(lo_above l _ Hl'), (sc2_hi _ h Hh), (sc2_lo _ l Hl') by reflexivity. reflexivity.
Qed.
Lemma scan_chardata_ok : forall t fuel st rest,
  forallb (lchar_ok lit_ok_text) t = true -> no_cdend st t = true -> (length (render_text t) < fuel)%nat ->
  scan_chardata fuel st false (render_text t ++ c_lt :: rest) = SOk (text_val t) (c_lt :: rest).
Proof.
  induction t as [|[c r] t IH]; intros fuel st rest Hv Hs Hf.
  - destruct fuel as [|f]; [inversion Hf|]. cbn [render_text flat_map app scan_chardata]. rewrite N.eqb_refl. reflexivity.
  - cbn [forallb] in Hv. apply andb_true_iff in Hv. destruct Hv as [Hc Hv].
    destruct (lchar_ok_inv _ c r Hc) as [Hcp [Href Hlit]].
    rewrite render_text_cons in *.
    change (text_val ((c, r) :: t)) with (u16 c ++ text_val t).
    rewrite <- app_assoc. rewrite app_length in Hf. destruct (cref_cases r) as [->|Hr].
    + change (render_char (c, RLit)) with (u16 c) in *.
      replace fuel with (length (u16 c) + (fuel - length (u16 c)))%nat by lia.
      destruct (chardata_lit (fuel - length (u16 c)) st c t (render_text t ++ c_lt :: rest) Hcp (Hlit eq_refl) Hs) as [Hs' E].
      rewrite E, (IH _ _ rest Hv Hs') by lia. reflexivity.
    + destruct (entref_ok c r (render_text t ++ c_lt :: rest) Hcp Href Hr) as [tx [Et Es]]. rewrite Et in *.
      destruct fuel as [|f]; [inversion Hf|]. cbn [app length] in *.
      rewrite (chardata_ref f st c tx _ Es), (IH f CW rest Hv); [reflexivity|destruct r; [contradiction|exact Hs..]|lia].
Qed.
Lemma text_first : forall p, lchar_ok lit_ok_text p = true ->
  exists u r, render_char p = u :: r /\ (u =? 0) = false /\ (u =? c_lt) = false.
Proof.
  intros [c k] H. destruct (lchar_ok_inv _ c k H) as [Hcp [Href Hlit]]. destruct (cref_cases k) as [->|Hk].
  - change (render_char (c, RLit)) with (u16 c). specialize (Hlit eq_refl). unfold lit_ok_text in Hlit.
    destruct (units_of_u16 c Hcp) as [A B C D|h l L Hh Hl]; eexists; eexists; (split; [reflexivity|]).
    + split; apply eqb_false; [exact D|intro; subst c; discriminate].
    + split; apply (hi_above h _ Hh); reflexivity.
  - destruct (entref_ok c k [] Hcp Href Hk) as [t [Et _]]. rewrite Et. eexists; eexists; (split; [reflexivity|]). split; reflexivity.
Qed.

Lemma render_text_len : forall t, forallb (lchar_ok lit_ok_text) t = true -> t <> [] -> (1 <= length (render_text t))%nat.
Proof.
  intros [|p t] Hv Hne; [contradiction|]. cbn [forallb] in Hv. apply andb_true_iff in Hv.
  destruct (text_first p (proj1 Hv)) as [u [r [Eu _]]]. rewrite render_text_cons.
  rewrite Eu. cbn [app length]. lia.
Qed.

Lemma not_ws_char : forall c r, is_ws c = false -> not_ws_head (c :: r).
Proof. intros c r H. exact H. Qed.
Lemma enc16_not_ws_head : forall d t, body_chars_ok d = true -> is_s_char (peek d) = false -> not_ws_head t ->
  not_ws_head (enc16 d ++ t).
Proof.
  intros d t Hb Hs Ht. destruct d as [|e d]; [exact Ht|]. destruct (body_chars_cons e d Hb) as [He [H13 _]].
  rewrite enc16_cons_app. cbn [peek] in Hs.
  destruct (units_of_u16 e He) as [A B C D|h l L Hh Hl]; [|exact (hi_not_ws h Hh)]. unfold not_ws_head. cbn [app starts_ws].
  destruct (is_ws e) eqn:W; [|reflexivity]. apply is_ws_spec in W. destruct (is_s_char e) eqn:S'; [discriminate|]. unfold is_s_char in S'. lia.
Qed.

Lemma scan_endtag_ok : forall n ws rest, s_ok ws = true ->
  scan_endtag n (n ++ ws ++ c_gt :: rest) = SOk tt rest.
Proof. intros n ws rest H. unfold scan_endtag. rewrite strip_prefix_app.
  rewrite (skip_ws_app ws (c_gt :: rest) H) by reflexivity. reflexivity. Qed.


Definition attr_body (a : lattr) : str :=
  la_name a ++ la_ws1 a ++ [c_eq] ++ la_ws2 a ++ [quote_of (la_dq a)] ++ render_text (la_val a) ++ [quote_of (la_dq a)].
Lemma str_eqb_sym : forall a b, str_eqb a b = str_eqb b a.
Proof. induction a as [|x a IH]; intros [|y b]; cbn [str_eqb]; try reflexivity. rewrite N.eqb_sym, IH. reflexivity. Qed.
Lemma unique_not_in : forall pre n post, names_unique (pre ++ n :: post) = true -> existsb (str_eqb n) pre = false.
Proof.
  induction pre as [|x pre IH]; intros n post H; [reflexivity|].
  cbn [app names_unique] in H. apply andb_true_iff in H. destruct H as [H1 H2]. cbn [existsb].
  rewrite (IH n post H2). rewrite orb_false_r.
  rewrite existsb_app in H1. cbn [existsb] in H1. rewrite str_eqb_sym.
  destruct (str_eqb x n) eqn:E; [|reflexivity]. exfalso. destruct (existsb (str_eqb x) pre); cbn [orb negb] in H1; discriminate.
Qed.
Lemma attr_ok_inv : forall a, attr_ok a = true ->
  s1_ok (la_ws a) = true /\ name_ok (la_name a) = true /\ s_ok (la_ws1 a) = true /\ s_ok (la_ws2 a) = true /\
  forallb (lchar_ok (lit_ok_att (quote_of (la_dq a)))) (la_val a) = true.
Proof. intros a H. unfold attr_ok in H. rewrite !andb_true_iff in H. tauto. Qed.

Lemma attr_body_not_ws : forall a tail, name_ok (la_name a) = true -> not_ws_head (attr_body a ++ tail).
Proof. intros a tail H. unfold attr_body. rewrite <- app_assoc. apply name_not_ws_head. exact H. Qed.

Lemma attrs_ws_rule : forall (acc : list (str * str)) w X, s_ok w = true -> not_ws_head X ->
  (w = [] -> is_nil acc = true \/ peek X = c_slash \/ peek X = c_gt) -> (w <> [] -> is_nil acc = false) ->
  (if negb (is_nil acc) && negb ((peek (w ++ X) =? c_slash) || (peek (w ++ X) =? c_gt))
   then (if starts_ws (w ++ X) then inl (skip_ws (w ++ X)) else inr EC_ExpectedWhitespace)
   else @inl str ecode (w ++ X)) = @inl str ecode X.
Proof.
  intros acc [|c w] X Hw HX H0 H1.
  - cbn [app]. destruct (H0 eq_refl) as [E|[E|E]]; rewrite E; rewrite ?N.eqb_refl, ?orb_true_r, ?andb_false_r; reflexivity.
  - rewrite (H1 ltac:(discriminate)), (starts_ws_s c w X Hw), (skip_ws_app _ _ Hw HX). cbn [app peek negb andb].
    destruct (s_ok_cons c w Hw) as [Hc _]. apply is_s_char_spec in Hc.
    rewrite (eqb_false c c_slash), (eqb_false c c_gt) by (unfold c_slash, c_gt; lia). reflexivity.
Qed.

(* one turn; the start-tag scanner itself skips the white space before the first attribute ([w = []]) *)
Lemma attr_step : forall nsf a acc w tail f,
  attr_ok a = true -> ns_name_ok nsf (la_name a) = true -> existsb (str_eqb (la_name a)) (map fst acc) = false ->
  s_ok w = true -> is_nil acc = is_nil w ->
  scan_attrs (S f) nsf acc (w ++ attr_body a ++ tail) = scan_attrs f nsf (acc ++ [attr_ev a]) tail.
Proof.
  intros nsf a acc w tail f Ha Hns Hu Hw Hnil. destruct (attr_ok_inv a Ha) as [_ [AN [A1 [A0 AV]]]].
  pose proof (attr_body_not_ws a tail AN) as NB.
  assert (PK : is_special (peek (attr_body a ++ tail)) = false).
  { unfold attr_body. rewrite <- app_assoc. destruct (name_head _ AN) as [c [r [E [Hs _]]]]. rewrite E. exact Hs. }
  cbn [scan_attrs]. rewrite (attrs_ws_rule acc w _ Hw NB), PK;
    [|intros ->; left; exact Hnil|intros H; destruct w; [contradiction|exact Hnil]]. cbn [negb]. unfold attr_body. rewrite <- !app_assoc.
  rewrite (get_name_app _ _ AN) by (apply follow_s; [exact A1|intros _; reflexivity]).
  unfold ns_name_ok in Hns. apply negb_true_iff in Hns. rewrite Hns.
  unfold scan_eq. rewrite (skip_ws_app _ _ A1) by reflexivity. cbn [app]. rewrite N.eqb_refl.
  rewrite (skip_ws_app _ _ A0) by (destruct (la_dq a); reflexivity). rewrite Hu.
  replace ((quote_of (la_dq a) =? c_dq) || (quote_of (la_dq a) =? c_sq)) with true by (destruct (la_dq a); reflexivity).
  rewrite (scan_attval_ok (quote_of (la_dq a))); [reflexivity|destruct (la_dq a); [left|right]; reflexivity|exact AV|].
  rewrite app_length. cbn [length]. lia.
Qed.

Definition close_of (empty : bool) : str := if empty then [c_slash; c_gt] else [c_gt].
Lemma attrs_end : forall f nsf acc ws empty rest, s_ok ws = true -> (acc <> [] \/ ws = []) ->
  scan_attrs (S f) nsf acc (ws ++ close_of empty ++ rest) = SOk (acc, empty) rest.
Proof.
  intros f nsf acc ws empty rest Hw Hc. cbn [scan_attrs]. rewrite (attrs_ws_rule acc ws _ Hw).
  - destruct empty; reflexivity.
  - destruct empty; reflexivity.
  - intros _. right. destruct empty; [left|right]; reflexivity.
  - intros H. destruct Hc as [Hc|Hc]; [destruct acc; [contradiction|reflexivity]|contradiction].
Qed.

Lemma attrs_loop : forall nsf atts acc f ws empty rest,
  forallb attr_ok atts = true -> forallb (fun a => ns_name_ok nsf (la_name a)) atts = true ->
  names_unique (map fst acc ++ map la_name atts) = true -> acc <> [] -> s_ok ws = true -> (length atts < f)%nat ->
  scan_attrs f nsf acc (flat_map render_attr atts ++ ws ++ close_of empty ++ rest) =
    SOk (acc ++ map attr_ev atts, empty) rest.
Proof.
  intros nsf. induction atts as [|a atts IH]; intros acc f ws empty rest Ha Hn Hu Hacc Hw Hf.
  - destruct f as [|f]; [inversion Hf|]. cbn [flat_map app map]. rewrite app_nil_r. apply attrs_end; [exact Hw|left; exact Hacc].
  - destruct f as [|f]; [inversion Hf|]. cbn [forallb] in Ha, Hn. apply andb_true_iff in Ha. destruct Ha as [Ha Has].
    apply andb_true_iff in Hn. destruct Hn as [Hn Hns]. destruct (attr_ok_inv a Ha) as [AW _].
    cbn [flat_map]. change (render_attr a) with (la_ws a ++ attr_body a). rewrite <- !app_assoc.
    rewrite (attr_step nsf a acc (la_ws a) _ f Ha Hn (unique_not_in _ _ _ Hu) (s1_s _ AW)).
    + rewrite (IH (acc ++ [attr_ev a]) f ws empty rest Has Hns).
      * rewrite <- app_assoc. reflexivity.
      * rewrite map_app, <- app_assoc. exact Hu.
      * destruct acc; discriminate.
      * exact Hw.
      * cbn [length] in Hf. lia.
    + unfold s1_ok in AW. destruct acc; [contradiction|]. destruct (la_ws a); [discriminate|reflexivity].
Qed.
Lemma attrs_len : forall atts, (length atts <= length (flat_map render_attr atts))%nat.
Proof. induction atts as [|b atts IH]; cbn [length flat_map]; [lia|].
  assert (1 <= length (render_attr b))%nat by (unfold render_attr; rewrite !app_length; cbn [length]; lia).
  rewrite app_length. lia. Qed.
