(** C02 proofs, part a: the generated character tables, the reader primitives (white space, names, prefixes), the UTF-16
    units of a legal character, the scanners that copy such characters up to a closing mark (comments, PI data, CDATA
    sections), and the definitions the surrogate-pair obligation is stated with. *)
From Coq Require Import ZArith ZifyBool ZifyN ZifyNat Lia.
From XV Require Import Base.XDefs Gen.GenXMLChar Gen.GenErrs C02.Model02 C02.Model02e C02.Spec02.
Local Open Scope N_scope.
(* ZifyBool makes lia split on every boolean hypothesis in sight; nothing here needs that.  In force wherever this file
   is imported. *)
Ltac Zify.zify_post_hook ::= idtac.

Lemma eqb_false : forall a b : N, a <> b -> (a =? b) = false.
Proof. intros a b. apply N.eqb_neq. Qed.

Definition disj (a b : list (N * N)) : bool :=
  forallb (fun p => forallb (fun q => (snd p <? fst q) || (snd q <? fst p)) b) a.
Lemma disj_sound : forall a b c, disj a b = true -> in_ranges c a = true -> in_ranges c b = false.
Proof.
  intros a b c Hd Ha. destruct (in_ranges c b) eqn:Hb; [|reflexivity]. exfalso.
  unfold in_ranges in *. apply existsb_exists in Ha. destruct Ha as [p [Hp Hpc]].
  apply existsb_exists in Hb. destruct Hb as [q [Hq Hqc]].
  unfold disj in Hd. rewrite forallb_forall in Hd. specialize (Hd p Hp). rewrite forallb_forall in Hd.
  specialize (Hd q Hq). unfold in_rng in *. lia.
Qed.

Lemma not_in_rng : forall tbl lo hi c, disj tbl [(lo, hi)] = true -> in_ranges c tbl = true -> (lo <=? c) && (c <=? hi) = false.
Proof. intros tbl lo hi c D H. rewrite <- (disj_sound tbl [(lo, hi)] c D H). cbn. rewrite orb_false_r. reflexivity. Qed.

Lemma is_ws_spec : forall c, is_ws c = true <-> (c = 9 \/ c = 10 \/ c = 13 \/ c = 32).
Proof. intros c. unfold is_ws, x10_ws, in_ranges, in_rng. cbn [existsb fst snd]. lia. Qed.
Lemma is_xmlchar_spec : forall c, is_xmlchar c = true <->
  (c = 9 \/ c = 10 \/ c = 13 \/ (32 <= c <= 0xD7FF) \/ (0xE000 <= c <= 0xFFFD)).
Proof. intros c. unfold is_xmlchar, x10_xmlchar, in_ranges, in_rng. cbn [existsb fst snd]. lia. Qed.
Lemma is_special_spec : forall c, is_special c = true <->
  (c = 0 \/ c = 9 \/ c = 10 \/ c = 13 \/ c = 32 \/ c = 34 \/ c = 39 \/ c = 47 \/ c = 60 \/ c = 62).
Proof.
  intros c. split.
  - unfold is_special, x10_special, in_ranges, in_rng. cbn [existsb fst snd]. lia.
  - intros H. repeat (destruct H as [H|H]); subst c; reflexivity.
Qed.

(* characters that may follow a name in the rendering: never name characters *)
Definition follow : list (N * N) := [(0, 0); (9, 10); (13, 13); (32, 32); (34, 34); (39, 39); (47, 47); (59, 63)].
Lemma namechar_follow : forall c, in_ranges c follow = true -> is_namechar c = false.
Proof. intros c H. destruct (is_namechar c) eqn:E; [|reflexivity].
  rewrite (disj_sound x10_namechar follow c eq_refl E) in H. discriminate. Qed.
Lemma firstname_namechar_tables : forallb (fun p => in_ranges (fst p) x10_namechar && in_ranges (snd p) x10_namechar) x10_firstname = true.
Proof. vm_compute. reflexivity. Qed.
Lemma firstname_not_special : forall c, is_firstname c = true -> is_special c = false.
Proof. intros c. exact (disj_sound x10_firstname x10_special c eq_refl). Qed.
Lemma follow_not_hi_name : forall c, in_ranges c follow = true -> is_hi_name c = false.
Proof. intros c. exact (not_in_rng follow 0xD800 0xDB7F c eq_refl). Qed.

(* the units a name can start with; no character the scanners dispatch on is among them *)
Definition name_starts : list (N * N) := (0xD800, 0xDB7F) :: x10_firstname.
Lemma name_ok_start : forall n, name_ok n = true -> exists c r, n = c :: r /\ in_ranges c name_starts = true.
Proof.
  intros [|c r] H; [discriminate|]. exists c, r. split; [reflexivity|]. cbn [name_ok] in H.
  change (in_ranges c name_starts) with (is_hi_name c || is_firstname c).
  destruct (is_hi_name c); [reflexivity|]. apply andb_true_iff in H. apply H.
Qed.
Lemma start_neq : forall c x, in_ranges c name_starts = true -> in_ranges x name_starts = false -> (c =? x) = false.
Proof. intros c x Hc Hx. apply eqb_false. intro E. subst x. congruence. Qed.
Lemma name_head : forall n, name_ok n = true -> exists c r, n = c :: r /\ is_special c = false /\ is_ws c = false /\
  in_ranges c follow = false.
Proof.
  intros n H. destruct (name_ok_start n H) as [c [r [E Hs]]]. exists c, r. split; [exact E|].
  repeat split; [exact (disj_sound name_starts x10_special c eq_refl Hs)|exact (disj_sound name_starts x10_ws c eq_refl Hs)|
                 exact (disj_sound name_starts follow c eq_refl Hs)].
Qed.

Lemma is_s_char_spec : forall c, is_s_char c = true -> c = 32 \/ c = 9 \/ c = 10.
Proof. intros c H. unfold is_s_char in H. lia. Qed.
Lemma s_char_ws : forall c, is_s_char c = true -> is_ws c = true.
Proof. intros c H. apply is_ws_spec. apply is_s_char_spec in H. lia. Qed.
Lemma s_char_follow : forall c, is_s_char c = true -> in_ranges c follow = true.
Proof. intros c H. apply is_s_char_spec in H. unfold follow, in_ranges, in_rng. cbn [existsb fst snd]. lia. Qed.
Lemma s_ok_cons : forall c w, s_ok (c :: w) = true -> is_s_char c = true /\ s_ok w = true.
Proof. intros c w H. apply andb_true_iff in H. exact H. Qed.
Definition not_ws_head (l : str) : Prop := starts_ws l = false.
Lemma skip_ws_app : forall w rest, s_ok w = true -> not_ws_head rest -> skip_ws (w ++ rest) = rest.
Proof.
  induction w as [|c w IH]; intros rest Hw Hr.
  - cbn [app]. unfold not_ws_head, starts_ws in Hr. destruct rest as [|d r]; [reflexivity|].
    cbn [skip_ws]. rewrite Hr. reflexivity.
  - destruct (s_ok_cons c w Hw) as [Hc Hw']. cbn [app skip_ws]. rewrite (s_char_ws c Hc). apply IH; assumption.
Qed.
Lemma starts_ws_s : forall c w rest, s_ok (c :: w) = true -> starts_ws ((c :: w) ++ rest) = true.
Proof. intros c w rest H. apply s_char_ws. apply (s_ok_cons c w H). Qed.
Lemma starts_ws_app_s1 : forall w rest, s1_ok w = true -> starts_ws (w ++ rest) = true.
Proof. intros w rest H. unfold s1_ok in H. apply andb_true_iff in H. destruct H as [Hn Hs].
  destruct w as [|c w]; [discriminate|]. exact (starts_ws_s c w rest Hs). Qed.
Lemma s1_s : forall w, s1_ok w = true -> s_ok w = true.
Proof. intros w H. unfold s1_ok in H. apply andb_true_iff in H. tauto. Qed.

Lemma strip_prefix_app : forall p rest, strip_prefix p (p ++ rest) = Some rest.
Proof. induction p as [|x p IH]; intros rest; cbn [strip_prefix app]; [reflexivity|]. rewrite N.eqb_refl. apply IH. Qed.
Lemma strip_prefix_cons : forall x p y l, strip_prefix (x :: p) (y :: l) = if x =? y then strip_prefix p l else None.
Proof. reflexivity. Qed.
Lemma str_eqb_refl : forall a, str_eqb a a = true.
Proof. induction a as [|x a IH]; cbn [str_eqb]; [reflexivity|]. rewrite N.eqb_refl, IH. reflexivity. Qed.
Lemma str_eqb_eq : forall a b, str_eqb a b = true -> a = b.
Proof. induction a as [|x a IH]; intros [|y b] H; cbn [str_eqb] in H; try discriminate; [reflexivity|].
  apply andb_true_iff in H. destruct H as [H1 H2]. apply N.eqb_eq in H1. rewrite (IH b H2), H1. reflexivity. Qed.

Lemma name_tail_app : forall n rest, name_rest_ok n = true -> in_ranges (peek rest) follow = true -> name_tail (n ++ rest) = (n, rest).
Proof.
  (* a surrogate pair takes two units, so the recursion also goes to the tail of the tail *)
  fix IH 1. intros n rest Hn Hs. destruct n as [|c n].
  - cbn [app]. destruct rest as [|d r]; [reflexivity|]. cbn [peek] in Hs. cbn [name_tail].
    rewrite (follow_not_hi_name d Hs), (namechar_follow d Hs). reflexivity.
  - cbn [name_rest_ok] in Hn. cbn [app name_tail]. destruct (is_hi_name c) eqn:Eh.
    + destruct n as [|d n]; [discriminate|]. apply andb_true_iff in Hn. destruct Hn as [Hd Hn].
      cbn [app]. rewrite Hd. rewrite (IH n rest Hn Hs). reflexivity.
    + apply andb_true_iff in Hn. destruct Hn as [Hc Hn]. rewrite Hc. rewrite (IH n rest Hn Hs). reflexivity.
Qed.
Lemma get_name_app : forall n rest, name_ok n = true -> in_ranges (peek rest) follow = true -> get_name (n ++ rest) = Some (n, rest).
Proof.
  intros n rest Hn Hs. destruct n as [|c n]; [discriminate|]. cbn [name_ok] in Hn. cbn [app get_name].
  destruct (is_hi_name c) eqn:Eh.
  - destruct n as [|d n]; [discriminate|]. apply andb_true_iff in Hn. destruct Hn as [Hd Hn].
    cbn [app]. rewrite Hd. rewrite (name_tail_app n rest Hn Hs). reflexivity.
  - apply andb_true_iff in Hn. destruct Hn as [Hc Hn]. rewrite Hc. rewrite (name_tail_app n rest Hn Hs). reflexivity.
Qed.
Lemma follow_s : forall w rest, s_ok w = true -> (w = [] -> in_ranges (peek rest) follow = true) ->
  in_ranges (peek (w ++ rest)) follow = true.
Proof. intros [|c w] rest H Hr; [exact (Hr eq_refl)|]. apply s_char_follow. apply (s_ok_cons c w H). Qed.
Lemma name_not_ws_head : forall n rest, name_ok n = true -> not_ws_head (n ++ rest).
Proof. intros n rest H. destruct (name_head n H) as [c [r [E [_ [W _]]]]]. subst n. exact W. Qed.

(* ---- the UTF-16 units of a legal character; everything the scanners test on a unit follows from these facts *)
Lemma cp_char_bmp : forall c, is_cp_char c = true -> c < 0x10000 -> is_xmlchar c = true.
Proof. intros c H L. apply is_xmlchar_spec. unfold is_cp_char in H. lia. Qed.
Lemma cp_char_max : forall c, is_cp_char c = true -> c <= 0x10FFFF.
Proof. intros c H. unfold is_cp_char in H. lia. Qed.
Inductive units_of (c : N) : str -> Prop :=
| U1 : is_xmlchar c = true -> is_hi c = false -> is_lo c = false -> c <> 0 -> units_of c [c]
| U2 : forall h l, 0x10000 <= c -> is_hi h = true -> is_lo l = true -> units_of c [h; l].
Lemma units_of_u16 : forall c, is_cp_char c = true -> units_of c (u16 c).
Proof.
  intros c H. unfold u16. destruct (N.ltb_spec c 0x10000) as [L|L].
  - pose proof (cp_char_bmp c H L) as A.
    apply U1; [exact A|exact (not_in_rng x10_xmlchar 0xD800 0xDBFF c eq_refl A)|exact (not_in_rng x10_xmlchar 0xDC00 0xDFFF c eq_refl A)|
              intros ->; discriminate A].
  - assert (B : c - 0x10000 < 1024 * 1024) by (pose proof (cp_char_max c H); lia). clear H.
    assert (Q : (c - 0x10000) / 1024 < 1024) by (apply N.div_lt_upper_bound; [discriminate|exact B]).
    pose proof (N.mod_lt (c - 0x10000) 1024) as M. clear B.
    (* quotient and remainder as plain variables: lia would otherwise reason about the division itself *)
    set (q := (c - 0x10000) / 1024) in *. set (m := (c - 0x10000) mod 1024) in *. clearbody q m.
    apply U2; [exact L|unfold is_hi; lia|unfold is_lo; lia].
Qed.
Lemma hi_above : forall h x, is_hi h = true -> (x <? 0xD800) = true -> (h =? x) = false.
Proof. intros h x H X. unfold is_hi in H. lia. Qed.
Lemma lo_above : forall l x, is_lo l = true -> (x <? 0xD800) = true -> (l =? x) = false.
Proof. intros l x H X. unfold is_lo in H. lia. Qed.
Lemma lo_not_hi : forall l, is_lo l = true -> is_hi l = false.
Proof. intros l H. unfold is_lo in H. unfold is_hi. lia. Qed.
Lemma hi_not_ws : forall h, is_hi h = true -> is_ws h = false.
Proof. intros h H. destruct (is_ws h) eqn:W; [|reflexivity]. apply is_ws_spec in W. unfold is_hi in H. lia. Qed.
Lemma lo_not_ws : forall l, is_lo l = true -> is_ws l = false.
Proof. intros l H. destruct (is_ws l) eqn:W; [|reflexivity]. apply is_ws_spec in W. unfold is_lo in H. lia. Qed.
Lemma peek_u16 : forall c r x, is_cp_char c = true -> (x <? 0xD800) = true -> (peek (u16 c ++ r) =? x) = (c =? x).
Proof.
  intros c r x Hc X. destruct (units_of_u16 c Hc) as [_ _ _ _|h l L Hh _]; [reflexivity|]. cbn [app peek].
  rewrite (hi_above h x Hh X). symmetry. lia.
Qed.
Lemma strip_u16 : forall x p c r, is_cp_char c = true -> (x <? 0xD800) = true ->
  strip_prefix (x :: p) (u16 c ++ r) = if c =? x then strip_prefix p r else None.
Proof.
  intros x p c r Hc X. destruct (units_of_u16 c Hc) as [_ _ _ _|h l L Hh _]; cbn [app strip_prefix]; rewrite N.eqb_sym.
  - reflexivity.
  - rewrite (hi_above h x Hh X). replace (c =? x) with false by lia. reflexivity.
Qed.

Lemma sc1_plain : forall c, is_hi c = false -> is_xmlchar c = true -> sur_check1 false c = inl false.
Proof. intros c A B. unfold sur_check1. rewrite A, B. reflexivity. Qed.
Lemma sc1_hi : forall c, is_hi c = true -> sur_check1 false c = inl true.
Proof. intros c A. unfold sur_check1. rewrite A. reflexivity. Qed.
Lemma sc1_lo : forall c, is_lo c = true -> sur_check1 true c = inl false.
Proof. intros c A. unfold sur_check1. rewrite (lo_not_hi c A), A. reflexivity. Qed.
Lemma sc2_plain : forall bad c, is_hi c = false -> is_lo c = false -> is_xmlchar c = true -> sur_check2 bad false c = inl false.
Proof. intros bad c A B C. unfold sur_check2. rewrite A, B, C. reflexivity. Qed.
Lemma sc2_hi : forall bad c, is_hi c = true -> sur_check2 bad false c = inl true.
Proof. intros bad c A. unfold sur_check2. rewrite A. reflexivity. Qed.
Lemma sc2_lo : forall bad c, is_lo c = true -> sur_check2 bad true c = inl false.
Proof. intros bad c A. unfold sur_check2. rewrite (lo_not_hi c A), A. reflexivity. Qed.

Lemma app_res_cons : forall u p X, app_res (u :: p) X = cons_res u (app_res p X).
Proof. intros u p [t r|s]; reflexivity. Qed.
Lemma app_res_nil : forall X, app_res [] X = X.
Proof. intros [t r|s]; reflexivity. Qed.

Lemma enc16_cons_app : forall c s X, enc16 (c :: s) ++ X = u16 c ++ enc16 s ++ X.
Proof. intros c s X. change (enc16 (c :: s)) with (u16 c ++ enc16 s). apply eq_sym, app_assoc. Qed.
Lemma body_chars_cons : forall c s, body_chars_ok (c :: s) = true ->
  is_cp_char c = true /\ c <> 13 /\ body_chars_ok s = true.
Proof. intros c s H. unfold body_chars_ok in *. cbn [forallb] in H. apply andb_true_iff in H. destruct H as [H1 H2].
  apply andb_true_iff in H1. destruct H1 as [H0 H1]. repeat split; [exact H0| |exact H2].
  intro X. subst c. discriminate. Qed.

Lemma cm_char : forall c r, is_cp_char c = true -> c <> c_dash ->
  scan_comment CmText false (u16 c ++ r) = app_res (u16 c) (scan_comment CmText false r) /\
  scan_comment CmOne false (u16 c ++ r) = cons_res c_dash (app_res (u16 c) (scan_comment CmText false r)).
Proof.
  intros c r Hc Hd. destruct (units_of_u16 c Hc) as [A B C D|h l L Hh Hl]; cbn [app scan_comment]; rewrite !app_res_cons, app_res_nil.
  - rewrite (eqb_false c 0 D), (sc1_plain c B A), (eqb_false c c_dash Hd). split; reflexivity.
  - rewrite !(hi_above h _ Hh), !(lo_above l _ Hl), (sc1_hi h Hh), (sc1_lo l Hl) by reflexivity. split; reflexivity.
Qed.
(* [pending]: a '-' has been read and not yet copied *)
Lemma scan_comment_pending : forall s (pending : bool) rest, body_chars_ok s = true ->
  no_dashdash (if pending then c_dash :: s else s) = true ->
  scan_comment (if pending then CmOne else CmText) false (enc16 s ++ s_cmend ++ rest) =
    SOk ((if pending then [c_dash] else []) ++ enc16 s) rest.
Proof.
  induction s as [|c s IH]; intros pending rest Hb Hn.
  - destruct pending; [discriminate|reflexivity].
  - destruct (body_chars_cons c s Hb) as [Hc [_ Hb']]. destruct (N.eq_dec c c_dash) as [->|Hd].
    + (* by computation: CmText on '-' is CmOne on the rest *)
      destruct pending; [discriminate|]. exact (IH true rest Hb' Hn).
    + rewrite enc16_cons_app.
      destruct (cm_char c (enc16 s ++ s_cmend ++ rest) Hc Hd) as [T O].
      assert (Hn' : no_dashdash s = true).
      { destruct pending; cbn [no_dashdash] in Hn; rewrite ?N.eqb_refl, (eqb_false c c_dash Hd) in Hn; exact Hn. }
      destruct pending; [rewrite O|rewrite T]; rewrite (IH false rest Hb' Hn'); reflexivity.
Qed.

Lemma pi_char : forall c r, is_cp_char c = true -> (c =? c_quest) && (peek r =? c_gt) = false ->
  scan_pi_data false (u16 c ++ r) = app_res (u16 c) (scan_pi_data false r).
Proof.
  intros c r Hc Hq. destruct (units_of_u16 c Hc) as [A B C D|h l L Hh Hl]; cbn [app scan_pi_data]; rewrite !app_res_cons, app_res_nil.
  - rewrite (eqb_false c 0 D), Hq, (sc1_plain c B A). reflexivity.
  - rewrite !(hi_above h _ Hh), !(lo_above l _ Hl), (sc1_hi h Hh), (sc1_lo l Hl) by reflexivity. reflexivity.
Qed.
Lemma scan_pi_data_ok : forall d rest, body_chars_ok d = true -> no_pi_end d = true ->
  scan_pi_data false (enc16 d ++ s_piend ++ rest) = SOk (enc16 d) rest.
Proof.
  induction d as [|c d IH]; intros rest Hb Hn; [reflexivity|].
  destruct (body_chars_cons c d Hb) as [Hc [_ Hb']].
  cbn [no_pi_end] in Hn. apply andb_true_iff in Hn. destruct Hn as [Hq Hn'].
  rewrite enc16_cons_app, pi_char, (IH rest Hb' Hn'); [reflexivity|exact Hc|].
  destruct d as [|e d']; [apply andb_false_r|]. destruct (body_chars_cons e d' Hb') as [He _].
  rewrite enc16_cons_app, (peek_u16 e _ c_gt He eq_refl).
  apply negb_true_iff. exact Hq.
Qed.

Lemma cd_char : forall c r, is_cp_char c = true -> (c =? c_rbrack) && starts_with [c_rbrack; c_gt] r = false ->
  scan_cdata_body false (u16 c ++ r) = app_res (u16 c) (scan_cdata_body false r).
Proof.
  intros c r Hc Hq. destruct (units_of_u16 c Hc) as [A B C D|h l L Hh Hl]; cbn [app scan_cdata_body]; rewrite !app_res_cons, app_res_nil.
  - rewrite (eqb_false c 0 D). unfold starts_with in Hq.
    destruct (c =? c_rbrack); [destruct (strip_prefix [c_rbrack; c_gt] r); [discriminate|]|];
      rewrite (sc2_plain _ c B C A); reflexivity.
  - rewrite !(hi_above h _ Hh), !(lo_above l _ Hl), (sc2_hi _ h Hh), (sc2_lo _ l Hl) by reflexivity. reflexivity.
Qed.
Lemma cd_close : forall s t, body_chars_ok s = true ->
  starts_with [c_rbrack; c_gt] (enc16 s ++ s_cdend ++ t) = starts_with [c_rbrack; c_gt] s.
Proof.
  intros s t Hb. unfold starts_with. destruct s as [|e s]; [reflexivity|]. destruct (body_chars_cons e s Hb) as [He [_ Hb']].
  rewrite enc16_cons_app, (strip_u16 c_rbrack _ e _ He eq_refl).
  rewrite strip_prefix_cons, (N.eqb_sym c_rbrack e). destruct (e =? c_rbrack); [|reflexivity].
  destruct s as [|f s]; [reflexivity|]. destruct (body_chars_cons f s Hb') as [Hf _].
  rewrite enc16_cons_app, (strip_u16 c_gt _ f _ Hf eq_refl).
  rewrite strip_prefix_cons, (N.eqb_sym c_gt f). destruct (f =? c_gt); reflexivity.
Qed.
Lemma scan_cdata_body_ok : forall s rest, body_chars_ok s = true -> no_cdata_end s = true ->
  scan_cdata_body false (enc16 s ++ s_cdend ++ rest) = SOk (enc16 s) rest.
Proof.
  induction s as [|c s IH]; intros rest Hb Hn; [reflexivity|].
  destruct (body_chars_cons c s Hb) as [Hc [_ Hb']]. cbn [no_cdata_end] in Hn. apply andb_true_iff in Hn. destruct Hn as [Hq Hn'].
  rewrite enc16_cons_app, cd_char, (IH rest Hb' Hn'); [reflexivity|exact Hc|].
  rewrite (cd_close s rest Hb'). apply negb_true_iff. exact Hq.
Qed.

Definition pair_cp (h l : N) : N := 0x10000 + (h - 0xD800) * 1024 + (l - 0xDC00).
Definition surr_test_ok (t : N * N * N * N) : bool :=
  match t with (a, b, c, d) => (a =? 0xD800) && (b =? 0xDB7F) && (c =? 0xDC00) && (d =? 0xDFFF) end.
