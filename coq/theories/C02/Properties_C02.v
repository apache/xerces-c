(** Property C02 -- a fatal error is reported iff the document is not well-formed.
    The property theorems and executions; the lemmas they rest on are in Proofs02*.v.
    Model: Model02.v (WFXMLScanner / XMLScanner, DOCTYPE-free documents, XML 1.0; character classes and error-code
    severities regenerated from /repo on every run).  Spec: Spec02.v (lexical documents, render, events, wf_ldoc). *)
From XV Require Import Base.XDefs Gen.GenXMLChar Gen.GenErrs C02.Model02 C02.Spec02 C02.Model02e C02.Proofs02a C02.Proofs02d
  C02.Proofs02e.
From Coq Require Import Lia.
Local Open Scope N_scope.

(** every error code the model can emit lies in the fatal range F_LowBounds..F_HighBounds of the generated
    XMLErrorCodes partition: re-classifying one of them as error/warning breaks this obligation *)
Theorem T02_severity : forall e : ecode, XMLErrs_isFatal (code_num e) = true.
Proof. intros e; destruct e; vm_compute; reflexivity. Qed.
Print Assumptions T02_severity.

Theorem T02_accept_attvalue : forall q, (q = c_dq \/ q = c_sq) -> forall v fuel rest,
  forallb (lchar_ok (lit_ok_att q)) v = true -> (length (render_text v) < fuel)%nat ->
  scan_attval fuel q false (render_text v ++ q :: rest) = SOk (att_val v) rest.
Proof. exact scan_attval_ok. Qed.
Print Assumptions T02_accept_attvalue.
Theorem T02_accept_chardata : forall t fuel st rest,
  forallb (lchar_ok lit_ok_text) t = true -> no_cdend st t = true -> (length (render_text t) < fuel)%nat ->
  scan_chardata fuel st false (render_text t ++ c_lt :: rest) = SOk (text_val t) (c_lt :: rest).
Proof. exact scan_chardata_ok. Qed.
Print Assumptions T02_accept_chardata.
Theorem T02_accept_starttag : forall nsf n atts ws empty rest,
  name_ok n = true -> ns_name_ok nsf n = true -> attrs_ok atts = true ->
  forallb (fun a => ns_name_ok nsf (la_name a)) atts = true -> s_ok ws = true ->
  scan_starttag nsf (n ++ flat_map render_attr atts ++ ws ++ close_of empty ++ rest) = SOk (n, map attr_ev atts, empty) rest.
Proof.
  intros nsf n atts ws empty rest Hn Hns Ha Hans Hw. unfold attrs_ok in Ha. apply andb_true_iff in Ha. destruct Ha as [Ha Hu].
  unfold scan_starttag. unfold ns_name_ok in Hns. apply negb_true_iff in Hns.
  destruct atts as [|a atts].
  - cbn [flat_map app map]. rewrite (get_name_app n _ Hn) by (apply follow_s; [exact Hw|destruct empty; reflexivity]).
    rewrite Hns, (skip_ws_app ws _ Hw) by (destruct empty; reflexivity).
    rewrite (attrs_end _ nsf [] [] empty rest eq_refl (or_intror eq_refl)). reflexivity.
  - cbn [flat_map forallb map] in *. apply andb_true_iff in Ha, Hans. destruct Ha as [Ha Has]. destruct Hans as [Hn1 Hns1].
    destruct (attr_ok_inv a Ha) as [AW [AN _]]. change (render_attr a) with (la_ws a ++ attr_body a). rewrite <- !app_assoc.
    rewrite (get_name_app n _ Hn) by (apply follow_s; [exact (s1_s _ AW)|intros E; rewrite E in AW; discriminate]).
    rewrite Hns, (skip_ws_app _ _ (s1_s _ AW) (attr_body_not_ws a _ AN)).
    set (TL := flat_map render_attr atts ++ ws ++ close_of empty ++ rest). change (attr_body a ++ TL) with ([] ++ attr_body a ++ TL) at 2.
    rewrite (attr_step nsf a [] [] TL _ Ha Hn1 eq_refl eq_refl eq_refl).
    subst TL. rewrite (attrs_loop nsf atts [attr_ev a] _ ws empty rest Has Hns1 Hu); [reflexivity|discriminate|exact Hw|].
    pose proof (attrs_len atts). unfold attr_body. rewrite !app_length. cbn [length]. lia.
Qed.
Print Assumptions T02_accept_starttag.
Theorem T02_accept_pi : forall nsf t ws d rest, pi_ok nsf t ws d = true ->
  scan_pi nsf (t ++ ws ++ enc16 d ++ s_piend ++ rest) = SOk (EvPI t (enc16 d)) rest.
Proof.
  intros nsf t ws d rest H. unfold pi_ok in H. rewrite !andb_true_iff in H. destruct H as [[[[[[Pn Px] Pc] Pw] Pb] Pe] Pd].
  apply negb_true_iff in Px, Pc. unfold scan_pi. rewrite (name_not_ws_head t _ Pn : starts_ws _ = false).
  rewrite (get_name_app t _ Pn), Px, Pc
    by (apply follow_s; [exact Pw|]; intros ->; destruct d as [|e d]; [reflexivity|discriminate]).
  destruct ws as [|w ws].
  - destruct d as [|e d]; [reflexivity|discriminate].
  - rewrite (starts_ws_s w ws _ Pw), (skip_ws_app _ _ Pw), (scan_pi_data_ok d rest Pb Pe); [reflexivity|].
    destruct d as [|e d]; [reflexivity|]. apply enc16_not_ws_head; [exact Pb| |reflexivity].
    cbn [is_nil orb andb negb] in Pd. apply negb_true_iff. exact Pd.
Qed.
Print Assumptions T02_accept_pi.
Theorem T02_accept_comment : forall s rest, comment_ok s = true ->
  scan_comment CmText false (enc16 s ++ s_cmend ++ rest) = SOk (enc16 s) rest.
Proof. intros s rest H. apply andb_prop in H. exact (scan_comment_pending s false rest (proj1 H) (proj2 H)). Qed.
Print Assumptions T02_accept_comment.
Theorem T02_accept_cdata : forall s rest, body_chars_ok s = true -> no_cdata_end s = true ->
  scan_cdata_body false (enc16 s ++ s_cdend ++ rest) = SOk (enc16 s) rest.
Proof. exact scan_cdata_body_ok. Qed.
Print Assumptions T02_accept_cdata.
Theorem T02_accept_content : forall nsf items stack fuel rest,
  forallb (item_ok nsf) items = true -> body_ok stack items = true ->
  (length (flat_map render_item items) < fuel)%nat ->
  content fuel nsf stack (flat_map render_item items ++ rest) = (flat_map item_events items, SOk tt rest).
Proof.
  intros nsf. induction items as [|i items IH]; intros stack fuel rest Hok Hb Hf; [discriminate|].
  cbn [forallb] in Hok. apply andb_true_iff in Hok. destruct Hok as [Hi Hok].
  cbn [flat_map] in Hf |- *. rewrite app_length in Hf. rewrite <- app_assoc. destruct fuel as [|f]; [inversion Hf|].
  (* after a tag that may close the root element: the remaining items, or nothing *)
  assert (AFTER_TAG : forall evs st f', (length (flat_map render_item items) < f')%nat ->
            (if is_nil st then is_nil items else body_ok st items) = true ->
            (if is_nil st then (evs, SOk tt (flat_map render_item items ++ rest))
             else emit evs (content f' nsf st (flat_map render_item items ++ rest))) = (evs ++ flat_map item_events items, SOk tt rest)).
  { intros evs [|top st] f' Hf' H; [destruct items; [rewrite app_nil_r; reflexivity|discriminate]|].
    cbn [is_nil] in *. rewrite (IH _ f' rest Hok H Hf'). reflexivity. }
  destruct i as [n atts ws|n atts ws sc ws2|n ws|t|s|s|t ws d]; cbn [body_ok] in Hb; cbn [item_ok] in Hi; cbn [item_events render_item] in Hf |- *.
  - (* LStart *)
    destruct (stag_ok_inv _ _ _ _ Hi) as [Hn [Hns [Ha [Hans Hw]]]]. pose proof (render_stag_len n atts ws [c_gt]).
    rewrite (content_stag f nsf stack n atts ws _ _ _ _ Hn (T02_accept_starttag nsf n atts ws false _ Hn Hns Ha Hans Hw)).
    rewrite (IH (n :: stack) f rest Hok Hb) by lia. reflexivity.
  - (* LEmpty *)
    apply andb_true_iff in Hi. destruct Hi as [Hi Hw2]. destruct (stag_ok_inv _ _ _ _ Hi) as [Hn [Hns [Ha [Hans Hw]]]].
    pose proof (render_stag_len n atts ws [c_gt]). pose proof (render_stag_len n atts ws [c_slash; c_gt]). destruct sc.
    + rewrite (content_stag f nsf stack n atts ws _ _ _ _ Hn (T02_accept_starttag nsf n atts ws true _ Hn Hns Ha Hans Hw)).
      apply AFTER_TAG; [lia|exact Hb].
    + rewrite <- app_assoc, (content_stag f nsf stack n atts ws _ _ _ _ Hn (T02_accept_starttag nsf n atts ws false _ Hn Hns Ha Hans Hw)).
      rewrite app_length in Hf. cbn [app length s_etag] in Hf. destruct f as [|f]; [lia|]. rewrite <- !app_assoc. cbn [app].
      rewrite (content_etag f nsf n stack ws2 _ Hw2), AFTER_TAG; [reflexivity|lia|exact Hb].
  - (* LEnd *)
    destruct stack as [|top st]; [discriminate|]. apply andb_true_iff in Hb. destruct Hb as [He Hb].
    apply str_eqb_eq in He. subst top. cbn [app length s_etag] in Hf. rewrite <- !app_assoc. cbn [app].
    rewrite (content_etag f nsf n st ws _ Hi). apply AFTER_TAG; [lia|exact Hb].
  - (* LText *)
    rewrite !andb_true_iff in Hb. destruct Hb as [[Hs Hnt] Hb].
    unfold text_ok in Hi. rewrite !andb_true_iff in Hi. destruct Hi as [[Hne Hv] Hcd].
    (* [body_ok] gives a next item [j]; it is not character data, so it starts with '<' *)
    destruct items as [|j items]; [discriminate Hb|]. apply negb_true_iff in Hnt.
    destruct (item_lt j (flat_map render_item items ++ rest) Hnt) as [Y EY].
    assert (NEXT : flat_map render_item (j :: items) ++ rest = c_lt :: Y) by (cbn [flat_map]; rewrite <- app_assoc; exact EY).
    assert (Tne : t <> []) by (intros ->; discriminate). pose proof (render_text_len t Hv Tne).
    rewrite NEXT, (content_chardata f nsf stack t Y Hv Tne)
      by (apply (T02_accept_chardata t _ CW Y Hv Hcd); rewrite app_length; cbn [length]; lia).
    rewrite <- NEXT, (IH stack f rest Hok Hb) by lia. reflexivity.
  - (* LCData *)
    rewrite !andb_true_iff in Hb. destruct Hb as [Hs Hb]. apply negb_true_iff in Hs.
    unfold cdata_ok in Hi. apply andb_true_iff in Hi. destruct Hi as [Hc Hn]. cbn [app length s_cdstart] in Hf. rewrite <- !app_assoc.
    rewrite (content_cdata f nsf stack _ _ _ Hs (T02_accept_cdata s _ Hc Hn)), (IH stack f rest Hok Hb) by lia. reflexivity.
  - (* LComment *)
    rewrite !andb_true_iff in Hb. destruct Hb as [Hs Hb]. unfold render_comment in *. cbn [app length s_comment] in Hf. rewrite <- !app_assoc.
    rewrite (content_comment f nsf stack _ _ _ (T02_accept_comment s _ Hi)), (IH stack f rest Hok Hb) by lia. reflexivity.
  - (* LPI *)
    rewrite !andb_true_iff in Hb. destruct Hb as [Hs Hb]. unfold render_pi in *. cbn [app length s_pi] in Hf. rewrite <- !app_assoc.
    rewrite (content_pi f nsf stack _ _ _ (T02_accept_pi nsf t ws d _ Hi)), (IH stack f rest Hok Hb) by lia. reflexivity.
Qed.
Print Assumptions T02_accept_content.

Theorem T02_eol_roundtrip : forall s ch, no_cr s = true -> eol_choices_ok s ch = true -> eol_norm (eol_expand s ch) = s.
Proof.
  induction s as [|c s IH]; intros ch Hn Hc; [reflexivity|].
  cbn [no_cr forallb] in Hn. apply andb_true_iff in Hn. destruct Hn as [Hc13 Hn]. apply negb_true_iff in Hc13.
  cbn [eol_expand eol_choices_ok] in *. destruct (c =? c_lf) eqn:El.
  - apply N.eqb_eq in El. subst c. destruct ch as [|[| |] ch].
    + cbn [eol_norm]. rewrite (IH [] Hn Hc). reflexivity.
    + cbn [eol_norm]. cbn [N.eqb c_lf c_cr Pos.eqb]. rewrite (IH ch Hn Hc). reflexivity.
    + cbn [eol_norm]. cbn [N.eqb c_lf c_cr Pos.eqb]. rewrite (IH ch Hn Hc). reflexivity.
    + apply andb_true_iff in Hc. destruct Hc as [Hp Hc]. cbn [eol_norm]. cbn [N.eqb c_cr Pos.eqb].
      specialize (IH ch Hn Hc). destruct s as [|d s]; [reflexivity|].
      cbn [peek] in Hp. cbn [eol_expand] in *. apply negb_true_iff in Hp. rewrite Hp in *. rewrite Hp, IH. reflexivity.
  - cbn [eol_norm]. rewrite Hc13, (IH ch Hn Hc). reflexivity.
Qed.
Print Assumptions T02_eol_roundtrip.

(** accept side (partial, see below): every well-formed lexical document is scanned without error and the events
    delivered are exactly [events d] -- for every choice of quotes, white space, character / entity references,
    empty-element form and line-end form, with namespace processing on or off.  Since [events] does not read the
    lexical decorations, this is also C03's "the content reported is independent of every lexical choice".
    PARTIAL in three respects (each covered by the correspondence on every run, not by this proof):
    (1) no XML declaration ([ld_decl d = None]); (2) the Misc before and after the root element are comments and
    white space (processing instructions are proved inside the root element only); (3) the fact that the rendering
    of a well-formed document contains no CR before line-end expansion is a hypothesis ([no_cr]) instead of a lemma. *)
Theorem T02_accept_partial : forall nsf d ch,
  wf_ldoc nsf d = true -> ld_decl d = None ->
  forallb misc_simple (ld_prolog d) = true -> forallb misc_simple (ld_epilog d) = true ->
  no_cr (render1 d) = true -> eol_choices_ok (render1 d) ch = true ->
  xscan {| ns := nsf |} (render d ch) = (events d, OOk).
Proof.
  intros nsf d ch Hwf Hd Hp He Hcr Hch. unfold xscan, render. cbn [ns]. rewrite (T02_eol_roundtrip _ _ Hcr Hch).
  unfold wf_ldoc in Hwf. rewrite Hd in Hwf. rewrite !andb_true_iff in Hwf. destruct Hwf as [[[[_ Hpro] Hitems] Hbody] Hepi].
  unfold render1, events, scan_doc. rewrite Hd. cbn [app].
  set (P := flat_map render_misc (ld_prolog d)). set (B := flat_map render_item (ld_body d)).
  set (E := flat_map render_misc (ld_epilog d)).
  assert (TOT : length (P ++ B ++ E) = (length P + length B + length E)%nat) by (rewrite !app_length; lia).
  assert (LB : (1 <= length B)%nat).
  { destruct (body_root_head nsf _ [] Hitems Hbody) as [c [r [EB _]]]. rewrite app_nil_r in EB. fold B in EB. rewrite EB. cbn [length]. lia. }
  rewrite (prolog_loop_ok nsf (ld_prolog d) _ true (B ++ E) Hpro Hp (body_root_head nsf _ E Hitems Hbody)) by (fold P; lia).
  rewrite (T02_accept_content nsf (ld_body d) [] _ E Hitems Hbody) by (fold B; lia).
  rewrite (misc_loop_ok nsf (ld_epilog d) _ Hepi He) by (fold E; lia). reflexivity.
Qed.
Print Assumptions T02_accept_partial.

(** character-class obligations over the regenerated tables that the proofs rest on (an edit of a table entry that
    matters for these constructs breaks them): white space is exactly S; Char below U+10000 is production [2];
    the characters that may follow a name are not name characters; name-start characters are not "special
    start-tag characters" (the start-tag loop would otherwise misread an attribute name) *)
Theorem T02_tables : (forall c, is_ws c = true <-> (c = 9 \/ c = 10 \/ c = 13 \/ c = 32)) /\
  (forall c, is_xmlchar c = true <-> (c = 9 \/ c = 10 \/ c = 13 \/ (32 <= c <= 0xD7FF) \/ (0xE000 <= c <= 0xFFFD))) /\
  (forall c, in_ranges c follow = true -> is_namechar c = false) /\
  (forall c, is_firstname c = true -> is_special c = false).
Proof. repeat split; try apply is_ws_spec; try apply is_xmlchar_spec; [exact namechar_follow|exact firstname_not_special]. Qed.
Print Assumptions T02_tables.

(** supplementary name characters: every surrogate-pair test in XMLReader::getName / getNCName (constants read from
    XMLReader.cpp on every run) is  0xD800 <= high <= 0xDB7F, 0xDC00 <= low <= 0xDFFF, and these pairs - the model's
    is_hi_name / is_lo - are exactly the code points [#x10000-#xEFFFF] of productions [4]/[4a]; widening a bound
    (e.g. to 0xDBFF, which would admit the private-use planes 15/16 into names) breaks this obligation *)
Theorem T02_name_surrogates :
  reader_name_surrogate_tests <> [] /\ forallb surr_test_ok reader_name_surrogate_tests = true /\
  (forall h l, is_hi_name h = true -> is_lo l = true -> 0x10000 <= pair_cp h l <= 0xEFFFF) /\
  (forall cp, 0x10000 <= cp <= 0xEFFFF -> exists h l, is_hi_name h = true /\ is_lo l = true /\ pair_cp h l = cp).
Proof.
  split; [discriminate|]. split; [vm_compute; reflexivity|]. split.
  - intros h l Hh Hl. unfold is_hi_name, is_lo, pair_cp in *. split; [rewrite <- N.add_assoc; apply N.le_add_r|]. lia.
  - intros cp H. set (x := cp - 0x10000). assert (E : cp = x + 0x10000 /\ x < 896 * 1024) by lia. clearbody x. destruct E as [-> X].
    exists (x / 1024 + 0xD800), (x mod 1024 + 0xDC00).
    assert (Q : x / 1024 < 896) by (apply N.div_lt_upper_bound; [discriminate|exact X]).
    pose proof (N.mod_lt x 1024) as M. pose proof (N.div_mod' x 1024) as D.
    unfold is_hi_name, is_lo, pair_cp. rewrite !N.add_sub. clear H X.
    set (q := x / 1024) in *. set (m := x mod 1024) in *. clearbody q m. repeat split; lia.
Qed.
Print Assumptions T02_name_surrogates.

(** entity layer (Model02e.v): internal general entities, each replacement text scanned as [content] on its own (XML 1.0
    4.3.2) and, in attribute values, as attribute text.  It is a conservative extension: without declared entities its
    content loop and attribute-value scanner (and, in the proof, its start-tag and character-data scanners) are the DOCTYPE-free
    model's; the accept theorems above then speak about them as well.  Nothing is stated about [escan_doc]. *)
Theorem T02_entity_layer_conservative : forall fuel nsf stack l,
  econtent fuel nsf [] [] false stack l = content fuel nsf stack l.
Proof.
  induction fuel as [|f IH]; intros nsf stack l; [reflexivity|]. destruct l as [|c r]; cbn [econtent content negb andb].
  - destruct (is_nil stack); reflexivity.
  - replace (if c =? c_amp then declared_ref [] r else None) with (@None (str * str * str))
      by (destruct (c =? c_amp); [rewrite declared_ref_nil|]; reflexivity).
    same_cases ltac:(rewrite ?andb_true_r, ?escan_chardata_nil, ?escan_starttag_nil, ?IH).
Qed.
Print Assumptions T02_entity_layer_conservative.
Theorem T02_entity_layer_conservative_attval : forall fuel q sur l, eattval fuel [] q sur l = scan_attval fuel q sur l.
Proof. exact eattval_nil. Qed.
Print Assumptions T02_entity_layer_conservative_attval.
(** executions of the entity layer (not universal claims): an element may not start in one entity and end in another -
    side by side or nested -, a quote inside a referenced entity does not end the attribute value, recursion is an error *)
Definition A (s : list N) := s.
Example T02_entity_examples :
  let e1 := ([101;49], [60;98;62;116]) in                 (* e1 = "<b>t" *)
  let e2 := ([101;50], [109;60;47;98;62]) in              (* e2 = "m</b>" *)
  let inner := ([105], [60;47;98;62]) in                  (* i  = "</b>" *)
  let outer := ([111], [60;98;62;38;105;59]) in           (* o  = "<b>&i;" *)
  let q := ([113], [105;116;39;115]) in                   (* q  = "it's" *)
  let el := ([108], [60;101;32;120;61;39;38;113;59;32;102;39;47;62]) in   (* l = "<e x='&q; f'/>" *)
  let rc := ([114], [97;38;114;59]) in                    (* r  = "a&r;" *)
  snd (escan_doc false [e1; e2] [60;97;62;38;101;49;59;38;101;50;59;60;47;97;62]) = OStop (Fatal EC_PartialTagMarkupError) /\
  snd (escan_doc false [inner; outer] [60;97;62;38;111;59;60;47;97;62]) = OStop (Fatal EC_PartialTagMarkupError) /\
  escan_doc false [q; el] [60;97;62;38;108;59;60;47;97;62] =
    ([EvStart [97] []; EvStart [101] [([120], [105;116;39;115;32;102])]; EvEnd [101]; EvEnd [97]], OOk) /\
  snd (escan_doc false [rc] [60;97;62;38;114;59;60;47;97;62]) = OStop (Fatal EC_RecursiveEntity).
Proof. vm_compute. repeat split; reflexivity. Qed.

(** reject side.  Full statement (NOT proved; no counterexample is known):
      T02_reject : forall cfg s ev, xscan cfg s = (ev, OOk) ->
                   exists d ch, wf_ldoc (ns cfg) d = true /\ eol_choices_ok (render1 d) ch = true /\ s = render d ch /\ ev = events d.
    The model follows the repaired scanners (F41: a NUL after the root element is InvalidCharacter; F42: an unpaired high
    surrogate before the closing quote / before "?>" is Expected2ndSurrogateChar) and the repair proposed in
    fixes/C02-surrogate-before-reference.patch (F63: an unpaired high surrogate before a character / entity reference).
    The three theorems below are the universal statements for exactly these places; the correspondence checks the
    reject side on every run with single-constraint mutants. *)
Definition S (l : list N) := l.
(** F41: where scanMiscellaneous resumes, a NUL character is not the end of input but a fatal error *)
Theorem T02_nul_epilog_fatal : forall fuel nsf r, exists e, snd (misc (Datatypes.S fuel) nsf (0 :: r)) = SStop (Fatal e).
Proof. intros fuel nsf r. exists EC_InvalidCharacter. reflexivity. Qed.
Print Assumptions T02_nul_epilog_fatal.
(** F42: with a pending unpaired high surrogate the closing quote is a fatal error *)
Theorem T02_pending_surrogate_fatal : forall fuel q r, q <> 0 ->
  scan_attval (Datatypes.S fuel) q true (q :: r) = SStop (Fatal EC_Expected2ndSurrogateChar).
Proof. intros fuel q r E. cbn [scan_attval]. replace (q =? 0) with false by (symmetry; apply N.eqb_neq; exact E).
  rewrite N.eqb_refl. reflexivity. Qed.
Print Assumptions T02_pending_surrogate_fatal.
(** F63, F42: so are a reference ('&'), the end of the character data and the "?>" of a processing instruction *)
Theorem T02_pending_surrogate_ref_fatal : forall fuel q st r, q <> c_amp -> q <> 0 ->
  scan_attval (Datatypes.S fuel) q true (c_amp :: r) = SStop (Fatal EC_Expected2ndSurrogateChar) /\
  scan_chardata (Datatypes.S fuel) st true (c_amp :: r) = SStop (Fatal EC_Expected2ndSurrogateChar) /\
  scan_chardata (Datatypes.S fuel) st true (c_lt :: r) = SStop (Fatal EC_Expected2ndSurrogateChar) /\
  scan_chardata (Datatypes.S fuel) st true [] = SStop (Fatal EC_Expected2ndSurrogateChar) /\
  scan_pi_data true (c_quest :: c_gt :: r) = SStop (Fatal EC_Expected2ndSurrogateChar).
Proof. intros fuel q st r Hq H0. split; [|repeat split; reflexivity]. cbn [scan_attval]. change (c_amp =? 0) with false.
  replace (c_amp =? q) with false by (symmetry; apply N.eqb_neq; congruence). rewrite N.eqb_refl. reflexivity. Qed.
Print Assumptions T02_pending_surrogate_ref_fatal.
(** the witnesses of F41, F42 and F63 (executions) *)
Example T02_former_witnesses :
  snd (xscan {| ns := false |} [60; 97; 47; 62; 0; 60; 98; 47; 62]) = OStop (Fatal EC_InvalidCharacter) /\
  snd (xscan {| ns := false |} [60; 97; 32; 98; 61; 34; 120; 0xD800; 34; 47; 62]) = OStop (Fatal EC_Expected2ndSurrogateChar) /\
  snd (xscan {| ns := false |} [60; 97; 62; 0xD800; 38; 97; 109; 112; 59; 0xDC00; 60; 47; 97; 62]) = OStop (Fatal EC_Expected2ndSurrogateChar) /\
  snd (xscan {| ns := false |} [60; 97; 32; 98; 61; 34; 0xD800; 38; 35; 54; 53; 59; 0xDC00; 34; 47; 62]) = OStop (Fatal EC_Expected2ndSurrogateChar).
Proof. vm_compute. repeat split; reflexivity. Qed.

(** reject side, by example only (each line is one violated constraint; these are executions of the model, NOT a
    universal claim -- the universal reject side is the correspondence's job) *)
Definition outcome_of (s : list N) := snd (xscan {| ns := false |} s).
Example T02_reject_examples :
  outcome_of [60;97;62;60;47;98;62] = OStop (Fatal EC_ExpectedEndOfTagX) /\                 (* <a></b> *)
  outcome_of [60;97;32;120;61;34;49;34;32;120;61;34;50;34;47;62] = OStop (Fatal EC_AttrAlreadyUsedInSTag) /\  (* <a x="1" x="2"/> *)
  outcome_of [60;97;32;120;61;34;60;34;47;62] = OStop (Fatal EC_BracketInAttrValue) /\     (* <a x="<"/> *)
  outcome_of [60;97;62;93;93;62;60;47;97;62] = OStop (Fatal EC_BadSequenceInCharData) /\   (* <a>]]></a> *)
  outcome_of [60;33;45;45;45;45;45;62;60;97;47;62] = OStop (Fatal EC_IllegalSequenceInComment) /\ (* <!-----><a/> *)
  outcome_of [60;97;47;62;60;98;47;62] = OStop (Fatal EC_ExpectedCommentOrPI) /\           (* <a/><b/> *)
  outcome_of [60;97;62] = OStop (Fatal EC_EndedWithTagsOnStack) /\                          (* <a> *)
  outcome_of [60;97;62;38;35;48;59;60;47;97;62] = OStop (Fatal EC_InvalidCharacterRef) /\  (* <a>&#0;</a> *)
  outcome_of [60;97;62;38;120;59;60;47;97;62] = OStop (Fatal EC_EntityNotFound) /\         (* <a>&x;</a> *)
  outcome_of [60;97;62;1;60;47;97;62] = OStop (Fatal EC_InvalidCharacter) /\               (* <a>U+0001</a> *)
  outcome_of [32;60;63;120;109;108;32;118;101;114;115;105;111;110;61;34;49;46;48;34;63;62;60;97;47;62]
    = OStop (Fatal EC_XMLDeclMustBeFirst).                                                 (* " <?xml version="1.0"?><a/>" *)
Proof. vm_compute. repeat split; reflexivity. Qed.

Definition ex_doc : ldoc :=
  {| ld_decl := None;
     ld_prolog := [MComment [99; 0x1F600]; MWs [10]];
     ld_body := [ LStart [97] [ {| la_ws := [32]; la_name := [120]; la_ws1 := []; la_ws2 := [9]; la_dq := false;
                                   la_val := [(60, REnt); (0x20AC, RHex [(2,false);(0,false);(10,true);(12,false)]); (9, RDec [0;9])] |} ] [32];
                  LText [(93, RLit); (93, RLit); (62, REnt); (0x10000, RLit); (13, RDec [1;3])];
                  LEmpty [98] [] [] false [10];
                  LCData [93; 93]; LPI [112] [32] [63; 100]; LComment [45; 120];
                  LEnd [97] [] ];
     ld_epilog := [MWs [32; 10]; MComment []] |}.
Example T02_nonvacuous : wf_ldoc true ex_doc = true /\ no_cr (render1 ex_doc) = true /\
  eol_choices_ok (render1 ex_doc) [EolCRLF; EolCR; EolLF] = true /\
  xscan {| ns := true |} (render ex_doc [EolCRLF; EolCR; EolLF]) = (events ex_doc, OOk).
Proof. vm_compute. repeat split; reflexivity. Qed.
