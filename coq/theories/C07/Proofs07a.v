(** C07 -- shared list facts; derivatives in linear form are exact (pd_correct, pds_correct, knullable_correct), hence the
    oracles dmatch, mmatch, elem_validb, doc_validb; pd_app / pds_app for the position automaton of Proofs07c. *)
From Coq Require Import List Bool Arith.
From XV Require Import C07.Spec07.
Import ListNotations.

(* facts about lists that several files of C07 share *)
Lemma existsb_eqb_in : forall (A : Type) (eqb : A -> A -> bool), (forall x y, eqb x y = true <-> x = y) ->
  forall x l, existsb (eqb x) l = true <-> In x l.
Proof.
  intros A eqb Heq x l. rewrite existsb_exists. split.
  - intros (y & Hy & E). apply Heq in E. subst. exact Hy.
  - intros H. exists x. split; [exact H|apply Heq; reflexivity].
Qed.

(* [dd] drops an element that occurs again later, as snodup and tdedup do *)
Lemma dedup_in : forall (A : Type) (mem : A -> list A -> bool) (dd : list A -> list A),
  (forall x l, mem x l = true -> In x l) -> dd [] = [] ->
  (forall x l, dd (x :: l) = if mem x l then dd l else x :: dd l) ->
  forall l x, In x (dd l) <-> In x l.
Proof.
  intros A mem dd Hmem Hnil Hcons. induction l as [|y l IH]; intros x; [rewrite Hnil; tauto|].
  rewrite Hcons. destruct (mem y l) eqn:E.
  - rewrite IH. split; [intros H; right; exact H|]. intros [H|H]; [subst; exact (Hmem _ _ E)|exact H].
  - cbn [In]. rewrite IH. tauto.
Qed.

(* [nd] asks of every element that it does not occur later, as nodupb and tnodup do *)
Lemma nodup_bool : forall (A : Type) (mem : A -> list A -> bool) (nd : list A -> bool),
  (forall x l, mem x l = true <-> In x l) -> nd [] = true ->
  (forall x l, nd (x :: l) = negb (mem x l) && nd l) ->
  forall l, nd l = true <-> NoDup l.
Proof.
  intros A mem nd Hmem Hnil Hcons. induction l as [|x l IH]; [split; [constructor|exact (fun _ => Hnil)]|].
  rewrite Hcons, andb_true_iff, negb_true_iff, IH, NoDup_cons_iff, <- Hmem.
  destruct (mem x l); split; intros [H1 H2]; try discriminate; try (exfalso; apply H1; reflexivity); auto.
Qed.

(* an error list with one entry per offending item is empty iff there is none *)
Lemma map_filter_nil : forall (A B : Type) (g : A -> B) (f : A -> bool) (l : list A),
  map g (filter f l) = [] <-> forall x, In x l -> f x = false.
Proof.
  intros A B g f. induction l as [|y l IH]; cbn [filter]; [split; [intros _ x []|reflexivity]|].
  destruct (f y) eqn:E; cbn [map].
  - split; [discriminate|]. intros H. rewrite (H y (or_introl eq_refl)) in E. discriminate.
  - rewrite IH. split; [intros H x [Hx|Hx]; [subst; exact E|exact (H x Hx)]|intros H x Hx; apply H; right; exact Hx].
Qed.

Lemma ex_in_app : forall (A : Type) (P : A -> Prop) l1 l2,
  (exists t, In t (l1 ++ l2) /\ P t) <-> (exists t, In t l1 /\ P t) \/ (exists t, In t l2 /\ P t).
Proof.
  intros A P l1 l2. split.
  - intros (t & Hin & Ht). apply in_app_or in Hin. destruct Hin; eauto.
  - intros [(t & Hin & Ht)|(t & Hin & Ht)]; exists t; auto using in_or_app.
Qed.

Lemma ex_in_app_if : forall (A : Type) (P : A -> Prop) l1 (b : bool) l2,
  (exists t, In t (l1 ++ (if b then l2 else [])) /\ P t) <->
  (exists t, In t l1 /\ P t) \/ (b = true /\ exists t, In t l2 /\ P t).
Proof.
  intros A P l1 b l2. destruct b.
  - rewrite ex_in_app. split; [intros [H|H]; auto|intros [H|[_ H]]; auto].
  - rewrite app_nil_r. split; [auto|]. intros [H|[E _]]; [exact H|discriminate].
Qed.

Lemma memb_in : forall a l, memb a l = true <-> In a l.
Proof. exact (existsb_eqb_in nat Nat.eqb Nat.eqb_eq). Qed.

Lemma nodupb_correct : forall l, nodupb l = true <-> NoDup l.
Proof. exact (nodup_bool nat memb nodupb memb_in eq_refl (fun _ _ => eq_refl)). Qed.

(** concatenation of languages, as L and Lk spell it: its empty word and its words by their first letter *)
Lemma cat_nil : forall (P Q : list name -> Prop), (exists u v, [] = u ++ v /\ P u /\ Q v) <-> P [] /\ Q [].
Proof.
  intros P Q. split.
  - intros (u & v & E & H1 & H2). symmetry in E. apply app_eq_nil in E. destruct E; subst. auto.
  - intros [H1 H2]. exists [], []. auto.
Qed.

Lemma cat_cons : forall (P Q : list name -> Prop) a w,
  (exists u v, a :: w = u ++ v /\ P u /\ Q v) <->
  (exists u v, w = u ++ v /\ P (a :: u) /\ Q v) \/ (P [] /\ Q (a :: w)).
Proof.
  intros P Q a w. split.
  - intros ([|x u] & v & E & H1 & H2); cbn [app] in E.
    + subst v. auto.
    + injection E as E1 E2. subst x w. left. exists u, v. auto.
  - intros [(u & v & E & H1 & H2)|[H1 H2]]; [exists (a :: u), v; subst w|exists [], (a :: w)]; auto.
Qed.

Lemma nullable_correct : forall c, nullable c = true <-> L c [].
Proof.
  induction c as [a|r IHr s IHs|r IHr s IHs|r IHr|r IHr|r IHr]; cbn [nullable L].
  - split; discriminate.
  - rewrite cat_nil, andb_true_iff, IHr, IHs. reflexivity.
  - rewrite orb_true_iff, IHr, IHs. reflexivity.
  - split; auto.
  - split; [intros _; constructor|auto].
  - rewrite cat_nil, IHr. split; [intros H; split; [exact H|constructor]|intros [H _]; exact H].
Qed.

Lemma star_cons_inv : forall (P : list name -> Prop) a w,
  star P (a :: w) -> exists u v, w = u ++ v /\ P (a :: u) /\ star P v.
Proof.
  intros P a w H. remember (a :: w) as x eqn:E. revert a w E.
  induction H as [|u v Hu Hv IH]; intros a w E; [discriminate|].
  destruct u as [|b u].
  - cbn in E. apply IH. exact E.
  - cbn in E. injection E as E1 E2. subst. exists u, v. auto.
Qed.

Lemma star_headin : forall r a u, (star (L r) (a :: u)) <-> exists x y, u = x ++ y /\ L r (a :: x) /\ star (L r) y.
Proof.
  intros r a u. split.
  - apply star_cons_inv.
  - intros (x & y & E & H1 & H2). subst. change (a :: x ++ y) with ((a :: x) ++ y). apply star_app; assumption.
Qed.

Lemma plus_headin : forall r a u, L (Plus r) (a :: u) <-> exists x y, u = x ++ y /\ L r (a :: x) /\ star (L r) y.
Proof.
  intros r a u. cbn [L]. rewrite cat_cons, <- star_headin. tauto.
Qed.

Lemma star_one : forall (P : list name -> Prop) u, P u -> star P u.
Proof. intros P u H. rewrite <- (app_nil_r u). apply star_app; [exact H|constructor]. Qed.

(** a word of (c . k) that starts with [a] inside [c] *)
Definition headin (c : cm) (k : stack) (a : name) (w : list name) : Prop :=
  exists u v, w = u ++ v /\ L c (a :: u) /\ Lk k v.

Lemma headin_seq : forall r s k a w,
  headin (Seq r s) k a w <-> headin r (s :: k) a w \/ (L r [] /\ headin s k a w).
Proof.
  intros r s k a w. unfold headin. cbn [L Lk]. split.
  - intros (u & v & E & H & Hk). apply cat_cons in H. destruct H as [(x & y & E' & Hx & Hy)|[Hn Hs]].
    + left. exists x, (y ++ v). subst. rewrite app_assoc. eauto 8.
    + right. eauto 6.
  - intros [(x & v' & E & Hx & y & v & E' & Hy & Hk)|[Hn (u & v & E & Hs & Hk)]].
    + exists (x ++ y), v. subst. rewrite app_assoc. split; [reflexivity|]. split; [|exact Hk].
      apply cat_cons. left. eauto.
    + exists u, v. split; [exact E|]. split; [|exact Hk]. apply cat_cons. auto.
Qed.

Lemma headin_iter : forall r k a w,
  (exists u v, w = u ++ v /\ (exists x y, u = x ++ y /\ L r (a :: x) /\ star (L r) y) /\ Lk k v) <->
  headin r (Star r :: k) a w.
Proof.
  intros r k a w. unfold headin. cbn [L Lk]. split.
  - intros (u & v & E & (x & y & E' & Hx & Hy) & Hk). exists x, (y ++ v). subst. rewrite app_assoc. eauto 8.
  - intros (x & v' & E & Hx & y & v & E' & Hy & Hk). exists (x ++ y), v. subst. rewrite app_assoc. eauto 8.
Qed.

Lemma pd_correct : forall c a k w, headin c k a w <-> exists t, In t (pd a c k) /\ Lk t w.
Proof.
  induction c as [b|r IHr s IHs|r IHr s IHs|r IHr|r IHr|r IHr]; intros a k w; cbn [pd].
  - unfold headin. cbn [L]. split.
    + intros (u & v & E & H1 & H2). injection H1 as E1 E2. subst. rewrite Nat.eqb_refl.
      exists k. split; [left; reflexivity|exact H2].
    + intros (t & Hin & Ht). destruct (Nat.eqb_spec a b) as [E|E]; [|destruct Hin].
      destruct Hin as [E2|[]]. subst. exists [], w. auto.
  - rewrite headin_seq, ex_in_app_if, IHr, IHs, nullable_correct. reflexivity.
  - rewrite ex_in_app, <- IHr, <- IHs. unfold headin. cbn [L]. split.
    + intros (u & v & E & [H|H] & Hk); eauto 6.
    + intros [(u & v & E & H & Hk)|(u & v & E & H & Hk)]; exists u, v; auto.
  - rewrite <- IHr. unfold headin. cbn [L]. split.
    + intros (u & v & E & [H|H] & Hk); [discriminate|eauto].
    + intros (u & v & E & H & Hk). exists u, v. auto.
  - rewrite <- IHr, <- headin_iter. unfold headin. cbn [L]. split.
    + intros (u & v & E & H & Hk). apply star_headin in H. eauto.
    + intros (u & v & E & H & Hk). apply star_headin in H. eauto.
  - rewrite <- IHr, <- headin_iter. unfold headin. split.
    + intros (u & v & E & H & Hk). apply plus_headin in H. eauto.
    + intros (u & v & E & H & Hk). apply plus_headin in H. eauto.
Qed.

Lemma pds_correct : forall k a w, Lk k (a :: w) <-> exists t, In t (pds a k) /\ Lk t w.
Proof.
  induction k as [|c k IH]; intros a w; cbn [pds Lk].
  - split; [discriminate|]. intros (t & [] & _).
  - rewrite cat_cons, ex_in_app_if, <- pd_correct, <- nullable_correct, IH. reflexivity.
Qed.

Lemma knullable_correct : forall k, knullable k = true <-> Lk k [].
Proof.
  unfold knullable. induction k as [|c k IH]; cbn [forallb Lk].
  - split; auto.
  - rewrite cat_nil, andb_true_iff, nullable_correct, IH. reflexivity.
Qed.

(** derivatives of a stack that continues with k2 *)
Lemma pd_app : forall c a k k2, pd a c (k ++ k2) = map (fun t => t ++ k2) (pd a c k).
Proof.
  induction c as [b|r IHr s IHs|r IHr s IHs|r IHr|r IHr|r IHr]; intros a k k2; cbn [pd].
  - destruct (Nat.eqb a b); reflexivity.
  - rewrite map_app, <- IHr. destruct (nullable r); [rewrite IHs|]; reflexivity.
  - rewrite map_app, IHr, IHs. reflexivity.
  - apply IHr.
  - apply (IHr a (Star r :: k)).
  - apply (IHr a (Star r :: k)).
Qed.

Lemma pds_app : forall k1 a k2,
  pds a (k1 ++ k2) = map (fun t => t ++ k2) (pds a k1) ++ (if knullable k1 then pds a k2 else []).
Proof.
  induction k1 as [|c k1 IH]; intros a k2; [reflexivity|]. cbn [app pds]. unfold knullable. cbn [forallb].
  rewrite pd_app. destruct (nullable c); cbn [andb]; rewrite map_app.
  - fold (knullable k1). rewrite IH, <- !app_assoc. reflexivity.
  - cbn [map]. rewrite !app_nil_r. reflexivity.
Qed.

Lemma pds_single : forall a c, pds a [c] = pd a c [].
Proof. intros a c. cbn [pds]. destruct (nullable c); apply app_nil_r. Qed.

Lemma cm_eqb_sound : forall x y, cm_eqb x y = true -> x = y.
Proof.
  induction x; destruct y; cbn [cm_eqb]; intros H; try discriminate.
  - apply Nat.eqb_eq in H. subst. reflexivity.
  - apply andb_true_iff in H. destruct H as [H1 H2]. f_equal; auto.
  - apply andb_true_iff in H. destruct H as [H1 H2]. f_equal; auto.
  - f_equal; auto.
  - f_equal; auto.
  - f_equal; auto.
Qed.

Lemma stack_eqb_sound : forall x y, stack_eqb x y = true -> x = y.
Proof.
  induction x as [|a x IH]; destruct y as [|b y]; cbn [stack_eqb]; intros H; try discriminate; [reflexivity|].
  apply andb_true_iff in H. destruct H as [H1 H2]. apply cm_eqb_sound in H1. apply IH in H2. subst. reflexivity.
Qed.

Lemma snodup_in : forall l x, In x (snodup l) <-> In x l.
Proof.
  apply (dedup_in stack (fun x l => existsb (stack_eqb x) l) snodup); [|reflexivity|reflexivity].
  intros x l H. apply existsb_exists in H. destruct H as (z & Hz & Ez). apply stack_eqb_sound in Ez. subst. exact Hz.
Qed.

Definition LS (ss : list stack) (w : list name) : Prop := exists t, In t ss /\ Lk t w.

Lemma dstep_correct : forall ss a w, LS (dstep ss a) w <-> LS ss (a :: w).
Proof.
  intros ss a w. unfold LS, dstep. split.
  - intros (t & Hin & Ht). apply (proj1 (snodup_in _ _)) in Hin. apply (proj1 (in_flat_map _ _ _)) in Hin. destruct Hin as (k & Hk & Hin).
    exists k. split; [exact Hk|]. apply pds_correct. exists t. auto.
  - intros (k & Hk & Hw). apply pds_correct in Hw. destruct Hw as (t & Hin & Ht).
    exists t. split; [|exact Ht]. apply (proj2 (snodup_in _ _)). apply (proj2 (in_flat_map _ _ _)). exists k. auto.
Qed.

Lemma dfold_correct : forall w ss, existsb knullable (fold_left dstep w ss) = true <-> LS ss w.
Proof.
  induction w as [|a w IH]; intros ss; cbn [fold_left].
  - rewrite existsb_exists. unfold LS.
    split; intros (t & Hin & Hn); exists t; (split; [exact Hin|]); apply knullable_correct; exact Hn.
  - rewrite IH. apply dstep_correct.
Qed.

Lemma Lk_single : forall c w, Lk [c] w <-> L c w.
Proof.
  intros c w. cbn [Lk]. split.
  - intros (u & v & E & H1 & H2). subst. rewrite app_nil_r. exact H1.
  - intros H. exists w, []. rewrite app_nil_r. auto.
Qed.

Theorem dmatch_correct : forall c w, dmatch c w = true <-> L c w.
Proof.
  intros c w. unfold dmatch, dstate. rewrite dfold_correct. unfold LS. split.
  - intros (t & [E|[]] & Ht). subst. apply Lk_single. exact Ht.
  - intros H. exists [c]. split; [left; reflexivity|apply Lk_single; exact H].
Qed.

Theorem mmatch_correct : forall m w, mmatch m w = true <-> Lm m w.
Proof.
  intros [| |ns|c] w; cbn [mmatch Lm].
  - destruct w; split; intros H; try reflexivity; discriminate.
  - tauto.
  - rewrite forallb_forall, Forall_forall. split; intros H x Hx; apply memb_in; apply H; exact Hx.
  - apply dmatch_correct.
Qed.

Theorem elem_validb_correct : forall decl m w, elem_validb decl m w = true <-> elem_valid decl m w.
Proof.
  intros decl m w. unfold elem_validb, elem_valid. rewrite andb_true_iff, mmatch_correct.
  rewrite forallb_forall, Forall_forall.
  split; intros [H1 H2]; (split; [|exact H2]); intros x Hx; apply memb_in, H1, Hx.
Qed.

Theorem doc_validb_correct : forall decl m w, doc_validb decl m w = true <-> doc_valid decl m w.
Proof.
  intros decl m w. unfold doc_validb, doc_valid. rewrite andb_true_iff, elem_validb_correct.
  assert (D : decl_validb m = true <-> decl_valid m).
  { destruct m; cbn [decl_validb decl_valid]; try tauto. apply nodupb_correct. }
  rewrite D. tauto.
Qed.
