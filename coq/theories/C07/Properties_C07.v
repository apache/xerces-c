(** C07 -- the theorems the check counts, each by [exact lemma] (proofs: Proofs07*.v), and closed Examples that meet
    their hypotheses. *)
From Coq Require Import List Bool Arith NArith Permutation.
From XV Require Import Gen.GenValid07 C07.Spec07 C07.Model07 C07.Proofs07a C07.Proofs07e C07.Proofs07f C07.Spec07a C07.Model07a C07.Proofs07g C07.Model07s C07.Spec07s C07.Proofs07s.
Import ListNotations.

Theorem T07_oracle : forall c w, dmatch c w = true <-> L c w.
Proof. exact dmatch_correct. Qed.
Print Assumptions T07_oracle.

Theorem T07_oracle_doc : forall decl m w, doc_validb decl m w = true <-> doc_valid decl m w.
Proof. exact doc_validb_correct. Qed.
Print Assumptions T07_oracle_doc.

Theorem T07_simple : forall c op a b, createChildModel c = UseSimple op a b ->
  forall w, simple_validate op a b w = VOk <-> L c w.
Proof. exact simple_correct. Qed.
Print Assumptions T07_simple.

Example T07_simple_nonvacuous : createChildModel (Seq (Leaf 0) (Leaf 1)) = UseSimple OpSeq 0 (Some 1).
Proof. reflexivity. Qed.

Theorem T07_mixed : forall ns w, mixed_validate (mixed_children ns) w 0 = VOk <-> Lm (MMixed ns) w.
Proof. intros ns w. exact (mixed_correct ns w 0). Qed.
Print Assumptions T07_mixed.

Theorem T07_select : forall c op a b, createChildModel c = UseSimple op a b ->
  (op = OpSeq \/ op = OpChoice -> b <> None) /\ forall w, simple_validate op a b w <> VModelErr.
Proof. exact select_wellformed. Qed.
Print Assumptions T07_select.

Theorem T07_select_dfa : forall c c', createChildModel c = UseDFA c' -> c' = c.
Proof. exact select_dfa. Qed.
Print Assumptions T07_select_dfa.

(** DFAContentModel (buildSyntaxTree's nullable/firstpos/lastpos/followpos with the EOC leaf,
    the element map, the worklist subset construction with its hash table, and the validateContent loop) accepts
    exactly the regular language of the content model -- for every content model, deterministic or not, and every
    child sequence.  The only hypothesis is the model's own: the worklist emptied within [fuel] created states
    (the C++ loop has no bound; the check feeds fuel = 3000 and reports a run that exhausts it). *)
Theorem T07_dfa : forall fuel c w,
  d_complete (buildDFA fuel c) = true -> (dfa_validate (buildDFA fuel c) w = VOk <-> L c w).
Proof. exact dfa_correct. Qed.
Print Assumptions T07_dfa.

(* a non-deterministic model, (n0|n1)*,n0,(n0|n1),(n0|n1): the subset construction reaches 9 states *)
Definition nd_example : cm :=
  Seq (Star (Choice (Leaf 0) (Leaf 1))) (Seq (Leaf 0) (Seq (Choice (Leaf 0) (Leaf 1)) (Choice (Leaf 0) (Leaf 1)))).
Example T07_dfa_nonvacuous :
  d_complete (buildDFA 64 nd_example) = true /\ length (d_trans (buildDFA 64 nd_example)) = 9 /\
  dfa_validate (buildDFA 64 nd_example) [1; 0; 0; 1; 0] = VOk /\
  dfa_validate (buildDFA 64 nd_example) [1; 0; 1] = VFail 3.
Proof. vm_compute. auto. Qed.

(** DTDValidator::checkContent as a whole (EMPTY, ANY, mixed, simple and DFA models behind createChildModel) *)
Theorem T07_content : forall fuel m w,
  check_content fuel m w <> VModelErr -> (check_content fuel m w = VOk <-> Lm m w).
Proof. exact check_content_correct. Qed.
Print Assumptions T07_content.

(** *indexFailingChild never exceeds the child count (the scanner indexes fChildren with it when smaller) *)
Theorem T07_fail_index : forall fuel m w k, check_content fuel m w = VFail k -> k <= length w.
Proof. exact check_content_idx. Qed.
Print Assumptions T07_fail_index.

(** validity errors are reported for (declaration, instance) iff a validity constraint of the content-model
    part of XML 1.0 is violated: VC Element Valid (declared children, children in the language), VC No Duplicate
    Types *)
Theorem T07_errors_iff_invalid : forall fuel decl m e w,
  check_content fuel m w <> VModelErr ->
  (decl_check m ++ elem_check fuel decl m e w = [] <-> doc_valid decl m w).
Proof. exact errors_iff_invalid. Qed.
Print Assumptions T07_errors_iff_invalid.

Theorem T07_codes_nonfatal : forall e, e <> ModelGaveUp ->
  XMLValid_isError (verr_code e) = true /\ XMLValid_isFatal (verr_code e) = false /\
  XMLValid_isWarning (verr_code e) = false.
Proof. exact codes_nonfatal. Qed.
Print Assumptions T07_codes_nonfatal.

(** attributes (XML 1.0 section 3.3)
    [attr_errors sw]: validateAttrValue + the attribute part of scanStartTag + checkIDRefs over all instances of
    an element type; sw = false is the behaviour repaired by fixes/C07-enum-single-token.patch, sw = true the code
    as written (finding F25). *)
Theorem T07_oracle_attrs : forall e defs doc, attrs_validb e defs doc = true <-> attrs_valid e defs doc.
Proof. exact attrs_validb_correct. Qed.
Print Assumptions T07_oracle_attrs.

(** repaired code: a validity error is reported iff an attribute constraint is violated (declared, #REQUIRED,
    #FIXED, value of the declared type, unique IDs, resolved IDREF(S), declared unparsed entities, enumerations),
    defaults included *)
Theorem T07_attrs : forall e defs doc, attr_errors false e defs doc = [] <-> attrs_valid e defs doc.
Proof. exact attrs_correct. Qed.
Print Assumptions T07_attrs.

Example T07_attrs_nonvacuous :
  let defs := [mkAD 1 AId DRequired; mkAD 2 AIdRefs DImplied; mkAD 3 (AEnum [TName 1; TNmtok 2]) (DDefault [TNmtok 2])] in
  attr_errors false (mkEnv [] []) defs [[(2, [TName 8; TName 7]); (1, [TName 7])]; [(1, [TName 8]); (3, [TName 1])]] = [] /\
  attr_errors false (mkEnv [] []) defs [[(2, [TName 9]); (1, [TName 7])]; [(1, [TName 7])]] = [ReusedIDValue; IDNotDeclared].
Proof. vm_compute. auto. Qed.

(** code as written: the same, outside the class of F25 (some NOTATION / enumeration value with several tokens) *)
Theorem T07_attrs_as_written_guarded : forall e defs doc, no_multi_enum defs doc = true ->
  (attr_errors true e defs doc = [] <-> attrs_valid e defs doc).
Proof. intros e defs doc H. rewrite (attrs_guarded e defs doc H). apply attrs_correct. Qed.
Print Assumptions T07_attrs_as_written_guarded.

(** ... and inside that class the code as written misses a violated constraint:  <!ATTLIST e a1 (t1|t2) #IMPLIED>
    with a1="t1 t2" is reported valid (VC Enumeration) *)
Theorem T07_attrs_as_written_refuted :
  attr_errors true (mkEnv [] []) f25_defs f25_doc = [] /\ ~ attrs_valid (mkEnv [] []) f25_defs f25_doc.
Proof. exact enum_multi_refuted. Qed.
Print Assumptions T07_attrs_as_written_refuted.

(** ID uniqueness and IDREF resolution do not depend on the order in which the elements occur (forward
    references are resolved at the end of the document) *)
Theorem T07_ids : forall e defs doc doc', Permutation doc doc' ->
  (attr_errors false e defs doc = [] <-> attr_errors false e defs doc' = []).
Proof. intros e defs doc doc' P. rewrite !attr_errors_typed. apply ids_order_independent_t, Permutation_map, P. Qed.
Print Assumptions T07_ids.

(** the attributes delivered (specified + defaulted) are the same function of declaration and instance with
    validation on and off; the implementation side of this is checked on every attribute case of the run *)
Theorem T07_defaults_independent : forall defs el, delivered true defs el = delivered false defs el.
Proof. reflexivity. Qed.
Print Assumptions T07_defaults_independent.

Theorem T07_attrs_typed : forall e dm doc, attr_errors_t false e dm doc = [] <-> attrs_valid_t e dm doc.
Proof. exact attrs_t_correct. Qed.
Print Assumptions T07_attrs_typed.

Theorem T07_oracle_attrs_typed : forall e dm doc, attrs_validb_t e dm doc = true <-> attrs_valid_t e dm doc.
Proof. exact attrs_validb_t_correct. Qed.
Print Assumptions T07_oracle_attrs_typed.

Theorem T07_ids_typed : forall e dm doc doc', Permutation doc doc' ->
  (attr_errors_t false e dm doc = [] <-> attr_errors_t false e dm doc' = []).
Proof. exact ids_order_independent_t. Qed.
Print Assumptions T07_ids_typed.

(** the name spaces of a DTD: general entities, parameter entities, notations and element types do not see
    each other, and the first declaration within a kind is binding *)
Theorem T07_decl_kinds_separate : forall a k m b, is_general k = false ->
  env_of_decls (a ++ (k, m) :: b) = env_of_decls (a ++ b).
Proof. exact decl_kinds_separate. Qed.
Print Assumptions T07_decl_kinds_separate.

Theorem T07_decl_first_wins : forall n a b k0, first_general n a = Some k0 -> first_general n (a ++ b) = Some k0.
Proof.
  intros n a b k0. induction a as [|[k1 m1] a IH]; cbn [app first_general]; [discriminate|].
  destruct (is_general k1 && Nat.eqb m1 n); [auto|exact IH].
Qed.
Print Assumptions T07_decl_first_wins.

Theorem T07_decl_env : forall ds n,
  (memb n (unparsed (env_of_decls ds)) = true <-> first_general n ds = Some KUnparsed) /\
  (memb n (parsed (env_of_decls ds)) = true <-> first_general n ds = Some KParsed).
Proof. exact env_of_decls_iff. Qed.
Print Assumptions T07_decl_env.

Theorem T07_attrs_ignore_other_kinds : forall sw a k m b dm doc, is_general k = false ->
  attr_errors_t sw (env_of_decls (a ++ (k, m) :: b)) dm doc = attr_errors_t sw (env_of_decls (a ++ b)) dm doc.
Proof. intros. rewrite decl_kinds_separate by assumption. reflexivity. Qed.
Print Assumptions T07_attrs_ignore_other_kinds.

Example T07_decl_kinds_nonvacuous :
  let ds := [(KParam, 50); (KUnparsed, 50); (KParsed, 50); (KNotation, 50); (KParsed, 60); (KParam, 60)] in
  memb 50 (unparsed (env_of_decls ds)) = true /\ memb 50 (parsed (env_of_decls ds)) = false /\
  memb 60 (parsed (env_of_decls ds)) = true /\ memb 60 (unparsed (env_of_decls ds)) = false.
Proof. vm_compute. auto. Qed.

(** the declaration side: DTDScanner::scanContentSpec / scanChildren / scanMixed
    every token text of the XML grammar [47]-[50] (white space at every place the grammar allows it), whose groups
    nest at most [lim - 1] deep the way CONTENTSPEC_DEPTH_LIMIT counts, is accepted and yields exactly the tree the
    text denotes -- so T07_dfa / T07_content / T07_errors_iff_invalid start at the declaration TEXT.
    _partial: the converse (a text outside the grammar is rejected with a fatal error) is not proved; the error
    paths are covered by the correspondence (model = implementation on mutated texts, first fatal code compared). *)
Theorem T07_parse_contentspec_partial : forall lim d ts c, childrenR d ts c -> d < lim ->
  scan_element_decl lim ts = DOk (MChildren c).
Proof. exact scan_decl_children. Qed.
Print Assumptions T07_parse_contentspec_partial.

Theorem T07_parse_group : forall lim d g g' c r rest,
  grpR d g c -> d < lim -> g = KOpen :: g' -> is_rep rest = false ->
  scan_children lim (g' ++ rep_toks r ++ rest) = SOk (app_rep r c) rest.
Proof. exact scan_children_grammar. Qed.
Print Assumptions T07_parse_group.

(** Mixed [51]: the listed names in order (duplicates are then reported by decl_check: T07_errors_iff_invalid) *)
Theorem T07_parse_mixed : forall lim ts ns, mixedR ts ns -> scan_element_decl lim ts = DOk (MMixed ns).
Proof. exact scan_decl_mixed. Qed.
Print Assumptions T07_parse_mixed.

(* ( n0 , (n1|n2)* ,n3? )+ with white space is in the grammar at depth 1; beyond the limit the
   scanner gives the depth error; a repetition character after white space is refused *)
Example T07_parse_nonvacuous :
  scan_element_decl 2 [KOpen; KSp; KName 0; KSp; KComma; KSp; KOpen; KName 1; KPipe; KName 2; KClose; KStar; KSp;
                       KComma; KName 3; KQ; KSp; KClose; KPlus; KSp]
  = DOk (MChildren (Plus (Seq (Leaf 0) (Seq (Star (Choice (Leaf 1) (Leaf 2))) (Opt (Leaf 3)))))) /\
  scan_element_decl 1 [KOpen; KName 0; KComma; KOpen; KName 1; KPipe; KName 2; KClose; KClose] = DErr UnterminatedDOCTYPE /\
  scan_element_decl 5 [KOpen; KName 0; KSp; KStar; KClose] = DErr UnexpectedWhitespace /\
  scan_element_decl 5 [KOpen; KOpen; KOpen; KName 0; KClose; KStar; KClose; KPlus; KClose] = DOk (MChildren (Plus (Star (Leaf 0)))).
Proof. vm_compute. auto. Qed.

Example T07_parse_grammar_nonvacuous :
  childrenR 1 [KOpen; KName 0; KComma; KSp; KOpen; KName 1; KClose; KStar; KClose; KPlus]
              (Plus (Seq (Leaf 0) (Star (Leaf 1)))).
Proof.
  apply (children_intro 1 [KOpen; KName 0; KComma; KSp; KOpen; KName 1; KClose; KStar; KClose] _ RPlus []);
    [|constructor].
  apply (grp_intro 1 GSeq [] [KName 0] (Leaf 0) [KComma; KSp; KOpen; KName 1; KClose; KStar] [Star (Leaf 1)]).
  - constructor.
  - apply (first_leaf 1 0 RNone).
  - apply (tail_grp 0 GSeq [] [KSp] [KOpen; KName 1; KClose] (Leaf 1) RStar [] []).
    + constructor.
    + repeat constructor.
    + apply (grp_intro 0 GSeq [] [KName 1] (Leaf 1) [] []); [constructor|apply (first_leaf 0 1 RNone)|repeat constructor].
    + repeat constructor.
Qed.
