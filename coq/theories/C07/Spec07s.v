(** C07 -- the grammar of content specs, XML 1.0 productions [47]-[51], as relations between a token list and the
    content model it denotes (nothing of the C++ here; the token type is shared with the scanner model).

      [47] children ::= (choice | seq) ('?' | '*' | '+')?
      [48] cp       ::= (Name | choice | seq) ('?' | '*' | '+')?
      [49] choice   ::= '(' S? cp ( S? '|' S? cp )+ S? ')'
      [50] seq      ::= '(' S? cp ( S? ',' S? cp )* S? ')'
      [51] Mixed    ::= '(' S? '#PCDATA' (S? '|' S? Name)* S? ')*' | '(' S? '#PCDATA' S? ')'

    A group (c1 sep c2 sep ... cn) denotes the right-nested binary tree sep(c1, sep(c2, ... cn)); parentheses around
    a single cp denote that cp.  The index [d] of the relations is the nesting depth of groups counted the way the
    limit of the scanner counts it: a group that is the FIRST item of its parent is free, any other nested group
    costs one. *)
From Coq Require Import List Bool Arith.
From XV Require Import C07.Spec07 C07.Model07s.
Import ListNotations.

Definition ws (l : list tk) : Prop := Forall (fun t => t = KSp) l.

Inductive rep : Type := RNone | RQ | RStar | RPlus.
Definition rep_toks (r : rep) : list tk :=
  match r with RNone => [] | RQ => [KQ] | RStar => [KStar] | RPlus => [KPlus] end.
Definition app_rep (r : rep) (c : cm) : cm :=
  match r with RNone => c | RQ => Opt c | RStar => Star c | RPlus => Plus c end.

Inductive grpR : nat -> list tk -> cm -> Prop :=            (* choice | seq, without the repetition suffix *)
| grp_intro : forall d ty w1 ts c tl cs,
    ws w1 -> firstR d ts c -> tailR d ty tl cs ->
    grpR d (KOpen :: w1 ++ ts ++ tl ++ [KClose]) (nest ty (c :: cs))
with firstR : nat -> list tk -> cm -> Prop :=               (* the first cp of a group *)
| first_leaf : forall d a r, firstR d (KName a :: rep_toks r) (app_rep r (Leaf a))
| first_grp : forall d g c r, grpR d g c -> firstR d (g ++ rep_toks r) (app_rep r c)
with tailR : nat -> gty -> list tk -> list cm -> Prop :=    (* ( S? sep S? cp )* S? *)
| tail_end : forall d ty w, ws w -> tailR d ty w []
| tail_leaf : forall d ty w1 w2 a r tl cs,
    ws w1 -> ws w2 -> tailR d ty tl cs ->
    tailR d ty (w1 ++ sep ty :: w2 ++ KName a :: rep_toks r ++ tl) (app_rep r (Leaf a) :: cs)
| tail_grp : forall d ty w1 w2 g c r tl cs,
    ws w1 -> ws w2 -> grpR d g c -> tailR (S d) ty tl cs ->
    tailR (S d) ty (w1 ++ sep ty :: w2 ++ g ++ rep_toks r ++ tl) (app_rep r c :: cs).

Scheme grpR_mind := Induction for grpR Sort Prop
  with firstR_mind := Induction for firstR Sort Prop
  with tailR_mind := Induction for tailR Sort Prop.
Combined Scheme cs_mutind from grpR_mind, firstR_mind, tailR_mind.

(* [47] with what may follow in the element declaration: S? '>' *)
Inductive childrenR : nat -> list tk -> cm -> Prop :=
| children_intro : forall d g c r w, grpR d g c -> ws w -> childrenR d (g ++ rep_toks r ++ w) (app_rep r c).

(* [51] *)
Inductive mtailR : list tk -> list name -> Prop :=
| mt_end : forall w, ws w -> mtailR (w ++ [KClose]) []
| mt_more : forall w1 w2 a tl ns, ws w1 -> ws w2 -> mtailR tl ns -> mtailR (w1 ++ KPipe :: w2 ++ KName a :: tl) (a :: ns).

Inductive mixedR : list tk -> list name -> Prop :=
| mixed_star : forall w0 tl ns w, ws w0 -> mtailR tl ns -> ws w -> mixedR (KOpen :: w0 ++ KPcdata :: tl ++ KStar :: w) ns
| mixed_plain : forall w0 tl w, ws w0 -> mtailR tl [] -> ws w -> mixedR (KOpen :: w0 ++ KPcdata :: tl ++ w) [].

