(** C07 -- the content models behind createChildModel (SimpleContentModel, MixedContentModel, the DFA of Proofs07e)
    against the specification; checkContent as a whole, the scanner's error selection, and the error codes. *)
From Coq Require Import List Bool Arith NArith Lia.
From XV Require Import Gen.GenValid07 C07.Spec07 C07.Model07 C07.Proofs07a C07.Proofs07e.
Import ListNotations.

Lemma mixed_validate_ok : forall kids w i,
  mixed_validate kids w i = VOk <-> Forall (fun x => In (Some x) kids) w.
Proof.
  intros kids. induction w as [|x w IH]; intros i; cbn [mixed_validate].
  - split; [constructor|reflexivity].
  - destruct (existsb _ kids) eqn:E.
    + rewrite IH. apply existsb_exists in E. destruct E as (k & Hk & E). apply oname_eqb_eq in E. subst k.
      split; [intros H; constructor; assumption|intros H; inversion H; assumption].
    + split; [discriminate|]. intros H. inversion H as [|y l Hin _]. subst.
      assert (E' : existsb (fun k => oname_eqb k (Some x)) kids = true)
        by (apply existsb_exists; exists (Some x); split; [exact Hin|apply oname_eqb_eq; reflexivity]).
      congruence.
Qed.

Lemma mixed_validate_res : forall kids w i,
  match mixed_validate kids w i with VOk => True | VFail k => i <= k < i + length w | VModelErr => False end.
Proof.
  intros kids. induction w as [|y w IH]; intros i; cbn [mixed_validate length]; [exact I|].
  destruct (existsb _ kids); [|lia]. specialize (IH (S i)). destruct (mixed_validate kids w (S i)); auto. lia.
Qed.

(* SimpleContentModel's repetition loop is the mixed loop over the one name *)
Lemma all_same_mixed : forall a w i, all_same a w i = mixed_validate [Some a] w i.
Proof.
  intros a. induction w as [|x w IH]; intros i; cbn [all_same mixed_validate existsb oname_eqb]; [reflexivity|].
  rewrite orb_false_r, (Nat.eqb_sym a x), IH. reflexivity.
Qed.

Lemma all_same_ok : forall a w i, all_same a w i = VOk <-> star (L (Leaf a)) w.
Proof.
  intros a w i. rewrite all_same_mixed, mixed_validate_ok. split.
  - induction 1 as [|x w [Hx|[]] _ IH]; [constructor|]. injection Hx as <-. apply (star_app _ [a] w); [reflexivity|exact IH].
  - induction 1 as [|u v Hu _ IH]; [constructor|]. cbn [L] in Hu. subst u. constructor; [left; reflexivity|exact IH].
Qed.

Theorem mixed_correct : forall ns w i, mixed_validate (mixed_children ns) w i = VOk <-> Lm (MMixed ns) w.
Proof.
  intros ns w i. rewrite mixed_validate_ok. cbn [Lm]. rewrite !Forall_forall.
  assert (E : forall x, In (Some x) (mixed_children ns) <-> In x ns).
  { intros x. unfold mixed_children. cbn [In]. rewrite in_map_iff. split.
    - intros [H|(y & H & Hy)]; [discriminate|]. injection H as <-. exact Hy.
    - intros H. right. exists x. auto. }
  split; intros H x Hx; apply E, H, Hx.
Qed.

Lemma simple_leaf : forall a w, simple_validate OpLeaf a None w = VOk <-> L (Leaf a) w.
Proof.
  intros a w. cbn [simple_validate L]. destruct w as [|x r]; [split; discriminate|].
  destruct (Nat.eqb_spec x a) as [E|E]; cbn [negb].
  - subst. destruct r; split; intros H; try reflexivity; discriminate.
  - split; [discriminate|]. intros H. injection H as H1 H2. contradiction.
Qed.

Lemma simple_opt : forall a w, simple_validate OpOpt a None w = VOk <-> L (Opt (Leaf a)) w.
Proof.
  intros a w. cbn [simple_validate L]. destruct w as [|x [|y r]].
  - split; auto.
  - destruct (Nat.eqb_spec x a) as [E|E]; cbn [negb].
    + subst. split; auto.
    + split; [discriminate|]. intros [H|H]; [discriminate|]. injection H as H. contradiction.
  - split; [discriminate|]. intros [H|H]; discriminate.
Qed.

Lemma simple_star : forall a w, simple_validate OpStar a None w = VOk <-> L (Star (Leaf a)) w.
Proof. intros a w. exact (all_same_ok a w 0). Qed.

Lemma simple_plus : forall a w, simple_validate OpPlus a None w = VOk <-> L (Plus (Leaf a)) w.
Proof.
  intros a w. cbn [simple_validate L]. destruct w as [|x r].
  - split; [discriminate|]. intros (u & v & E & H1 & H2). subst u. discriminate.
  - rewrite all_same_ok. split.
    + intros H. apply star_cons_inv in H. destruct H as (u & v & E & Hu & Hv). injection Hu as -> ->.
      exists [a], r. subst r. auto.
    + intros (u & v & E & Hu & Hv). subst u. injection E as -> ->. apply (star_app _ [a] v); [reflexivity|exact Hv].
Qed.

Lemma simple_choice : forall a b w, simple_validate OpChoice a (Some b) w = VOk <-> L (Choice (Leaf a) (Leaf b)) w.
Proof.
  intros a b w. cbn [simple_validate L]. destruct w as [|x r].
  - split; [discriminate|]. intros [H|H]; discriminate.
  - destruct (Nat.eqb_spec x a) as [E|E]; destruct (Nat.eqb_spec x b) as [F|F]; cbn [negb andb].
    1-3: (subst; destruct r; split; intros H; auto; try discriminate; destruct H; discriminate).
    split; [discriminate|]. intros [H|H]; injection H as H1 H2; contradiction.
Qed.

Lemma simple_seq : forall a b w, simple_validate OpSeq a (Some b) w = VOk <-> L (Seq (Leaf a) (Leaf b)) w.
Proof.
  intros a b w. cbn [simple_validate L].
  assert (Hw : (exists u v, w = u ++ v /\ u = [a] /\ v = [b]) <-> w = [a; b]).
  { split; [intros (u & v & E & H1 & H2); subst; reflexivity|]. intros H. exists [a], [b]. auto. }
  rewrite Hw. clear Hw. destruct w as [|x [|y r]].
  - split; discriminate.
  - destruct (Nat.eqb_spec x a); cbn [negb]; split; discriminate.
  - destruct (Nat.eqb_spec x a) as [E|E]; cbn [negb].
    + destruct (Nat.eqb_spec y b) as [F|F]; cbn [negb].
      * subst. destruct r; split; intros H; auto; discriminate.
      * split; [discriminate|]. intros H. injection H as H1 H2 H3. contradiction.
    + split; [discriminate|]. intros H. injection H as H1 H2 H3. contradiction.
Qed.

(* createChildModel looks at the root and, below a binary root, at whether both children are leaves *)
Lemma createChildModel_cases : forall c,
  match createChildModel c with
  | UseDFA c' => c' = c
  | UseSimple OpLeaf a None => c = Leaf a
  | UseSimple OpSeq a (Some b) => c = Seq (Leaf a) (Leaf b)
  | UseSimple OpChoice a (Some b) => c = Choice (Leaf a) (Leaf b)
  | UseSimple OpOpt a None => c = Opt (Leaf a)
  | UseSimple OpStar a None => c = Star (Leaf a)
  | UseSimple OpPlus a None => c = Plus (Leaf a)
  | UseSimple _ _ _ => False
  end.
Proof. intros c. destruct c as [x|r s|r s|r|r|r]; try destruct r; try destruct s; reflexivity. Qed.

Theorem simple_correct : forall c op a b, createChildModel c = UseSimple op a b ->
  forall w, simple_validate op a b w = VOk <-> L c w.
Proof.
  intros c op a b H w. pose proof (createChildModel_cases c) as C. rewrite H in C.
  destruct op, b as [b|]; try contradiction; subst c.
  - apply simple_leaf.
  - apply simple_seq.
  - apply simple_choice.
  - apply simple_opt.
  - apply simple_star.
  - apply simple_plus.
Qed.

(* a simple model answers with an index within the children; it gives up only without its second operand *)
Lemma simple_validate_res : forall op a b w,
  match simple_validate op a b w with
  | VOk => True
  | VFail k => k <= length w
  | VModelErr => b = None /\ (op = OpSeq \/ op = OpChoice)
  end.
Proof.
  intros op a b w.
  assert (AS : match all_same a w 0 with VOk => True | VFail k => k <= length w | VModelErr => False end).
  { rewrite all_same_mixed. pose proof (mixed_validate_res [Some a] w 0) as R.
    destruct (mixed_validate [Some a] w 0); auto. lia. }
  destruct op; cbn [simple_validate].
  - destruct w as [|x [|y r]]; cbn [length]; try lia; destruct (negb (Nat.eqb x a)); cbn; auto; lia.
  - destruct b as [b|]; [|auto]. destruct w as [|x [|y [|z r]]]; cbn [length]; try lia;
      destruct (negb (Nat.eqb x a)); try lia; destruct (negb (Nat.eqb y b)); cbn; auto; lia.
  - destruct b as [b|]; [|auto]. destruct w as [|x [|y r]]; cbn [length]; try lia;
      destruct (negb (Nat.eqb x a) && negb (Nat.eqb x b)); cbn; auto; lia.
  - destruct w as [|x [|y r]]; cbn [length]; auto; try lia. destruct (negb (Nat.eqb x a)); cbn; auto; lia.
  - destruct (all_same a w 0); tauto.
  - destruct w as [|x r]; [cbn [length]; lia|]. destruct (all_same a (x :: r) 0); tauto.
Qed.

Theorem select_wellformed : forall c op a b, createChildModel c = UseSimple op a b ->
  (op = OpSeq \/ op = OpChoice -> b <> None) /\ forall w, simple_validate op a b w <> VModelErr.
Proof.
  intros c op a b H. pose proof (createChildModel_cases c) as C. rewrite H in C.
  assert (Hb : op = OpSeq \/ op = OpChoice -> b <> None)
    by (destruct op, b; try contradiction; intros [E|E]; congruence).
  split; [exact Hb|]. intros w Hw. pose proof (simple_validate_res op a b w) as R. rewrite Hw in R.
  destruct R as [Hn Ho]. exact (Hb Ho Hn).
Qed.

Theorem select_dfa : forall c c', createChildModel c = UseDFA c' -> c' = c.
Proof. intros c c' H. pose proof (createChildModel_cases c) as C. rewrite H in C. exact C. Qed.

Lemma dfa_run_noerr : forall d w s idx, dfa_run d s idx w <> VModelErr.
Proof. intros d w s idx H. pose proof (dfa_run_res d w s idx) as R. rewrite H in R. exact R. Qed.

Lemma dfa_validate_complete : forall d w, dfa_validate d w <> VModelErr -> d_complete d = true.
Proof. intros d w H. unfold dfa_validate in H. destruct (d_complete d); [reflexivity|]. exfalso. apply H. reflexivity. Qed.

Theorem check_content_correct : forall fuel m w,
  check_content fuel m w <> VModelErr -> (check_content fuel m w = VOk <-> Lm m w).
Proof.
  intros fuel m w. unfold check_content. destruct m as [| |ns|c]; cbn [makeContentModel validate_obj Lm]; intros Hne.
  - destruct w; split; intros H; try reflexivity; discriminate.
  - tauto.
  - apply (mixed_correct ns w 0).
  - destruct (createChildModel c) as [op a b|c'] eqn:E; cbn [validate_obj] in *.
    + apply (simple_correct c op a b E).
    + apply select_dfa in E. subst c'. apply dfa_correct. apply (dfa_validate_complete _ w). exact Hne.
Qed.

Theorem check_content_idx : forall fuel m w k, check_content fuel m w = VFail k -> k <= length w.
Proof.
  intros fuel m w k. unfold check_content. destruct m as [| |ns|c]; cbn [makeContentModel validate_obj].
  - destruct w; intros H; [discriminate|]. injection H as H. lia.
  - discriminate.
  - intros H. pose proof (mixed_validate_res (mixed_children ns) w 0) as R. rewrite H in R. lia.
  - destruct (createChildModel c) as [op a b|c'] eqn:E; cbn [validate_obj].
    + intros H. pose proof (simple_validate_res op a b w) as R. rewrite H in R. exact R.
    + intros H. pose proof (dfa_validate_res (buildDFA fuel c') w) as R. rewrite H in R. exact R.
Qed.

Lemma has_dups_nodupb : forall l, has_dups l = negb (nodupb l).
Proof.
  induction l as [|x l IH]; cbn [has_dups nodupb]; [reflexivity|]. rewrite IH, negb_andb, negb_involutive. reflexivity.
Qed.

Lemma decl_check_correct : forall m, decl_check m = [] <-> decl_valid m.
Proof.
  intros [| |ns|c]; cbn [decl_check decl_valid]; try tauto.
  rewrite <- nodupb_correct, has_dups_nodupb. destruct (nodupb ns); split; intros H; try reflexivity; discriminate.
Qed.

Lemma undeclared_none : forall decl w,
  map (fun _ : name => ElementNotDefined) (filter (fun a => negb (memb a decl)) w) = [] <->
  Forall (fun a => In a decl) w.
Proof.
  intros decl w. rewrite map_filter_nil, Forall_forall.
  split; intros H x Hx; [apply memb_in, negb_false_iff|apply negb_false_iff, memb_in]; exact (H x Hx).
Qed.

Lemma content_error_none : forall e n r, content_error e n r = [] <-> r = VOk.
Proof.
  intros e n [|i|]; cbn [content_error]; split; intros H; try reflexivity; try discriminate.
  destruct e; [discriminate|]. destruct (Nat.eqb n 0); [discriminate|]. destruct (Nat.leb n i); discriminate.
Qed.

Theorem errors_iff_invalid : forall fuel decl m e w,
  check_content fuel m w <> VModelErr ->
  (decl_check m ++ elem_check fuel decl m e w = [] <-> doc_valid decl m w).
Proof.
  intros fuel decl m e w Hne. unfold doc_valid, elem_valid, elem_check, elem_check_obj.
  fold (check_content fuel m w).
  rewrite <- decl_check_correct, <- (check_content_correct fuel m w Hne), <- (undeclared_none decl w).
  rewrite <- (content_error_none e (length w) (check_content fuel m w)). split.
  - intros H. apply app_eq_nil in H. destruct H as [H1 H2]. apply app_eq_nil in H2. tauto.
  - intros (H1 & H2 & H3). rewrite H1, H2, H3. reflexivity.
Qed.

(** every code the model emits lies in XMLValid's error range: a validity (recoverable) error, never fatal
    (ModelGaveUp is the model's own signal, mapped to 0 = XMLValid_NoError: hence the exclusion) *)
Theorem codes_nonfatal : forall e, e <> ModelGaveUp ->
  XMLValid_isError (verr_code e) = true /\ XMLValid_isFatal (verr_code e) = false /\
  XMLValid_isWarning (verr_code e) = false.
Proof. intros [] H; try (exfalso; apply H; reflexivity); vm_compute; auto. Qed.
