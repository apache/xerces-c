(** C07 -- attribute validation: the repaired model ([sw = false]) reports no error iff the attribute validity
    constraints hold (several element types; one is the case of a constant ATTLIST), whatever the order of the elements;
    the code as written ([sw = true]) differs on multi-token enumeration values only (F25); name spaces of a DTD. *)
From Coq Require Import List Bool Arith Permutation.
From XV Require Import C07.Spec07 C07.Model07 C07.Spec07a C07.Model07a C07.Proofs07a.
Import ListNotations.

Definition isnil {A : Type} (l : list A) : bool := match l with [] => true | _ => false end.

Lemma isnil_app : forall (A : Type) (a b : list A), isnil (a ++ b) = isnil a && isnil b.
Proof. intros A [|x a] b; reflexivity. Qed.

Lemma isnil_true : forall (A : Type) (l : list A), isnil l = true <-> l = [].
Proof. intros A [|x l]; cbn; split; intros H; try reflexivity; discriminate. Qed.

Lemma tok_eqb_eq : forall x y, tok_eqb x y = true <-> x = y.
Proof.
  intros [a|a|a] [b|b|b]; cbn [tok_eqb]; split; intros H; try discriminate;
    try (apply Nat.eqb_eq in H; subst; reflexivity); injection H as H; subst; apply Nat.eqb_refl.
Qed.

Lemma tok_eqb_sym : forall x y, tok_eqb x y = tok_eqb y x.
Proof. intros [a|a|a] [b|b|b]; cbn [tok_eqb]; try reflexivity; apply Nat.eqb_sym. Qed.

Lemma tmem_in : forall t l, tmem t l = true <-> In t l.
Proof. exact (existsb_eqb_in tok tok_eqb tok_eqb_eq). Qed.

Lemma value_eqb_eq : forall x y, value_eqb x y = true <-> x = y.
Proof.
  induction x as [|a x IH]; destruct y as [|b y]; cbn [value_eqb]; split; intros H; try discriminate; try reflexivity.
  - apply andb_true_iff in H. destruct H as [H1 H2]. apply tok_eqb_eq in H1. apply IH in H2. subst. reflexivity.
  - injection H as H1 H2. subst. apply andb_true_iff. split; [apply tok_eqb_eq; reflexivity|apply IH; reflexivity].
Qed.

Definition idfresh (dcl : list tok) (ids : list tok) : bool := forallb (fun t => negb (tmem t dcl)) ids.
(* the multi-valued types (3 types x 3 lexical classes of a token): the loop runs over every token, only IDREFS touches
   the table.  The last branch of [P] is read for NMTOKENS only: the hypothesis excludes the other types. *)
Lemma val_loop_multi : forall e ty, is_multiple false ty = true -> forall v tbl,
  let P := match ty with AIdRefs => is_name | AEntities => is_unparsed e | _ => is_nmtoken end in
  isnil (fst (val_loop e ty true v tbl)) = forallb P v /\
  (forallb P v = true ->
   snd (val_loop e ty true v tbl) = mkTbl (declared tbl) (used tbl ++ match ty with AIdRefs => v | _ => [] end)).
Proof.
  intros e ty Hm. induction v as [|t v IH]; intros tbl P.
  - destruct ty, tbl; try discriminate Hm; cbn; rewrite ?app_nil_r; auto.
  - destruct (IH (snd (token_refs e ty t tbl))) as [H1 H2].
    destruct ty; try discriminate Hm; destruct t as [k|k|k]; subst P; cbn in *;
      destruct (val_loop e _ true v _) as [e3 t3]; cbn [fst snd] in *.
    all: try (split; [reflexivity|discriminate]).
    + rewrite <- app_assoc in H2. auto.
    + destruct (memb k (unparsed e)); [auto|]. split; [destruct (memb k (parsed e)); reflexivity|discriminate].
    + auto.
    + auto.
Qed.

(* a single-valued type with several tokens: the loop stops at the first, with AttrValNotName or NoMultipleValues *)
Lemma val_loop_several : forall e ty t t2 r tbl, is_multiple false ty = false -> ty <> ACData ->
  isnil (fst (val_loop e ty false (t :: t2 :: r) tbl)) = false /\ value_ok e ty (t :: t2 :: r) = false.
Proof.
  intros e ty t t2 r tbl Hm Hty. split.
  - cbn [val_loop nonempty negb andb]. destruct (negb (all_namechars t)); cbn [fst]; rewrite isnil_app; apply andb_false_r.
  - destruct ty; try reflexivity; try discriminate Hm. contradiction.
Qed.

(* ... with one token: the checks of validateAttrValue on it against value_ok, a table of 6 types x 3 lexical classes *)
Lemma val_loop_one : forall e d t tbl, is_multiple false (ad_type d) = false -> ad_type d <> ACData ->
  isnil (fst (val_loop e (ad_type d) false [t] tbl)) =
  value_ok e (ad_type d) [t] && idfresh (declared tbl) (id_toks (Some d, [t])) /\
  (value_ok e (ad_type d) [t] = true ->
   snd (val_loop e (ad_type d) false [t] tbl) =
   mkTbl (declared tbl ++ id_toks (Some d, [t])) (used tbl ++ ref_toks (Some d, [t]))).
Proof.
  intros e [n ty df] t [dcl us] Hm Hty. cbn [ad_type id_toks ref_toks] in *.
  destruct ty; try discriminate Hm; try contradiction; destruct t as [k|k|k]; cbn -[tmem memb]; rewrite ?app_nil_r, ?andb_true_r.
  all: try destruct (tmem _ _); try destruct (memb k (unparsed e)); try destruct (memb k (parsed e));
    (split; [reflexivity|intros H; (discriminate H || reflexivity)]).
Qed.

Lemma val_loop_ok : forall e d v tbl, ad_type d <> ACData -> v <> [] ->
  isnil (fst (val_loop e (ad_type d) (is_multiple false (ad_type d)) v tbl)) =
  value_ok e (ad_type d) v && idfresh (declared tbl) (id_toks (Some d, v)) /\
  (value_ok e (ad_type d) v = true ->
   snd (val_loop e (ad_type d) (is_multiple false (ad_type d)) v tbl) =
   mkTbl (declared tbl ++ id_toks (Some d, v)) (used tbl ++ ref_toks (Some d, v))).
Proof.
  intros e d v tbl Hty Hv. destruct (is_multiple false (ad_type d)) eqn:Hm.
  - destruct (val_loop_multi e (ad_type d) Hm v tbl) as [H1 H2]. cbn [id_toks ref_toks].
    destruct (ad_type d); try discriminate Hm; destruct v; try contradiction;
      cbn [value_ok nonempty andb idfresh forallb]; rewrite andb_true_r, app_nil_r; auto.
  - destruct v as [|t [|t2 r]]; [contradiction|exact (val_loop_one e d t tbl Hm Hty)|].
    destruct (val_loop_several e (ad_type d) t t2 r tbl Hm Hty) as [E1 E2]. rewrite E1, E2.
    split; [reflexivity|discriminate].
Qed.

Lemma validate_attr_value_loop : forall sw e d v tbl, ad_type d <> ACData -> v <> [] ->
  validate_attr_value sw e d v tbl =
  let '(e1, tbl1) := val_loop e (ad_type d) (is_multiple sw (ad_type d)) v tbl in
  ((if fixed_ok d v then [] else [NotSameAsFixedValue]) ++ e1, tbl1).
Proof.
  intros sw e d v tbl Hty Hv. unfold validate_attr_value, fixed_ok.
  destruct (ad_type d); try contradiction; destruct v; try contradiction; destruct (ad_def d); reflexivity.
Qed.

Lemma validate_eff_ok : forall e x tbl,
  isnil (fst (validate_eff false e x tbl)) = eff_ok e x && idfresh (declared tbl) (id_toks x) /\
  (eff_ok e x = true ->
   snd (validate_eff false e x tbl) = mkTbl (declared tbl ++ id_toks x) (used tbl ++ ref_toks x)).
Proof.
  intros e [[d|] v] tbl; cbn [validate_eff eff_ok]; [|split; [reflexivity|discriminate]].
  assert (Hc : ad_type d = ACData \/ ad_type d <> ACData)
    by (destruct (ad_type d); (left; reflexivity) || (right; discriminate)).
  destruct Hc as [Hc|Hc]; [|destruct v as [|t r]].
  - unfold validate_attr_value, fixed_ok. cbn [id_toks ref_toks]. rewrite Hc.
    destruct tbl, (ad_def d); try destruct (value_eqb v v0); cbn; rewrite ?app_nil_r; auto.
  - unfold validate_attr_value. destruct (ad_type d); try contradiction; cbn [fst snd value_ok andb];
      rewrite isnil_app, andb_false_r; (split; [reflexivity|discriminate]).
  - assert (Hv : t :: r <> []) by discriminate. rewrite (validate_attr_value_loop false e d _ tbl Hc Hv).
    destruct (val_loop_ok e d (t :: r) tbl Hc Hv) as [H1 H2].
    destruct (val_loop e (ad_type d) _ (t :: r) tbl) as [e1 t1]. cbn [fst snd] in *. rewrite isnil_app, H1. split.
    + destruct (fixed_ok d (t :: r)), (value_ok e (ad_type d) (t :: r)); reflexivity.
    + intros Hok. apply andb_true_iff in Hok. apply H2, Hok.
Qed.

Lemma eff_ok_ids : forall e x, eff_ok e x = true -> id_toks x = [] \/ exists t, id_toks x = [t].
Proof.
  intros e [[d|] v] H; cbn [eff_ok id_toks] in *; [|discriminate].
  apply andb_true_iff in H. destruct H as [H _]. destruct (ad_type d); auto.
  cbn [value_ok] in H. destruct v as [|t [|t2 r]]; try discriminate. right. exists t. reflexivity.
Qed.

Lemma idfresh_snoc : forall dcl t l, idfresh (dcl ++ [t]) l = idfresh dcl l && negb (tmem t l).
Proof.
  intros dcl t. unfold idfresh, tmem. induction l as [|y l IH]; [reflexivity|]. cbn [forallb existsb].
  rewrite IH, existsb_app. clear IH. cbn [existsb]. rewrite orb_false_r, (tok_eqb_sym y t).
  destruct (existsb (tok_eqb y) dcl), (tok_eqb t y), (forallb _ l), (existsb (tok_eqb t) l); reflexivity.
Qed.

Lemma validate_effs_ok : forall e xs tbl,
  isnil (fst (validate_effs false e xs tbl)) =
  forallb (eff_ok e) xs && idfresh (declared tbl) (flat_map id_toks xs) && tnodup (flat_map id_toks xs) /\
  (forallb (eff_ok e) xs = true ->
   snd (validate_effs false e xs tbl) =
   mkTbl (declared tbl ++ flat_map id_toks xs) (used tbl ++ flat_map ref_toks xs)).
Proof.
  intros e. induction xs as [|x xs IH]; intros tbl.
  - cbn. rewrite !app_nil_r. destruct tbl; auto.
  - cbn [validate_effs forallb flat_map].
    destruct (validate_eff_ok e x tbl) as [H1 H2].
    destruct (validate_eff false e x tbl) as [e1 t1]. cbn [fst snd] in *.
    destruct (eff_ok e x) eqn:Eok.
    + rewrite (H2 eq_refl).
      destruct (IH (mkTbl (declared tbl ++ id_toks x) (used tbl ++ ref_toks x))) as [I1 I2].
      destruct (validate_effs false e xs _) as [e2 t2]. cbn [fst snd declared used andb] in *.
      rewrite isnil_app, H1, I1. split.
      * destruct (eff_ok_ids e x Eok) as [E|[t E]]; rewrite E; cbn [app idfresh forallb tnodup].
        -- rewrite app_nil_r. reflexivity.
        -- rewrite idfresh_snoc. fold (idfresh (declared tbl) (flat_map id_toks xs)).
           destruct (tmem t (declared tbl)), (forallb (eff_ok e) xs), (idfresh (declared tbl) (flat_map id_toks xs)),
             (tmem t (flat_map id_toks xs)); reflexivity.
      * intros Hn. rewrite (I2 Hn), <- !app_assoc. reflexivity.
    + destruct (validate_effs false e xs t1) as [e2 t2]. cbn [fst snd andb].
      rewrite isnil_app, H1. split; [reflexivity|discriminate].
Qed.

Lemma validate_effs_app : forall sw e a b tbl,
  validate_effs sw e (a ++ b) tbl =
  let '(e1, t1) := validate_effs sw e a tbl in let '(e2, t2) := validate_effs sw e b t1 in (e1 ++ e2, t2).
Proof.
  intros sw e. induction a as [|x a IH]; intros b tbl; cbn [app validate_effs].
  - destruct (validate_effs sw e b tbl); reflexivity.
  - destruct (validate_eff sw e x tbl) as [e1 t1]. rewrite IH.
    destruct (validate_effs sw e a t1) as [e2 t2]. destruct (validate_effs sw e b t2) as [e3 t3].
    rewrite app_assoc. reflexivity.
Qed.

Lemma required_errs_nil : forall defs el, isnil (required_errs defs el) = required_ok defs el.
Proof.
  intros defs el. unfold required_errs, required_ok. induction defs as [|d defs IH]; [reflexivity|].
  cbn [flat_map forallb]. rewrite isnil_app, IH. destruct (ad_def d); try reflexivity.
  destruct (provided (ad_name d) el); reflexivity.
Qed.

Lemma tdedup_in : forall l t, In t (tdedup l) <-> In t l.
Proof. exact (dedup_in tok tmem tdedup (fun x l => proj1 (tmem_in x l)) eq_refl (fun _ _ => eq_refl)). Qed.

Lemma check_idrefs_nil : forall tbl,
  check_idrefs tbl = [] <-> (forall t, In t (used tbl) -> In t (declared tbl)).
Proof.
  intros tbl. unfold check_idrefs. rewrite map_filter_nil.
  split; intros H t Ht; [apply tmem_in, negb_false_iff, H, tdedup_in, Ht|apply negb_false_iff, tmem_in, H, tdedup_in, Ht].
Qed.

Lemma tnodup_correct : forall l, tnodup l = true <-> NoDup l.
Proof. exact (nodup_bool tok tmem tnodup tmem_in eq_refl (fun _ _ => eq_refl)). Qed.

Lemma scan_tdoc_flat : forall e dm doc tbl,
  snd (scan_tdoc false e dm doc tbl) = snd (validate_effs false e (all_effective_t dm doc) tbl) /\
  isnil (fst (scan_tdoc false e dm doc tbl)) =
  isnil (fst (validate_effs false e (all_effective_t dm doc) tbl)) &&
  forallb (fun x => required_ok (dm (fst x)) (snd x)) doc.
Proof.
  intros e dm. unfold all_effective_t. induction doc as [|x doc IH]; intros tbl.
  - cbn. auto.
  - cbn [scan_tdoc flat_map forallb]. unfold scan_attrs. rewrite validate_effs_app.
    destruct (validate_effs false e (effective (dm (fst x)) (snd x)) tbl) as [e1 t1].
    destruct (IH t1) as [I1 I2].
    destruct (scan_tdoc false e dm doc t1) as [e2 t2].
    destruct (validate_effs false e (flat_map (fun x0 => effective (dm (fst x0)) (snd x0)) doc) t1) as [e3 t3].
    cbn [fst snd] in *.
    split; [exact I1|]. rewrite !isnil_app, I2, required_errs_nil.
    destruct (isnil e1); destruct (isnil e3); destruct (required_ok (dm (fst x)) (snd x));
      destruct (forallb (fun x0 => required_ok (dm (fst x0)) (snd x0)) doc); reflexivity.
Qed.

Theorem attrs_t_correct : forall e dm doc, attr_errors_t false e dm doc = [] <-> attrs_valid_t e dm doc.
Proof.
  intros e dm doc. unfold attr_errors_t, attrs_valid_t.
  destruct (scan_tdoc_flat e dm doc (mkTbl [] [])) as [S1 S2].
  destruct (validate_effs_ok e (all_effective_t dm doc) (mkTbl [] [])) as [V1 V2].
  destruct (scan_tdoc false e dm doc (mkTbl [] [])) as [e1 tbl]. cbn [fst snd declared used app] in *.
  assert (F : idfresh [] (flat_map id_toks (all_effective_t dm doc)) = true) by (apply forallb_forall; reflexivity).
  rewrite F, andb_true_r in V1. rewrite <- S1, forallb_forall in V2.
  rewrite <- isnil_true, isnil_app, S2, V1, !andb_true_iff, isnil_true, check_idrefs_nil.
  rewrite tnodup_correct, !forallb_forall, !Forall_forall.
  split.
  - intros [[[H1 H2] H3] H4]. rewrite (V2 H1) in H4. auto.
  - intros (H3 & H1 & H2 & H4). rewrite (V2 H1). auto.
Qed.

Theorem attrs_validb_t_correct : forall e dm doc, attrs_validb_t e dm doc = true <-> attrs_valid_t e dm doc.
Proof.
  intros e dm doc. unfold attrs_validb_t, attrs_valid_t.
  rewrite !andb_true_iff, tnodup_correct, !forallb_forall, !Forall_forall. split.
  - intros [[[H1 H2] H3] H4]. repeat split; auto. intros t Ht. apply tmem_in. apply H4. exact Ht.
  - intros (H1 & H2 & H3 & H4). repeat split; auto. intros t Ht. apply tmem_in. apply H4. exact Ht.
Qed.

Theorem attrs_valid_t_perm : forall e dm doc doc', Permutation doc doc' ->
  attrs_valid_t e dm doc -> attrs_valid_t e dm doc'.
Proof.
  intros e dm doc doc' P (H1 & H2 & H3 & H4). unfold attrs_valid_t.
  assert (PE : Permutation (all_effective_t dm doc) (all_effective_t dm doc')).
  { unfold all_effective_t. apply Permutation_flat_map. exact P. }
  assert (PI : Permutation (flat_map id_toks (all_effective_t dm doc)) (flat_map id_toks (all_effective_t dm doc')))
    by (apply Permutation_flat_map; exact PE).
  assert (PR : Permutation (flat_map ref_toks (all_effective_t dm doc)) (flat_map ref_toks (all_effective_t dm doc')))
    by (apply Permutation_flat_map; exact PE).
  split; [apply (Permutation_Forall P); exact H1|]. split; [apply (Permutation_Forall PE); exact H2|].
  split; [apply (Permutation_NoDup PI); exact H3|].
  intros t Ht. apply (Permutation_in _ PI). apply H4. apply (Permutation_in _ (Permutation_sym PR)). exact Ht.
Qed.

Theorem ids_order_independent_t : forall e dm doc doc', Permutation doc doc' ->
  (attr_errors_t false e dm doc = [] <-> attr_errors_t false e dm doc' = []).
Proof.
  intros e dm doc doc' P. rewrite !attrs_t_correct.
  split; apply attrs_valid_t_perm; [exact P|apply Permutation_sym; exact P].
Qed.

(* one element type: the document in which every element has the same ATTLIST *)
Lemma scan_doc_typed : forall sw e defs doc tbl,
  scan_doc sw e defs doc tbl = scan_tdoc sw e (fun _ => defs) (map (pair 0) doc) tbl.
Proof.
  intros sw e defs. induction doc as [|el doc IH]; intros tbl; cbn [scan_doc scan_tdoc map fst snd]; [reflexivity|].
  destruct (scan_attrs sw e defs el tbl) as [e1 t1]. rewrite IH. reflexivity.
Qed.

Lemma attr_errors_typed : forall sw e defs doc,
  attr_errors sw e defs doc = attr_errors_t sw e (fun _ => defs) (map (pair 0) doc).
Proof. intros. unfold attr_errors, attr_errors_t. rewrite scan_doc_typed. reflexivity. Qed.

Lemma all_effective_typed : forall defs doc,
  all_effective defs doc = all_effective_t (fun _ => defs) (map (pair 0) doc).
Proof. intros defs doc. unfold all_effective, all_effective_t. induction doc; cbn [flat_map map fst snd]; congruence. Qed.

Lemma attrs_valid_typed : forall e defs doc,
  attrs_valid e defs doc <-> attrs_valid_t e (fun _ => defs) (map (pair 0) doc).
Proof. intros. unfold attrs_valid, attrs_valid_t. rewrite Forall_map, <- all_effective_typed. reflexivity. Qed.

Lemma attrs_validb_typed : forall e defs doc,
  attrs_validb e defs doc = attrs_validb_t e (fun _ => defs) (map (pair 0) doc).
Proof.
  intros. unfold attrs_validb, attrs_validb_t. rewrite <- all_effective_typed. do 3 f_equal.
  induction doc; cbn [forallb map fst snd]; congruence.
Qed.

Theorem attrs_correct : forall e defs doc, attr_errors false e defs doc = [] <-> attrs_valid e defs doc.
Proof. intros. rewrite attr_errors_typed, attrs_valid_typed. apply attrs_t_correct. Qed.

Theorem attrs_validb_correct : forall e defs doc, attrs_validb e defs doc = true <-> attrs_valid e defs doc.
Proof. intros. rewrite attrs_validb_typed, attrs_valid_typed. apply attrs_validb_t_correct. Qed.

(** F25: the code as written accepts an enumeration value made of several listed tokens *)
Definition f25_defs : list attdef := [mkAD 1 (AEnum [TName 1; TName 2]) DImplied].
Definition f25_doc : adoc := [[(1, [TName 1; TName 2])]].

Theorem enum_multi_refuted :
  attr_errors true (mkEnv [] []) f25_defs f25_doc = [] /\ ~ attrs_valid (mkEnv [] []) f25_defs f25_doc.
Proof.
  split; [vm_compute; reflexivity|]. rewrite <- attrs_validb_correct. vm_compute. discriminate.
Qed.

(** F25 is about such values only *)
Definition single_enum (x : option attdef * value) : bool :=
  match x with
  | (Some d, v) => match ad_type d with ANotation _ | AEnum _ => Nat.leb (length v) 1 | _ => true end
  | _ => true
  end.

Lemma val_loop_single_tok : forall e ty t tbl, val_loop e ty true [t] tbl = val_loop e ty false [t] tbl.
Proof.
  intros e ty t tbl. cbn [val_loop nonempty negb andb]. destruct (token_refs e ty t tbl) as [e2 t2].
  rewrite app_nil_r. reflexivity.
Qed.

Lemma validate_eff_switch : forall e x tbl, single_enum x = true ->
  validate_eff true e x tbl = validate_eff false e x tbl.
Proof.
  intros e [[d|] v] tbl H; cbn [validate_eff]; [|reflexivity]. unfold validate_attr_value.
  cbn [single_enum] in H. destruct (ad_type d); try reflexivity;
    (destruct v as [|t [|t2 r]]; [reflexivity| |discriminate H]);
    cbn [is_multiple]; rewrite val_loop_single_tok; reflexivity.
Qed.

Lemma validate_effs_switch : forall e xs tbl, forallb single_enum xs = true ->
  validate_effs true e xs tbl = validate_effs false e xs tbl.
Proof.
  intros e. induction xs as [|x xs IH]; intros tbl H; [reflexivity|]. cbn [forallb] in H.
  apply andb_true_iff in H. destruct H as [H1 H2]. cbn [validate_effs]. rewrite (validate_eff_switch e x tbl H1).
  destruct (validate_eff false e x tbl) as [e1 t1]. rewrite (IH t1 H2). reflexivity.
Qed.

Definition no_multi_enum (defs : list attdef) (doc : adoc) : bool :=
  forallb (fun el => forallb single_enum (effective defs el)) doc.

Theorem attrs_guarded : forall e defs doc, no_multi_enum defs doc = true ->
  attr_errors true e defs doc = attr_errors false e defs doc.
Proof.
  intros e defs doc H. unfold attr_errors, no_multi_enum in *.
  assert (Hscan : forall tbl, scan_doc true e defs doc tbl = scan_doc false e defs doc tbl).
  { induction doc as [|el doc IH]; intros tbl; [reflexivity|]. cbn [forallb] in H.
    apply andb_true_iff in H. destruct H as [H1 H2]. cbn [scan_doc]. unfold scan_attrs.
    rewrite (validate_effs_switch e _ tbl H1). destruct (validate_effs false e (effective defs el) tbl) as [e1 t1].
    rewrite (IH H2 t1). reflexivity. }
  rewrite Hscan. reflexivity.
Qed.

Lemma first_general_other : forall n a k m b, is_general k = false ->
  first_general n (a ++ (k, m) :: b) = first_general n (a ++ b).
Proof.
  intros n a k m b H. induction a as [|[k1 m1] a IH]; cbn [app first_general].
  - rewrite H. reflexivity.
  - destruct (is_general k1 && Nat.eqb m1 n); [reflexivity|exact IH].
Qed.

Lemma gnames_other : forall a k m b, is_general k = false -> gnames (a ++ (k, m) :: b) = gnames (a ++ b).
Proof.
  intros a k m b H. unfold gnames. rewrite !filter_app. cbn [filter fst]. rewrite H. reflexivity.
Qed.

Theorem decl_kinds_separate : forall a k m b, is_general k = false ->
  env_of_decls (a ++ (k, m) :: b) = env_of_decls (a ++ b).
Proof.
  intros a k m b H. unfold env_of_decls. rewrite (gnames_other a k m b H). f_equal.
  - apply filter_ext. intros n. rewrite (first_general_other n a k m b H). reflexivity.
  - apply filter_ext. intros n. rewrite (first_general_other n a k m b H). reflexivity.
Qed.

Lemma first_general_in : forall n ds k, first_general n ds = Some k -> In n (gnames ds).
Proof.
  intros n. induction ds as [|[k1 m1] ds IH]; intros k H; cbn [first_general] in H; [discriminate|].
  unfold gnames. cbn [filter fst]. destruct (is_general k1) eqn:Eg; cbn [andb] in H.
  - cbn [map snd In]. destruct (Nat.eqb_spec m1 n) as [E|E]; [left; exact E|right; apply (IH k H)].
  - apply (IH k H).
Qed.

Theorem env_of_decls_iff : forall ds n,
  (memb n (unparsed (env_of_decls ds)) = true <-> first_general n ds = Some KUnparsed) /\
  (memb n (parsed (env_of_decls ds)) = true <-> first_general n ds = Some KParsed).
Proof.
  intros ds n. rewrite !memb_in. unfold env_of_decls. cbn [unparsed parsed]. rewrite !filter_In.
  split; (split; [intros [_ H]; destruct (first_general n ds) as [[| | | |]|]; try discriminate; reflexivity|]);
    intros H; (split; [apply (first_general_in n ds _ H)|rewrite H; reflexivity]).
Qed.
