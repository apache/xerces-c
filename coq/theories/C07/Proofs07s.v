(** C07 -- DTDScanner::scanChildren / scanMixed / scanContentSpec accept every text of the XML grammar [47]-[51]
    and build the tree the text denotes (within the depth limit). *)
From Coq Require Import List Bool Arith Lia.
From XV Require Import C07.Spec07 C07.Model07s C07.Spec07s.
Import ListNotations.

Lemma skip_ws : forall w r, ws w -> skip_sp (w ++ r) = skip_sp r.
Proof. induction w; intros r H; [reflexivity|]. inversion H; subst. simpl. apply IHw; assumption. Qed.

Lemma skip_idem : forall r, skip_sp (skip_sp r) = skip_sp r.
Proof. induction r as [|t r IH]; [reflexivity|]. destruct t; try reflexivity. simpl. exact IH. Qed.

Lemma skip_len : forall r, length (skip_sp r) <= length r.
Proof. induction r as [|t r IH]; [simpl; lia|]. destruct t; simpl; try lia. Qed.

Lemma opens_ws : forall w n r, ws w -> opens n (w ++ r) = opens n r.
Proof. induction w; intros n r H; [reflexivity|]. inversion H; subst. simpl. apply IHw; assumption. Qed.

Lemma descend_ws : forall rec g n w r, ws w -> descend rec g n (w ++ r) = descend rec g n r.
Proof. intros. unfold descend. rewrite opens_ws by assumption. reflexivity. Qed.

Lemma descend_open : forall rec g n r, descend rec g n (KOpen :: r) = descend rec g (S n) r.
Proof. reflexivity. Qed.

Lemma is_rep_skip : forall r, is_rep (skip_sp r) = false -> is_rep r = false.
Proof. intros r H. destruct r as [|t r]; [reflexivity|]. destruct t; try reflexivity; simpl in H; discriminate. Qed.

Lemma make_rep_toks : forall r rest c, is_rep rest = false -> make_rep (rep_toks r ++ rest) c = (app_rep r c, rest).
Proof.
  intros r rest c H. destruct r; simpl; try reflexivity.
  destruct rest as [|t rest]; [reflexivity|]. destruct t; try reflexivity; simpl in H; discriminate.
Qed.

Lemma groups_skip : forall rec g k c r, groups rec g (S k) c (skip_sp r) = groups rec g (S k) c r.
Proof. intros. simpl. rewrite skip_idem. reflexivity. Qed.

(* a tail is white space, or starts with white space and the separator of its group *)
Lemma tail_shape : forall d ty tl cs, tailR d ty tl cs ->
  (ws tl /\ cs = []) \/ exists w1 q, ws w1 /\ tl = w1 ++ sep ty :: q.
Proof. intros d ty tl cs H. destruct H; [left; auto|right; eauto|right; eauto]. Qed.

(* what follows a cp inside a group: S? then a separator or ')' -- never a repetition character *)
Lemma tail_follow : forall d ty tl cs, tailR d ty tl cs -> forall x, is_rep (skip_sp (tl ++ KClose :: x)) = false.
Proof.
  intros d ty tl cs H x. destruct (tail_shape d ty tl cs H) as [[Hw _]|(w1 & q & Hw1 & E)].
  - rewrite skip_ws by assumption. reflexivity.
  - subst tl. rewrite <- app_assoc, skip_ws by assumption. destruct ty; reflexivity.
Qed.

Lemma items_ws : forall rec w g ty acc r, ws w ->
  items rec (length w + g) ty acc (w ++ r) = items rec g ty acc r.
Proof. induction w; intros g ty acc r H; [reflexivity|]. inversion H; subst. simpl. apply IHw; assumption. Qed.

Lemma items_ws_le : forall rec w g ty acc r, ws w -> length w <= g ->
  items rec g ty acc (w ++ r) = items rec (g - length w) ty acc r.
Proof.
  intros. replace g with (length w + (g - length w)) at 1 by lia. apply items_ws. assumption.
Qed.

Lemma sep_is_sep : forall ty, tk_is_sep ty (sep ty) = true.
Proof. destruct ty; reflexivity. Qed.

Lemma items_sep : forall rec g ty acc r,
  items rec (S g) ty acc (sep ty :: r) =
  match skip_sp r with
  | KOpen :: r1 => match rec r1 with SOk sub r2 => items rec g ty (sub :: acc) r2 | SErr e => SErr e end
  | KName a :: r1 => let '(c, r2) := make_rep r1 (Leaf a) in items rec g ty (c :: acc) r2
  | _ => SErr ExpectedElementName
  end.
Proof. intros. destruct ty; reflexivity. Qed.

Lemma grp_open : forall d g c, grpR d g c -> exists g', g = KOpen :: g'.
Proof. intros d g c H. destruct H. eauto. Qed.

(* What scan_all proves, one statement per judgement of the grammar.  [l]: recursion depth still allowed; [G]: budget of the
   item loop (any G from the length of the text on); [N], [n]: the '(' counted by the caller that are still to close.
   P_grp: descending into a group '(' g' with its repetition character leaves the group loop at [rest] with the group's
   tree as current item; makeRepNode looks right after ')', without skipping white space: hence [is_rep rest].
   P_first: the same for a first item; after a leaf the scanner skips white space and then refuses a repetition
   character (UnexpectedWhitespace): hence [is_rep (skip_sp rest)].
   P_tail: over the rest of a group up to its ')', the item loop returns the items in order. *)
Definition P_grp (l : nat) (d : nat) (g : list tk) (c : cm) : Prop :=
  d <= l -> forall g', g = KOpen :: g' -> forall G N r rest,
    is_rep rest = false -> length (g' ++ rep_toks r ++ rest) <= G ->
    descend (scan_children l) G (S N) (g' ++ rep_toks r ++ rest) = groups (scan_children l) G N (app_rep r c) rest.

Definition P_first (l : nat) (d : nat) (ts : list tk) (c : cm) : Prop :=
  d <= l -> forall G n rest,
    is_rep (skip_sp rest) = false -> length (ts ++ rest) <= G ->
    descend (scan_children l) G (S n) (ts ++ rest) = groups (scan_children l) G (S n) c rest.

Definition P_tail (l : nat) (d : nat) (ty : gty) (tl : list tk) (cs : list cm) : Prop :=
  d <= l -> forall G acc x, length (tl ++ KClose :: x) <= G ->
    items (scan_children l) G ty acc (tl ++ KClose :: x) = SOk (rev acc ++ cs) x.

(* the recursive call, from the group statement one level down *)
Lemma scan_children_from : forall l, (forall d g c, grpR d g c -> P_grp l d g c) ->
  forall d g g' c r rest, grpR d g c -> d <= l -> g = KOpen :: g' -> is_rep rest = false ->
  scan_children (S l) (g' ++ rep_toks r ++ rest) = SOk (app_rep r c) rest.
Proof.
  intros l PG d g g' c r rest Hg Hd Eg Hrest. cbn [scan_children].
  rewrite (PG d g c Hg Hd g' Eg _ 0 r rest Hrest (le_n _)). reflexivity.
Qed.

Lemma groups_sep : forall rec g k cur w ty q, ws w ->
  groups rec g (S k) cur (w ++ sep ty :: q) =
  match items rec g ty [cur] (sep ty :: q) with
  | SOk cs r => let '(c, r2) := make_rep r (nest ty cs) in groups rec g k c r2
  | SErr e => SErr e
  end.
Proof. intros. cbn [groups]. rewrite skip_ws by assumption. destruct ty; reflexivity. Qed.

(* closing one group: the tail statement, asked with a budget that also pays for the white space already skipped *)
Lemma close_group : forall l d ty tl cs, tailR d ty tl cs -> P_tail l d ty tl cs -> d <= l ->
  forall G k cur x, length (tl ++ KClose :: x) <= G ->
  groups (scan_children l) G (S k) cur (tl ++ KClose :: x) =
  let '(c2, x2) := make_rep x (nest ty (cur :: cs)) in groups (scan_children l) G k c2 x2.
Proof.
  intros l d ty tl cs H PT Hd G k cur x HG. destruct (tail_shape d ty tl cs H) as [[Hw E]|(w1 & q & Hw1 & E)]; subst.
  - simpl. rewrite skip_ws by assumption. simpl. reflexivity.
  - pose proof (PT Hd (length w1 + G) [cur] x ltac:(lia)) as HI.
    rewrite <- app_assoc in *. cbn [app] in *. rewrite items_ws in HI by assumption.
    rewrite groups_sep, HI by assumption. reflexivity.
Qed.

(* lengths of the token texts, for lia: length (w1 ++ t :: w2 ++ ...) is spelt out summand by summand *)
Ltac len H := repeat (rewrite app_length in H; cbn [length] in H).

Lemma scan_all : forall l,
  (forall d g c, grpR d g c -> P_grp l d g c) /\
  (forall d ts c, firstR d ts c -> P_first l d ts c) /\
  (forall d ty tl cs, tailR d ty tl cs -> P_tail l d ty tl cs).
Proof.
  (* on the depth; the hypothesis is used at l - 1 only, for the recursive call in tail_grp *)
  induction l as [l IHl] using lt_wf_ind.
  apply cs_mutind.
  - (* grp_intro *) intros d ty w1 ts c tl cs Hw1 Hf IHf Ht IHt Hd g' Eg G N r rest Hrest HG.
    injection Eg as Eg. subst g'.
    repeat rewrite <- app_assoc in *. rewrite descend_ws by assumption.
    assert (HG2 : length (ts ++ tl ++ KClose :: rep_toks r ++ rest) <= G).
    { rewrite app_length in HG. simpl in HG |- *. lia. }
    simpl app in *.
    rewrite (IHf Hd G N (tl ++ KClose :: rep_toks r ++ rest)).
    + rewrite (close_group l d ty tl cs Ht IHt Hd).
      * rewrite make_rep_toks by assumption. reflexivity.
      * rewrite app_length in HG2. lia.
    + eapply tail_follow; eassumption.
    + exact HG2.
  - (* first_leaf *) intros d a r Hd G n rest Hrest HG.
    unfold descend. cbn [app opens after_opens].
    destruct r; cbn [rep_toks app].
    + (* no repetition character: the peeked character is the first one after optional white space *)
      rewrite Hrest. cbn [andb].
      assert (E : make_rep (skip_sp rest) (Leaf a) = (Leaf a, skip_sp rest)).
      { destruct (skip_sp rest) as [|t q]; [reflexivity|]. destruct t; try reflexivity; discriminate. }
      rewrite E. cbn [app_rep]. apply groups_skip.
    + reflexivity.
    + reflexivity.
    + reflexivity.
  - (* first_grp *) intros d g c r Hg IHg Hd G n rest Hrest HG.
    destruct (grp_open d g c Hg) as [g' E]. subst g.
    rewrite <- app_assoc in *. cbn [app] in *. rewrite descend_open.
    apply (IHg Hd g' eq_refl G (S n) r rest).
    + apply is_rep_skip. exact Hrest.
    + cbn [length] in HG. lia.
  - (* tail_end *) intros d ty w Hw Hd G acc x HG.
    rewrite items_ws_le by (try assumption; rewrite app_length in HG; lia).
    rewrite app_length in HG. simpl in HG.
    destruct (G - length w) as [|g0] eqn:E; [lia|].
    simpl. rewrite app_nil_r. reflexivity.
  - (* tail_leaf *) intros d ty w1 w2 a r tl cs Hw1 Hw2 Ht IHt Hd G acc x HG.
    repeat rewrite <- app_assoc in *. cbn [app] in *.
    rewrite items_ws_le by (try assumption; rewrite app_length in HG; lia).
    len HG.
    destruct (G - length w1) as [|g0] eqn:E; [lia|].
    repeat rewrite <- app_assoc. cbn [app]. repeat rewrite <- app_assoc.
    rewrite items_sep. rewrite skip_ws by assumption. cbn [skip_sp].
    rewrite make_rep_toks by (apply is_rep_skip; eapply tail_follow; eassumption).
    rewrite (IHt Hd g0 (app_rep r (Leaf a) :: acc) x).
    + cbn [rev]. rewrite <- app_assoc. reflexivity.
    + rewrite app_length. cbn [length]. lia.
  - (* tail_grp *) intros d ty w1 w2 g c r tl cs Hw1 Hw2 Hg IHg Ht IHt Hd G acc x HG.
    repeat rewrite <- app_assoc in *. cbn [app] in *.
    rewrite items_ws_le by (try assumption; rewrite app_length in HG; lia).
    len HG.
    destruct (G - length w1) as [|g0] eqn:E; [lia|].
    repeat rewrite <- app_assoc. cbn [app]. repeat rewrite <- app_assoc.
    rewrite items_sep. rewrite skip_ws by assumption.
    destruct (grp_open d g c Hg) as [g' Eg]. subst g. cbn [app skip_sp].
    destruct l as [|l']; [lia|].
    rewrite (scan_children_from l' (proj1 (IHl l' (Nat.lt_succ_diag_r l'))) d _ g' c r (tl ++ KClose :: x) Hg ltac:(lia) eq_refl)
      by (apply is_rep_skip; eapply tail_follow; eassumption).
    rewrite (IHt Hd g0 (app_rep r c :: acc) x).
    + cbn [rev]. rewrite <- app_assoc. reflexivity.
    + rewrite app_length. cbn [length]. repeat rewrite app_length in HG. cbn [length] in HG. lia.
Qed.

Theorem scan_children_grammar : forall lim d g g' c r rest,
  grpR d g c -> d < lim -> g = KOpen :: g' -> is_rep rest = false ->
  scan_children lim (g' ++ rep_toks r ++ rest) = SOk (app_rep r c) rest.
Proof.
  intros lim d g g' c r rest Hg Hd Eg Hrest. destruct lim as [|l]; [lia|].
  apply (scan_children_from l (proj1 (scan_all l)) d g g' c r rest Hg ltac:(lia) Eg Hrest).
Qed.

Lemma skip_ws_nil : forall w, ws w -> skip_sp w = [].
Proof. intros w H. rewrite <- (app_nil_r w). rewrite skip_ws by assumption. reflexivity. Qed.

Lemma ws_not_rep : forall w, ws w -> is_rep w = false.
Proof. intros w H. destruct H; [reflexivity|]. subst. reflexivity. Qed.

Lemma first_head : forall d ts c, firstR d ts c -> forall y,
  match skip_sp (ts ++ y) with KPcdata :: _ => False | _ => True end.
Proof.
  intros d ts c H y. destruct H; [exact I|]. destruct H. exact I.
Qed.

Lemma grp_not_pcdata : forall d g c, grpR d g c -> forall g' y, g = KOpen :: g' ->
  match skip_sp (g' ++ y) with KPcdata :: _ => False | _ => True end.
Proof.
  intros d g c H g' y E. destruct H. injection E as E. subst g'. rewrite <- app_assoc, skip_ws, <- app_assoc by assumption.
  eapply first_head. eassumption.
Qed.

Theorem scan_decl_children : forall lim d ts c, childrenR d ts c -> d < lim ->
  scan_element_decl lim ts = DOk (MChildren c).
Proof.
  intros lim d ts c H Hd. destruct H as [d g c r w Hg Hw].
  destruct (grp_open d g c Hg) as [g' Eg]. subst g.
  pose proof (grp_not_pcdata d _ c Hg g' (rep_toks r ++ w) eq_refl) as NP.
  pose proof (scan_children_grammar lim d _ g' c r w Hg Hd eq_refl (ws_not_rep w Hw)) as HS.
  unfold scan_element_decl, scan_contentspec. cbn [app].
  destruct (skip_sp (g' ++ rep_toks r ++ w)) as [|[] q]; try destruct NP; rewrite HS, (skip_ws_nil w Hw); reflexivity.
Qed.

Lemma scan_mixed_ws : forall w names sr ap r, ws w -> scan_mixed names sr ap (w ++ r) = scan_mixed names sr ap r.
Proof. induction w; intros names sr ap r H; [reflexivity|]. inversion H; subst. simpl. apply IHw; assumption. Qed.

Lemma scan_mixed_tail : forall tl ns, mtailR tl ns -> forall names sr y,
  scan_mixed names sr false (tl ++ y) =
  match y with
  | KStar :: y' => SOk (MMixed (names ++ ns)) y'
  | _ => if sr || (match ns with [] => false | _ => true end) then SErr ExpectedAsterisk else SOk (MMixed (names ++ ns)) y
  end.
Proof.
  induction 1; intros names sr y.
  - rewrite <- app_assoc. rewrite scan_mixed_ws by assumption. cbn [app scan_mixed]. rewrite app_nil_r.
    rewrite orb_false_r. destruct y as [|t y]; [reflexivity|]. destruct t; reflexivity.
  - rewrite <- app_assoc. rewrite scan_mixed_ws by assumption. cbn [app scan_mixed].
    rewrite <- app_assoc. rewrite scan_mixed_ws by assumption. cbn [app scan_mixed].
    rewrite IHmtailR. rewrite <- app_assoc. cbn [app orb]. rewrite ?orb_true_r.
    destruct y as [|t y]; [destruct ns; reflexivity|]. destruct t; destruct ns; reflexivity.
Qed.

Theorem scan_decl_mixed : forall lim ts ns, mixedR ts ns -> scan_element_decl lim ts = DOk (MMixed ns).
Proof.
  intros lim ts ns H. destruct H as [w0 tl ns w Hw0 Ht Hw|w0 tl w Hw0 Ht Hw].
  - unfold scan_element_decl, scan_contentspec. rewrite skip_ws by assumption. cbn [skip_sp].
    rewrite (scan_mixed_tail tl ns Ht). cbn [app]. rewrite skip_ws_nil by assumption. reflexivity.
  - unfold scan_element_decl, scan_contentspec. rewrite skip_ws by assumption. cbn [skip_sp].
    rewrite (scan_mixed_tail tl [] Ht). cbn [app orb].
    destruct Hw; [reflexivity|]. subst. cbn [skip_sp]. rewrite skip_ws_nil by assumption. reflexivity.
Qed.
