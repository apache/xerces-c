(** C07 -- the position (Glushkov / followpos) automaton of a content model.  A position p has a continuation
    [cont c i p], the stack of expressions still to be matched after it, as Spec07's derivatives keep their summands:
    pd lists the continuations of the first positions (pd_first), pds those of the followers (pds_follow), and p is last
    iff its continuation is nullable (knullable_last).  Hence, by Proofs07a: first_K, last_K, follow_K. *)
From Coq Require Import List Bool Arith Lia.
From XV Require Import C07.Spec07 C07.Model07 C07.Proofs07a.
Import ListNotations.

Definition size (c : cm) : nat := length (leaves c).

Lemma size_leaf : forall a, size (Leaf a) = 1. Proof. reflexivity. Qed.
Lemma size_seq : forall r s, size (Seq r s) = size r + size s.
Proof. intros. unfold size. cbn [leaves]. apply app_length. Qed.
Lemma size_choice : forall r s, size (Choice r s) = size r + size s.
Proof. intros. unfold size. cbn [leaves]. apply app_length. Qed.
Lemma size_opt : forall r, size (Opt r) = size r. Proof. reflexivity. Qed.
Lemma size_star : forall r, size (Star r) = size r. Proof. reflexivity. Qed.
Lemma size_plus : forall r, size (Plus r) = size r. Proof. reflexivity. Qed.

(** label of position p when the leaves of c are numbered from i *)
Definition lab (c : cm) (i p : nat) : option name :=
  if Nat.leb i p then nth_error (leaves c) (p - i) else None.

Definition within (c : cm) (i p : nat) : Prop := i <= p < i + size c.

Lemma lab_within : forall c i p a, lab c i p = Some a -> within c i p.
Proof.
  unfold lab, within, size. intros c i p a H. destruct (Nat.leb_spec i p) as [Hl|Hl]; [|discriminate].
  assert (p - i < length (leaves c)) by (apply nth_error_Some; congruence). lia.
Qed.

(* the position after the last one (the EOC leaf, when c is numbered from 0) is none of c's *)
Lemma end_outside : forall c i, ~ within c i (i + size c).
Proof. unfold within. intros c i H. lia. Qed.

Lemma lab_leaf : forall a i p b, lab (Leaf a) i p = Some b <-> p = i /\ b = a.
Proof.
  intros a i p b. unfold lab. cbn [leaves]. destruct (Nat.leb_spec i p) as [Hl|Hl].
  - destruct (p - i) as [|k] eqn:E.
    + cbn. split; [intros H; injection H as H; split; [lia|auto]|intros [_ H]; subst; reflexivity].
    + cbn. destruct k; cbn; split; try discriminate; intros [H _]; lia.
  - split; [discriminate|]. intros [H _]. lia.
Qed.

Lemma lab_bin_l : forall r s i p, p < i + size r -> nth_error (leaves r ++ leaves s) (p - i) = nth_error (leaves r) (p - i) \/ p < i.
Proof. intros r s i p H. unfold size in H. destruct (Nat.lt_ge_cases p i); [right; assumption|left]. apply nth_error_app1. lia. Qed.

(* a position of a binary node lies in exactly one operand, and there the node is labelled as the operand
   (Seq r s and Choice r s have the same leaves: within_bin serves both, by conversion) *)
Lemma within_bin : forall r s i p, within (Seq r s) i p -> within r i p \/ within s (i + size r) p.
Proof. unfold within. intros r s i p. rewrite size_seq. lia. Qed.

Lemma within_disj : forall r s i p, within r i p -> within s (i + size r) p -> False.
Proof. unfold within. lia. Qed.

Lemma lab_seq_l : forall r s i p, within r i p -> lab (Seq r s) i p = lab r i p.
Proof.
  intros r s i p [H1 H2]. unfold lab. cbn [leaves]. rewrite (proj2 (Nat.leb_le i p) H1).
  destruct (lab_bin_l r s i p H2); [assumption|lia].
Qed.

Lemma lab_seq_r : forall r s i p, within s (i + size r) p -> lab (Seq r s) i p = lab s (i + size r) p.
Proof.
  intros r s i p [H1 H2]. unfold lab. cbn [leaves]. unfold size in *.
  rewrite (proj2 (Nat.leb_le i p)), (proj2 (Nat.leb_le _ p) H1) by lia.
  rewrite nth_error_app2 by lia. f_equal. lia.
Qed.

Lemma lab_choice_l : forall r s i p, within r i p -> lab (Choice r s) i p = lab r i p.
Proof. exact lab_seq_l. Qed.
Lemma lab_choice_r : forall r s i p, within s (i + size r) p -> lab (Choice r s) i p = lab s (i + size r) p.
Proof. exact lab_seq_r. Qed.

Fixpoint firstp (c : cm) (i : nat) : list nat :=
  match c with
  | Leaf _ => [i]
  | Seq r s => firstp r i ++ (if nullable r then firstp s (i + size r) else [])
  | Choice r s => firstp r i ++ firstp s (i + size r)
  | Opt r | Star r | Plus r => firstp r i
  end.

Fixpoint lastp (c : cm) (i : nat) : list nat :=
  match c with
  | Leaf _ => [i]
  | Seq r s => lastp s (i + size r) ++ (if nullable s then lastp r i else [])
  | Choice r s => lastp r i ++ lastp s (i + size r)
  | Opt r | Star r | Plus r => lastp r i
  end.

(* followpos as a relation: q may follow p.  Both lie in the operand (or pair of operands) the clause speaks of. *)
Fixpoint fol (c : cm) (i p q : nat) : Prop :=
  match c with
  | Leaf _ => False
  | Seq r s => fol r i p q \/ fol s (i + size r) p q \/ (In p (lastp r i) /\ In q (firstp s (i + size r)))
  | Choice r s => fol r i p q \/ fol s (i + size r) p q
  | Opt r => fol r i p q
  | Star r | Plus r => fol r i p q \/ (In p (lastp r i) /\ In q (firstp r i))
  end.

(* what remains to be matched once position p of c has been: a stack of expressions, as Spec07's derivatives keep them *)
Fixpoint cont (c : cm) (i p : nat) : stack :=
  match c with
  | Leaf _ => []
  | Seq r s => if Nat.ltb p (i + size r) then cont r i p ++ [s] else cont s (i + size r) p
  | Choice r s => if Nat.ltb p (i + size r) then cont r i p else cont s (i + size r) p
  | Opt r => cont r i p
  | Star r | Plus r => cont r i p ++ [Star r]
  end.

(* the words that may follow once position p has been matched *)
Definition K (c : cm) (i p : nat) (w : list name) : Prop := Lk (cont c i p) w.

Lemma cont_seq_l : forall r s i p, within r i p -> cont (Seq r s) i p = cont r i p ++ [s].
Proof. intros r s i p [_ H]. cbn [cont]. rewrite (proj2 (Nat.ltb_lt _ _) H). reflexivity. Qed.

Lemma cont_seq_r : forall r s i p, within s (i + size r) p -> cont (Seq r s) i p = cont s (i + size r) p.
Proof. intros r s i p [H _]. cbn [cont]. rewrite (proj2 (Nat.ltb_ge _ _) H). reflexivity. Qed.

Lemma cont_choice_l : forall r s i p, within r i p -> cont (Choice r s) i p = cont r i p.
Proof. intros r s i p [_ H]. cbn [cont]. rewrite (proj2 (Nat.ltb_lt _ _) H). reflexivity. Qed.

Lemma cont_choice_r : forall r s i p, within s (i + size r) p -> cont (Choice r s) i p = cont s (i + size r) p.
Proof. intros r s i p [H _]. cbn [cont]. rewrite (proj2 (Nat.ltb_ge _ _) H). reflexivity. Qed.

Lemma first_range : forall c i p, In p (firstp c i) -> within c i p.
Proof.
  unfold within. induction c as [a|r IHr s IHs|r IHr s IHs|r IHr|r IHr|r IHr]; intros i p H; cbn [firstp] in H.
  - destruct H as [H|[]]. subst. rewrite size_leaf. lia.
  - rewrite size_seq. apply in_app_or in H. destruct H as [H|H].
    + apply IHr in H. lia.
    + destruct (nullable r); [|destruct H]. apply IHs in H. lia.
  - rewrite size_choice. apply in_app_or in H. destruct H as [H|H]; [apply IHr in H|apply IHs in H]; lia.
  - rewrite size_opt. auto.
  - rewrite size_star. auto.
  - rewrite size_plus. auto.
Qed.

Lemma last_range : forall c i p, In p (lastp c i) -> within c i p.
Proof.
  unfold within. induction c as [a|r IHr s IHs|r IHr s IHs|r IHr|r IHr|r IHr]; intros i p H; cbn [lastp] in H.
  - destruct H as [H|[]]. subst. rewrite size_leaf. lia.
  - rewrite size_seq. apply in_app_or in H. destruct H as [H|H].
    + apply IHs in H. lia.
    + destruct (nullable s); [|destruct H]. apply IHr in H. lia.
  - rewrite size_choice. apply in_app_or in H. destruct H as [H|H]; [apply IHr in H|apply IHs in H]; lia.
  - rewrite size_opt. auto.
  - rewrite size_star. auto.
  - rewrite size_plus. auto.
Qed.

Lemma last_lt : forall c i p, In p (lastp c i) -> p < i + size c.
Proof. intros c i p H. exact (proj2 (last_range c i p H)). Qed.

Lemma fol_range : forall c i p q, fol c i p q -> within c i p /\ within c i q.
Proof.
  unfold within. induction c as [a|r IHr s IHs|r IHr s IHs|r IHr|r IHr|r IHr]; intros i p q H; cbn [fol] in H.
  - destruct H.
  - rewrite size_seq. destruct H as [H|[H|[H1 H2]]].
    + apply IHr in H. lia.
    + apply IHs in H. lia.
    + apply last_range in H1. apply first_range in H2. unfold within in *. lia.
  - rewrite size_choice. destruct H as [H|H]; [apply IHr in H|apply IHs in H]; lia.
  - exact (IHr _ _ _ H).
  - destruct H as [H|[H1 H2]]; [exact (IHr _ _ _ H)|]. exact (conj (last_range _ _ _ H1) (first_range _ _ _ H2)).
  - destruct H as [H|[H1 H2]]; [exact (IHr _ _ _ H)|]. exact (conj (last_range _ _ _ H1) (first_range _ _ _ H2)).
Qed.

Lemma pd_first : forall c i a k t,
  In t (pd a c k) <-> exists p, In p (firstp c i) /\ lab c i p = Some a /\ t = cont c i p ++ k.
Proof.
  induction c as [b|r IHr s IHs|r IHr s IHs|r IHr|r IHr|r IHr]; intros i a k t; cbn [pd firstp].
  - destruct (Nat.eqb_spec a b) as [E|E]; cbn [In]; split.
    + intros [H|[]]. exists i. split; [left; reflexivity|]. split; [apply lab_leaf; auto|auto].
    + intros (p & _ & _ & H). left. auto.
    + intros [].
    + intros (p & [Hp|[]] & Hl & _). subst p. apply lab_leaf in Hl. destruct Hl as [_ Hl]. congruence.
  - rewrite in_app_iff, (IHr i). split.
    + intros [(p & Hp & Hl & Ht)|H].
      * pose proof (first_range _ _ _ Hp) as Hr. exists p. rewrite lab_seq_l, cont_seq_l, <- app_assoc by exact Hr.
        auto with datatypes.
      * destruct (nullable r); [|destruct H]. apply (IHs (i + size r)) in H. destruct H as (p & Hp & Hl & Ht).
        pose proof (first_range _ _ _ Hp) as Hr. exists p. rewrite lab_seq_r, cont_seq_r by exact Hr. auto with datatypes.
    + intros (p & Hp & Hl & Ht). apply in_app_or in Hp. destruct Hp as [Hp|Hp].
      * pose proof (first_range _ _ _ Hp) as Hr. rewrite lab_seq_l in Hl by exact Hr.
        rewrite cont_seq_l, <- app_assoc in Ht by exact Hr. left. exists p. auto.
      * destruct (nullable r); [|destruct Hp]. pose proof (first_range _ _ _ Hp) as Hr.
        rewrite lab_seq_r in Hl by exact Hr. rewrite cont_seq_r in Ht by exact Hr.
        right. apply (IHs (i + size r)). exists p. auto.
  - rewrite in_app_iff, (IHr i), (IHs (i + size r)). split.
    + intros [(p & Hp & Hl & Ht)|(p & Hp & Hl & Ht)]; pose proof (first_range _ _ _ Hp) as Hr; exists p.
      * rewrite lab_choice_l, cont_choice_l by exact Hr. auto with datatypes.
      * rewrite lab_choice_r, cont_choice_r by exact Hr. auto with datatypes.
    + intros (p & Hp & Hl & Ht). apply in_app_or in Hp. destruct Hp as [Hp|Hp]; pose proof (first_range _ _ _ Hp) as Hr.
      * rewrite lab_choice_l in Hl by exact Hr. rewrite cont_choice_l in Ht by exact Hr. left. exists p. auto.
      * rewrite lab_choice_r in Hl by exact Hr. rewrite cont_choice_r in Ht by exact Hr. right. exists p. auto.
  - exact (IHr i a k t).
  - rewrite (IHr i). cbn [cont].
    split; intros (p & Hp & Hl & Ht); exists p; [rewrite <- app_assoc|rewrite <- app_assoc in Ht]; auto.
  - rewrite (IHr i). cbn [cont].
    split; intros (p & Hp & Hl & Ht); exists p; [rewrite <- app_assoc|rewrite <- app_assoc in Ht]; auto.
Qed.

Lemma knullable_snoc : forall k c, knullable (k ++ [c]) = knullable k && nullable c.
Proof. intros k c. unfold knullable. rewrite forallb_app. cbn [forallb]. rewrite andb_true_r. reflexivity. Qed.

Lemma knullable_last : forall c i p, within c i p -> (knullable (cont c i p) = true <-> In p (lastp c i)).
Proof.
  induction c as [b|r IHr s IHs|r IHr s IHs|r IHr|r IHr|r IHr]; intros i p Hp.
  - cbn [cont lastp In]. unfold within in Hp. rewrite size_leaf in Hp. split; [intros _; left; lia|reflexivity].
  - cbn [lastp]. rewrite in_app_iff. destruct (within_bin r s i p Hp) as [Hl|Hr].
    + rewrite cont_seq_l, knullable_snoc, andb_true_iff, (IHr _ _ Hl) by exact Hl. split.
      * intros [H Hn]. right. rewrite Hn. exact H.
      * intros [H|H]; [destruct (within_disj r s i p Hl (last_range _ _ _ H))|].
        destruct (nullable s); [auto|destruct H].
    + rewrite cont_seq_r, (IHs _ _ Hr) by exact Hr. split; [auto|]. intros [H|H]; [exact H|].
      destruct (nullable s); [|destruct H]. destruct (within_disj r s i p (last_range _ _ _ H) Hr).
  - cbn [lastp]. rewrite in_app_iff. destruct (within_bin r s i p Hp) as [Hl|Hr].
    + rewrite cont_choice_l, (IHr _ _ Hl) by exact Hl. split; [auto|]. intros [H|H]; [exact H|].
      destruct (within_disj r s i p Hl (last_range _ _ _ H)).
    + rewrite cont_choice_r, (IHs _ _ Hr) by exact Hr. split; [auto|]. intros [H|H]; [|exact H].
      destruct (within_disj r s i p (last_range _ _ _ H) Hr).
  - exact (IHr i p Hp).
  - cbn [cont lastp]. rewrite knullable_snoc, andb_true_r. exact (IHr i p Hp).
  - cbn [cont lastp]. rewrite knullable_snoc, andb_true_r. exact (IHr i p Hp).
Qed.

Lemma pds_follow_iter : forall r i p b, within r i p ->
  (forall t, In t (pds b (cont r i p)) <-> exists q, fol r i p q /\ lab r i q = Some b /\ t = cont r i q) ->
  forall t, In t (pds b (cont r i p ++ [Star r])) <->
    exists q, (fol r i p q \/ (In p (lastp r i) /\ In q (firstp r i))) /\ lab r i q = Some b /\ t = cont r i q ++ [Star r].
Proof.
  intros r i p b Hp IH t. rewrite pds_app, pds_single, in_app_iff, in_map_iff. cbn [pd]. split.
  - intros [(t' & Et & Ht')|H].
    + apply IH in Ht'. destruct Ht' as (q & Hq & Hl & E). subst. exists q. auto.
    + destruct (knullable (cont r i p)) eqn:En; [|destruct H]. apply (knullable_last r i p Hp) in En.
      apply (pd_first r i) in H. destruct H as (q & Hq & Hl & E). exists q. auto.
  - intros (q & [Hq|[Hp' Hq]] & Hl & E).
    + left. exists (cont r i q). split; [auto|]. apply IH. exists q. auto.
    + right. apply (knullable_last r i p Hp) in Hp'. rewrite Hp'. apply (pd_first r i). exists q. auto.
Qed.

Lemma pds_follow : forall c i p b t, within c i p ->
  (In t (pds b (cont c i p)) <-> exists q, fol c i p q /\ lab c i q = Some b /\ t = cont c i q).
Proof.
  induction c as [a|r IHr s IHs|r IHr s IHs|r IHr|r IHr|r IHr]; intros i p b t Hp.
  - cbn [cont pds fol]. split; [intros []|intros (q & [] & _)].
  - cbn [fol]. destruct (within_bin r s i p Hp) as [Hl|Hr].
    + (* pds_app splits the followers of p into those inside r and, when p's continuation in r is nullable, i.e. p is a last
         position of r, the first positions of s *)
      rewrite cont_seq_l, pds_app, pds_single, in_app_iff, in_map_iff by exact Hl. split.
      * intros [(t' & Et & Ht')|H].
        -- apply (IHr i p b t' Hl) in Ht'. destruct Ht' as (q & Hq & Hlq & E). subst.
           destruct (fol_range r i p q Hq) as [_ Hrq]. exists q. rewrite lab_seq_l, cont_seq_l by exact Hrq. auto.
        -- destruct (knullable (cont r i p)) eqn:En; [|destruct H]. apply (knullable_last r i p Hl) in En.
           apply (pd_first s (i + size r)) in H. destruct H as (q & Hq & Hlq & E). rewrite app_nil_r in E.
           pose proof (first_range _ _ _ Hq) as Hrq. exists q. rewrite lab_seq_r, cont_seq_r by exact Hrq. auto 6.
      * intros (q & [Hq|[Hq|[Hp' Hq]]] & Hlq & E).
        -- destruct (fol_range r i p q Hq) as [_ Hrq]. rewrite lab_seq_l in Hlq by exact Hrq.
           rewrite cont_seq_l in E by exact Hrq. left. exists (cont r i q). split; [auto|].
           apply (IHr i p b _ Hl). exists q. auto.
        -- destruct (within_disj r s i p Hl (proj1 (fol_range _ _ _ _ Hq))).
        -- pose proof (first_range _ _ _ Hq) as Hrq. rewrite lab_seq_r in Hlq by exact Hrq.
           rewrite cont_seq_r in E by exact Hrq. right. apply (knullable_last r i p Hl) in Hp'. rewrite Hp'.
           apply (pd_first s (i + size r)). exists q. rewrite app_nil_r. auto.
    + rewrite cont_seq_r, (IHs _ p b t Hr) by exact Hr. split.
      * intros (q & Hq & Hlq & E). destruct (fol_range s _ p q Hq) as [_ Hrq].
        exists q. rewrite lab_seq_r, cont_seq_r by exact Hrq. auto.
      * intros (q & [Hq|[Hq|[Hp' _]]] & Hlq & E).
        -- destruct (within_disj r s i p (proj1 (fol_range _ _ _ _ Hq)) Hr).
        -- destruct (fol_range s _ p q Hq) as [_ Hrq]. rewrite lab_seq_r in Hlq by exact Hrq.
           rewrite cont_seq_r in E by exact Hrq. exists q. auto.
        -- destruct (within_disj r s i p (last_range _ _ _ Hp') Hr).
  - cbn [fol]. destruct (within_bin r s i p Hp) as [Hl|Hr].
    + rewrite cont_choice_l, (IHr i p b t Hl) by exact Hl. split.
      * intros (q & Hq & Hlq & E). destruct (fol_range r i p q Hq) as [_ Hrq].
        exists q. rewrite lab_choice_l, cont_choice_l by exact Hrq. auto.
      * intros (q & [Hq|Hq] & Hlq & E); [|destruct (within_disj r s i p Hl (proj1 (fol_range _ _ _ _ Hq)))].
        destruct (fol_range r i p q Hq) as [_ Hrq]. rewrite lab_choice_l in Hlq by exact Hrq.
        rewrite cont_choice_l in E by exact Hrq. exists q. auto.
    + rewrite cont_choice_r, (IHs _ p b t Hr) by exact Hr. split.
      * intros (q & Hq & Hlq & E). destruct (fol_range s _ p q Hq) as [_ Hrq].
        exists q. rewrite lab_choice_r, cont_choice_r by exact Hrq. auto.
      * intros (q & [Hq|Hq] & Hlq & E); [destruct (within_disj r s i p (proj1 (fol_range _ _ _ _ Hq)) Hr)|].
        destruct (fol_range s _ p q Hq) as [_ Hrq]. rewrite lab_choice_r in Hlq by exact Hrq.
        rewrite cont_choice_r in E by exact Hrq. exists q. auto.
  - exact (IHr i p b t Hp).
  - exact (pds_follow_iter r i p b Hp (fun t' => IHr i p b t' Hp) t).
  - exact (pds_follow_iter r i p b Hp (fun t' => IHr i p b t' Hp) t).
Qed.

Lemma first_K : forall c i a w,
  L c (a :: w) <-> exists p, In p (firstp c i) /\ lab c i p = Some a /\ K c i p w.
Proof.
  intros c i a w. unfold K. rewrite <- Lk_single, pds_correct, pds_single. split.
  - intros (t & Ht & Hw). apply (pd_first c i) in Ht. destruct Ht as (p & Hp & Hl & Ht). subst t.
    rewrite app_nil_r in Hw. exists p. auto.
  - intros (p & Hp & Hl & Hw). exists (cont c i p). split; [|exact Hw].
    apply (pd_first c i). exists p. rewrite app_nil_r. auto.
Qed.

Lemma last_K : forall c i p, within c i p -> (K c i p [] <-> In p (lastp c i)).
Proof. intros c i p Hp. unfold K. rewrite <- knullable_correct. apply knullable_last. exact Hp. Qed.

Lemma follow_K : forall c i p b w, within c i p ->
  (K c i p (b :: w) <-> exists q, fol c i p q /\ lab c i q = Some b /\ K c i q w).
Proof.
  intros c i p b w Hp. unfold K. rewrite pds_correct. split.
  - intros (t & Ht & Hw). apply (pds_follow c i p b t Hp) in Ht. destruct Ht as (q & Hq & Hl & Ht). subst t. exists q. auto.
  - intros (q & Hq & Hl & Hw). exists (cont c i q). split; [|exact Hw]. apply (pds_follow c i p b _ Hp). exists q. auto.
Qed.
