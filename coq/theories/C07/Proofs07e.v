(** C07 -- DFAContentModel as modelled.  buildSyntaxTree ([build], accumulating into the follow list) computes
    nullable / firstpos / lastpos / followpos of Proofs07c (as sets); the worklist subset construction builds a
    deterministic automaton whose states are sets of positions closed under [step]; validateContent runs it;
    together with Proofs07c, when the worklist has emptied within the fuel:  dfa_validate (buildDFA fuel c) w = VOk <-> L c w. *)
From Coq Require Import List Bool Arith Lia Permutation.
From XV Require Import C07.Spec07 C07.Model07 C07.Proofs07a C07.Proofs07c.
Import ListNotations.

Lemma memp_in : forall x s, memp x s = true <-> In x s.
Proof.
  intros x. induction s as [|y s IH]; cbn [memp In]; [split; [discriminate|tauto]|].
  rewrite orb_true_iff, IH, Nat.eqb_eq. split; intros [H|H]; auto.
Qed.

Lemma punion_in : forall a b x, In x (punion a b) <-> In x a \/ In x b.
Proof.
  induction a as [|y a IHa]; intros b x.
  - cbn [punion In]. tauto.
  - induction b as [|z b IHb].
    + cbn [punion In]. tauto.
    + cbn [punion]. cbn [punion] in IHb.
      destruct (Nat.ltb_spec y z) as [H1|H1].
      * cbn [In]. rewrite IHa. cbn [In]. clear. tauto.   (* tauto is much quicker with no hypotheses in sight *)
      * destruct (Nat.ltb_spec z y) as [H2|H2].
        -- cbn [In]. rewrite IHb. cbn [In]. clear. tauto.
        -- assert (y = z) by lia. subst z. cbn [In]. rewrite IHa. clear. tauto.
Qed.

Lemma fl_add_length : forall fl i ls fs, length (fl_add fl i ls fs) = length fl.
Proof. induction fl as [|s fl IH]; intros; cbn [fl_add length]; [reflexivity|]. rewrite IH. reflexivity. Qed.

Lemma fl_add_nth : forall fl i ls fs p q,
  In q (nth p (fl_add fl i ls fs) []) <-> In q (nth p fl []) \/ (p < length fl /\ In (i + p) ls /\ In q fs).
Proof.
  induction fl as [|s fl IH]; intros i ls fs p q; cbn [fl_add length].
  - destruct p; cbn [nth In]; split; try tauto; intros [[]|[H _]]; lia.
  - destruct p as [|p]; cbn [nth].
    + rewrite Nat.add_0_r. destruct (memp i ls) eqn:E.
      * rewrite punion_in. apply memp_in in E. split; [intros [H|H]; auto|].
        -- right. split; [lia|]. auto.
        -- intros [H|(_ & _ & H)]; auto.
      * split; [auto|]. intros [H|(_ & H & _)]; [exact H|]. apply memp_in in H. congruence.
    + rewrite IH. replace (S i + p) with (i + S p) by lia. split; intros [H|(H1 & H2)]; auto; right; split; auto; lia.
Qed.

(* as the tree builder calls it: from index 0, for the last positions of a subtree *)
Lemma fl_add_last : forall fl c i ls fs p q,
  (forall x, In x ls <-> In x (lastp c i)) -> i + size c <= length fl ->
  (In q (nth p (fl_add fl 0 ls fs) []) <-> In q (nth p fl []) \/ (In p ls /\ In q fs)).
Proof.
  intros fl c i ls fs p q Hls Hlen. rewrite fl_add_nth. cbn [Nat.add]. split; [tauto|]. intros [H|[H1 H2]]; auto.
  right. split; [|auto]. apply Hls, last_lt in H1. lia.
Qed.

(* build's result for c numbered from idx: next free index, nullable / firstpos / lastpos as sets, and the given follow
   list extended by exactly the follow pairs of c *)
Definition build_ok (c : cm) (idx : nat) (fl : list pset) (res : ninfo * nat * list pset) : Prop :=
  let '(info, i', fl') := res in
  i' = idx + size c /\ n_null info = nullable c /\
  (forall p, In p (n_first info) <-> In p (firstp c idx)) /\
  (forall p, In p (n_last info) <-> In p (lastp c idx)) /\
  length fl' = length fl /\
  (forall p q, In q (nth p fl' []) <-> In q (nth p fl []) \/ fol c idx p q).

Lemma build_spec : forall c idx fl, idx + size c <= length fl -> build_ok c idx fl (build c idx fl).
Proof.
  induction c as [a|r IHr s IHs|r IHr s IHs|r IHr|r IHr|r IHr]; intros idx fl Hlen; cbn [build].
  - cbn [build_ok n_null n_first n_last nullable firstp lastp fol]. rewrite size_leaf.
    repeat split; try tauto; lia.
  - rewrite size_seq in Hlen. specialize (IHr idx fl ltac:(lia)). destruct (build r idx fl) as [[nr i1] fl1].
    destruct IHr as (Hi1 & Hn1 & Hf1 & Hl1 & Hlen1 & Hfl1). subst i1.
    specialize (IHs (idx + size r) fl1 ltac:(lia)). destruct (build s (idx + size r) fl1) as [[ns i2] fl2].
    destruct IHs as (Hi2 & Hn2 & Hf2 & Hl2 & Hlen2 & Hfl2).
    cbn [build_ok n_null n_first n_last nullable firstp lastp]. rewrite size_seq.
    split; [lia|]. split; [rewrite Hn1, Hn2; reflexivity|]. split; [|split; [|split]].
    + intros p. rewrite Hn1. destruct (nullable r).
      * rewrite punion_in, in_app_iff, Hf1, Hf2. reflexivity.
      * rewrite app_nil_r. apply Hf1.
    + intros p. rewrite Hn2. destruct (nullable s).
      * rewrite punion_in, in_app_iff, Hl1, Hl2. reflexivity.
      * rewrite app_nil_r. apply Hl2.
    + rewrite fl_add_length. lia.
    + intros p q. rewrite (fl_add_last fl2 r idx _ _ p q Hl1), Hfl2, Hfl1, Hl1, Hf2 by lia. cbn [fol]. clear. tauto.
  - rewrite size_choice in Hlen. specialize (IHr idx fl ltac:(lia)). destruct (build r idx fl) as [[nr i1] fl1].
    destruct IHr as (Hi1 & Hn1 & Hf1 & Hl1 & Hlen1 & Hfl1). subst i1.
    specialize (IHs (idx + size r) fl1 ltac:(lia)). destruct (build s (idx + size r) fl1) as [[ns i2] fl2].
    destruct IHs as (Hi2 & Hn2 & Hf2 & Hl2 & Hlen2 & Hfl2).
    cbn [build_ok n_null n_first n_last nullable firstp lastp]. rewrite size_choice.
    split; [lia|]. split; [rewrite Hn1, Hn2; reflexivity|]. split; [|split; [|split]].
    + intros p. rewrite punion_in, in_app_iff, Hf1, Hf2. reflexivity.
    + intros p. rewrite punion_in, in_app_iff, Hl1, Hl2. reflexivity.
    + lia.
    + intros p q. rewrite Hfl2, Hfl1. cbn [fol]. clear. tauto.
  - specialize (IHr idx fl Hlen). destruct (build r idx fl) as [[nr i1] fl1].
    destruct IHr as (Hi1 & Hn1 & Hf1 & Hl1 & Hlen1 & Hfl1).
    cbn [build_ok n_null n_first n_last nullable firstp lastp fol]. auto 8.
  - rewrite size_star in Hlen. specialize (IHr idx fl Hlen). destruct (build r idx fl) as [[nr i1] fl1].
    destruct IHr as (Hi1 & Hn1 & Hf1 & Hl1 & Hlen1 & Hfl1).
    cbn [build_ok n_null n_first n_last nullable firstp lastp fol].
    split; [exact Hi1|]. split; [reflexivity|]. split; [exact Hf1|]. split; [exact Hl1|].
    split; [rewrite fl_add_length; exact Hlen1|].
    intros p q. rewrite (fl_add_last fl1 r idx _ _ p q Hl1), Hfl1, Hl1, Hf1 by lia. clear. tauto.
  - rewrite size_plus in Hlen. specialize (IHr idx fl Hlen). destruct (build r idx fl) as [[nr i1] fl1].
    destruct IHr as (Hi1 & Hn1 & Hf1 & Hl1 & Hlen1 & Hfl1).
    cbn [build_ok n_null n_first n_last nullable firstp lastp fol].
    split; [exact Hi1|]. split; [exact Hn1|]. split; [exact Hf1|]. split; [exact Hl1|].
    split; [rewrite fl_add_length; exact Hlen1|].
    intros p q. rewrite (fl_add_last fl1 r idx _ _ p q Hl1), Hfl1, Hl1, Hf1 by lia. clear. tauto.
Qed.

Lemma build_top : forall c, build_ok c 0 (repeat [] (S (size c))) (build c 0 (repeat [] (S (size c)))).
Proof. intros c. apply build_spec. rewrite repeat_length. lia. Qed.

Lemma follow_of_spec : forall c p q,
  In q (nth p (follow_of c) []) <-> fol c 0 p q \/ (In p (lastp c 0) /\ q = size c).
Proof.
  intros c p q. pose proof (build_top c) as B. unfold follow_of. fold (size c).
  destruct (build c 0 (repeat [] (S (size c)))) as [[info i'] fl1]. destruct B as (Hi & Hn & Hf & Hl & Hlen & Hfl).
  rewrite (fl_add_last fl1 c 0 _ _ p q Hl), Hfl, nth_repeat, Hl by (rewrite Hlen, repeat_length; lia).
  cbn [In]. clear. intuition.
Qed.

Lemma start_of_spec : forall c p,
  In p (start_of c) <-> In p (firstp c 0) \/ (nullable c = true /\ p = size c).
Proof.
  intros c p. pose proof (build_top c) as B. unfold start_of. fold (size c).
  destruct (build c 0 (repeat [] (S (size c)))) as [[info i'] fl1]. destruct B as (Hi & Hn & Hf & Hl & Hlen & Hfl).
  rewrite Hn. destruct (nullable c).
  - rewrite punion_in, Hf. cbn [In]. split; intros [H|H]; auto.
    + destruct H as [H|[]]. auto.
    + destruct H as [_ H]. auto.
  - rewrite Hf. split; [auto|]. intros [H|[H _]]; [exact H|discriminate].
Qed.

Lemma pset_eqb_eq : forall a b, pset_eqb a b = true -> a = b.
Proof.
  induction a as [|x a IH]; destruct b as [|y b]; cbn [pset_eqb]; intros H; try discriminate; [reflexivity|].
  apply andb_true_iff in H. destruct H as [H1 H2]. apply Nat.eqb_eq in H1. apply IH in H2. subst. reflexivity.
Qed.

Lemma oname_eqb_eq : forall x y, oname_eqb x y = true <-> x = y.
Proof.
  intros [a|] [b|]; cbn [oname_eqb]; split; intros H; try discriminate; try reflexivity.
  - apply Nat.eqb_eq in H. subst. reflexivity.
  - injection H as H. subst. apply Nat.eqb_refl.
Qed.

Lemma existsb_oname : forall x l, existsb (oname_eqb x) l = true <-> In x l.
Proof. exact (existsb_eqb_in (option name) oname_eqb oname_eqb_eq). Qed.

Lemma find_state_some : forall s sts i j, find_state s sts i = Some j -> exists k, j = i + k /\ nth_error sts k = Some s.
Proof.
  intros s. induction sts as [|t sts IH]; intros i j H; cbn [find_state] in H; [discriminate|].
  destruct (pset_eqb s t) eqn:E.
  - injection H as H. subst. apply pset_eqb_eq in E. subst. exists 0. split; [lia|reflexivity].
  - apply IH in H. destruct H as (k & Hj & Hk). exists (S k). split; [lia|exact Hk].
Qed.

Lemma lookup_state_some : forall s states j, lookup_state s states = Some j -> nth_error states j = Some s.
Proof.
  intros s [|x r] j H; cbn [lookup_state] in H; [discriminate|].
  apply find_state_some in H. destruct H as (k & Hj & Hk). subst j. exact Hk.
Qed.

(* a cell of fTransTable: gInvalidTrans where the step from T is empty, else the index of the state that is this step *)
Definition cell_ok (FL : list pset) (T : pset) (states : list pset) (poss : list nat) (t : option nat) : Prop :=
  match t with
  | None => step FL T poss = []
  | Some j => nth_error states j = Some (step FL T poss)
  end.

Lemma cell_ok_mono : forall FL T states ext poss t, cell_ok FL T states poss t -> cell_ok FL T (states ++ ext) poss t.
Proof.
  intros FL T states ext poss [j|] H; cbn [cell_ok] in *; [|exact H].
  rewrite nth_error_app1; [exact H|]. apply nth_error_Some. congruence.
Qed.

Definition row_ok (FL : list pset) (T : pset) (states : list pset) (sorter : list (list nat)) (row : list (option nat)) :=
  Forall2 (cell_ok FL T states) sorter row.

Lemma row_ok_mono : forall FL T states ext sorter row,
  row_ok FL T states sorter row -> row_ok FL T (states ++ ext) sorter row.
Proof.
  unfold row_ok. intros FL T states ext sorter row H. induction H; constructor; [apply cell_ok_mono; assumption|assumption].
Qed.

Lemma do_elem_ok : forall FL T states poss st' t,
  do_elem FL T states poss = (st', t) -> exists ext, st' = states ++ ext /\ cell_ok FL T st' poss t.
Proof.
  intros FL T states poss st' t H. unfold do_elem in H. destruct (step FL T poss) as [|x ns] eqn:E.
  - injection H as H1 H2. subst. exists []. rewrite app_nil_r. split; [reflexivity|exact E].
  - destruct (lookup_state (x :: ns) states) as [i|] eqn:El.
    + injection H as H1 H2. subst. exists []. rewrite app_nil_r. split; [reflexivity|].
      cbn [cell_ok]. rewrite E. apply lookup_state_some. exact El.
    + injection H as H1 H2. subst. exists [x :: ns]. split; [reflexivity|].
      cbn [cell_ok]. rewrite E. rewrite nth_error_app2 by lia. rewrite Nat.sub_diag. reflexivity.
Qed.

Lemma do_row_ok : forall FL T sorter states st' row,
  do_row FL T states sorter = (st', row) -> exists ext, st' = states ++ ext /\ row_ok FL T st' sorter row.
Proof.
  intros FL T. induction sorter as [|poss rest IH]; intros states st' row H; cbn [do_row] in H.
  - injection H as H1 H2. subst. exists []. rewrite app_nil_r. split; [reflexivity|constructor].
  - destruct (do_elem FL T states poss) as [st1 t] eqn:E1. destruct (do_row FL T st1 rest) as [st2 row2] eqn:E2.
    injection H as H1 H2. subst. apply do_elem_ok in E1. destruct E1 as (ext1 & Hs1 & Ht).
    apply IH in E2. destruct E2 as (ext2 & Hs2 & Hr). subst.
    exists (ext1 ++ ext2). split; [rewrite app_assoc; reflexivity|].
    constructor; [apply cell_ok_mono; exact Ht|exact Hr].
Qed.

(* the worklist invariant: every marked state has its row and its final flag, rows point to states of the table *)
Definition table_ok (FL : list pset) (sorter : list (list nat)) (eoc unmarked : nat) (states : list pset)
           (trans : list (list (option nat))) (finals : list bool) : Prop :=
  length trans = unmarked /\ length finals = unmarked /\
  forall s T, s < unmarked -> nth_error states s = Some T ->
    exists row, nth_error trans s = Some row /\ row_ok FL T states sorter row /\ nth s finals false = memp eoc T.

(* [unmarked <= length states]: the worklist ends exactly when every state is marked *)
Lemma explore_ok : forall FL sorter eoc fuel unmarked states trans finals st' tr' fi',
  table_ok FL sorter eoc unmarked states trans finals -> unmarked <= length states ->
  explore fuel FL sorter eoc unmarked states trans finals = (st', tr', fi', true) ->
  exists ext, st' = states ++ ext /\ table_ok FL sorter eoc (length st') st' tr' fi'.
Proof.
  intros FL sorter eoc. induction fuel as [|f IH]; intros unmarked states trans finals st' tr' fi' Hinv Hle H;
    cbn [explore] in H; [discriminate|].
  destruct (nth_error states unmarked) as [T|] eqn:En.
  - destruct (do_row FL T states sorter) as [st1 row] eqn:Er.
    apply do_row_ok in Er. destruct Er as (ext1 & Hs1 & Hrow).
    assert (Hlt : unmarked < length states) by (apply nth_error_Some; congruence).
    destruct Hinv as (Hlt1 & Hlf & Hall).
    apply IH in H.
    + destruct H as (ext2 & Hs2 & Hinv2). exists (ext1 ++ ext2). subst. split; [rewrite app_assoc; reflexivity|exact Hinv2].
    + split; [rewrite app_length; cbn; lia|]. split; [rewrite app_length; cbn; lia|].
      intros s T' Hs HT'. destruct (Nat.eq_dec s unmarked) as [Es|Es].
      * subst s. assert (T' = T).
        { subst st1. rewrite nth_error_app1 in HT' by lia. congruence. }
        subst T'. exists row. split; [rewrite nth_error_app2 by lia; rewrite Hlt1, Nat.sub_diag; reflexivity|].
        split; [exact Hrow|]. rewrite app_nth2 by lia. rewrite Hlf, Nat.sub_diag. reflexivity.
      * assert (Hs' : s < unmarked) by lia.
        assert (HT : nth_error states s = Some T').
        { subst st1. rewrite nth_error_app1 in HT' by lia. exact HT'. }
        destruct (Hall s T' Hs' HT) as (row' & Hr1 & Hr2 & Hr3).
        exists row'. split; [rewrite nth_error_app1 by lia; exact Hr1|].
        split; [subst st1; apply row_ok_mono; exact Hr2|]. rewrite app_nth1 by lia. exact Hr3.
    + subst st1. rewrite app_length. lia.
  - injection H as H1 H2 H3. subst. exists []. rewrite app_nil_r. split; [reflexivity|].
    apply nth_error_None in En. assert (unmarked = length st') by lia. subst unmarked. exact Hinv.
Qed.

Lemma elem_map_keeps : forall ls acc x, In x acc -> In x (elem_map ls acc).
Proof.
  induction ls as [|y ls IH]; intros acc x H; cbn [elem_map]; [exact H|].
  destruct (existsb (oname_eqb y) acc); apply IH; [exact H|apply in_or_app; left; exact H].
Qed.

Lemma elem_map_in : forall ls acc x, In x ls -> In x (elem_map ls acc).
Proof.
  induction ls as [|y ls IH]; intros acc x H; [destruct H|]. cbn [elem_map]. destruct H as [H|H].
  - subst y. destruct (existsb (oname_eqb x) acc) eqn:E.
    + apply elem_map_keeps. apply existsb_oname. exact E.
    + apply elem_map_keeps. apply in_or_app. right. left. reflexivity.
  - destruct (existsb (oname_eqb y) acc); apply IH; exact H.
Qed.

Lemma elem_map_nodup : forall ls acc, NoDup acc -> NoDup (elem_map ls acc).
Proof.
  induction ls as [|y ls IH]; intros acc H; cbn [elem_map]; [exact H|].
  destruct (existsb (oname_eqb y) acc) eqn:E; apply IH; [exact H|].
  apply (Permutation_NoDup (Permutation_cons_append acc y)). constructor; [|exact H].
  intros Hin. apply existsb_oname in Hin. congruence.
Qed.

Lemma positions_of_in : forall e ls i p,
  In p (positions_of e ls i) <-> exists k, p = i + k /\ nth_error ls k = Some e.
Proof.
  intros e. induction ls as [|x ls IH]; intros i p; cbn [positions_of].
  - split; [intros []|]. intros ([|k] & _ & H); discriminate.
  - destruct (oname_eqb x e) eqn:E; cbn [In]; rewrite IH; split.
    + intros [H|(k & Hk & Hn)]; [exists 0|exists (S k)]; (split; [lia|]); [|exact Hn].
      apply oname_eqb_eq in E. subst x. reflexivity.
    + intros ([|k] & Hk & Hn); [left; lia|right; exists k; split; [lia|exact Hn]].
    + intros (k & Hk & Hn). exists (S k). split; [lia|exact Hn].
    + intros ([|k] & Hk & Hn); [|exists k; split; [lia|exact Hn]].
      injection Hn as Hn. subst x. rewrite (proj2 (oname_eqb_eq e e) eq_refl) in E. discriminate.
Qed.

Lemma leaf_names_lab : forall c p a, nth_error (leaf_names c) p = Some (Some a) <-> lab c 0 p = Some a.
Proof.
  intros c p a. unfold leaf_names, lab. cbn [Nat.leb]. rewrite Nat.sub_0_r.
  destruct (Nat.lt_ge_cases p (length (leaves c))) as [H|H].
  - rewrite nth_error_app1 by (rewrite map_length; exact H). rewrite nth_error_map.
    destruct (nth_error (leaves c) p); cbn [option_map]; split; intros E; congruence.
  - rewrite nth_error_app2 by (rewrite map_length; exact H). rewrite map_length.
    assert (N : nth_error (leaves c) p = None) by (apply nth_error_None; exact H). rewrite N.
    destruct (p - length (leaves c)) as [|k]; cbn; [split; discriminate|]. destruct k; cbn; split; discriminate.
Qed.

Lemma step_in : forall fl T poss q,
  In q (step fl T poss) <-> exists p, In p poss /\ In p T /\ In q (nth p fl []).
Proof.
  intros fl T. induction poss as [|p0 poss IH]; intros q; cbn [step].
  - split; [intros []|intros (p & [] & _)].
  - destruct (memp p0 T) eqn:E.
    + rewrite punion_in, IH. apply memp_in in E. split.
      * intros [H|(p & H1 & H2 & H3)]; [exists p0; cbn [In]; auto|exists p; cbn [In]; auto].
      * intros (p & [H1|H1] & H2 & H3); [subst; left; exact H3|right; exists p; auto].
    + rewrite IH. split.
      * intros (p & H1 & H2 & H3). exists p. cbn [In]. auto.
      * intros (p & [H1|H1] & H2 & H3); [|exists p; auto]. subst. apply memp_in in H2. congruence.
Qed.

(* the subset automaton without the table: the step on position sets, and acceptance by reaching the EOC position *)
Definition astep (c : cm) (T : pset) (a : name) : pset :=
  step (follow_of c) T (positions_of (Some a) (leaf_names c) 0).

Fixpoint accepts (c : cm) (T : pset) (w : list name) : Prop :=
  match w with
  | [] => memp (size c) T = true
  | a :: w' => accepts c (astep c T a) w'
  end.

Lemma astep_in : forall c T a q,
  In q (astep c T a) <-> exists p, In p T /\ lab c 0 p = Some a /\ In q (nth p (follow_of c) []).
Proof.
  intros c T a q. unfold astep. rewrite step_in. split.
  - intros (p & H1 & H2 & H3). apply positions_of_in in H1. destruct H1 as (k & E & H1). subst p.
    apply leaf_names_lab in H1. exists k. auto.
  - intros (p & H1 & H2 & H3). exists p. split; [|auto]. apply positions_of_in. exists p. split; [reflexivity|].
    apply leaf_names_lab. exact H2.
Qed.

(* subset state against positions: T accepts w iff it holds EOC (w empty) or a position labelled with the first letter
   whose continuation has the rest *)
Lemma accepts_char : forall c w T,
  accepts c T w <-> (w = [] /\ In (size c) T) \/
                (exists a w' p, w = a :: w' /\ In p T /\ lab c 0 p = Some a /\ K c 0 p w').
Proof.
  intros c. induction w as [|a w IH]; intros T; cbn [accepts].
  - rewrite memp_in. split; [auto|]. intros [[_ H]|(a & w' & p & H & _)]; [exact H|discriminate].
  - rewrite IH. split.
    + intros [[Hw Hin]|(b & w'' & q & Hw & Hq & Hlq & Hkq)]; right; exists a, w.
      * apply astep_in in Hin. destruct Hin as (p & Hp & Hlp & Hf). exists p. split; [reflexivity|]. split; [exact Hp|].
        split; [exact Hlp|]. subst w. apply follow_of_spec in Hf. destruct Hf as [Hf|[Hl _]].
        -- destruct (end_outside c 0 (proj2 (fol_range _ _ _ _ Hf))).
        -- apply last_K; [apply (lab_within c 0 p a Hlp)|exact Hl].
      * apply astep_in in Hq. destruct Hq as (p & Hp & Hlp & Hf). exists p. split; [reflexivity|]. split; [exact Hp|].
        split; [exact Hlp|]. subst w. apply follow_of_spec in Hf. destruct Hf as [Hf|[Hl Hq]].
        -- apply follow_K; [exact (lab_within c 0 p a Hlp)|]. exists q. auto.
        -- subst q. destruct (end_outside c 0 (lab_within _ _ _ _ Hlq)).
    + intros [[H _]|(a' & w' & p & E & Hp & Hlp & Hk)]; [discriminate|]. injection E as E1 E2. subst a' w'.
      pose proof (lab_within c 0 p a Hlp) as Hr. destruct w as [|b w''].
      * left. split; [reflexivity|]. apply astep_in. exists p. split; [exact Hp|]. split; [exact Hlp|].
        apply follow_of_spec. right. split; [|reflexivity]. apply last_K; assumption.
      * right. apply (follow_K c 0 p b w'' Hr) in Hk. destruct Hk as (q & Hq & Hlq & Hkq).
        exists b, w'', q. split; [reflexivity|]. split; [|auto]. apply astep_in. exists p. split; [exact Hp|].
        split; [exact Hlp|]. apply follow_of_spec. left. auto.
Qed.

Lemma accepts_none : forall c w, ~ accepts c [] w.
Proof.
  intros c w H. apply accepts_char in H. destruct H as [[_ []]|(a & w' & p & _ & [] & _)].
Qed.

Lemma find_trans_notin : forall a es ts, ~ In (Some a) es -> find_trans a es ts = None.
Proof.
  intros a. induction es as [|e es IH]; intros ts H; cbn [find_trans]; [reflexivity|].
  destruct ts as [|t ts]; [reflexivity|]. destruct (oname_eqb e (Some a)) eqn:E.
  - apply oname_eqb_eq in E. subst. exfalso. apply H. left. reflexivity.
  - apply IH. intros Hin. apply H. right. exact Hin.
Qed.

Lemma find_trans_spec : forall c T states a elems row,
  Forall2 (cell_ok (follow_of c) T states) (map (fun e => positions_of e (leaf_names c) 0) elems) row ->
  NoDup elems ->
  match find_trans a elems row with
  | Some j => nth_error states j = Some (astep c T a)
  | None => astep c T a = [] \/ ~ In (Some a) elems
  end.
Proof.
  intros c T states a. induction elems as [|e es IH]; intros row HF Hnd; cbn [find_trans].
  - right. intros [].
  - cbn [map] in HF. inversion HF as [|poss t sorter' row' Ht HF' E1 E2]. subst.
    inversion Hnd as [|x l Hnot Hnd']. subst.
    destruct (oname_eqb e (Some a)) eqn:E.
    + apply oname_eqb_eq in E. subst e. destruct t as [j|].
      * exact Ht.
      * rewrite (find_trans_notin a es row' Hnot). left. exact Ht.
    + specialize (IH row' HF' Hnd'). destruct (find_trans a es row') as [j|]; [exact IH|].
      destruct IH as [IH|IH]; [left; exact IH|]. right. intros [Hin|Hin]; [|exact (IH Hin)].
      subst e. assert (oname_eqb (Some a) (Some a) = true) by (apply oname_eqb_eq; reflexivity). congruence.
Qed.

Lemma astep_unknown : forall c T a, ~ In (Some a) (elem_map (leaf_names c) []) -> astep c T a = [].
Proof.
  intros c T a H. destruct (astep c T a) as [|q l] eqn:E; [reflexivity|]. exfalso.
  assert (Hq : In q (astep c T a)) by (rewrite E; left; reflexivity).
  apply astep_in in Hq. destruct Hq as (p & _ & Hl & _). apply leaf_names_lab, nth_error_In in Hl.
  apply H, elem_map_in, Hl.
Qed.

Section Run.
  Variable c : cm.
  Variable d : dfa.
  Variable states : list pset.
  Hypothesis Helems : d_elems d = elem_map (leaf_names c) [].
  Hypothesis Hinv : table_ok (follow_of c) (map (fun e => positions_of e (leaf_names c) 0) (d_elems d)) (size c)
                        (length states) states (d_trans d) (d_final d).

  Lemma run_ok : forall w s idx T, nth_error states s = Some T -> (dfa_run d s idx w = VOk <-> accepts c T w).
  Proof.
    induction w as [|a w IH]; intros s idx T HT; cbn [dfa_run accepts].
    - destruct Hinv as (_ & _ & Hall).
      assert (Hs : s < length states) by (apply nth_error_Some; congruence).
      destruct (Hall s T Hs HT) as (row & _ & _ & Hf). rewrite Hf.
      destruct (memp (size c) T); split; intros H; try reflexivity; discriminate.
    - destruct Hinv as (_ & _ & Hall).
      assert (Hs : s < length states) by (apply nth_error_Some; congruence).
      destruct (Hall s T Hs HT) as (row & Hrow & Hok & _).
      rewrite (nth_error_nth _ _ [] Hrow).
      assert (Hnd : NoDup (d_elems d)) by (rewrite Helems; apply elem_map_nodup; constructor).
      pose proof (find_trans_spec c T states a (d_elems d) row Hok Hnd) as Hft.
      destruct (find_trans a (d_elems d) row) as [j|].
      + apply IH. exact Hft.
      + split; [discriminate|]. intros Hacc. exfalso.
        assert (E : astep c T a = []).
        { destruct Hft as [E|E]; [exact E|]. apply astep_unknown. rewrite <- Helems. exact E. }
        rewrite E in Hacc. exact (accepts_none c w Hacc).
  Qed.
End Run.

Lemma buildDFA_unfold : forall fuel c, exists st tr fi co,
  explore fuel (follow_of c) (map (fun e => positions_of e (leaf_names c) 0) (elem_map (leaf_names c) []))
          (size c) 0 [start_of c] [] [] = (st, tr, fi, co) /\
  buildDFA fuel c = mkDFA (elem_map (leaf_names c) []) tr fi (nullable c) co.
Proof.
  intros fuel c. pose proof (build_top c) as B. unfold buildDFA. fold (size c).
  destruct (build c 0 (repeat [] (S (size c)))) as [[info i'] fl1]. destruct B as (_ & Hn & _).
  destruct (explore fuel (follow_of c) (map (fun e => positions_of e (leaf_names c) 0) (elem_map (leaf_names c) []))
                    (size c) 0 [start_of c] [] []) as [[[st tr] fi] co] eqn:Ex.
  exists st, tr, fi, co. split; [reflexivity|]. rewrite Hn. reflexivity.
Qed.

Theorem dfa_correct : forall fuel c w,
  d_complete (buildDFA fuel c) = true -> (dfa_validate (buildDFA fuel c) w = VOk <-> L c w).
Proof.
  intros fuel c w Hc. destruct (buildDFA_unfold fuel c) as (st & tr & fi & co & Ex & Ed).
  rewrite Ed in *. cbn [d_complete] in Hc. subst co.
  unfold dfa_validate. cbn [d_complete negb d_emptyok].
  destruct w as [|a w].
  - rewrite <- nullable_correct. destruct (nullable c); split; intros H; try reflexivity; discriminate.
  - apply explore_ok in Ex.
    + destruct Ex as (ext & Hst & Hinv).
      assert (H0 : nth_error st 0 = Some (start_of c)) by (subst st; reflexivity).
      rewrite (run_ok c (mkDFA (elem_map (leaf_names c) []) tr fi (nullable c) true) st eq_refl Hinv (a :: w) 0 0 (start_of c) H0).
      rewrite accepts_char. rewrite (first_K c 0 a w). split.
      * intros [[H _]|(a' & w' & p & E & Hp & Hl & Hk)]; [discriminate|]. injection E as E1 E2. subst a' w'.
        apply start_of_spec in Hp. destruct Hp as [Hp|[_ Hp]].
        -- exists p. auto.
        -- subst p. destruct (end_outside c 0 (lab_within _ _ _ _ Hl)).
      * intros (p & Hp & Hl & Hk). right. exists a, w, p. split; [reflexivity|]. split; [|auto].
        apply start_of_spec. left. exact Hp.
    + split; [reflexivity|]. split; [reflexivity|]. intros s T Hs. lia.
    + cbn. lia.
Qed.

Lemma dfa_run_res : forall d w s idx,
  match dfa_run d s idx w with VOk => True | VFail k => idx <= k <= idx + length w | VModelErr => False end.
Proof.
  intros d. induction w as [|a w IH]; intros s idx; cbn [dfa_run length].
  - destruct (nth s (d_final d) false); [exact I|lia].
  - destruct (find_trans a (d_elems d) (nth s (d_trans d) [])) as [j|]; [|lia].
    specialize (IH j (S idx)). destruct (dfa_run d j (S idx) w); auto. lia.
Qed.

Lemma dfa_validate_res : forall d w, match dfa_validate d w with VFail k => k <= length w | _ => True end.
Proof.
  intros d w. unfold dfa_validate. destruct (negb (d_complete d)); [exact I|]. destruct w as [|x r].
  - destruct (d_emptyok d); [exact I|]. cbn [length]. lia.
  - pose proof (dfa_run_res d (x :: r) 0 0) as R. destruct (dfa_run d 0 0 (x :: r)); auto. lia.
Qed.
